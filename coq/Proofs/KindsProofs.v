(* Proofs about Model/Kinds.v (C03). *)
From TxV Require Import Core.Base Model.Kinds.
Require Import Lia.

Lemma kind_eqb_eq a b : kind_eqb a b = true <-> a = b.
Proof. destruct a, b; simpl; split; intro H; try reflexivity; try discriminate. Qed.

Lemma kind_eqb_neq a b : kind_eqb a b = false <-> a <> b.
Proof.
  split; intro H.
  - intro E. apply kind_eqb_eq in E. congruence.
  - destruct (kind_eqb a b) eqn:E; [apply kind_eqb_eq in E; contradiction | reflexivity].
Qed.

Lemma is_match_true k : is_match k = true <-> k = KMatch.
Proof. apply kind_eqb_eq. Qed.

Lemma is_match_false k : is_match k = false <-> k <> KMatch.
Proof. apply kind_eqb_neq. Qed.

Lemma upd_same {A} (f : nat -> A) k v : upd f k v k = v.
Proof. unfold upd. rewrite Nat.eqb_refl. reflexivity. Qed.

Lemma upd_other {A} (f : nat -> A) k v x : x <> k -> upd f k v x = f x.
Proof. intro H. unfold upd. destruct (Nat.eqb x k) eqn:E; [apply Nat.eqb_eq in E; contradiction | reflexivity]. Qed.

Lemma mem_In x l : mem x l = true <-> In x l.
Proof. apply existsb_nat_In. Qed.

Lemma rule_of_overflow g x : length g <= x -> rule_of g x = default_rule.
Proof. intro H. unfold rule_of. apply nth_overflow. exact H. Qed.

Section ExprInd.
Variable P : expr -> Prop.
Hypothesis HTerm : P Term.
Hypothesis HRef : forall r, P (Ref r).
Hypothesis HSeq : forall es, Forall P es -> P (Seq es).
Hypothesis HChoice : forall es, Forall P es -> P (Choice es).
Hypothesis HOpt : forall e, P e -> P (Opt e).
Hypothesis HPlus : forall e, P e -> P (Plus e).
Fixpoint expr_ind' (e : expr) : P e :=
  match e with
  | Term => HTerm
  | Ref r => HRef r
  | Seq es => HSeq es ((fix go (l : list expr) : Forall P l :=
                          match l with [] => Forall_nil P | x :: l' => Forall_cons x (expr_ind' x) (go l') end) es)
  | Choice es => HChoice es ((fix go (l : list expr) : Forall P l :=
                          match l with [] => Forall_nil P | x :: l' => Forall_cons x (expr_ind' x) (go l') end) es)
  | Opt e' => HOpt e' (expr_ind' e')
  | Plus e' => HPlus e' (expr_ind' e')
  end.
End ExprInd.

(* list forms of the local fixpoints *)
Fixpoint hnm_list (det : nat -> st -> st) (l : list expr) (s : st) : bool * st :=
  match l with
  | [] => (false, s)
  | x :: l' => let (b, s') := hnm det x s in if b then (true, s') else hnm_list det l' s'
  end.

Lemma hnm_Seq det es s : hnm det (Seq es) s = hnm_list det es s.
Proof.
  simpl. revert s. induction es as [|a es IH]; intro s; simpl; [reflexivity|].
  destruct (hnm det a s) as [b s']. destruct b; [reflexivity | apply IH].
Qed.

Lemma hnm_Choice det es s : hnm det (Choice es) s = hnm_list det es s.
Proof.
  simpl. revert s. induction es as [|a es IH]; intro s; simpl; [reflexivity|].
  destruct (hnm det a s) as [b s']. destruct b; [reflexivity | apply IH].
Qed.

Fixpoint addr_seq (det : nat -> st -> st) (x : nat) (l : list expr) (s : st) : bool * st :=
  match l with
  | [] => (false, s)
  | y :: l' => let (b, s') := addr det x y s in if b then (true, s') else addr_seq det x l' s'
  end.

Fixpoint addr_choice (det : nat -> st -> st) (x : nat) (l : list expr) (s : st) : bool * st :=
  match l with
  | [] => (false, s)
  | y :: l' => let (b, s') := addr det x y s in let (b', s'') := addr_choice det x l' s' in (b || b', s'')
  end.

Lemma addr_Seq det x es s : addr det x (Seq es) s = addr_seq det x es s.
Proof.
  simpl. revert s. induction es as [|a es IH]; intro s; simpl; [reflexivity|].
  destruct (addr det x a s) as [b s']. destruct b; [reflexivity | apply IH].
Qed.

Lemma addr_Choice det x es s : addr det x (Choice es) s = addr_choice det x es s.
Proof.
  simpl. revert s. induction es as [|a es IH]; intro s; simpl; [reflexivity|].
  destruct (addr det x a s) as [b s']. rewrite IH. reflexivity.
Qed.

Fixpoint refs_list (l : list expr) : list nat :=
  match l with [] => [] | x :: l' => refs x ++ refs_list l' end.

Lemma refs_Seq es : refs (Seq es) = refs_list es.
Proof. simpl. induction es as [|a es IH]; simpl; [reflexivity | rewrite IH; reflexivity]. Qed.

Lemma refs_Choice es : refs (Choice es) = refs_list es.
Proof. simpl. induction es as [|a es IH]; simpl; [reflexivity | rewrite IH; reflexivity]. Qed.

(* generic: a preorder kept by det is kept by the walks *)
Section Rel.
Variable R : st -> st -> Prop.
Hypothesis Rrefl : forall s, R s s.
Hypothesis Rtrans : forall a b c, R a b -> R b c -> R a c.
Variable det : nat -> st -> st.
Hypothesis Hdet : forall y s, R s (det y s).

Lemma hnm_R : forall e s, R s (snd (hnm det e s)).
Proof.
  assert (L : forall es, Forall (fun e => forall s, R s (snd (hnm det e s))) es -> forall s, R s (snd (hnm_list det es s))).
  { induction 1 as [|a es Ha _ IHl]; intro s; simpl; [apply Rrefl|].
    specialize (Ha s). destruct (hnm det a s) as [b s']. simpl in Ha.
    destruct b; [exact Ha | eapply Rtrans; [exact Ha | apply IHl]]. }
  induction e as [|r|es IH|es IH|e IH|e IH] using expr_ind'; intro s.
  - apply Rrefl.
  - simpl. apply Hdet.
  - rewrite hnm_Seq. apply L, IH.
  - rewrite hnm_Choice. apply L, IH.
  - simpl. apply IH.
  - simpl. apply IH.
Qed.

(* the walk adds classes to x's list: the step must be allowed for the references of the walked
   expression *)
Variable x : nat.
Variable ok : nat -> Prop.
Hypothesis Hadd : forall r s, ok r -> is_match (types s r) = false -> mem r (inh s x) = false ->
                              R s (set_inh x (inh s x ++ [r]) s).

Lemma addr_R : forall e s, (forall r, In r (refs e) -> ok r) -> R s (snd (addr det x e s)).
Proof.
  induction e as [|r|es IH|es IH|e IH|e IH] using expr_ind'; intros s Hok.
  - apply Rrefl.
  - simpl. destruct (negb (is_match (types (det r s) r)) && negb (mem r (inh (det r s) x))) eqn:E.
    + simpl. apply andb_true_iff in E as [E1 E2]. apply negb_true_iff in E1, E2.
      eapply Rtrans; [apply Hdet | apply Hadd; [apply Hok; simpl; auto | exact E1 | exact E2]].
    + simpl. apply Hdet.
  - rewrite addr_Seq. rewrite refs_Seq in Hok. revert s Hok.
    induction IH as [|a es Ha _ IHl]; intros s Hok; simpl; [apply Rrefl|].
    assert (Ha' := Ha s (fun r Hr => Hok r (in_or_app _ _ _ (or_introl Hr)))).
    destruct (addr det x a s) as [b s']. simpl in Ha'.
    destruct b; [exact Ha' | eapply Rtrans; [exact Ha' | apply IHl; intros r Hr; apply Hok; simpl; apply in_or_app; auto]].
  - rewrite addr_Choice. rewrite refs_Choice in Hok. revert s Hok.
    induction IH as [|a es Ha _ IHl]; intros s Hok; simpl; [apply Rrefl|].
    assert (Ha' := Ha s (fun r Hr => Hok r (in_or_app _ _ _ (or_introl Hr)))).
    destruct (addr det x a s) as [b s']. simpl in Ha'.
    assert (Hl := IHl s' (fun r Hr => Hok r (in_or_app _ _ _ (or_intror Hr)))).
    destruct (addr_choice det x es s') as [b' s'']. simpl in Hl. simpl.
    eapply Rtrans; [exact Ha' | exact Hl].
  - simpl. apply IH. exact Hok.
  - simpl. apply IH. exact Hok.
Qed.
End Rel.

(* what the boolean of _has_nonmatch_ref means *)
Lemma hnm_true det : forall e s, fst (hnm det e s) = true ->
  exists y, In y (refs e) /\ is_match (types (snd (hnm det e s)) y) = false.
Proof.
  assert (L : forall es, Forall (fun e => forall s, fst (hnm det e s) = true ->
                 exists y, In y (refs e) /\ is_match (types (snd (hnm det e s)) y) = false) es ->
              forall s, fst (hnm_list det es s) = true ->
                 exists y, In y (refs_list es) /\ is_match (types (snd (hnm_list det es s)) y) = false).
  { induction 1 as [|a es Ha _ IHl]; intros s H; simpl in H |- *; [discriminate|].
    specialize (Ha s). destruct (hnm det a s) as [b s']. destruct b; simpl in H, Ha |- *.
    - destruct (Ha eq_refl) as [y [Hy Hm]]. exists y. split; [apply in_or_app; auto | exact Hm].
    - destruct (IHl s' H) as [y [Hy Hm]]. exists y. split; [apply in_or_app; auto | exact Hm]. }
  induction e as [|r|es IH|es IH|e IH|e IH] using expr_ind'; intros s H.
  - simpl in H. discriminate.
  - simpl in H |- *. exists r. split; [auto | apply negb_true_iff; exact H].
  - rewrite hnm_Seq in *. rewrite refs_Seq. apply L; assumption.
  - rewrite hnm_Choice in *. rewrite refs_Choice. apply L; assumption.
  - simpl in H |- *. apply IH. exact H.
  - simpl in H |- *. apply IH. exact H.
Qed.

(* how many of 0 .. n-1 satisfy p; the measures below count what a set given as a function has not marked yet *)
Definition count (n : nat) (p : nat -> bool) : nat := length (filter p (seq 0 n)).

Lemma count_bound n p : count n p <= n.
Proof. unfold count. rewrite <- (seq_length n 0) at 2. apply filter_len. Qed.

Definition unmarked (n : nat) (v : nat -> bool) : nat := count n (fun x => negb (v x)).

Lemma unmarked_mono n a b : (forall z, a z = true -> b z = true) -> unmarked n b <= unmarked n a.
Proof.
  intro M. apply filter_len_le. intros x _ H. apply negb_true_iff in H. apply negb_true_iff.
  destruct (a x) eqn:E; [rewrite (M x E) in H; discriminate | reflexivity].
Qed.

Lemma unmarked_upd n c v : c < n -> v c = false -> unmarked n (upd v c true) < unmarked n v.
Proof.
  intros Hc Hv. apply filter_len_lt with (x0 := c).
  - intros y _ H. unfold upd in H. destruct (Nat.eqb y c); [discriminate | exact H].
  - apply in_seq. lia.
  - rewrite Hv. reflexivity.
  - rewrite upd_same. reflexivity.
Qed.

Section G.
Variable g : list rule.
Let n := length g.

(* the part of _determine_rule_type after `resolved_classes.add(cls)` *)
Definition det_body (f : nat) (x : nat) (s0 : st) : st :=
  if r_attrs (rule_of g x) then
    (if kind_eqb (types s0 x) KCommon then s0 else set_type x KCommon s0)
  else
    match r_body (rule_of g x) with
    | Alias t =>
        let s1 := determine g f t s0 in
        if negb (is_match (types s1 t)) && negb (kind_eqb (types s1 x) KAbstract)
        then let s2 := set_type x KAbstract s1 in
             if mem t (inh s2 x) then s2 else set_inh x (inh s2 x ++ [t]) s2
        else s1
    | Body e =>
        let (abstract, s1) := hnm (determine g f) e s0 in
        if abstract && negb (kind_eqb (types s1 x) KAbstract)
        then snd (addr (determine g f) x e (set_type x KAbstract s1))
        else s1
    end.

Lemma determine_S f x s : determine g (S f) x s =
  if resolved s x then s else det_body f x (mark x s).
Proof. reflexivity. Qed.

Lemma det_body_overflow f x s0 : n <= x -> det_body f x s0 = s0.
Proof. intro H. unfold det_body. rewrite (rule_of_overflow g x H). reflexivity. Qed.

(* A preorder kept by the nested calls and by the writes of _determine_rule_type is kept by its body.  The writes: the
   kind common of a rule with assignments; the kind abstract once a non-match reference has been read; then the
   classes the walk adds, each in a state s reached from the state o in which the kind was set.  E x is what the
   caller knows of the rule x being resolved. *)
Section DetRel.
Variable R : st -> st -> Prop.
Hypothesis Rrefl : forall s, R s s.
Hypothesis Rtrans : forall a b c, R a b -> R b c -> R a c.
Variable E : nat -> Prop.
Hypothesis Rcommon : forall x s, E x -> r_attrs (rule_of g x) = true -> x < n -> types s x <> KCommon ->
  R s (set_type x KCommon s).
Hypothesis Rabstract : forall x s, E x -> r_attrs (rule_of g x) = false -> x < n -> types s x <> KAbstract ->
  (exists y, In y (rule_refs g x) /\ is_match (types s y) = false) -> R s (set_type x KAbstract s).
Hypothesis Radd : forall x r o s, E x -> types o x = KAbstract -> R o s ->
  In r (rule_refs g x) -> is_match (types s r) = false -> R o (set_inh x (inh s x ++ [r]) s).

Lemma det_body_R f (IH : forall y a, R a (determine g f y a)) x s0 : E x -> R s0 (det_body f x s0).
Proof.
  intro Ex. destruct (Nat.lt_ge_cases x n) as [Hlt|Hge]; [|rewrite (det_body_overflow f x s0 Hge); apply Rrefl].
  unfold det_body. destruct (r_attrs (rule_of g x)) eqn:Hat.
  - destruct (kind_eqb (types s0 x) KCommon) eqn:C; [apply Rrefl|].
    apply Rcommon; [exact Ex | exact Hat | exact Hlt | apply kind_eqb_neq; exact C].
  - assert (Habs : forall s1, kind_eqb (types s1 x) KAbstract = false ->
                     (exists y, In y (rule_refs g x) /\ is_match (types s1 y) = false) -> R s1 (set_type x KAbstract s1)).
    { intros s1 C Hy. apply Rabstract; [exact Ex | exact Hat | exact Hlt | apply kind_eqb_neq; exact C | exact Hy]. }
    destruct (r_body (rule_of g x)) as [t|e] eqn:Hb.
    + eapply Rtrans; [apply (IH t s0)|]. generalize (determine g f t s0) as s1. intro s1.
      destruct (negb (is_match (types s1 t)) && negb (kind_eqb (types s1 x) KAbstract)) eqn:C; [|apply Rrefl].
      apply andb_true_iff in C as [C1 C2]. apply negb_true_iff in C1, C2.
      assert (Hr : In t (rule_refs g x)) by (unfold rule_refs; rewrite Hb; simpl; auto).
      eapply Rtrans; [apply (Habs s1 C2); exists t; auto|].
      destruct (mem t (inh (set_type x KAbstract s1) x)); [apply Rrefl|].
      apply Radd; [exact Ex | simpl; apply upd_same | apply Rrefl | exact Hr|].
      simpl. unfold upd. destruct (Nat.eqb t x); [reflexivity | exact C1].
    + assert (H1 := hnm_R R Rrefl Rtrans (determine g f) IH e s0).
      assert (H2 := hnm_true (determine g f) e s0).
      destruct (hnm (determine g f) e s0) as [b s1]. simpl in H1, H2.
      eapply Rtrans; [exact H1|].
      destruct (b && negb (kind_eqb (types s1 x) KAbstract)) eqn:C; [|apply Rrefl].
      apply andb_true_iff in C as [C1 C2]. subst b. apply negb_true_iff in C2.
      assert (Hrr : forall r, In r (refs e) -> In r (rule_refs g x)) by (unfold rule_refs; rewrite Hb; simpl; auto).
      destruct (H2 eq_refl) as [w [Hw Hwm]].
      eapply Rtrans; [apply (Habs s1 C2); exists w; auto|].
      (* through the walk: the state is reached from the one where x became abstract *)
      set (o := set_type x KAbstract s1).
      apply (addr_R (fun a b => R o a -> R o b) (fun a H => H) (fun a b c F G H => G (F H)) (determine g f)
               (fun y a H => Rtrans _ _ _ H (IH y a)) x (fun r => In r (rule_refs g x))
               (fun r a Hok Hm _ H => Radd x r o a Ex (upd_same _ _ _) H Hok Hm) e o Hrr (Rrefl o)).
Qed.

End DetRel.

Definition Inv (s : st) : Prop := forall x,
  (types s x = KCommon -> r_attrs (rule_of g x) = true) /\
  (types s x = KAbstract -> r_attrs (rule_of g x) = false) /\
  (is_match (types s x) = false -> nonmatch g x).

Definition Inv2 (s : st) : Prop := forall z y, In y (inh s z) ->
  types s z = KAbstract /\ In y (rule_refs g z) /\ is_match (types s y) = false.

Definition Mono (s s' : st) : Prop :=
  (forall x, resolved s x = true -> resolved s' x = true) /\
  (changed s = true -> changed s' = true) /\
  (forall x, is_match (types s x) = false -> is_match (types s' x) = false).

Definition Big (s s' : st) : Prop :=
  Mono s s' /\
  (Inv s -> Inv s' /\
     (forall x, types s x = KAbstract -> types s' x = KAbstract) /\
     (changed s' = true -> changed s = true \/
        exists x, x < n /\ is_match (types s x) = true /\ is_match (types s' x) = false) /\
     (Inv2 s -> Inv2 s')).

Lemma Mono_set_type x k s : k <> KMatch -> Mono s (set_type x k s).
Proof.
  intro Hk. split; [auto|]. split; [intro C; simpl; rewrite C; apply orb_true_r|].
  intros y H. simpl. unfold upd. destruct (Nat.eqb y x); [destruct k; [contradiction|reflexivity|reflexivity] | exact H].
Qed.

Lemma Big_refl s : Big s s.
Proof.
  split; [split; [auto | split; auto]|].
  intro H. split; [exact H|]. split; [auto|]. split; [intro C; left; exact C | auto].
Qed.

Lemma Big_trans a b c : Big a b -> Big b c -> Big a c.
Proof.
  intros [[M1 [M2 M3]] B1] [[N1 [N2 N3]] B2]. split; [repeat split; auto|].
  intro Ha. destruct (B1 Ha) as [Hb [A1 [S1 I1]]]. destruct (B2 Hb) as [Hc [A2 [S2 I2]]].
  split; [exact Hc|]. split; [auto|]. split; [|auto].
  intro Hch. destruct (S2 Hch) as [Hb'|[x [Hx [Hm Hn]]]].
  - destruct (S1 Hb') as [Ha'|[x [Hx [Hm Hn]]]]; [left; exact Ha'|].
    right. exists x. repeat split; auto.
  - right. exists x. repeat split; auto.
    destruct (is_match (types a x)) eqn:E; [reflexivity|]. rewrite (M3 x E) in Hm. discriminate.
Qed.

Lemma Big_mark x s : Big s (mark x s).
Proof.
  split.
  - split; [|split; auto]. intros y H. simpl. unfold upd. destruct (Nat.eqb y x); auto.
  - intro H. split; [exact H|]. split; [auto|]. split; [intro C; left; exact C | auto].
Qed.

Lemma Big_oof s : Big s (set_oof s).
Proof.
  split; [split; [auto | split; auto]|].
  intro H. split; [exact H|]. split; [auto|]. split; [intro C; left; exact C | auto].
Qed.

Lemma Big_set_common x s :
  r_attrs (rule_of g x) = true -> x < n -> types s x <> KCommon -> Big s (set_type x KCommon s).
Proof.
  intros Hat Hlt Hne. split.
  - apply Mono_set_type. discriminate.
  - intro HI. assert (Hm : is_match (types s x) = true).
    { destruct (types s x) eqn:E; [reflexivity | | congruence].
      destruct (HI x) as [_ [H2 _]]. rewrite (H2 E) in Hat. discriminate. }
    split; [|split; [|split]].
    + intro y. simpl. unfold upd. destruct (Nat.eqb y x) eqn:E.
      * apply Nat.eqb_eq in E. subst y. repeat split; intros; try discriminate; auto. apply nm_attrs; exact Hat.
      * apply HI.
    + intros y Hy. simpl. unfold upd. destruct (Nat.eqb y x) eqn:E; [|exact Hy].
      apply Nat.eqb_eq in E. subst y. rewrite Hy in Hm. discriminate.
    + intros _. right. exists x. split; [exact Hlt|]. split; [exact Hm|].
      simpl. rewrite upd_same. reflexivity.
    + intros H2 z y Hy. simpl in Hy. destruct (H2 z y Hy) as [Hz [Hr Hn]]. split; [|split; [exact Hr|]].
      * simpl. unfold upd. destruct (Nat.eqb z x) eqn:E; [|exact Hz].
        apply Nat.eqb_eq in E. subst z. rewrite Hz in Hm. discriminate.
      * simpl. unfold upd. destruct (Nat.eqb y x); [reflexivity | exact Hn].
Qed.

Lemma Big_set_abstract x s :
  r_attrs (rule_of g x) = false -> x < n -> types s x <> KAbstract ->
  (exists y, In y (rule_refs g x) /\ is_match (types s y) = false) ->
  Big s (set_type x KAbstract s).
Proof.
  intros Hat Hlt Hne [w [Hw Hwm]]. split.
  - apply Mono_set_type. discriminate.
  - intro HI. assert (Hm : is_match (types s x) = true).
    { destruct (types s x) eqn:E; [reflexivity | congruence |].
      destruct (HI x) as [H1 _]. rewrite (H1 E) in Hat. discriminate. }
    split; [|split; [|split]].
    + intro y. simpl. unfold upd. destruct (Nat.eqb y x) eqn:E.
      * apply Nat.eqb_eq in E. subst y. repeat split; intros; try discriminate; auto.
        apply (nm_ref g x w Hw). apply HI. exact Hwm.
      * apply HI.
    + intros y Hy. simpl. unfold upd. destruct (Nat.eqb y x); [reflexivity | exact Hy].
    + intros _. right. exists x. split; [exact Hlt|]. split; [exact Hm|]. simpl. rewrite upd_same. reflexivity.
    + intros H2 z y Hy. simpl in Hy. destruct (H2 z y Hy) as [Hz [Hr Hn]]. split; [|split; [exact Hr|]].
      * simpl. unfold upd. destruct (Nat.eqb z x); [reflexivity | exact Hz].
      * simpl. unfold upd. destruct (Nat.eqb y x); [reflexivity | exact Hn].
Qed.

Lemma Big_set_inh x r s :
  types s x = KAbstract -> In r (rule_refs g x) -> is_match (types s r) = false ->
  Big s (set_inh x (inh s x ++ [r]) s).
Proof.
  intros Hx Hr Hm. split; [split; [auto | split; auto]|].
  intro HI. split; [exact HI|]. split; [auto|]. split; [intro C; left; exact C|].
  intros H2 z y Hy. simpl in Hy. unfold upd in Hy. destruct (Nat.eqb z x) eqn:E.
  - apply Nat.eqb_eq in E. subst z. apply in_app_or in Hy as [Hy|[Hy|[]]].
    + apply (H2 x y Hy).
    + subst y. simpl. auto.
  - apply (H2 z y Hy).
Qed.

Lemma Big_add x r o s : types o x = KAbstract -> Big o s -> In r (rule_refs g x) -> is_match (types s r) = false ->
  Big o (set_inh x (inh s x ++ [r]) s).
Proof.
  intros Hx [M B] Hr Hm. split; [exact M|].
  intro HI. destruct (B HI) as [HIs [A _]].
  exact (proj2 (Big_trans o s _ (conj M B) (Big_set_inh x r s (A x Hx) Hr Hm)) HI).
Qed.

Lemma det_body_Big f (IH : forall y a, Big a (determine g f y a)) x s0 : Big s0 (det_body f x s0).
Proof.
  exact (det_body_R Big Big_refl Big_trans (fun _ => True) (fun x s _ => Big_set_common x s)
           (fun x s _ => Big_set_abstract x s) (fun x r o s _ => Big_add x r o s) f IH x s0 I).
Qed.

Lemma determine_Big : forall f x s, Big s (determine g f x s).
Proof.
  induction f as [|f IH]; intros x s; [apply Big_oof|].
  rewrite determine_S. destruct (resolved s x); [apply Big_refl|].
  eapply Big_trans; [apply (Big_mark x s) | apply det_body_Big; exact IH].
Qed.

Lemma determine_marks f x s : resolved (determine g (S f) x s) x = true.
Proof.
  rewrite determine_S. destruct (resolved s x) eqn:E; [exact E|].
  apply (proj1 (proj1 (det_body_Big f (determine_Big f) x (mark x s)))). simpl. apply upd_same.
Qed.

Lemma addr_Mono det (Hd : forall y a, Mono a (det y a)) x e s : Mono s (snd (addr det x e s)).
Proof.
  apply (addr_R Mono) with (ok := fun _ => True).
  - intro a. apply (proj1 (Big_refl a)).
  - intros a b c [A1 [A2 A3]] [B1 [B2 B3]]. split; [auto | split; auto].
  - exact Hd.
  - intros r a _ _ _. split; [auto | split; auto].
  - intros; exact I.
Qed.

Definition unres (s : st) : nat := unmarked n (resolved s).

Lemma unres_mono a b : Mono a b -> unres b <= unres a.
Proof. intros [M _]. apply unmarked_mono. exact M. Qed.

Lemma unres_mark x s : x < n -> resolved s x = false -> unres (mark x s) < unres s.
Proof. apply unmarked_upd. Qed.

Definition NoOof (c : nat) (a b : st) : Prop := Mono a b /\ (unres a <= c -> oof b = oof a).

Lemma NoOof_refl c a : NoOof c a a.
Proof. split; [apply (proj1 (Big_refl a)) | auto]. Qed.

Lemma NoOof_trans c x y z : NoOof c x y -> NoOof c y z -> NoOof c x z.
Proof.
  intros [M1 O1] [M2 O2]. split.
  - destruct M1 as [A1 [A2 A3]], M2 as [B1 [B2 B3]]. split; [auto | split; auto].
  - intro H. rewrite O2; [apply O1; exact H|]. assert (L := unres_mono x y M1). lia.
Qed.

Lemma determine_nooof : forall f x s, unres s < f -> oof (determine g f x s) = oof s.
Proof.
  induction f as [|f IH]; intros x s Hu; [lia|].
  rewrite determine_S. destruct (resolved s x) eqn:Hres; [reflexivity|].
  destruct (Nat.lt_ge_cases x n) as [Hlt|Hge].
  2:{ rewrite (det_body_overflow f x _ Hge). reflexivity. }
  assert (Hm := unres_mark x s Hlt Hres).
  change (oof s) with (oof (mark x s)).
  generalize dependent (mark x s). intros s0 Hs0.
  assert (Hc : unres s0 < f) by lia.
  assert (Hdet : forall y a, NoOof (unres s0) a (determine g f y a)).
  { intros y a. split; [apply (proj1 (determine_Big f y a)) | intro H; apply IH; lia]. }
  (* no write touches the flag or the resolved set; a class is added to a state that is the previous one for both *)
  assert (Hset : forall y a, NoOof (unres s0) a (set_type y KCommon a) /\ NoOof (unres s0) a (set_type y KAbstract a)).
  { intros y a. split; (split; [apply Mono_set_type; discriminate | reflexivity]). }
  apply (det_body_R (NoOof (unres s0)) (NoOof_refl _) (NoOof_trans _) (fun _ => True)
           (fun y a _ _ _ _ => proj1 (Hset y a)) (fun y a _ _ _ _ _ => proj2 (Hset y a)) (fun y r o a _ _ H _ _ => H) f Hdet x s0 I).
  apply le_n.
Qed.

Definition closed (T : nat -> kind) (x : nat) : Prop :=
  (r_attrs (rule_of g x) = true -> T x = KCommon) /\
  (r_attrs (rule_of g x) = false -> (exists y, In y (rule_refs g x) /\ is_match (T y) = false) -> T x = KAbstract).

Lemma closed_ext T T' x : (forall y, T y = T' y) -> closed T x -> closed T' x.
Proof.
  intros E [C1 C2]. split.
  - intro H. rewrite <- E. auto.
  - intros H [y [Hy Hm]]. rewrite <- E. apply C2; [exact H|]. exists y. rewrite E. auto.
Qed.

Definition Q (s s' : st) : Prop :=
  changed s' = false ->
  changed s = false /\ (forall x, types s' x = types s x) /\
  (forall x, resolved s' x = true -> resolved s x = true \/ closed (types s') x).

Lemma Q_refl s : Q s s.
Proof. intro H. repeat split; auto. Qed.

Lemma Q_trans a b c : Q a b -> Q b c -> Q a c.
Proof.
  intros H1 H2 Hc. destruct (H2 Hc) as [Hb [T2 R2]]. destruct (H1 Hb) as [Ha [T1 R1]].
  split; [exact Ha|]. split; [intro x; rewrite T2; apply T1|].
  intros x Hx. destruct (R2 x Hx) as [Hr|Hcl]; [|right; exact Hcl].
  destruct (R1 x Hr) as [Hr'|Hcl]; [left; exact Hr'|]. right.
  apply (closed_ext (types b)); [intro y; symmetry; apply T2 | exact Hcl].
Qed.

Lemma Q_of_changed s s' : changed s' = true -> Q s s'.
Proof. intros H H'. congruence. Qed.

Lemma hnm_false det (Hd : forall y s, Q s (det y s)) : forall e s,
  changed (snd (hnm det e s)) = false -> fst (hnm det e s) = false ->
  forall y, In y (refs e) -> is_match (types (snd (hnm det e s)) y) = true.
Proof.
  assert (L : forall es, Forall (fun e => forall s, changed (snd (hnm det e s)) = false -> fst (hnm det e s) = false ->
                 forall y, In y (refs e) -> is_match (types (snd (hnm det e s)) y) = true) es ->
              forall s, changed (snd (hnm_list det es s)) = false -> fst (hnm_list det es s) = false ->
                 forall y, In y (refs_list es) -> is_match (types (snd (hnm_list det es s)) y) = true).
  { induction 1 as [|a es Ha _ IHl]; intros s Hc Hb y Hy; simpl in Hc, Hb, Hy |- *; [destruct Hy|].
    (* the rest of the list ended without change: it left the kinds read for a as they were *)
    assert (HQ : forall s0, Q s0 (snd (hnm_list det es s0))).
    { intro s0. rewrite <- hnm_Seq. apply (hnm_R Q Q_refl Q_trans det Hd). }
    specialize (Ha s). destruct (hnm det a s) as [b s']. destruct b; simpl in Hc, Hb, Ha |- *; [discriminate|].
    destruct (HQ s' Hc) as [Hc' [HT _]].
    apply in_app_or in Hy as [Hy|Hy]; [rewrite HT; apply Ha; auto | apply IHl; auto]. }
  induction e as [|r|es IH|es IH|e IH|e IH] using expr_ind'; intros s Hc Hb y Hy.
  - destruct Hy.
  - simpl in Hb, Hy |- *. destruct Hy as [<-|[]]. apply negb_false_iff. exact Hb.
  - rewrite hnm_Seq in *. rewrite refs_Seq in Hy. apply L; assumption.
  - rewrite hnm_Choice in *. rewrite refs_Choice in Hy. apply L; assumption.
  - simpl in Hc, Hb, Hy |- *. apply IH; auto.
  - simpl in Hc, Hb, Hy |- *. apply IH; auto.
Qed.

Lemma Q_mark_then x s s' :
  Q (mark x s) s' -> (changed s' = false -> closed (types s') x) -> Q s s'.
Proof.
  intros H Hcl Hc. destruct (H Hc) as [H0 [HT HR]]. split; [exact H0|]. split; [exact HT|].
  intros y Hy. destruct (HR y Hy) as [Hr|Hr]; [|right; exact Hr].
  simpl in Hr. unfold upd in Hr. destruct (Nat.eqb y x) eqn:E; [|left; exact Hr].
  apply Nat.eqb_eq in E. subst y. right. apply Hcl. exact Hc.
Qed.

Lemma determine_Q : forall f x s, Q s (determine g f x s).
Proof.
  induction f as [|f IH]; intros x s; [intro H; repeat split; auto|].
  rewrite determine_S. destruct (resolved s x) eqn:Hres; [apply Q_refl|].
  apply (Q_mark_then x).
  - (* every write but the added classes sets the flag, and those leave flag, kinds and resolved set alone *)
    apply (det_body_R Q Q_refl Q_trans (fun _ => True) (fun y a _ _ _ _ => Q_of_changed a (set_type y KCommon a) eq_refl)
             (fun y a _ _ _ _ _ => Q_of_changed a (set_type y KAbstract a) eq_refl) (fun y r o a _ _ H _ _ => H) f IH x (mark x s) I).
  - (* x itself is closed when nothing changed *)
    generalize (mark x s) as s0. intro s0. unfold det_body.
    destruct (r_attrs (rule_of g x)) eqn:Hat.
    + destruct (kind_eqb (types s0 x) KCommon) eqn:E.
      * intros _. split; [intros _; apply kind_eqb_eq; exact E | intro C; rewrite Hat in C; discriminate].
      * simpl. discriminate.
    + destruct (r_body (rule_of g x)) as [t|e] eqn:Hb.
      * cbv zeta. destruct (negb (is_match (types (determine g f t s0) t)) && negb (kind_eqb (types (determine g f t s0) x) KAbstract)) eqn:C.
        -- destruct (mem t (inh (set_type x KAbstract (determine g f t s0)) x)); simpl; discriminate.
        -- intros _. split; [intro C'; rewrite Hat in C'; discriminate|]. intros _ [y [Hy Hm]].
           unfold rule_refs in Hy. rewrite Hb in Hy. destruct Hy as [<-|[]].
           rewrite Hm in C. simpl in C. apply negb_false_iff in C. apply kind_eqb_eq. exact C.
      * assert (H1 := hnm_false (determine g f) IH e s0).
        destruct (hnm (determine g f) e s0) as [b s1]. simpl in H1.
        destruct (b && negb (kind_eqb (types s1 x) KAbstract)) eqn:C.
        -- intro Hc. exfalso.
           assert (HM := proj1 (proj2 (addr_Mono (determine g f) (fun y a => proj1 (determine_Big f y a)) x e (set_type x KAbstract s1))) eq_refl).
           congruence.
        -- intro Hc. split; [intro C'; rewrite Hat in C'; discriminate|]. intros _ [y [Hy Hm]].
           unfold rule_refs in Hy. rewrite Hb in Hy. simpl in Hy.
           destruct b.
           ++ simpl in C. apply negb_false_iff in C. apply kind_eqb_eq. exact C.
           ++ rewrite (H1 Hc eq_refl y Hy) in Hm. discriminate.
Qed.

Definition step (s : st) (x : nat) : st := determine g (S n) x s.

Lemma run_pass_eq s : run_pass g s = fold_left step (seq 0 n) (reset s).
Proof. reflexivity. Qed.

Lemma fold_rel (R : st -> st -> Prop) (Rrefl : forall s, R s s) (Rtrans : forall a b c, R a b -> R b c -> R a c)
      (H : forall s x, R s (step s x)) : forall l s, R s (fold_left step l s).
Proof.
  induction l as [|a l IH]; intro s; simpl; [apply Rrefl | eapply Rtrans; [apply H | apply IH]].
Qed.

Lemma fold_Big l s : Big s (fold_left step l s).
Proof. apply (fold_rel Big Big_refl Big_trans). intros a x. apply determine_Big. Qed.

Lemma fold_nooof l s : oof (fold_left step l s) = oof s.
Proof.
  revert s. induction l as [|a l IH]; intro s; simpl; [reflexivity|].
  rewrite IH. apply determine_nooof. apply Nat.lt_succ_r, count_bound.
Qed.

Lemma fold_resolved l s x : In x l -> resolved (fold_left step l s) x = true.
Proof.
  revert s. induction l as [|a l IH]; intros s H; simpl; [destruct H|].
  destruct H as [->|H]; [|apply IH; exact H].
  apply (proj1 (proj1 (fold_Big l (step s x)))). apply determine_marks.
Qed.

Definition mcount (s : st) : nat := count n (fun x => is_match (types s x)).

Lemma Inv_reset s : Inv s -> Inv (reset s).
Proof. intros H x. apply (H x). Qed.

Lemma Inv2_reset s : Inv2 s -> Inv2 (reset s).
Proof. intros H z y. apply (H z y). Qed.

Lemma pass_decreases s : Inv s -> changed (run_pass g s) = true -> mcount (run_pass g s) < mcount s.
Proof.
  intros HI Hc. rewrite run_pass_eq in *.
  destruct (fold_Big (seq 0 n) (reset s)) as [[_ [_ M3]] B]. destruct (B (Inv_reset s HI)) as [_ [_ [S1 _]]].
  destruct (S1 Hc) as [C|[x [Hx [Hm Hn]]]]; [simpl in C; discriminate|].
  apply filter_len_lt with (x0 := x).
  - intros y _ Hy. destruct (is_match (types s y)) eqn:E; [reflexivity|]. simpl in M3. rewrite (M3 y E) in Hy. discriminate.
  - apply in_seq. lia.
  - exact Hm.
  - exact Hn.
Qed.

Lemma loop_terminates : forall k s, Inv s -> Inv2 s -> oof s = false -> mcount s < k ->
  exists s0, Inv s0 /\ Inv2 s0 /\ oof s0 = false /\
             loop g k s = Some (run_pass g s0) /\ changed (run_pass g s0) = false.
Proof.
  induction k as [|k IH]; intros s HI H2 Ho Hm; [lia|].
  simpl. assert (Ho' : oof (run_pass g s) = false) by (rewrite run_pass_eq, fold_nooof; exact Ho).
  rewrite Ho'. destruct (changed (run_pass g s)) eqn:Hc.
  - assert (D := pass_decreases s HI Hc).
    destruct (fold_Big (seq 0 n) (reset s)) as [_ B]. destruct (B (Inv_reset s HI)) as [HI' [_ [_ H2']]].
    apply IH; [exact HI' | apply H2'; apply Inv2_reset; exact H2 | exact Ho' | lia].
  - exists s. auto.
Qed.

Lemma Inv_init : Inv (init).
Proof. intro x. simpl. repeat split; intro H; discriminate. Qed.

Lemma Inv2_init : Inv2 (init).
Proof. intros z y H. destruct H. Qed.

Lemma closed_all s0 : Inv s0 -> oof s0 = false -> changed (run_pass g s0) = false ->
  forall x, closed (types (run_pass g s0)) x.
Proof.
  intros HI Ho Hc x. destruct (Nat.lt_ge_cases x n) as [Hlt|Hge].
  - rewrite run_pass_eq in *. destruct (fold_rel Q Q_refl Q_trans (fun a x => determine_Q (S n) x a) (seq 0 n) (reset s0) Hc) as [_ [_ HR]].
    destruct (HR x (fold_resolved (seq 0 n) (reset s0) x (proj2 (in_seq n 0 x) (conj (Nat.le_0_l x) Hlt)))) as [C|C];
      [simpl in C; discriminate | exact C].
  - split; unfold rule_refs; rewrite (rule_of_overflow g x Hge); simpl; [discriminate|].
    intros _ [y [[] _]].
Qed.

Lemma closed_complete T : (forall x, closed T x) -> forall x, nonmatch g x -> is_match (T x) = false.
Proof.
  intros HC x H. induction H as [x Hat | x y Hy Hn IH].
  - rewrite (proj1 (HC x) Hat). reflexivity.
  - destruct (r_attrs (rule_of g x)) eqn:Hat.
    + rewrite (proj1 (HC x) Hat). reflexivity.
    + rewrite (proj2 (HC x) Hat); [reflexivity|]. exists y. auto.
Qed.

Theorem kinds_correct : exists s, determine_types g = Some s /\ (forall x, kind_spec g x (types s x)) /\ Inv2 s.
Proof.
  assert (Hm : mcount init < S n) by apply Nat.lt_succ_r, count_bound.
  destruct (loop_terminates (S n) init Inv_init Inv2_init eq_refl Hm) as [s0 [HI [H2 [Ho [HL Hc]]]]].
  exists (run_pass g s0). split; [exact HL|].
  assert (HC := closed_all s0 HI Ho Hc).
  rewrite run_pass_eq in *.
  destruct (fold_Big (seq 0 n) (reset s0)) as [_ B]. destruct (B (Inv_reset s0 HI)) as [HI' [_ [_ H2']]].
  split; [|apply H2'; apply Inv2_reset; exact H2].
  intro x. destruct (HI' x) as [I1 [I2 I3]].
  destruct (types (fold_left step (seq 0 n) (reset s0)) x) eqn:E; simpl.
  - intro Hn. assert (F := closed_complete _ HC x Hn). rewrite E in F. discriminate.
  - split; [apply I2; reflexivity|].
    assert (Hn : nonmatch g x) by (apply I3; reflexivity).
    inversion Hn as [x' Hat|x' y Hy Hny]; subst.
    + rewrite (I2 eq_refl) in Hat. discriminate.
    + exists y. auto.
  - apply I1. reflexivity.
Qed.

End G.

(* textx_isinstance: the visited-set search *)
Section Dfs.
Variable inhf : nat -> list nat.
Variable n : nat.
Hypothesis Hrange : forall x y, In y (inhf x) -> y < n.

Fixpoint dfs_list (f : nat) (k : nat) (l : list nat) (vis : nat -> bool) : option (bool * (nat -> bool)) :=
  match l with
  | [] => Some (false, vis)
  | c :: l' => if vis c then dfs_list f k l' vis else
               match dfs inhf f k c vis with
               | None => None
               | Some (true, v) => Some (true, v)
               | Some (false, v) => dfs_list f k l' v
               end
  end.

Lemma dfs_S f k r vis : dfs inhf (S f) k r vis =
  if Nat.eqb k r then Some (true, vis) else dfs_list f k (inhf r) (upd vis r true).
Proof.
  simpl. destruct (Nat.eqb k r); [reflexivity|].
  generalize (upd vis r true). induction (inhf r) as [|a l IH]; intro v; simpl; [reflexivity|].
  destruct (v a); [apply IH|]. destruct (dfs inhf f k a v) as [[[|] v']|]; [reflexivity | apply IH | reflexivity].
Qed.

Lemma dfs_sound : forall f k r vis v, dfs inhf f k r vis = Some (true, v) -> ireach inhf r k.
Proof.
  induction f as [|f IH]; intros k r vis v H; [discriminate|].
  rewrite dfs_S in H. destruct (Nat.eqb k r) eqn:E.
  - apply Nat.eqb_eq in E. subst. apply ireach_refl.
  - assert (HL : forall l v1, dfs_list f k l v1 = Some (true, v) -> exists c, In c l /\ ireach inhf c k).
    { induction l as [|c l IHl]; intros v1 H1; simpl in H1; [discriminate|].
      destruct (v1 c).
      - destruct (IHl v1 H1) as [c' [Hc Hr]]. exists c'. split; [right; exact Hc | exact Hr].
      - destruct (dfs inhf f k c v1) as [[[|] v2]|] eqn:D; [|..].
        + exists c. split; [left; reflexivity | apply (IH k c v1 v2 D)].
        + destruct (IHl v2 H1) as [c' [Hc Hr]]. exists c'. split; [right; exact Hc | exact Hr].
        + discriminate. }
    destruct (HL _ _ H) as [c [Hc Hr]]. apply (ireach_step inhf r c k Hc Hr).
Qed.

Definition vmono (a b : nat -> bool) : Prop := forall z, a z = true -> b z = true.
Definition vclosed (k : nat) (a b : nat -> bool) : Prop :=
  forall z, b z = true -> a z = true \/ (z <> k /\ forall c, In c (inhf z) -> b c = true).

Lemma dfs_list_mono f k (IH : forall r vis b v, dfs inhf f k r vis = Some (b, v) -> vmono vis v) :
  forall l v1 b v, dfs_list f k l v1 = Some (b, v) -> vmono v1 v.
Proof.
  induction l as [|c l IHl]; intros v1 b v H1; simpl in H1; [inversion H1; subst; intros z Hz; exact Hz|].
  destruct (v1 c); [apply (IHl _ _ _ H1)|].
  destruct (dfs inhf f k c v1) as [[[|] v2]|] eqn:D; [| |discriminate].
  - inversion H1; subst. apply (IH c v1 true v D).
  - intros z Hz. apply (IHl v2 b v H1). apply (IH c v1 false v2 D). exact Hz.
Qed.

Lemma dfs_mono : forall f k r vis b v, dfs inhf f k r vis = Some (b, v) -> vmono vis v.
Proof.
  induction f as [|f IH]; intros k r vis b v H; [discriminate|].
  rewrite dfs_S in H. destruct (Nat.eqb k r); [inversion H; subst; intros z Hz; exact Hz|].
  intros z Hz. apply (dfs_list_mono f k (IH k) _ _ _ _ H). unfold upd. destruct (Nat.eqb z r); [reflexivity | exact Hz].
Qed.

Lemma dfs_false : forall f k r vis v, dfs inhf f k r vis = Some (false, v) ->
  v r = true /\ vclosed k vis v.
Proof.
  induction f as [|f IH]; intros k r vis v H; [discriminate|].
  rewrite dfs_S in H. destruct (Nat.eqb k r) eqn:E; [discriminate|]. apply Nat.eqb_neq in E.
  assert (M := dfs_list_mono f k (dfs_mono f k)).
  assert (HL : forall l v1, dfs_list f k l v1 = Some (false, v) ->
                            (forall c, In c l -> v c = true) /\ vclosed k v1 v).
  { induction l as [|c l IHl]; intros v1 H1; simpl in H1.
    - inversion H1; subst. split; [intros c []|]. intros z Hz. left. exact Hz.
    - destruct (v1 c) eqn:Vc.
      + destruct (IHl v1 H1) as [A B]. split; [|exact B].
        intros c' [<-|Hc]; [apply (M _ _ _ _ H1); exact Vc | apply A; exact Hc].
      + destruct (dfs inhf f k c v1) as [[[|] v2]|] eqn:D; [discriminate| |discriminate].
        destruct (IH k c v1 v2 D) as [Hc2 C2]. destruct (IHl v2 H1) as [A B]. specialize (M _ _ _ _ H1).
        split.
        * intros c' [<-|Hc]; [apply M; exact Hc2 | apply A; exact Hc].
        * intros z Hz. destruct (B z Hz) as [Hz2|Hz2]; [|right; exact Hz2].
          destruct (C2 z Hz2) as [Hz1|[Hne Hs]]; [left; exact Hz1|].
          right. split; [exact Hne|]. intros c' Hc'. apply M. apply Hs. exact Hc'. }
  destruct (HL _ _ H) as [A B]. split; [apply (M _ _ _ _ H); apply upd_same|].
  intros z Hz. destruct (B z Hz) as [Hz1|Hz1]; [|right; exact Hz1].
  unfold upd in Hz1. destruct (Nat.eqb z r) eqn:Ez; [|left; exact Hz1].
  apply Nat.eqb_eq in Ez. subst z. right. split; [congruence | exact A].
Qed.

Lemma dfs_complete f k r v : dfs inhf f k r (fun _ => false) = Some (false, v) -> ~ ireach inhf r k.
Proof.
  intros H Hr. destruct (dfs_false f k r _ v H) as [Hv C].
  assert (G : forall z, ireach inhf z k -> v z = true -> False).
  { intros z Hz. induction Hz as [z | z y w Hy Hyw IH]; intro Vz.
    - destruct (C z Vz) as [F|[F _]]; [discriminate | congruence].
    - destruct (C z Vz) as [F|[_ F]]; [discriminate|]. apply (IH H Hr C). apply F. exact Hy. }
  exact (G r Hr Hv).
Qed.

Lemma dfs_nooof : forall f k r vis, unmarked n (upd vis r true) < f -> dfs inhf f k r vis <> None.
Proof.
  induction f as [|f IH]; intros k r vis Hu; [lia|].
  rewrite dfs_S. destruct (Nat.eqb k r); [discriminate|].
  assert (HL : forall l v1, (forall c, In c l -> c < n) -> unmarked n v1 <= f -> dfs_list f k l v1 <> None).
  { induction l as [|c l IHl]; intros v1 Hl Hv; simpl; [discriminate|].
    destruct (v1 c) eqn:Vc; [apply IHl; [intros; apply Hl; right; assumption | exact Hv]|].
    assert (Hc : unmarked n (upd v1 c true) < f).
    { assert (L := unmarked_upd n c v1 (Hl c (or_introl eq_refl)) Vc). lia. }
    destruct (dfs inhf f k c v1) as [[[|] v2]|] eqn:D; [discriminate| |exfalso; exact (IH k c v1 Hc D)].
    apply IHl; [intros; apply Hl; right; assumption|].
    assert (L := unmarked_mono n v1 v2 (dfs_mono f k c v1 false v2 D)). lia. }
  apply HL; [intros c Hc; apply (Hrange r c Hc) | lia].
Qed.

Lemma isinstance_graph k r :
  exists b, isinstance n inhf k (Some r) = Some b /\ (b = true <-> ireach inhf r k).
Proof.
  unfold isinstance.
  assert (Hn : dfs inhf (S n) k r (fun _ => false) <> None).
  { apply dfs_nooof. apply Nat.lt_succ_r, count_bound. }
  destruct (dfs inhf (S n) k r (fun _ => false)) as [[b v]|] eqn:D; [|congruence].
  exists b. split; [reflexivity|]. destruct b.
  - split; [intros _; apply (dfs_sound _ _ _ _ _ D) | reflexivity].
  - split; [discriminate | intro H; exfalso; exact (dfs_complete _ _ _ _ D H)].
Qed.
End Dfs.

(* recorded inheritance only follows references of abstract rules to non-match rules *)
Lemma ireach_reach g s : Inv2 g s -> forall r k, ireach (inh s) r k -> reach g (types s) r k.
Proof.
  intros H2 r k H. induction H as [x | x y z Hy Hyz IH]; [apply reach_refl|].
  destruct (H2 x y Hy) as [Hx [Hr Hm]]. apply (reach_step g (types s) x y z Hx Hr); [|exact IH].
  apply is_match_false. exact Hm.
Qed.

Theorem isinstance_correct g :
  exists s, determine_types g = Some s /\
    forall k r, exists b, isinstance (length g) (inh s) k (Some r) = Some b /\
                          (b = true <-> ireach (inh s) r k) /\
                          (b = true -> reach g (types s) r k).
Proof.
  destruct (kinds_correct g) as [s [H1 [H2 H3]]]. exists s. split; [exact H1|].
  intros k r.
  assert (Hrange : forall x y, In y (inh s x) -> y < length g).
  { intros x y Hy. destruct (H3 x y Hy) as [_ [_ Hm]].
    destruct (Nat.lt_ge_cases y (length g)) as [L|G]; [exact L|]. exfalso.
    assert (K := H2 y). unfold kind_spec, rule_refs in K. rewrite (rule_of_overflow g y G) in K.
    destruct (types s y); simpl in *; [discriminate | destruct K as [_ [w [[] _]]] | discriminate]. }
  destruct (isinstance_graph (inh s) (length g) Hrange k r) as [b [Hb Hiff]].
  exists b. split; [exact Hb|]. split; [exact Hiff|].
  intro E. apply (ireach_reach g s H3). apply Hiff. exact E.
Qed.

Section TreeInd.
Variable P : tree -> Prop.
Hypothesis HT : forall s, P (TT s).
Hypothesis HN : forall r kids, Forall P kids -> P (TN r kids).
Hypothesis HA : forall kids, Forall P kids -> P (TA kids).
Fixpoint tree_ind' (t : tree) : P t :=
  match t with
  | TT s => HT s
  | TN r kids => HN r kids ((fix go (l : list tree) : Forall P l :=
                              match l with [] => Forall_nil P | x :: l' => Forall_cons x (tree_ind' x) (go l') end) kids)
  | TA kids => HA kids ((fix go (l : list tree) : Forall P l :=
                              match l with [] => Forall_nil P | x :: l' => Forall_cons x (tree_ind' x) (go l') end) kids)
  end.
End TreeInd.

Fixpoint vals_of (K : nat -> kind) (l : list tree) : list value :=
  match l with
  | [] => []
  | TA ks :: l' => map (process K) ks ++ vals_of K l'
  | _ :: l' => vals_of K l'
  end.

Fixpoint pick_nm (K : nat -> kind) (l : list tree) : option tree :=
  match l with [] => None | k :: l' => if nonmatch_node K k then Some k else pick_nm K l' end.

Fixpoint first_nt (l : list tree) : option tree :=
  match l with [] => None | k :: l' => match k with TT _ => first_nt l' | _ => Some k end end.

Lemma process_common K r kids : K r = KCommon -> process K (TN r kids) = VObj r (vals_of K kids).
Proof.
  intro H. simpl. rewrite H. f_equal.
  induction kids as [|k kids IH]; [reflexivity|].
  destruct k as [s|r' ks|ks]; simpl; try exact IH. rewrite <- IH. reflexivity.
Qed.

Lemma process_match K r kids : K r = KMatch -> process K (TN r kids) = VStr (flat (TN r kids)).
Proof. intro H. simpl. rewrite H. reflexivity. Qed.

Definition abstract_result (K : nat -> kind) (r : nat) (kids : list tree) : value :=
  match kids with
  | [] => VStr []
  | [k] => process K k
  | _ => match pick_nm K kids with
         | Some k => process K k
         | None => match first_nt kids with
                   | Some k => process K k
                   | None => VStr (flat (TN r kids))
                   end
         end
  end.

Lemma pick_eq K (V : value) (l : list tree) :
  (fix pick (l : list tree) : value :=
     match l with [] => V | k :: l' => if nonmatch_node K k then process K k else pick l' end) l
  = match pick_nm K l with Some k => process K k | None => V end.
Proof. induction l as [|a l IH]; simpl; [reflexivity | destruct (nonmatch_node K a); [reflexivity | exact IH]]. Qed.

Lemma first_eq K (V : value) (m : list tree) :
  (fix first_nt (m : list tree) : value :=
     match m with [] => V | k :: m' => match k with TT _ => first_nt m' | _ => process K k end end) m
  = match first_nt m with Some k => process K k | None => V end.
Proof. induction m as [|a m IH]; simpl; [reflexivity | destruct a; [exact IH | reflexivity | reflexivity]]. Qed.

Lemma process_abstract K r kids : K r = KAbstract -> process K (TN r kids) = abstract_result K r kids.
Proof.
  intro H. unfold abstract_result.
  destruct kids as [|k1 [|k2 kids]]; [simpl; rewrite H; reflexivity | simpl; rewrite H; reflexivity|].
  simpl. rewrite H.
  destruct (nonmatch_node K k1); [reflexivity|]. destruct (nonmatch_node K k2); [reflexivity|].
  etransitivity; [apply pick_eq|].
  destruct (pick_nm K kids); [reflexivity|].
  destruct k1; [|reflexivity|reflexivity]. destruct k2; [|reflexivity|reflexivity].
  apply first_eq.
Qed.

Lemma objs_VObj c vs : objs (VObj c vs) = c :: flat_map objs vs.
Proof. reflexivity. Qed.

Lemma pick_nm_In K l k : pick_nm K l = Some k -> In k l.
Proof.
  induction l as [|a l IH]; simpl; [discriminate|]. destruct (nonmatch_node K a).
  - intro H. inversion H. auto.
  - intro H. right. apply IH. exact H.
Qed.

Lemma first_nt_In l k : first_nt l = Some k -> In k l.
Proof.
  induction l as [|a l IH]; simpl; [discriminate|]. destruct a; intro H;
    [right; apply IH; exact H | inversion H; left; reflexivity | inversion H; left; reflexivity].
Qed.

(* the first node of an abstract / common rule decides, whatever precedes or follows it *)
Lemma pick_nm_first K pre k post :
  (forall p, In p pre -> nonmatch_node K p = false) -> nonmatch_node K k = true ->
  pick_nm K (pre ++ k :: post) = Some k.
Proof.
  intros Hp Hk. induction pre as [|a pre IH]; simpl; [rewrite Hk; reflexivity|].
  rewrite (Hp a (or_introl eq_refl)). apply IH. intros p H. apply Hp. right. exact H.
Qed.

Theorem abstract_first_nonmatch K r pre k post :
  K r = KAbstract ->
  (forall p, In p pre -> nonmatch_node K p = false) -> nonmatch_node K k = true ->
  process K (TN r (pre ++ k :: post)) = process K k.
Proof.
  intros Hr Hp Hk. rewrite (process_abstract K r _ Hr). unfold abstract_result.
  assert (Pk := pick_nm_first K pre k post Hp Hk).
  destruct (pre ++ k :: post) as [|k1 [|k2 l]] eqn:E.
  - destruct pre; discriminate.
  - simpl in Pk. destruct (nonmatch_node K k1); [inversion Pk; reflexivity | discriminate].
  - rewrite Pk. reflexivity.
Qed.

Lemma first_nt_none l : (forall p, In p l -> exists s, p = TT s) -> first_nt l = None.
Proof.
  induction l as [|a l IH]; intro H; [reflexivity|]. simpl.
  destruct (H a (or_introl eq_refl)) as [s ->]. apply IH. intros p Hp. apply H. right. exact Hp.
Qed.

Lemma pick_nm_none_terms K l : (forall p, In p l -> exists s, p = TT s) -> pick_nm K l = None.
Proof.
  induction l as [|a l IH]; intro H; [reflexivity|]. simpl.
  destruct (H a (or_introl eq_refl)) as [s ->]. simpl. apply IH. intros p Hp. apply H. right. exact Hp.
Qed.

(* holds by the generated fact abstract_pick_by_kind *)
Lemma nonmatch_node_TN K r ks : nonmatch_node K (TN r ks) = negb (is_match (K r)).
Proof. reflexivity. Qed.

Definition plain_node (K : nat -> kind) (p : tree) : Prop :=
  (exists s, p = TT s) \/ (exists q qs, p = TN q qs /\ K q = KMatch).

Lemma node_rules_TN r kids : node_rules (TN r kids) = r :: flat_map node_rules kids.
Proof. reflexivity. Qed.

Lemma node_rules_TA kids : node_rules (TA kids) = flat_map node_rules kids.
Proof. reflexivity. Qed.

(* The values of a common node are those of the children of its assignment nodes, so the claim is carried for the
   children of an assignment node as well. *)
Theorem objs_from_nodes K : forall t c, In c (objs (process K t)) -> K c = KCommon /\ In c (node_rules t).
Proof.
  pose (P := fun t => forall c, In c (objs (process K t)) -> K c = KCommon /\ In c (node_rules t)).
  assert (G : forall t, P t /\ match t with TA ks => Forall P ks | _ => True end).
  { induction t as [s|r kids IH|kids IH] using tree_ind'.
    - split; [intros c [] | exact I].
    - split; [|exact I]. unfold P. rewrite node_rules_TN.
      assert (Hin : forall k, In k kids -> forall c, In c (objs (process K k)) ->
                      K c = KCommon /\ In c (r :: flat_map node_rules kids)).
      { intros k Hk c Hc. rewrite Forall_forall in IH. destruct (proj1 (IH k Hk) c Hc) as [A B].
        split; [exact A | right; apply in_flat_map; exists k; split; [exact Hk | exact B]]. }
      destruct (K r) eqn:E.
      + rewrite (process_match K r kids E). intros c [].
      + rewrite (process_abstract K r kids E). unfold abstract_result.
        destruct kids as [|k1 [|k2 kids]]; [intros c [] | apply Hin; left; reflexivity|].
        destruct (pick_nm K (k1 :: k2 :: kids)) eqn:Pk; [apply Hin; apply (pick_nm_In K _ _ Pk)|].
        destruct (first_nt (k1 :: k2 :: kids)) eqn:Fk; [apply Hin; apply (first_nt_In _ _ Fk) | intros c []].
      + rewrite (process_common K r kids E). intros c Hc. rewrite objs_VObj in Hc.
        destruct Hc as [<-|Hc]; [split; [exact E | left; reflexivity]|].
        cut (K c = KCommon /\ In c (flat_map node_rules kids)); [intros [A B]; split; [exact A | right; exact B]|].
        clear Hin. induction IH as [|k kids Hk _ IHl]; [destruct Hc|].
        destruct k as [s|r' ks|ks].
        * apply IHl. exact Hc.
        * destruct (IHl Hc) as [A B]. split; [exact A|].
          change (In c (node_rules (TN r' ks) ++ flat_map node_rules kids)). apply in_or_app. right. exact B.
        * change (In c (flat_map objs (map (process K) ks ++ vals_of K kids))) in Hc.
          change (K c = KCommon /\ In c (flat_map node_rules ks ++ flat_map node_rules kids)).
          rewrite flat_map_app in Hc.
          apply in_app_or in Hc as [Hc|Hc]; [|destruct (IHl Hc) as [A B]; split; [exact A | apply in_or_app; right; exact B]].
          cut (K c = KCommon /\ In c (flat_map node_rules ks)); [intros [A B]; split; [exact A | apply in_or_app; left; exact B]|].
          destruct Hk as [_ Hks]. clear - Hks Hc.
          induction Hks as [|a ks Ha _ IHk]; simpl in *; [destruct Hc|].
          apply in_app_or in Hc as [Hc|Hc]; [destruct (Ha c Hc) as [A B] | destruct (IHk Hc) as [A B]];
            (split; [exact A | apply in_or_app; auto]).
    - split; [intros c []|]. rewrite Forall_forall in *. intros k Hk. apply (proj1 (IH k Hk)). }
  intro t. apply (proj1 (G t)).
Qed.

