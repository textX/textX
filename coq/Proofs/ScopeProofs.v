From TxV Require Import Core.Base Model.ScopeDefs Gen.SrcScope Model.RrelSyntax Model.Scope.

Lemma select_spec regs cls attr has_rrel : select regs cls attr has_rrel = spec regs cls attr has_rrel.
Proof.
  unfold select, spec. destruct has_rrel; [reflexivity|].
  unfold dot, star.
  cbn [andb grammar_provider_first attr_refs map mk_key flat_map find app].
  rewrite ?app_nil_r. cbn [app].
  (* both sides now try the same four keys in the same order *)
  destruct (mem_str _ regs); [reflexivity|]. destruct (mem_str _ regs); [reflexivity|].
  destruct (mem_str _ regs); [reflexivity|]. destruct (mem_str _ regs); reflexivity.
Qed.

Lemma registered_string_like_grammar t e :
  RrelSyntax.parse t = Some e -> registered_provider (RString t) = grammar_provider e.
Proof. intro H. unfold registered_provider, grammar_provider. change string_registration_parsed_by_grammar_ctor with true. cbv iota. rewrite H. reflexivity. Qed.

(* a whole pass: every reference gets the provider documented for its own rule and attribute, whatever was
   selected for the references before it *)
Lemma select_pass_spec : forall regs refs memo,
  select_pass regs refs memo = map (fun r => spec regs (fst (fst r)) (snd (fst r)) (snd r)) refs.
Proof.
  intros regs refs. induction refs as [|[[cls attr] rr] r IH]; intro memo; [reflexivity|].
  cbn [select_pass map fst snd]. change selection_per_reference with true. cbv iota.
  rewrite select_spec, IH. reflexivity.
Qed.

(* only the latest registration counts *)
Lemma active_keys_latest : forall history acc last, active_keys (history ++ [last]) acc = last.
Proof.
  induction history as [|sp r IH]; intros acc last; cbn [active_keys app].
  - change registration_replaces with true. reflexivity.
  - apply IH.
Qed.

(* non-vacuity: a concrete configuration where the third key wins *)
Example select_example :
  select [[42;46;42]; [65;46;42]]%N [65]%N [98]%N false = Registered [65;46;42]%N.
Proof. reflexivity. Qed.
