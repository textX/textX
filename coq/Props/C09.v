(* C09 — postponed resolution reaches the right fixpoint and terminates. *)
From TxV Require Import Core.Base Gen.SrcResolve Model.Resolve Proofs.ResolveStepProofs Proofs.ResolveOrderProofs Proofs.ResolveRetryProofs Proofs.ResolveProofs Proofs.ResolveTermProofs Proofs.ResolveCountProofs.

(* [load] is the resolver model instantiated with the facts read from textx/model.py on every
   run (Gen/SrcResolve.v, tools/translate/resolve_tr.py): re-queueing of Postponed references,
   which resolutions count as progress, the loop condition `unresolved > 0 and resolved > 0`,
   the error condition and the references it names. *)

(* Termination for every provider: the round loop, started with fuel = number of
   references + 1, never runs out of fuel (each continuing round resolves at least one). *)
Theorem C09_terminates : forall (ans : provider) models, load ans models <> OutOfFuel.
Proof. exact load_terminates_direct. Qed.   (* Proofs/ResolveTermProofs.v: needs only the loop-condition fact *)
Print Assumptions C09_terminates.

(* every resolution - of a list element or of a scalar - is counted as progress, and the pending
   list shrinks by exactly that count *)
Theorem C09_progress_counted : forall (ans : provider) pend st st' np d c,
  step ans pend st = Some (st', np, d, c) -> np = d /\ sub np pend /\ length np + c = length pend.
Proof.
  intros ans pend st st' np d c H. destruct (retry_order _ _ _ _ _ _ _ H) as [E S].
  exact (conj E (conj S (proj1 (progress_counted_exact _ _ _ _ _ _ _ H)))).
Qed.
Print Assumptions C09_progress_counted.

(* the counting part alone, proved directly on the model with exactly the two counting facts
   (Proofs/ResolveCountProofs.v): it holds wherever Postponed references are re-queued or reported *)
Theorem C09_progress_counted_exact : forall (ans : provider) pend st st' np d c,
  step ans pend st = Some (st', np, d, c) -> length np + c = length pend /\ length d = length np.
Proof. exact progress_counted_exact. Qed.
Print Assumptions C09_progress_counted_exact.

(* With a provider given by a dependency table (a reference resolves once everything it
   waits for has resolved; "never" references are always postponed):
   [reach all i] is the documented criterion "some order of resolving lets i resolve". *)
Theorem C09_success_iff : forall models, NoDup (map xid (concat models)) ->
  ((exists st, load dep_ans models = Ok st) <-> forall x, In x (concat models) -> reach (concat models) (xid x)).
Proof.
  intros models ND. rewrite load_qload, (lfp_success_iff dep_ready dep_ready_mono _ (mono_tracks dep_ready) models ND).
  split; intros H x Hx; apply reach_mreach; exact (H x Hx).
Qed.
Print Assumptions C09_success_iff.

Theorem C09_success_result : forall models st, NoDup (map xid (concat models)) ->
  load dep_ans models = Ok st ->
  forall x, In x (concat models) -> reach (concat models) (xid x) /\ tgt st (xid x) = Some (xtgt x).
Proof.
  intros models st ND H x Hx. rewrite load_qload in H. rewrite reach_mreach.
  exact (lfp_ok dep_ready dep_ready_mono _ (mono_tracks dep_ready) models st ND H x Hx).
Qed.
Print Assumptions C09_success_result.

(* on failure the reported references are exactly the unresolvable ones *)
Theorem C09_error_names : forall models lf st, NoDup (map xid (concat models)) ->
  load dep_ans models = Unresolvable lf st ->
  forall x, In x (concat lf) <-> (In x (concat models) /\ ~ reach (concat models) (xid x)).
Proof.
  intros models lf st ND H x. rewrite load_qload in H. rewrite reach_mreach.
  exact (proj2 (lfp_fail dep_ready dep_ready_mono _ (mono_tracks dep_ready) models lf st ND H) x).
Qed.
Print Assumptions C09_error_names.

Theorem C09_order_independent : forall m1 m2,
  NoDup (map xid (concat m1)) -> NoDup (map xid (concat m2)) ->
  (forall x, In x (concat m1) <-> In x (concat m2)) ->
  ((exists st, load dep_ans m1 = Ok st) <-> (exists st, load dep_ans m2 = Ok st)) /\
  (forall st1 st2, load dep_ans m1 = Ok st1 -> load dep_ans m2 = Ok st2 ->
     forall x, In x (concat m1) -> tgt st1 (xid x) = tgt st2 (xid x)).
Proof.
  intros m1 m2. rewrite !load_qload.
  exact (lfp_independent dep_ready dep_ready_mono _ _ (mono_tracks dep_ready) (mono_tracks dep_ready) m1 m2).
Qed.
Print Assumptions C09_order_independent.

(* any monotone provider
   The provider is ANY readiness predicate over the set of resolved references that is
   monotone (more references resolved never makes a reference un-ready): dependency tables,
   "any one of", thresholds, ...  [mreach all ready i]: i is ready given some set of references
   each of which can (inductively) be resolved = "some order of resolving lets i resolve". *)
Theorem C09_monotone_success_iff : forall ready, monotone ready -> forall models, NoDup (map xid (concat models)) ->
  ((exists st, load (mono_ans ready) models = Ok st) <->
   forall x, In x (concat models) -> mreach (concat models) ready (xid x)).
Proof. intros ready Hm models. rewrite load_qload. exact (lfp_success_iff ready Hm _ (mono_tracks ready) models). Qed.
Print Assumptions C09_monotone_success_iff.

Theorem C09_monotone_result : forall ready, monotone ready -> forall models st, NoDup (map xid (concat models)) ->
  load (mono_ans ready) models = Ok st ->
  forall x, In x (concat models) -> mreach (concat models) ready (xid x) /\ tgt st (xid x) = Some (xtgt x).
Proof. intros ready Hm models st. rewrite load_qload. exact (lfp_ok ready Hm _ (mono_tracks ready) models st). Qed.
Print Assumptions C09_monotone_result.

(* otherwise the load fails with the Unresolvable error (never Unknown object, never out of
   fuel) naming exactly the references that no order can resolve; there is at least one *)
Theorem C09_monotone_error_names : forall ready, monotone ready -> forall models lf st, NoDup (map xid (concat models)) ->
  load (mono_ans ready) models = Unresolvable lf st ->
  concat lf <> [] /\
  forall x, In x (concat lf) <-> (In x (concat models) /\ ~ mreach (concat models) ready (xid x)).
Proof. intros ready Hm models lf st. rewrite load_qload. exact (lfp_fail ready Hm _ (mono_tracks ready) models lf st). Qed.
Print Assumptions C09_monotone_error_names.

Theorem C09_monotone_never_unknown : forall ready, monotone ready -> forall models, NoDup (map xid (concat models)) ->
  load (mono_ans ready) models <> UnknownObject.
Proof. intros ready Hm models. rewrite load_qload. exact (lfp_never_unknown ready Hm _ (mono_tracks ready) models). Qed.
Print Assumptions C09_monotone_never_unknown.

Theorem C09_monotone_order_independent : forall ready, monotone ready -> forall m1 m2,
  NoDup (map xid (concat m1)) -> NoDup (map xid (concat m2)) ->
  (forall x, In x (concat m1) <-> In x (concat m2)) ->
  ((exists st, load (mono_ans ready) m1 = Ok st) <-> (exists st, load (mono_ans ready) m2 = Ok st)) /\
  (forall st1 st2, load (mono_ans ready) m1 = Ok st1 -> load (mono_ans ready) m2 = Ok st2 ->
     forall x, In x (concat m1) -> tgt st1 (xid x) = tgt st2 (xid x)).
Proof.
  intros ready Hm m1 m2. rewrite !load_qload.
  exact (lfp_independent ready Hm _ _ (mono_tracks ready) (mono_tracks ready) m1 m2).
Qed.
Print Assumptions C09_monotone_order_independent.

(* the table form of "can resolve" is the instance of the general one *)
Theorem C09_table_is_monotone_instance : monotone dep_ready /\ dep_ans = mono_ans dep_ready /\
  forall all i, reach all i <-> mreach all dep_ready i.
Proof. split; [exact dep_ready_mono | split; [reflexivity | exact reach_mreach]]. Qed.
Print Assumptions C09_table_is_monotone_instance.

(* non-vacuity of the monotone class: "waits for ANY ONE of" is monotone and not a table *)
Example C09_any_ready_monotone : monotone any_ready.
Proof.
  intros x S S' Hsub H. unfold any_ready in *. destruct (xdeps x) as [|d ds]; [reflexivity|].
  apply existsb_exists in H as [e [H1 H2]]. apply existsb_exists. exists e. split; [exact H1 | apply Hsub; exact H2].
Qed.
Print Assumptions C09_any_ready_monotone.

(* providers that ask the resolver
   Real providers learn whether an awaited reference has resolved from
   needs_to_be_resolved / ReferenceResolver.has_unresolved_crossrefs, a snapshot of the owning
   model's pending list that is refreshed only at the end of that model's step ([qload],
   [sprovider], [commit] in Model/Resolve.v).  [smono_ans ready]: the provider resolves a reference
   when [ready] holds of the SETTLED set (the references no resolver reports as pending).
   The snapshot lags behind the resolved set during a step, which only delays resolutions: for
   every monotone [ready] the verdict, the targets and the reported names are those of the least
   fixpoint, exactly as for providers that see the resolved set directly. *)
Theorem C09_terminates_snapshot : forall (ans : sprovider) models, qload ans models <> OutOfFuel.
Proof. exact qload_terminates_direct. Qed.   (* Proofs/ResolveTermProofs.v: needs only the loop-condition fact *)
Print Assumptions C09_terminates_snapshot.

Theorem C09_snapshot_success_iff : forall ready, monotone ready -> forall models, NoDup (map xid (concat models)) ->
  ((exists st, qload (smono_ans ready) models = Ok st) <->
   forall x, In x (concat models) -> mreach (concat models) ready (xid x)).
Proof. exact (fun ready Hm => lfp_success_iff ready Hm _ (smono_tracks ready Hm)). Qed.
Print Assumptions C09_snapshot_success_iff.

Theorem C09_snapshot_result : forall ready, monotone ready -> forall models st, NoDup (map xid (concat models)) ->
  qload (smono_ans ready) models = Ok st ->
  forall x, In x (concat models) -> mreach (concat models) ready (xid x) /\ tgt st (xid x) = Some (xtgt x).
Proof. exact (fun ready Hm => lfp_ok ready Hm _ (smono_tracks ready Hm)). Qed.
Print Assumptions C09_snapshot_result.

Theorem C09_snapshot_error_names : forall ready, monotone ready -> forall models lf st, NoDup (map xid (concat models)) ->
  qload (smono_ans ready) models = Unresolvable lf st ->
  concat lf <> [] /\
  forall x, In x (concat lf) <-> (In x (concat models) /\ ~ mreach (concat models) ready (xid x)).
Proof. exact (fun ready Hm => lfp_fail ready Hm _ (smono_tracks ready Hm)). Qed.
Print Assumptions C09_snapshot_error_names.

Theorem C09_snapshot_never_unknown : forall ready, monotone ready -> forall models, NoDup (map xid (concat models)) ->
  qload (smono_ans ready) models <> UnknownObject.
Proof. exact (fun ready Hm => lfp_never_unknown ready Hm _ (smono_tracks ready Hm)). Qed.
Print Assumptions C09_snapshot_never_unknown.

Theorem C09_snapshot_order_independent : forall ready, monotone ready -> forall m1 m2,
  NoDup (map xid (concat m1)) -> NoDup (map xid (concat m2)) ->
  (forall x, In x (concat m1) <-> In x (concat m2)) ->
  ((exists st, qload (smono_ans ready) m1 = Ok st) <-> (exists st, qload (smono_ans ready) m2 = Ok st)) /\
  (forall st1 st2, qload (smono_ans ready) m1 = Ok st1 -> qload (smono_ans ready) m2 = Ok st2 ->
     forall x, In x (concat m1) -> tgt st1 (xid x) = tgt st2 (xid x)).
Proof. exact (fun ready Hm => lfp_independent ready Hm _ _ (smono_tracks ready Hm) (smono_tracks ready Hm)). Qed.
Print Assumptions C09_snapshot_order_independent.

(* asking the resolvers (snapshot) and seeing the resolved set directly give the same verdict and targets *)
Theorem C09_snapshot_same_as_direct : forall ready, monotone ready -> forall models, NoDup (map xid (concat models)) ->
  ((exists st, qload (smono_ans ready) models = Ok st) <-> (exists st, load (mono_ans ready) models = Ok st)) /\
  (forall st1 st2, qload (smono_ans ready) models = Ok st1 -> load (mono_ans ready) models = Ok st2 ->
     forall x, In x (concat models) -> tgt st1 (xid x) = tgt st2 (xid x)).
Proof.
  intros ready Hm models ND. rewrite load_qload.
  exact (lfp_independent ready Hm _ _ (smono_tracks ready Hm) (mono_tracks ready) models models ND ND (fun x => iff_refl _)).
Qed.
Print Assumptions C09_snapshot_same_as_direct.

(* the query-mode provider of the correspondence harness (no delays) is the table instance of the class *)
Theorem C09_snapshot_harness_instance : forall s x st, snap_ans (fun _ => 0) s x st = smono_ans dep_ready s x st.
Proof.
  intros s x st. unfold snap_ans, smono_ans, dep_ready. cbn [Nat.ltb Nat.leb]. destruct (xnever x); cbn [negb andb]; reflexivity.
Qed.
Print Assumptions C09_snapshot_harness_instance.

(* non-vacuity: a reverse chain over two models resolves in three rounds; a cycle does not *)
Definition mkd i d n := {| xid := i; xslot := i; xmany := false; xpos := i; xtgt := 10 + i; xdeps := d; xnever := n |}.
Example C09_nonvacuous_ok :
  match load dep_ans [[mkd 0 [1] false]; [mkd 1 [2] false; mkd 2 [] false]] with
  | Ok st => tgt st 0 = Some 10 /\ rev (log st) = [0;1;2; 0;1; 0]
  | _ => False end.
Proof. vm_compute. split; reflexivity. Qed.
Print Assumptions C09_nonvacuous_ok.
Example C09_nonvacuous_fail :
  match load dep_ans [[mkd 0 [1] false; mkd 1 [0] false; mkd 2 [] false; mkd 3 [] true]] with
  | Unresolvable lf st => map xid (concat lf) = [0; 1; 3]
  | _ => False end.
Proof. vm_compute. reflexivity. Qed.
Print Assumptions C09_nonvacuous_fail.
Example C09_nonvacuous_monotone :
  match load (mono_ans any_ready) [[mkd 0 [1; 2] false; mkd 1 [] false]; [mkd 2 [2] false]] with
  | Unresolvable lf st => map xid (concat lf) = [2] /\ tgt st 0 = Some 10 /\ rev (log st) = [0;1;2; 0;2; 2]
  | _ => False end.
Proof. vm_compute. repeat split; reflexivity. Qed.
Print Assumptions C09_nonvacuous_monotone.
(* the snapshot view: a chain r0 -> r1 -> r2 with r0 in the first model needs one round per link,
   also inside one model (r1 sees r2 settled only after the step in which r2 resolved has ended) *)
Example C09_nonvacuous_snapshot :
  match qload (snap_ans (fun _ => 0)) [[mkd 0 [1] false]; [mkd 1 [2] false; mkd 2 [] false]] with
  | Ok st => tgt st 0 = Some 10 /\ rev (log st) = [0;1;2; 0;1; 0]
  | _ => False end /\
  match qload (snap_ans (fun _ => 0)) [[mkd 2 [] false; mkd 1 [2] false; mkd 0 [1] false]] with
  | Ok st => rev (log st) = [2;1;0; 1;0; 0]
  | _ => False end.
Proof. vm_compute. repeat split; reflexivity. Qed.
Print Assumptions C09_nonvacuous_snapshot.
(* a cycle r1 <-> r2 in the second model, r0 of the first waits for it, r3 is fine: the error names 0, 1, 2 *)
Example C09_nonvacuous_snapshot_fail :
  match qload (smono_ans dep_ready) [[mkd 0 [1] false]; [mkd 1 [2] false; mkd 2 [1] false; mkd 3 [] false]] with
  | Unresolvable lf st => map xid (concat lf) = [0; 1; 2] /\ tgt st 3 = Some 13
  | _ => False end.
Proof. vm_compute. split; reflexivity. Qed.
Print Assumptions C09_nonvacuous_snapshot_fail.
