(* Terminal invariant for the interpreter of Model/Peg.v: if every terminal that [term_parse] can
   produce satisfies a (decidable) predicate on (node id, position, length), then so does every
   terminal of every parse result - for every node, state with a sound cache, fuel and both
   memoization settings.  Used by C21 (no terminal of a keyword regex is followed by a word
   character), and through [run_ok] by the builder proofs of C20-C22, C28 and C33. *)
From TxV Require Import Core.Base Model.PegSyntax Model.Peg Proofs.PegProofs Proofs.PegCongr Proofs.PegRel.

Section Inv.
Variable pt : nat -> nat -> nat -> bool.      (* node id, position, length *)

Fixpoint tree_okb (t : tree) : bool :=
  match t with
  | T nid p len _ => pt nid p len
  | NT _ kids => forallb tree_okb kids
  end.

Fixpoint res_okb (r : res) : bool :=
  match r with
  | RNone => true
  | RTree t => tree_okb t
  | RList l => forallb res_okb l
  end.

Definition cres_okb (c : cres) : bool := match c with CNoMatch => true | CRes r => res_okb r end.
Definition cache_okb (m : list ((nat * nat) * (cres * nat))) : bool :=
  forallb (fun e => cres_okb (fst (snd e))) m.

Definition st_ok (s : st) : Prop := cache_okb (cache s) = true.
Definition out_ok (o : out) : Prop :=
  match o with
  | Ok r s => res_okb r = true /\ st_ok s
  | Fail s => st_ok s
  | Abort _ => True
  end.
Notation parser := (nat -> bool -> st -> out) (only parsing).
Definition pinv (rec : parser) : Prop := forall n psq s, st_ok s -> out_ok (rec n psq s).

Lemma flatten_ok r : res_okb r = true -> forallb tree_okb (flatten r) = true.
Proof.
  induction r as [| t | l IH] using res_ind2; intro H; [reflexivity | cbn [flatten forallb]; cbn [res_okb] in H; rewrite H; reflexivity |].
  cbn [flatten]. cbn [res_okb] in H. induction IH as [| x l Hx Hl IHl]; [reflexivity|].
  cbn [forallb] in H. apply andb_true_iff in H as [H1 H2].
  rewrite forallb_app, (Hx H1), (IHl H2). reflexivity.
Qed.

Lemma post_ok nid nd r : res_okb r = true -> res_okb (post nid nd r) = true.
Proof.
  intro H. unfold post.
  destruct (n_suppress nd || head_is_none r)%bool.
  - cbn. rewrite andb_false_r. reflexivity.
  - destruct (n_root nd && truthy r && negb (is_ptnode r))%bool; [|exact H].
    cbn [res_okb tree_okb]. apply flatten_ok, H.
Qed.

Lemma clookup_ok n p m : cache_okb m = true ->
  match clookup n p m with Some (c, _) => cres_okb c = true | None => True end.
Proof.
  induction m as [|[[n' p'] [c np]] m IH]; intro H; [exact I|].
  cbn [cache_okb forallb fst snd] in H. apply andb_true_iff in H as [H1 H2].
  cbn [clookup]. destruct (Nat.eqb n n' && Nat.eqb p p')%bool; [exact H1 | apply IH, H2].
Qed.

(* state bookkeeping: only cput touches the cache *)
Lemma ok_set_pos p s : st_ok s -> st_ok (set_pos p s). Proof. exact (fun H => H). Qed.
Lemma ok_set_skipws b s : st_ok s -> st_ok (set_skipws b s). Proof. exact (fun H => H). Qed.
Lemma ok_set_in_cmt b s : st_ok s -> st_ok (set_in_cmt b s). Proof. exact (fun H => H). Qed.
Lemma ok_set_nm n s : st_ok s -> st_ok (set_nm n s). Proof. exact (fun H => H). Qed.
Lemma ok_set_cpos c s : st_ok s -> st_ok (set_cpos c s). Proof. exact (fun H => H). Qed.
Lemma ok_set_ws w s : st_ok s -> st_ok (set_ws w s). Proof. exact (fun H => H). Qed.
Lemma ok_set_eolterm b s : st_ok s -> st_ok (set_eolterm b s). Proof. exact (fun H => H). Qed.
Lemma ok_reg_fail p s : st_ok s -> st_ok (reg_fail p s).
Proof.
  intro H. unfold reg_fail. destruct (nm s) as [q|]; [|exact H].
  destruct (in_cmt s); [exact H|]. destruct (Nat.ltb q p); exact H.
Qed.
Lemma ok_cput n p c np s : cres_okb c = true -> st_ok s -> st_ok (cput n p (c, np) s).
Proof.
  intros Hc H. unfold st_ok in *. change (cache (cput n p (c, np) s)) with (((n, p), (c, np)) :: cache s).
  cbn [cache_okb forallb fst snd]. rewrite Hc. exact H.
Qed.
Lemma ok_enter_ws nd s : st_ok s -> st_ok (enter_ws nd s).
Proof. intro H. unfold enter_ws. destruct (n_ws nd), (n_skipws nd); exact H. Qed.
Lemma ok_leave_ws nd old s : st_ok s -> st_ok (leave_ws nd old s).
Proof. intro H. unfold leave_ws. destruct (n_ws nd), (n_skipws nd); exact H. Qed.
Lemma ok_enter_eol nd s : st_ok s -> st_ok (enter_eol nd s).
Proof. intro H. unfold enter_eol. destruct (n_eolterm nd); exact H. Qed.
Lemma ok_leave_eol nd old s : st_ok s -> st_ok (leave_eol nd old s).
Proof. intro H. unfold leave_eol. destruct (n_eolterm nd); exact H. Qed.

Section Interp.
Variable g : grammar.
Variable input : list N.
Variable orc : nat -> nat -> option nat.
Variable memo : bool.

Lemma ok_maybe_skip_ws s : st_ok s -> st_ok (maybe_skip_ws input s).
Proof. intro H. unfold maybe_skip_ws, do_skip_ws. destruct (skipws s); exact H. Qed.

Lemma cmt_ok rec : pinv rec -> forall cm k s, st_ok s -> out_ok (cmt_loop input rec cm k s).
Proof.
  intros Hrec cm k. induction k as [|k IH]; intros s Hs; cbn [cmt_loop]; [exact I|].
  pose proof (Hrec cm false s Hs) as I. destruct (rec cm false s) as [r s1|s1|w]; cbn [out_ok] in I.
  - apply IH. apply ok_maybe_skip_ws, I.
  - split; [reflexivity | exact I].
  - exact Logic.I.
Qed.

Lemma parse_comments_ok rec : pinv rec -> forall k s, st_ok s -> out_ok (parse_comments g input rec k s).
Proof.
  intros Hrec k s Hs. unfold parse_comments. destruct (g_comments g) as [cm|].
  - pose proof (cmt_ok rec Hrec cm k (set_in_cmt true s) Hs) as I.
    destruct (cmt_loop input rec cm k (set_in_cmt true s)) as [r s1|s1|w]; cbn [out_ok] in *.
    + split; [reflexivity | exact (proj2 I)].
    + exact I.
    + exact Logic.I.
  - split; [reflexivity | exact Hs].
Qed.

Lemma match_pre_ok rec : pinv rec -> forall k s, st_ok s -> out_ok (match_pre g input rec k s).
Proof.
  intros Hrec k s Hs. unfold match_pre. cbv zeta.
  assert (Hs1 : st_ok (maybe_skip_ws input s)) by (apply ok_maybe_skip_ws, Hs).
  set (s1 := maybe_skip_ws input s) in *. clearbody s1.
  destruct (if skipws s1 then lookup (pos s1) (cpos s1) else None) as [p'|].
  - split; [reflexivity | exact Hs1].
  - destruct (in_cmt s1); [split; [reflexivity | exact Hs1]|].
    pose proof (parse_comments_ok rec Hrec k s1 Hs1) as I.
    destruct (parse_comments g input rec k s1) as [r s2|s2|w]; cbn [out_ok] in *.
    + split; [reflexivity | exact (proj2 I)].
    + exact I.
    + exact Logic.I.
Qed.

Lemma body_ok rec : pinv rec -> forall k nd s, st_ok s -> out_ok (body rec k nd s).
Proof.
  intros Hrec k nd s Hs.
  refine (body_inv st_ok st_ok (fun r => res_okb r = true) (fun _ => True) (fun _ => True)
            (fun _ _ => I) (fun _ H => H) (fun p s _ => ok_set_pos p s) (fun p s _ => ok_reg_fail p s)
            (fun nd s _ => ok_enter_ws nd s) (fun nd old s _ _ => ok_leave_ws nd old s)
            (fun nd s _ => ok_enter_eol nd s) (fun nd old s _ _ => ok_leave_eol nd old s)
            (fun nd old s _ _ => ok_leave_eol nd old s)
            eq_refl _ rec k nd s Hrec I Hs).
  intros l Hl. apply forallb_forall. intros r Hr. exact (proj1 (Forall_forall _ l) Hl r Hr).
Qed.

(* what the terminals produce *)
Hypothesis H_term : forall nid nd psq s r s',
  get_node g nid = Some nd -> term_parse input orc nid (n_kind nd) psq s = Ok r s' -> res_okb r = true.

Lemma term_parse_cache nid k psq s :
  match term_parse input orc nid k psq s with
  | Ok _ s' => cache s' = cache s
  | Fail s' => cache s' = cache s
  | Abort _ => True
  end.
Proof.
  destruct (term_parse_cases input orc nid k psq s) as [(r & p' & E)|[E|E]].
  - rewrite (E s eq_refl). reflexivity.
  - rewrite (E s eq_refl). exact (d_cache _ _ (dom_reg_fail (pos s) s)).
  - rewrite (E s). exact I.
Qed.

Theorem parse_ok : forall fuel, pinv (parse g input orc memo fuel).
Proof.
  induction fuel as [|f IH]; intros nid psq s Hs; cbn [parse]; [exact I|].
  destruct (get_node g nid) as [nd|] eqn:En; [|exact I].
  destruct (is_match_kind (n_kind nd)).
  - pose proof (match_pre_ok _ IH f s Hs) as I.
    destruct (match_pre g input (parse g input orc memo f) f s) as [r s1|s1|w]; cbn [out_ok] in *;
      [|exact I | exact Logic.I].
    destruct I as [_ Is].
    pose proof (H_term nid nd psq s1) as Ht. pose proof (term_parse_cache nid (n_kind nd) psq s1) as Hc.
    destruct (term_parse input orc nid (n_kind nd) psq s1) as [r2 s2|s2|w]; cbn [out_ok].
    + split; [destruct (n_suppress nd); [reflexivity | exact (Ht r2 s2 En eq_refl)] | unfold st_ok; rewrite Hc; exact Is].
    + unfold st_ok. rewrite Hc. exact Is.
    + exact Logic.I.
  - destruct memo.
    + pose proof (clookup_ok nid (pos s) (cache s) Hs) as Hl.
      destruct (clookup nid (pos s) (cache s)) as [[[|cr] np]|].
      * exact Hs.
      * split; [exact Hl | exact Hs].
      * pose proof (body_ok _ IH f nd s Hs) as I.
        destruct (body (parse g input orc true f) f nd s) as [r s1|s1|w]; cbn [out_ok] in *.
        -- destruct I as [Ir Is]. split; [apply post_ok, Ir | apply ok_cput; [apply post_ok, Ir | exact Is]].
        -- apply ok_cput; [reflexivity | exact I].
        -- exact Logic.I.
    + pose proof (body_ok _ IH f nd s Hs) as I.
      destruct (body (parse g input orc false f) f nd s) as [r s1|s1|w]; cbn [out_ok] in *.
      * destruct I as [Ir Is]. split; [apply post_ok, Ir | exact Is].
      * exact I.
      * exact Logic.I.
Qed.

Theorem run_ok cfg fuel r :
  run g cfg orc memo fuel input = Parsed r -> res_okb r = true.
Proof.
  unfold run. intro H.
  pose proof (parse_ok fuel (g_top g) false (init_st cfg) eq_refl) as I.
  destruct (parse g input orc memo fuel (g_top g) false (init_st cfg)) as [r' s|s|w]; try discriminate.
  injection H as <-. exact (proj1 I).
Qed.

End Interp.

(* the terminals of a result, as a list *)
Fixpoint tree_terminals (t : tree) : list (nat * nat * nat) :=
  match t with
  | T nid p len _ => [(nid, p, len)]
  | NT _ kids => flat_map tree_terminals kids
  end.
Fixpoint res_terminals (r : res) : list (nat * nat * nat) :=
  match r with
  | RNone => []
  | RTree t => tree_terminals t
  | RList l => flat_map res_terminals l
  end.

Lemma tree_okb_In t : tree_okb t = true -> forall nid p len, In (nid, p, len) (tree_terminals t) -> pt nid p len = true.
Proof.
  induction t as [nid0 p0 len0 sup | nid0 kids IH] using tree_ind2; intros H nid p len Hin.
  - cbn in Hin. destruct Hin as [E|[]]. injection E as <- <- <-. exact H.
  - cbn [tree_okb] in H. cbn [tree_terminals] in Hin.
    induction IH as [| x l Hx Hl IHl]; [destruct Hin|].
    cbn [forallb] in H. apply andb_true_iff in H as [H1 H2].
    cbn [flat_map] in Hin. apply in_app_or in Hin as [Hin|Hin]; [exact (Hx H1 nid p len Hin) | exact (IHl H2 Hin)].
Qed.

Lemma res_okb_In r : res_okb r = true -> forall nid p len, In (nid, p, len) (res_terminals r) -> pt nid p len = true.
Proof.
  induction r as [| t | l IH] using res_ind2; intros H nid p len Hin.
  - destruct Hin.
  - exact (tree_okb_In t H nid p len Hin).
  - cbn [res_okb] in H. cbn [res_terminals] in Hin.
    induction IH as [| x l Hx Hl IHl]; [destruct Hin|].
    cbn [forallb] in H. apply andb_true_iff in H as [H1 H2].
    cbn [flat_map] in Hin. apply in_app_or in Hin as [Hin|Hin]; [exact (Hx H1 nid p len Hin) | exact (IHl H2 Hin)].
Qed.

End Inv.
