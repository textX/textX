(* C28 — model loading errors point at the offending text.
   fs = the loaded models (index 0 = main model, the others imported): file name (None for strings)
   and text.  located_at fs m pos = {file name of model m; line/col of offset pos in the text of
   model m, computed by the independent walk linecol_spec}.  The *_desc / importuri_relocates values
   are regenerated from textx/model.py and textx/scoping/providers.py on every run. *)
From TxV Require Import Core.Base Model.PegSyntax Model.Peg Model.Build.
From TxV Require Import Model.ErrLoc Gen.SrcLoc Proofs.ErrLocProofs Proofs.ErrLocSrcProofs Model.ErrLocLoad Proofs.ErrLocLoadProofs.
From TxV Require Import Proofs.PegTerm.

(* Arpeggio's pos_to_linecol (cached line ends + bisect) is exact for EVERY text and offset *)
Theorem C28_linecol_exact : forall t pos, pos <= length t ->
  ErrLoc.pos_to_linecol t pos = linecol_spec t pos.
Proof. exact pos_to_linecol_exact. Qed.
Print Assumptions C28_linecol_exact.

(* the modelled bisect_left is the binary search on the (ascending) line-end table *)
Theorem C28_bisect_binary_search : forall t pos,
  bisect_bs (length (line_ends t)) (line_ends t) pos 0 (length (line_ends t)) = bisect_left (line_ends t) pos.
Proof.
  intros t pos. apply bisect_bs_correct.
  - apply line_ends_ascending.
  - split; [apply Nat.le_0_l | apply bisect_left_le_length].
  - apply le_n.
  - rewrite Nat.sub_0_r. apply le_n.
Qed.
Print Assumptions C28_bisect_binary_search.

(* no natural-number subtraction of the model truncates (Python ints would go negative) *)
Theorem C28_no_underflow : forall t pos, pos <= length t ->
  0 < bisect_left (line_ends t) pos ->
  nth (bisect_left (line_ends t) pos - 1) (line_ends t) 0 < pos.
Proof. exact pos_to_linecol_no_underflow. Qed.
Print Assumptions C28_no_underflow.

(* a (line, col) pair names one offset only: the reported location identifies the offending text *)
Theorem C28_linecol_injective : forall t p1 p2, p1 <= length t -> p2 <= length t ->
  linecol_spec t p1 = linecol_spec t p2 -> p1 = p2.
Proof. exact linecol_injective. Qed.
Print Assumptions C28_linecol_injective.

(* the four error kinds: file = file containing the offending text, line/col = its place in that file *)
Theorem C28_located_syntax : forall fs m pos, in_text fs m pos ->
  syntax_error syntax_desc fs m pos = located_at fs m pos.
Proof. intros fs m pos H. exact (locate_ref fs main_ix m m pos H). Qed.
Print Assumptions C28_located_syntax.

Theorem C28_located_unknown : forall fs m pos, in_text fs m pos ->
  unknown_error unknown_desc fs m pos = located_at fs m pos.
Proof. intros fs m pos H. exact (locate_ref fs main_ix m m pos H). Qed.
Print Assumptions C28_located_unknown.

(* unresolvable: the error is located at the last unresolvable reference, in ITS file, and every
   "at (line, col)" of the message is the place of that reference in its own file *)
Theorem C28_located_unresolvable : forall fs delayed last_m last_pos front,
  delayed = front ++ [(last_m, last_pos)] ->
  Forall (fun x => in_text fs (fst x) (snd x)) delayed ->
  unresolvable_error unresolvable_desc fs delayed =
  (Some (located_at fs last_m last_pos),
   map (fun x => let r := located_at fs (fst x) (snd x) in (r_line r, r_col r)) delayed).
Proof. exact unresolvable_located. Qed.
Print Assumptions C28_located_unresolvable.

(* not unique: whichever model the provider was searching (the referencing one, or an imported one
   via ImportURI), the error is at the reference *)
Theorem C28_located_nonunique : forall fs m searched pos via_import,
  in_text fs m pos -> (via_import = false -> searched = m) ->
  nonunique_error nonunique_desc importuri_relocates fs m searched pos via_import = located_at fs m pos.
Proof. exact nonunique_located. Qed.
Print Assumptions C28_located_nonunique.

(* non-vacuity: a reference in an imported file (model 1) of a two-file load; text "ab\n\nxy z", offset 7 *)
Example C28_nonvacuous :
  let fs := [ {| s_name := Some [109]%N; s_text := [10;10;10;10;10;10;10;10;10]%N |};
              {| s_name := Some [98]%N; s_text := [97;98;10;10;120;121;32;122]%N |} ] in
  in_text fs 1 7 /\
  unresolvable_error unresolvable_desc fs [(0, 3); (1, 7)] =
    (Some {| r_file := Some [98]%N; r_line := Some 3; r_col := Some 4; r_nchar := None |},
     [(Some 4, Some 1); (Some 3, Some 4)]) /\
  nonunique_error nonunique_desc importuri_relocates fs 0 1 3 true =
    {| r_file := Some [109]%N; r_line := Some 4; r_col := Some 1; r_nchar := None |}.
Proof. vm_compute. repeat split; try reflexivity. repeat constructor. Qed.
Print Assumptions C28_nonvacuous.

(* Composed with the interpreter model (Model/Peg.v): the offset is not an input.
   For EVERY dumped grammar table, config, regex oracle, memoization flag, fuel and file list: when the
   interpreter rejects the text of model m, its failure position p (NoMatch.position = furthest failure,
   Peg.run = SyntaxErr p) is where the TextXSyntaxError is located: file of m, line/col of p in m's text.
   (in_text: p <= length, a hypothesis here; C28_syntax_error_at_interpreter_failure_sane below derives it
   for oracles whose matches stay inside the text.) *)
Theorem C28_syntax_error_at_interpreter_failure : forall g c orc memo fuel fs m,
  match Peg.run g c orc memo fuel (s_text (file_at fs m)) with
  | SyntaxErr p =>
      in_text fs m p -> load_syntax_error syntax_desc g c orc memo fuel fs m = Some (located_at fs m p)
  | _ => load_syntax_error syntax_desc g c orc memo fuel fs m = None
  end.
Proof. exact load_syntax_error_spec. Qed.
Print Assumptions C28_syntax_error_at_interpreter_failure.

(* grammar  M: 'a' EOF  on the text "\na\n b": the interpreter fails at offset 4 = line 3, column 2 *)
Example C28_syntax_composed_nonvacuous :
  let g := mkGrammar [mkNode KSeq [1;2] None false [] false false None None;
                      mkNode (KStr [97]%N None) [] None false [] false false None None;
                      mkNode KEOF [] None false [] false false None None] 0 None in
  let fs := [ {| s_name := Some [109]%N; s_text := [10;97;10;32;98]%N |} ] in
  Peg.run g (mkConfig true [32;10]%N) (fun _ _ => None) false 20 (s_text (file_at fs 0)) = SyntaxErr 4 /\
  load_syntax_error syntax_desc g (mkConfig true [32;10]%N) (fun _ _ => None) false 20 fs 0
  = Some {| r_file := Some [109]%N; r_line := Some 3; r_col := Some 2; r_nchar := None |}.
Proof. vm_compute. split; reflexivity. Qed.
Print Assumptions C28_syntax_composed_nonvacuous.

(* the pos_to_linecol of Model/Build.v (C06) and the one used here are the same function, everywhere *)
Theorem C28_linecol_models_agree : forall input p, Build.pos_to_linecol input p = ErrLoc.pos_to_linecol input p.
Proof. exact linecol_models_agree. Qed.
Print Assumptions C28_linecol_models_agree.

(* the same without the bound on p: for every grammar table, config, memo flag, fuel, file list and every oracle
   whose matches stay inside the text (orc_sane, Proofs/PegTerm.v), a rejected parse of model m yields exactly the
   error located at m's file name and line/col of the interpreter's failure position (which lies inside the
   text: Proofs/PegErrPos.v run_syntaxerr_in_text); every other outcome yields no syntax error *)
Theorem C28_syntax_error_at_interpreter_failure_sane : forall g c orc memo fuel fs m,
  orc_sane g (s_text (file_at fs m)) orc ->
  match Peg.run g c orc memo fuel (s_text (file_at fs m)) with
  | SyntaxErr p => load_syntax_error syntax_desc g c orc memo fuel fs m = Some (located_at fs m p)
  | _ => load_syntax_error syntax_desc g c orc memo fuel fs m = None
  end.
Proof. exact load_syntax_error_sane. Qed.
Print Assumptions C28_syntax_error_at_interpreter_failure_sane.

(* non-vacuity: the oracle without matches is sane for the grammar of C28_syntax_composed_nonvacuous, whose
   parse of "\na\n b" is rejected at offset 4 *)
Example C28_syntax_sane_nonvacuous :
  let g := mkGrammar [mkNode KSeq [1;2] None false [] false false None None;
                      mkNode (KStr [97]%N None) [] None false [] false false None None;
                      mkNode KEOF [] None false [] false false None None] 0 None in
  let fs := [ {| s_name := Some [109]%N; s_text := [10;97;10;32;98]%N |} ] in
  let orc := fun (_ _ : nat) => @None nat in
  orc_sane g (s_text (file_at fs 0)) orc /\
  Peg.run g (mkConfig true [32;10]%N) orc false 20 (s_text (file_at fs 0)) = SyntaxErr 4.
Proof. cbv zeta. split; [split; intros; discriminate | vm_compute; reflexivity]. Qed.
Print Assumptions C28_syntax_sane_nonvacuous.
