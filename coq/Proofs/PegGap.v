(* C22 - whole-run version of "only the active set is skipped" for grammars without Comment rule
   (memoization off, any rule modifiers): whatever a successful parse moves over is tiled by
   characters of the whitespace sets of the grammar and by matches of terminals of the grammar. *)
From TxV Require Proofs.PegProofs Proofs.PegFuel.
From TxV Require Import Core.Base Model.PegSyntax Model.Peg Model.PegWsDefs Proofs.PegRel Proofs.PegWs Proofs.PegWsSim Proofs.PegCmtSim.

Section Gap.
Variable g : grammar.
Variable cfg : config.
Variable input : list N.
Variable orc : nat -> nat -> option nat.
Hypothesis Hnc : g_comments g = None.
Let W := all_ws g cfg.

Definition term_at (p len : nat) : Prop :=
  exists nd, In nd (g_nodes g) /\ is_match_kind (n_kind nd) = true /\ tmatch input orc (n_kind nd) p = Some len.

Inductive covered : nat -> nat -> Prop :=
| cov_nil p : covered p p
| cov_ws p c q : nth_error input p = Some c -> inw W c = true -> covered (S p) q -> covered p q
| cov_tok p len q : term_at p len -> covered (p + len) q -> covered p q.

Lemma cov_trans p q r : covered p q -> covered q r -> covered p r.
Proof. induction 1; intro H2; [exact H2 | eapply cov_ws; eauto | eapply cov_tok; eauto]. Qed.

Definition sub (w : list N) : Prop := forall c, In c w -> inw W c = true.

Lemma sub_strip w : sub w -> sub (strip_eol w).
Proof. intros H c Hc. apply H. unfold strip_eol in Hc. apply filter_In in Hc. apply Hc. Qed.

Lemma inw_In w c : inw w c = true -> In c w.
Proof. apply existsb_N_In. Qed.
Lemma In_inw w c : In c w -> inw w c = true.
Proof. apply existsb_N_In. Qed.

Lemma cov_skip w : sub w -> forall l p, skipn p input = l -> covered p (skip_ws_from w l p).
Proof.
  intros Hw l; induction l as [|c l IH]; intros p E; simpl; [apply cov_nil|].
  destruct (existsb (N.eqb c) w) eqn:Ec; [|apply cov_nil].
  pose proof (skipn_hd p input) as Hn. rewrite E in Hn. destruct (nth_error input p) as [d|] eqn:En; [|discriminate].
  injection Hn as -> El. eapply cov_ws; [exact En | apply Hw, inw_In; exact Ec | apply IH; symmetry; exact El].
Qed.

(* what every state of a run satisfies: without a Comment rule comment_positions records a position only for
   itself, and the whitespace sets in force (effective and declared) are among the grammar's *)
Definition GI (x : st) : Prop := cpos_id (cpos x) /\ sub (ws x) /\ sub (real_ws x).

Lemma I_ext y x : scf y x -> GI x -> GI y.
Proof. unfold scf, GI. intros (A1 & A2 & A3 & A4 & A5 & A6) H. rewrite A1, A2, A6. exact H. Qed.
Lemma I_set_pos p x : GI x -> GI (set_pos p x).
Proof. apply I_ext, scf_set_pos. Qed.
Lemma I_reg_fail p x : GI x -> GI (reg_fail p x).
Proof. apply I_ext, scf_reg_fail. Qed.

(* the invariant of a run that started at p0: GI, and the text from p0 to the current position is tiled *)
Definition St (p0 : nat) (x : st) : Prop := GI x /\ covered p0 (pos x).
Definition good (p0 : nat) : out -> Prop := inv_out (St p0) (St p0) (fun _ => True).

Lemma match_pre_cov rec kf x p0 : St p0 x ->
  exists x1, match_pre g input rec kf x = Ok RNone x1 /\ St p0 x1.
Proof.
  intros [(Hid & Hw & Hr) Hc]. unfold match_pre, parse_comments, maybe_skip_ws, do_skip_ws. rewrite Hnc. cbv zeta.
  assert (Hsk : covered p0 (skip_ws_from (ws x) (skipn (pos x) input) (pos x))).
  { eapply cov_trans; [exact Hc | apply cov_skip; [exact Hw | reflexivity]]. }
  destruct (skipws x) eqn:Esk; simpl; rewrite ?Esk.
  - destruct (lookup _ (cpos x)) as [q|] eqn:EL.
    + apply Hid in EL. subst q. eexists; split; [reflexivity|]. simpl. split; [repeat split; assumption | exact Hsk].
    + destruct (in_cmt x); eexists; (split; [reflexivity|]); simpl; (split; [|exact Hsk]); repeat split; try assumption.
      apply cpos_id_upd, Hid.
  - destruct (in_cmt x); eexists; (split; [reflexivity|]); simpl; (split; [|exact Hc]); repeat split; try assumption.
    apply cpos_id_upd, Hid.
Qed.

Lemma term_parse_cov nid nd psq x p0 :
  In nd (g_nodes g) -> is_match_kind (n_kind nd) = true -> St p0 x ->
  good p0 (term_parse input orc nid (n_kind nd) psq x).
Proof.
  intros Hin EM [HI Hc].
  assert (Hadv : forall len, tmatch input orc (n_kind nd) (pos x) = Some len -> covered p0 (pos x + len)).
  { intros len E. eapply cov_trans; [exact Hc|]. apply (cov_tok (pos x) len (pos x + len)); [exists nd; repeat split; assumption | apply cov_nil]. }
  assert (Hf : good p0 (nm_raise (pos x) x)) by (split; [apply I_reg_fail, HI | simpl; rewrite pos_reg_fail; exact Hc]).
  destruct (n_kind nd) as [| | | | | | | | | |t [o|]|o]; try discriminate; simpl in *.
  - destruct (Nat.eqb (length input) (pos x)); [split; [exact I | split; assumption] | exact Hf].
  - destruct (orc o (pos x)); [|exact Hf]. split; [exact I | split; [apply I_set_pos, HI | apply Hadv; reflexivity]].
  - destruct (is_prefix t (skipn (pos x) input)); [|exact Hf].
    split; [exact I | split; [apply I_set_pos, HI | apply Hadv; reflexivity]].
  - destruct (orc o (pos x)) as [len|]; [|exact Hf]. destruct (Nat.eqb len 0).
    + split; [exact I | split; assumption].
    + split; [exact I | split; [apply I_set_pos, HI | apply Hadv; reflexivity]].
Qed.

Lemma sub_node_ws nd w : In nd (g_nodes g) -> n_ws nd = Some w -> sub w.
Proof.
  intros Hin E c Hc. apply In_inw. unfold W, all_ws. apply in_or_app. right.
  apply in_flat_map. exists nd. split; [exact Hin | rewrite E; exact Hc].
Qed.

Lemma I_set_ws w x : sub w -> GI x -> GI (set_ws w x).
Proof.
  intros Hw (A & B & C). unfold GI. simpl. split; [exact A|]. split; [|exact Hw].
  destruct (eolterm x); [apply sub_strip, Hw | exact Hw].
Qed.
Lemma I_set_skipws v x : GI x -> GI (set_skipws v x).
Proof. intro H. exact H. Qed.
Lemma I_set_eolterm v x : GI x -> GI (set_eolterm v x).
Proof.
  intros (A & B & C). unfold GI. simpl. split; [exact A|]. split; [|exact C].
  destruct v; [apply sub_strip, B | exact C].
Qed.

Lemma I_enter_ws nd x : In nd (g_nodes g) -> GI x -> GI (enter_ws nd x).
Proof.
  intros Hin HI. unfold enter_ws.
  assert (H1 : GI (match n_ws nd with Some w => set_ws w x | None => x end)).
  { destruct (n_ws nd) as [w|] eqn:E; [apply I_set_ws; [eapply sub_node_ws; eauto | exact HI] | exact HI]. }
  destruct (n_skipws nd); [apply I_set_skipws, H1 | exact H1].
Qed.
Lemma I_leave_ws nd old x : GI old -> GI x -> GI (leave_ws nd old x).
Proof.
  intros Ho HI. unfold leave_ws.
  assert (H1 : GI (match n_ws nd with Some _ => set_ws (ws old) x | None => x end)).
  { destruct (n_ws nd); [apply I_set_ws; [apply Ho | exact HI] | exact HI]. }
  destruct (n_skipws nd); [apply I_set_skipws, H1 | exact H1].
Qed.
Lemma I_enter_eol nd x : GI x -> GI (enter_eol nd x).
Proof. intro H. unfold enter_eol. destruct (n_eolterm nd); [apply I_set_eolterm, H | exact H]. Qed.
Lemma I_leave_eol nd old x : GI x -> GI (leave_eol nd old x).
Proof. intro H. unfold leave_eol. destruct (n_eolterm nd); [apply I_set_eolterm, H | exact H]. Qed.

(* the loops and [body] preserve the invariant because the state operations they use do (Proofs/PegRel.v) *)
Lemma body_cov rec kf nd p0 x : inv_parser (St p0) (St p0) (fun _ => True) rec -> In nd (g_nodes g) -> St p0 x ->
  good p0 (body rec kf nd x).
Proof.
  apply (body_inv (St p0) (St p0) (fun _ => True) (covered p0) (fun nd => In nd (g_nodes g))).
  - intros s H. apply H.
  - intros s H. exact H.
  - intros p s Hp [H _]. split; [apply I_set_pos, H | exact Hp].
  - intros p s _ [H Hc]. split; [apply I_reg_fail, H | rewrite pos_reg_fail; exact Hc].
  - intros nd0 s Hin [H Hc]. split; [apply I_enter_ws; assumption | rewrite pos_enter_ws; exact Hc].
  - intros nd0 old s _ [Ho _] [H Hc]. split; [apply I_leave_ws; assumption | rewrite pos_leave_ws; exact Hc].
  - intros nd0 s _ [H Hc]. split; [apply I_enter_eol, H | rewrite pos_enter_eol; exact Hc].
  - intros nd0 old s _ _ [H Hc]. split; [apply I_leave_eol, H | rewrite pos_leave_eol; exact Hc].
  - intros nd0 old s _ _ [H Hc]. split; [apply I_leave_eol, H | rewrite pos_leave_eol; exact Hc].
  - exact I.
  - intros l _. exact I.
Qed.

Lemma parse_cov p0 : forall fuel, inv_parser (St p0) (St p0) (fun _ => True) (parse g input orc false fuel).
Proof.
  intro fuel; induction fuel as [|f IH]; intros nid psq x Hx; simpl; [exact I|].
  destruct (get_node g nid) as [nd|] eqn:EN; [|exact I].
  assert (Hin : In nd (g_nodes g)) by (unfold get_node in EN; eapply nth_error_In; exact EN).
  destruct (is_match_kind (n_kind nd)) eqn:EM.
  - destruct (match_pre_cov (parse g input orc false f) f x p0 Hx) as (x1 & E & Hx1). rewrite E.
    pose proof (term_parse_cov nid nd psq x1 p0 Hin EM Hx1) as H.
    destruct (term_parse input orc nid (n_kind nd) psq x1) as [r x2|x2|w]; [split; [exact I | apply H] | exact H | exact I].
  - pose proof (body_cov (parse g input orc false f) f nd p0 x IH Hin Hx) as H.
    destruct (body (parse g input orc false f) f nd x) as [r x1|x1|w]; [split; [exact I | apply H] | | exact I].
    split; [apply I_set_pos, H | apply Hx].
Qed.

End Gap.

Lemma seq_loop_last rec psq c : forall kids acc x r x1,
  seq_loop rec psq (kids ++ [c]) acc x = Ok r x1 -> exists y r0, rec c psq y = Ok r0 x1.
Proof.
  intros kids; induction kids as [|k0 kids IH]; intros acc x r x1; simpl.
  - destruct (rec c psq x) as [r0 y1|y1|w] eqn:E; try discriminate. intro H. injection H as _ <-. eauto.
  - destruct (rec k0 psq x) as [r0 y1|y1|w]; try discriminate. apply IH.
Qed.

Lemma parse_top_end g input orc fuel x r x1 :
  top_eof g = true ->
  parse g input orc false fuel (g_top g) false x = Ok r x1 -> pos x1 = length input.
Proof.
  unfold top_eof. intros Ht E. destruct fuel as [|f]; [discriminate|]. simpl in E.
  destruct (get_node g (g_top g)) as [nd|]; [|discriminate].
  destruct (n_kind nd) eqn:EK; try discriminate. simpl in E. unfold body in E. rewrite EK in E.
  destruct (rev (n_kids nd)) as [|c l] eqn:ER; [discriminate|].
  assert (EKids : n_kids nd = rev l ++ [c]) by (rewrite <- (rev_involutive (n_kids nd)), ER; reflexivity).
  rewrite EKids in E.
  destruct (seq_loop (parse g input orc false f) true (rev l ++ [c]) [] (enter_ws nd x)) as [r1 y1|y1|w] eqn:ES;
    try discriminate.
  assert (Epos : pos x1 = pos y1).
  { destruct r1 as [|t|[|r0 l0]]; injection E as _ <-; apply pos_leave_ws. }
  rewrite Epos. apply seq_loop_last in ES as (y & r0 & EP).
  destruct (get_node g c) as [ndc|] eqn:EC; [|discriminate]. destruct (n_kind ndc) eqn:EKc; try discriminate.
  destruct f as [|f']; [discriminate|]. simpl in EP. rewrite EC, EKc in EP. simpl in EP.
  destruct (match_pre g input (parse g input orc false f') f' y) as [r2 y2|y2|w]; try discriminate.
  simpl in EP. destruct (Nat.eqb (length input) (pos y2)) eqn:EQ; [|discriminate].
  apply Nat.eqb_eq in EQ. destruct (n_suppress ndc); injection EP as _ <-; symmetry; exact EQ.
Qed.

Lemma GI_init g cfg : GI g cfg (init_st cfg).
Proof.
  assert (Hs : sub g cfg (c_ws cfg)).
  { intros c Hc. apply In_inw. unfold all_ws. apply in_or_app. left. exact Hc. }
  split; [intros p q H; discriminate H | split; exact Hs].
Qed.

(* with a single whitespace mode (no rule-level ws) the tiling uses the configured set only *)
Lemma all_ws_constant g cfg :
  forallb (fun nd => match n_ws nd with None => true | Some _ => false end) (g_nodes g) = true ->
  all_ws g cfg = c_ws cfg.
Proof.
  intro H. unfold all_ws. rewrite forallb_forall in H.
  assert (E : flat_map (fun nd => match n_ws nd with Some w => w | None => [] end) (g_nodes g) = []).
  { induction (g_nodes g) as [|nd l IH]; [reflexivity|]. simpl.
    pose proof (H nd (or_introl eq_refl)) as Hn. destruct (n_ws nd); [discriminate|]. simpl.
    apply IH. intros x Hx. apply H. right. exact Hx. }
  rewrite E. apply app_nil_r.
Qed.

(* Two facts behind corollaries of Props/C22.v.  C19's class ctx_constant lies inside ins_wf: *)
Lemma ctx_constant_ins_wf g cfg ins :
  PegProofs.ctx_constant g = true -> c_skipws cfg = true -> subset_ws ins (c_ws cfg) = true ->
  ins_wf g cfg ins = true.
Proof.
  unfold PegProofs.ctx_constant, ins_wf. intros Hc Hs Hw. apply andb_true_iff in Hc as [Hc _].
  rewrite Hs, Hw. simpl. rewrite forallb_forall in *. intros nd Hin. specialize (Hc nd Hin).
  unfold PegProofs.node_ctx_free in Hc. unfold node_ins_ok.
  destruct (n_ws nd); [discriminate|]. destruct (n_skipws nd); [discriminate|].
  apply negb_true_iff in Hc. rewrite Hc. reflexivity.
Qed.

(* and by fuel monotonicity (Proofs/PegFuel.v) the larger of two sufficient fuels is sufficient for both runs *)
Lemma common_fuel g cfg orc orc' f f' s s' :
  not_aborted (run g cfg orc false f s) -> not_aborted (run g cfg orc' false f' s') ->
  run g cfg orc false (Nat.max f f') s = run g cfg orc false f s /\
  run g cfg orc' false (Nat.max f f') s' = run g cfg orc' false f' s'.
Proof.
  intros Hna Hna'. split; apply PegFuel.run_fuel_mono.
  - apply Nat.le_max_l.
  - intro E. rewrite E in Hna. exact Hna.
  - apply Nat.le_max_r.
  - intro E. rewrite E in Hna'. exact Hna'.
Qed.
