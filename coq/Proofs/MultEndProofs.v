(* C02 — end to end on the models: Peg.v parse -> Build.v object holds, for every attribute, the matched values. *)
From Coq Require Import Lia.
From TxV Require Import Core.Base Model.PegSyntax Model.Peg Model.Build Proofs.BuildProofs Model.MultBuild Proofs.MultBuildProofs.
From TxV Require Model.MultBase Gen.SrcMult Model.Mult Model.MultPeg Proofs.MultProofs Proofs.MultFlowProofs Proofs.MultPegProofs.
From TxV Require Proofs.PegProofs Proofs.PegMemo Model.Spec Proofs.BuildPlaced.

Lemma get_init auto a l : get_val a (init_attrs auto l) = option_map (init_attr auto) (find_attr a l).
Proof.
  induction l as [|x l IH]; [reflexivity|]. cbn [init_attrs map get_val find_attr].
  destruct (str_eqb a (a_name x)); [reflexivity | exact IH].
Qed.

Lemma find_attr_in a l ma : find_attr a l = Some ma -> In ma l.
Proof.
  induction l as [|x l IH]; cbn [find_attr]; [discriminate|].
  destruct (str_eqb a (a_name x)); [intro H; inversion H; left; reflexivity | intro H; right; apply IH, H].
Qed.

Section End2End.
Variable g : grammar.
Variable mm : list ninfo.
Variable input : list N.
Variable grp : nat -> nat -> option (nat * nat).
Variable auto use_grp : bool.
Variable attr_id : list N -> nat.
Variable orc : nat -> nat -> option nat.
Notation pn := (pnode g mm input grp auto use_grp).
Notation tv := (tvals g mm input grp auto use_grp).
Notation conv0 := (fun _ : tree => Mult.SNone).
Notation tn := (MultPeg.tree_nodes g mm attr_id conv0).
Notation evs := (map (Mult.node_ev SrcMult.src_sep_mode)).
Notation prs := (parse g input orc false).

Hypothesis Htab : asg_table_okb g mm = true.

(* What the builder's invariant needs of the children of the rule's NonTerminal, from the trace theorems: the dumped
   multiplicities are the inferred ones, a single-valued attribute is assigned at most once, a list attribute by no `?=`. *)
Lemma trace_facts b nid fuel psq s kids s' attrs :
  MultPeg.den g mm attr_id true b nid = true -> Mult.grammar_ok b = true ->
  prs fuel nid psq s = Ok (RTree (NT nid kids)) s' ->
  mult_agreesb attr_id b attrs = true ->
  (forall ma, find_attr (a_name ma) attrs = Some ma ->
     is_many (a_mult ma) = Mult.is_list (Mult.infer b (attr_id (a_name ma))))
  /\ (forall ma, find_attr (a_name ma) attrs = Some ma -> is_many (a_mult ma) = false ->
        wgt g mm attr_id conv0 (attr_id (a_name ma)) kids <= 1)
  /\ (forall ma, find_attr (a_name ma) attrs = Some ma -> is_many (a_mult ma) = true ->
        forall ev, In ev (evs (flat_map tn kids)) -> Mult.ev_attr ev = attr_id (a_name ma) -> Mult.ev_op ev <> MultBase.OpBool).
Proof.
  intros Hd Hg Hp Hmu.
  pose proof (MultPegProofs.peg_result_is_trace g mm attr_id conv0 input orc b nid fuel psq s _ s' Hd Hp) as Hem.
  cbn [MultPeg.top_nodes] in Hem.
  assert (Hagree : forall ma, find_attr (a_name ma) attrs = Some ma ->
            is_many (a_mult ma) = Mult.is_list (Mult.infer b (attr_id (a_name ma)))).
  { intros ma Hma. unfold mult_agreesb in Hmu. rewrite forallb_forall in Hmu.
    apply Bool.eqb_prop, Hmu, (find_attr_in _ _ _ Hma). }
  split; [exact Hagree|]. split; intros ma Hma Hm; rewrite (Hagree ma Hma) in Hm.
  - pose proof (MultFlowProofs.emits_weight (attr_id (a_name ma)) b _ Hem) as Hw.
    destruct (le_lt_dec 2 (Mult.maxcount (attr_id (a_name ma)) b)) as [L|L];
      [apply MultProofs.infer_list_iff in L; congruence|].
    unfold wgt. unfold Mult.cap2 in Hw. lia.
  - intros ev Hin Ha Hb'. apply (MultFlowProofs.list_attr_not_bool b _ Hg Hm).
    pose proof (MultFlowProofs.emits_events b _ Hem) as Hev. rewrite Forall_forall in Hev.
    destruct (Hev ev Hin) as [Hasg _]. rewrite Ha, Hb' in Hasg. apply MultProofs.in_ops_of, Hasg.
Qed.

Theorem parsed_object_values b nid fuel psq s kids s' cls attrs top cls' p e vals top' :
  MultPeg.den g mm attr_id true b nid = true -> Mult.grammar_ok b = true ->
  prs fuel nid psq s = Ok (RTree (NT nid kids)) s' ->
  info mm nid = IRule RCommon cls attrs ->
  mult_agreesb attr_id b attrs = true ->
  forallb (asg_placed mm true) kids = true ->
  pn (NT nid kids) top = BOk (VObj cls' p e vals, top') ->
  forall ma, find_attr (a_name ma) attrs = Some ma ->
    get_val (a_name ma) vals = Some (expected_val auto ma (tv ma kids))
    /\ (is_many (a_mult ma) = true <-> 2 <= Mult.maxcount (attr_id (a_name ma)) b)
    /\ (is_many (a_mult ma) = false -> length (tv ma kids) <= 1).
Proof.
  intros Hd Hg Hp Hi Hmu Hok Hb.
  destruct (trace_facts b nid fuel psq s kids s' attrs Hd Hg Hp Hmu) as [Hagree [Hscalar Hmany]].
  intros ma Hma. split; [|split].
  - eapply (object_values g mm input grp auto use_grp attr_id conv0 Htab attrs kids Hscalar Hmany); try eassumption.
    intros ma0 Hma0. rewrite get_init, Hma0. reflexivity.
  - rewrite (Hagree ma Hma). apply MultProofs.infer_list_iff.
  - (* a single-valued attribute collects at most one value *)
    intro Hm. pose proof (Hscalar ma Hma Hm) as Hw.
    pose proof (tv_weight g mm input grp auto use_grp attr_id conv0 Htab ma kids) as K. unfold Mult.cap2 in K. lia.
Qed.

(* no 'Multiple assignments': a semantic error while the object is built stems from a nested object or the name check *)
Theorem parsed_object_no_mult_assign b nid fuel psq s kids s' cls attrs top :
  MultPeg.den g mm attr_id true b nid = true -> Mult.grammar_ok b = true ->
  prs fuel nid psq s = Ok (RTree (NT nid kids)) s' ->
  info mm nid = IRule RCommon cls attrs ->
  mult_agreesb attr_id b attrs = true ->
  forallb (asg_placed mm true) kids = true ->
  pn (NT nid kids) top = BErr ESem ->
  (exists k c', In k kids /\ pn k (Some c') = BErr ESem /\
     (not_asg mm k = true \/ exists n' ks a o k0 c'', k = NT n' ks /\ info mm n' = IAsgn a o /\ In k0 ks /\ pn k0 (Some c'') = BErr ESem))
  \/ (exists c1, each_loop pn kids (Some (mkCur cls attrs (tpos (NT nid kids)) (tend (NT nid kids)) (init_attrs auto attrs))) = BOk (Some c1)
                 /\ name_ok (c_vals c1) = false).
Proof.
  intros Hd Hg Hp Hi Hmu Hok Hb.
  destruct (trace_facts b nid fuel psq s kids s' attrs Hd Hg Hp Hmu) as [_ [Hscalar Hmany]].
  eapply (object_no_mult_assign g mm input grp auto use_grp attr_id conv0 Htab attrs kids Hscalar Hmany); try eassumption.
  intros ma0 Hma0. rewrite get_init, Hma0. reflexivity.
Qed.

(* the parser model's top: Sequence(root rule, EOF) *)
Definition top_okb (nid : nat) : bool :=
  match get_node g (g_top g) with
  | Some nt =>
    match n_kind nt, n_kids nt with
    | KSeq, [r; eo] => Nat.eqb r nid && n_root nt && negb (n_suppress nt) &&
                       match get_node g eo with Some ne => match n_kind ne with KEOF => true | _ => false end | None => false end
    | _, _ => false
    end
  | None => false
  end.

Lemma den_top_node b nid : MultPeg.den g mm attr_id true b nid = true ->
  exists nd, get_node g nid = Some nd /\ n_root nd = true /\ n_suppress nd = false /\ is_match_kind (n_kind nd) = false.
Proof.
  intro H. destruct b; cbn [MultPeg.den] in H; destruct (get_node g nid) as [nd|]; try discriminate; exists nd;
    try (cbn [negb andb] in H; discriminate);
    repeat (apply andb_true_iff in H; destruct H as [H ?]);
    repeat match goal with
           | K : (_ && _)%bool = true |- _ => apply andb_true_iff in K; destruct K
           | K : negb _ = true |- _ => apply negb_true_iff in K
           | K : MultPeg.kind_eqb _ _ = true |- _ => apply MultPegProofs.kind_eqb_eq in K
           end;
    (split; [reflexivity|]); (split; [assumption|]); (split; [assumption|]);
    match goal with K : n_kind nd = _ |- _ => rewrite K; reflexivity end.
Qed.

Lemma root_result f nid nd psq s r s' :
  get_node g nid = Some nd -> n_root nd = true -> is_match_kind (n_kind nd) = false ->
  prs f nid psq s = Ok r s' -> Peg.truthy r = true -> exists ks, r = RTree (NT nid ks).
Proof.
  intros Hn Hr Hm Hp Ht. destruct f as [|f]; [discriminate|].
  destruct (MultPegProofs.prs_nonmatch g input orc f nid psq s nd r s' Hn Hm Hp) as [rb [s1 [Hb ->]]].
  pose proof (MultPegProofs.body_shape _ _ _ _ _ _ Hb) as Hl.
  destruct (MultPegProofs.post_listy nid nd rb Hl) as [r1 [_ [_ E1]]]. rewrite E1, Hr in *. cbn [andb] in *.
  destruct (Peg.truthy r1) eqn:E; [eauto | rewrite E in Ht; discriminate].
Qed.

Lemma term_not_obj n p l cls p' e vals : term_value g mm input grp use_grp n p l <> BOk (VObj cls p' e vals).
Proof.
  unfold term_value. destruct use_grp; [|discriminate].
  destruct (get_node g n) as [nd|]; [|discriminate].
  destruct (n_kind nd); try discriminate. destruct (info mm n) as [| |r gr|]; try discriminate.
  destruct gr as [|[|?]]; try discriminate.
  destruct (grp oid p) as [[gs gl]|]; [discriminate|]. destruct (is_base5 (rule_of g n)); discriminate.
Qed.

Theorem run_object_values_nomemo b nid cfg fuel r cls attrs cls' p e vals :
  MultPeg.den g mm attr_id true b nid = true -> Mult.grammar_ok b = true -> top_okb nid = true ->
  info mm nid = IRule RCommon cls attrs -> mult_agreesb attr_id b attrs = true ->
  run g cfg orc false fuel input = Parsed r ->
  (forall tp t rest, r = RTree (NT tp (t :: rest)) -> asg_placed mm false t = true) ->
  build g mm input grp auto use_grp r = BOk (VObj cls' p e vals) ->
  exists kids tp rest, r = RTree (NT tp (NT nid kids :: rest)) /\
  forall ma, find_attr (a_name ma) attrs = Some ma ->
    get_val (a_name ma) vals = Some (expected_val auto ma (tv ma kids))
    /\ (is_many (a_mult ma) = true <-> 2 <= Mult.maxcount (attr_id (a_name ma)) b)
    /\ (is_many (a_mult ma) = false -> length (tv ma kids) <= 1).
Proof.
  intros Hd Hg Htop Hi Hmu Hrun Hok Hb.
  unfold build in Hb. destruct r as [|[|tp [|t rest]]|]; try discriminate.
  unfold run in Hrun. destruct (prs fuel (g_top g) false (init_st cfg)) as [r0 s0|s0|w] eqn:Ep; try discriminate.
  inversion Hrun; subst r0. clear Hrun.
  unfold top_okb in Htop. destruct (get_node g (g_top g)) as [nt|] eqn:Ent; [|discriminate].
  destruct (n_kind nt) eqn:Ekt; try discriminate. destruct (n_kids nt) as [|rid [|eo [|? ?]]] eqn:Ekids; try discriminate.
  repeat (apply andb_true_iff in Htop; destruct Htop as [Htop ?]).
  apply Nat.eqb_eq in Htop. subst rid. rename H into Heo, H0 into Hsup, H1 into Hroot. apply negb_true_iff in Hsup.
  destruct (get_node g eo) as [ne|] eqn:Ene; [|discriminate]. destruct (n_kind ne) eqn:Eke; try discriminate.
  destruct fuel as [|f]; [discriminate|].
  assert (Hmk : is_match_kind (n_kind nt) = false) by (rewrite Ekt; reflexivity).
  destruct (MultPegProofs.prs_nonmatch g input orc f _ _ _ nt _ _ Ent Hmk Ep) as [rb [s1 [Hbody Hpost]]].
  unfold body in Hbody. rewrite Ekt, Ekids in Hbody. cbn [seq_loop] in Hbody.
  destruct (prs f nid true (enter_ws nt (init_st cfg))) as [r1 sa|sa|w] eqn:E1; try discriminate.
  destruct (prs f eo true sa) as [r2 sb|sb|w] eqn:E2; try discriminate.
  (* the EOF result is a terminal or None *)
  assert (H2 : r2 = RNone \/ exists n2 p2 l2 sp2, r2 = RTree (T n2 p2 l2 sp2)).
  { destruct f as [|f']; [discriminate|]. rewrite MultPegProofs.prs_S, Ene, Eke in E2. cbn [is_match_kind] in E2.
    destruct (match_pre g input (prs f') f' sa) as [? sm|sm|w]; try discriminate.
    unfold term_parse in E2. destruct (Nat.eqb (length input) (pos sm)); [|discriminate].
    inversion E2. destruct (n_suppress ne); [left; reflexivity | right; eauto]. }
  destruct (den_top_node b nid Hd) as [nd [Hn [Hr [Hs Hm]]]].
  destruct (Peg.truthy r1) eqn:Et1.
  - destruct (root_result f nid nd true _ r1 sa Hn Hr Hm E1 Et1) as [ks ->].
    assert (Ht : t = NT nid ks).
    { cbn [app] in Hbody.
      assert (Hrb : exists tl, rb = RList (RTree (NT nid ks) :: tl)).
      { destruct (Peg.truthy r2); cbn [app] in Hbody; inversion Hbody; eauto. }
      destruct Hrb as [tl ->]. unfold post in Hpost. rewrite Hroot, Hsup in Hpost. cbn in Hpost. inversion Hpost. reflexivity. }
    subst t. exists ks, tp, rest. split; [reflexivity|].
    destruct (pn (NT nid ks) None) as [[v top']|er] eqn:Epn; [|discriminate]. inversion Hb; subst v.
    eapply parsed_object_values; try eassumption.
    pose proof (Hok tp (NT nid ks) rest eq_refl) as Hpl. cbn [asg_placed] in Hpl. unfold info in Hi. rewrite Hi in Hpl. exact Hpl.
  - (* the rule matched nothing: the first child of the top NonTerminal is not the rule's tree *)
    exfalso. cbn [app] in Hbody.
    destruct H2 as [-> | [n2 [p2 [l2 [sp2 ->]]]]]; cbn in Hbody; inversion Hbody; subst rb;
      unfold post in Hpost; rewrite Hroot, Hsup in Hpost; cbn in Hpost; inversion Hpost; subst.
    cbn [pnode] in Hb. destruct (term_value g mm input grp use_grp n2 p2 l2) as [v|er] eqn:Etv; [|discriminate].
    inversion Hb; subst v. exact (term_not_obj _ _ _ _ _ _ _ Etv).
Qed.

(* memoization on: for context-constant parser models the memoized run is the un-memoized one (C19) *)
Theorem run_object_values memo b nid cfg fuel r cls attrs cls' p e vals :
  (memo = true -> PegProofs.ctx_constant g = true /\ PegMemo.not_aborted (run g cfg orc false fuel input)) ->
  MultPeg.den g mm attr_id true b nid = true -> Mult.grammar_ok b = true -> top_okb nid = true ->
  info mm nid = IRule RCommon cls attrs -> mult_agreesb attr_id b attrs = true ->
  run g cfg orc memo fuel input = Parsed r ->
  (forall tp t rest, r = RTree (NT tp (t :: rest)) -> asg_placed mm false t = true) ->
  build g mm input grp auto use_grp r = BOk (VObj cls' p e vals) ->
  exists kids tp rest, r = RTree (NT tp (NT nid kids :: rest)) /\
  forall ma, find_attr (a_name ma) attrs = Some ma ->
    get_val (a_name ma) vals = Some (expected_val auto ma (tv ma kids))
    /\ (is_many (a_mult ma) = true <-> 2 <= Mult.maxcount (attr_id (a_name ma)) b)
    /\ (is_many (a_mult ma) = false -> length (tv ma kids) <= 1).
Proof.
  intros Hmemo Hd Hg Htop Hi Hmu Hrun Hok Hb.
  destruct memo.
  - destruct (Hmemo eq_refl) as [Hc Hna]. rewrite (PegMemo.memo_safe g input orc Hc cfg fuel Hna) in Hrun.
    eapply run_object_values_nomemo; eassumption.
  - eapply run_object_values_nomemo; eassumption.
Qed.

End End2End.

(* Hypotheses on the table and the oracle only: Build.asg_placed is derived from the table by Proofs/BuildPlaced.v (table_asg_ok,
   asg_placed_of_run_tree). *)
Lemma placed_any_under mm t u u' : not_asg mm t = true -> asg_placed mm u t = asg_placed mm u' t.
Proof.
  destruct t as [|nid ks]; [reflexivity|]. cbn [not_asg asg_placed]. unfold info.
  destruct (nth nid mm IOther); try reflexivity. discriminate.
Qed.

Lemma built_not_asg g mm input grp auto use_grp t v top' :
  pnode g mm input grp auto use_grp t None = BOk (v, top') -> not_asg mm t = true.
Proof.
  destruct t as [|nid ks]; [reflexivity|]. cbn [pnode not_asg]. destruct (info mm nid); try reflexivity. discriminate.
Qed.

Theorem run_object_values_table g mm input grp auto use_grp attr_id orc :
  asg_table_okb g mm = true ->
  forall pf K memo b nid cfg fuel r cls attrs cls' p e vals,
  Spec.wfg g pf = true -> Spec.orc_pos orc -> BuildPlaced.table_asg_ok g mm K = true ->
  (memo = true -> PegProofs.ctx_constant g = true /\ PegMemo.not_aborted (run g cfg orc false fuel input)) ->
  MultPeg.den g mm attr_id true b nid = true -> Mult.grammar_ok b = true -> top_okb g nid = true ->
  info mm nid = IRule RCommon cls attrs -> mult_agreesb attr_id b attrs = true ->
  run g cfg orc memo fuel input = Parsed r ->
  build g mm input grp auto use_grp r = BOk (VObj cls' p e vals) ->
  exists kids tp rest, r = RTree (NT tp (NT nid kids :: rest)) /\
  forall ma, find_attr (a_name ma) attrs = Some ma ->
    get_val (a_name ma) vals = Some (expected_val auto ma (tvals g mm input grp auto use_grp ma kids))
    /\ (is_many (a_mult ma) = true <-> 2 <= Mult.maxcount (attr_id (a_name ma)) b)
    /\ (is_many (a_mult ma) = false -> length (tvals g mm input grp auto use_grp ma kids) <= 1).
Proof.
  intros Htab pf K memo b nid cfg fuel r cls attrs cls' p e vals Hwf Horc Hta Hmemo Hd Hg Htop Hi Hmu Hrun Hb.
  assert (Hrun0 : run g cfg orc false fuel input = Parsed r).
  { destruct memo; [|exact Hrun]. destruct (Hmemo eq_refl) as [Hc Hna].
    rewrite <- (PegMemo.memo_safe g input orc Hc cfg fuel Hna). exact Hrun. }
  eapply (run_object_values g mm input grp auto use_grp attr_id orc Htab false); try eassumption; [discriminate|].
  intros tp t rest Er. subst r.
  pose proof (BuildPlaced.asg_placed_of_run_tree g pf mm K cfg orc fuel input tp t rest Hwf Horc Hta Hrun0) as Hpl.
  unfold build in Hb. destruct (pnode g mm input grp auto use_grp t None) as [[v top']|er] eqn:Ep; [|discriminate].
  rewrite (placed_any_under mm t false (BuildPlaced.commonb mm tp) (built_not_asg _ _ _ _ _ _ _ _ _ Ep)). exact Hpl.
Qed.
