(* Lexer correctness on printed token sequences: the terminals of the RREL grammar (the regexes
   translated from the source, matched by the backtracking semantics of Model/Rx.v) recover
   exactly the tokens whose texts were concatenated, provided no two adjacent tokens run
   together:   toks_ok ts = true  ->  lex_text u (render ts) = Some ts. *)
From TxV Require Import Core.Base Model.Rx Model.RrelSyntaxLib Gen.SrcRrelSyntax Model.RrelSyntax Model.RrelSyntaxText.
From TxV Require Import Proofs.RxProofs Proofs.RrelSyntaxPrintProofs.
Require Import Lia ZifyBool.

Section LexProofs.
Variable u : N -> N.
Notation E := (rrel_env u).

Lemma Hic : e_ignorecase E = false.
Proof. reflexivity. Qed.

Lemma first_none r st : ends E r st = [] -> rx_first E r st = None.
Proof. unfold rx_first. intros ->. reflexivity. Qed.

Lemma idstart_word c : idstart u c = true -> Rx.is_word E c = true.
Proof. unfold idstart. intro H. apply andb_true_iff in H. tauto. Qed.
Lemma idstart_not_digit c : idstart u c = true -> Rx.is_digit E c = false.
Proof. unfold idstart. intro H. apply andb_true_iff in H as [_ H]. destruct (Rx.is_digit E c); [discriminate | reflexivity]. Qed.
Lemma word_neq c d : Rx.is_word E c = true -> Rx.is_word E d = false -> N.eqb c d = false.
Proof. intros H1 H2. destruct (N.eqb c d) eqn:Hcd; [|reflexivity]. apply N.eqb_eq in Hcd. subst. congruence. Qed.
Lemma word_not_ws c : Rx.is_word E c = true -> ws_char c = false.
Proof.
  intro H. unfold ws_char, g_ws. cbn [existsb].
  rewrite !(word_neq c _ H) by reflexivity. reflexivity.
Qed.
(* ASCII identifiers [A-Za-z_][A-Za-z0-9_]* are identifiers for every classification *)
Lemma word_word c : RrelSyntax.is_word c = true -> Rx.is_word E c = true.
Proof.
  unfold RrelSyntax.is_word, is_alpha, RrelSyntax.is_digit, Rx.is_word, in_range. intro H.
  destruct (N.ltb c 128) eqn:Hc; lia.
Qed.
Lemma alpha_idstart c : is_alpha c = true -> idstart u c = true.
Proof.
  intro H. unfold idstart. rewrite word_word by (unfold RrelSyntax.is_word; rewrite H; reflexivity).
  unfold is_alpha in H. unfold Rx.is_digit, in_range. destruct (N.ltb c 128) eqn:Hc; lia.
Qed.
Definition ident_ascii (s : list N) : bool :=
  match s with c :: r => (is_alpha c && forallb RrelSyntax.is_word r)%bool | [] => false end.
Lemma ident_ascii_ident s : ident_ascii s = true -> ident u s = true.
Proof.
  destruct s as [|c r]; [discriminate|]. cbn [ident_ascii ident]. intro H. apply andb_true_iff in H as [Hc Hr].
  rewrite (alpha_idstart c Hc). apply forallb_forall. intros x Hx. apply word_word. rewrite forallb_forall in Hr. apply Hr. exact Hx.
Qed.

Lemma set_word c : set_mem E c [ICat false CWord] = Rx.is_word E c.
Proof. rewrite set_mem_plain by exact Hic. cbn [existsb item_match cat_match]. destruct (Rx.is_word E c); reflexivity. Qed.
Lemma set_idstart c : set_mem E c [ICat false CDigit; ICat true CWord] = (Rx.is_digit E c || negb (Rx.is_word E c))%bool.
Proof.
  rewrite set_mem_plain by exact Hic. cbn [existsb item_match cat_match].
  destruct (Rx.is_digit E c); destruct (Rx.is_word E c); reflexivity.
Qed.
Lemma set_flag c : set_mem E c [IChar 109%N; IChar 112%N] = is_flagch c.
Proof.
  rewrite set_mem_plain by exact Hic. unfold is_flagch. cbn [existsb item_match].
  destruct (N.eqb c 109); destruct (N.eqb c 112); reflexivity.
Qed.

(* flags:  \+[mp]+: *)
Lemma first_flags pre fl rest : struth fl = true -> forallb is_flagch fl = true ->
  exists pre', rx_first E rx_rrel_flags (pre, r_tok (TFlags fl) ++ rest) = Some (pre', rest).
Proof.
  intros Hne Hall. destruct fl as [|c fl]; [discriminate|]. eexists. unfold rx_rrel_flags.
  cbn [r_tok app]. rewrite <- app_assoc. eapply first_seq.
  { unfold rx_first. rewrite ends_chr by exact Hic. reflexivity. }
  eapply first_seq.
  { apply (first_plus_set E false _ c fl).
    - apply forallb_forall. intros x Hx. rewrite xorb_false_l, set_flag.
      rewrite forallb_forall in Hall. apply Hall. exact Hx.
    - cbn [stops app]. rewrite xorb_false_l, set_flag. reflexivity. }
  unfold rx_first. cbn [app]. rewrite ends_chr by exact Hic. reflexivity.
Qed.

Lemma flags_none pre c t : N.eqb c 43 = false -> rx_first E rx_rrel_flags (pre, c :: t) = None.
Proof.
  intro H. apply first_none. unfold rx_rrel_flags. apply ends_seq_nil_l.
  rewrite ends_chr by exact Hic. rewrite H. reflexivity.
Qed.

(* rrel_id:  [^\d\W]\w*\b *)
Lemma rev_head_in (l pre : list N) : l <> [] -> exists d m, rev l ++ pre = d :: m /\ In d l.
Proof.
  intro H. destruct (rev l) as [|d m] eqn:Hr.
  - exfalso. apply H. apply (f_equal (@rev N)) in Hr. rewrite rev_involutive in Hr. exact Hr.
  - exists d, (m ++ pre). split; [reflexivity|]. apply in_rev. rewrite Hr. left. reflexivity.
Qed.

Lemma first_id pre c s rest : idstart u c = true -> forallb (Rx.is_word E) s = true ->
  stops (Rx.is_word E) rest ->
  rx_first E rx_rrel_id (pre, (c :: s) ++ rest) = Some (rev s ++ c :: pre, rest).
Proof.
  intros Hc Hs Hstop. unfold rx_rrel_id. cbn [app].
  eapply first_seq.
  { unfold rx_first. rewrite ends_set. cbn [xorb]. rewrite set_idstart, (idstart_not_digit c Hc), (idstart_word c Hc). reflexivity. }
  eapply first_seq.
  { apply first_star_set.
    - apply forallb_forall. intros x Hx. rewrite xorb_false_l, set_word.
      rewrite forallb_forall in Hs. apply Hs. exact Hx.
    - destruct rest as [|d rest']; [exact I|]. cbn [stops] in *. rewrite xorb_false_l, set_word. exact Hstop. }
  unfold rx_first. cbn [ends]. unfold word_boundary. cbn [fst snd xorb].
  assert (Hw : forall x, In x (c :: s) -> Rx.is_word E x = true).
  { intros x [<-|Hx]; [apply idstart_word; exact Hc|]. rewrite forallb_forall in Hs. apply Hs. exact Hx. }
  change (rev s ++ c :: pre) with (rev s ++ [c] ++ pre). rewrite app_assoc.
  change (rev s ++ [c]) with (rev (c :: s)).
  destruct (rev_head_in (c :: s) pre) as [d [m [Hd Hin]]]; [discriminate|]. rewrite Hd.
  rewrite (Hw d Hin).
  destruct rest as [|d' rest']; [reflexivity|]. cbn [stops] in Hstop. rewrite Hstop. reflexivity.
Qed.

Lemma id_none pre c t : Rx.is_word E c = false -> rx_first E rx_rrel_id (pre, c :: t) = None.
Proof.
  intro H. apply first_none. unfold rx_rrel_id. apply ends_seq_nil_l.
  rewrite ends_set. cbn [xorb]. rewrite set_idstart, H. cbn. rewrite orb_true_r. reflexivity.
Qed.

(* rrel_dots:  \.+ *)
Definition is_dot (c : N) : bool := N.eqb c 46.

Lemma ends_dots st : ends E rx_rrel_dots st =
  rep_loop (step1 (fun c => chr_eq E c 46%N)) true 1 None (S (1 + length (snd st))) st.
Proof. reflexivity. Qed.

Lemma first_dots pre n rest : stops is_dot rest ->
  exists pre', rx_first E rx_rrel_dots (pre, repeat 46%N (S n) ++ rest) = Some (pre', rest).
Proof.
  intro Hstop. unfold rx_first. rewrite ends_dots. cbn [snd repeat app]. rewrite rep_loop_lo. cbn [pred_opt].
  rewrite (step1_hit (fun c => chr_eq E c 46%N)) by reflexivity.
  cbn [flat_map]. rewrite app_nil_r.
  rewrite (rep_star_step1 (fun c => chr_eq E c 46%N)).
  - destruct (prefix_states_hd (46%N :: pre) (repeat 46%N n) rest) as [tl Htl]. rewrite Htl. eexists. reflexivity.
  - apply forallb_forall. intros x Hx. apply repeat_spec in Hx. subst. reflexivity.
  - destruct rest as [|d rest']; [exact I|]. cbn [stops] in *. rewrite chr_eq_plain by exact Hic. exact Hstop.
  - cbn [length]. lia.
Qed.

Lemma dots_none pre c t : N.eqb c 46 = false -> rx_first E rx_rrel_dots (pre, c :: t) = None.
Proof.
  intro H. apply first_none. rewrite ends_dots. cbn [snd]. rewrite rep_loop_lo.
  unfold step1. cbn [snd]. rewrite chr_eq_plain by exact Hic. rewrite H. reflexivity.
Qed.

(* string_value:  q((\q)|[^q])*q *)
Section StringRx.
Variable q : N.
Hypothesis Hq : N.eqb q 92 = false.

Definition sv_body : rx := RGroup 1 (RAlt (RGroup 2 (RSeq (RChr 92) (RChr q))) (RSet true [IChar q])).
Definition sv_rx : rx := RSeq (RChr q) (RSeq (RRep true 0 None sv_body) (RChr q)).

Lemma Hq' : N.eqb 92 q = false.
Proof. rewrite N.eqb_sym. exact Hq. Qed.

Lemma ends_sv_body pre c t :
  ends E sv_body (pre, c :: t) =
  (if N.eqb c 92 then match t with
                      | d :: t' => if N.eqb d q then [(d :: c :: pre, t')] else []
                      | [] => []
                      end else [])
  ++ (if N.eqb c q then [] else [(c :: pre, t)]).
Proof.
  unfold sv_body. rewrite ends_group, ends_alt, ends_group, ends_seq. f_equal.
  - rewrite ends_chr by exact Hic. destruct (N.eqb c 92); [|reflexivity].
    cbn [flat_map]. rewrite app_nil_r.
    destruct t as [|d t']; [reflexivity|]. rewrite ends_chr by exact Hic. reflexivity.
  - apply ends_notchr. exact Hic.
Qed.

(* the greedy walk over a writable text stops exactly at the closing quote *)
Lemma sv_star f : forall pre rest fuel,
  str_ok q f = true -> length (f ++ q :: rest) < fuel ->
  exists pre', hd_error (rep_loop (ends E sv_body) true 0 None fuel (pre, f ++ q :: rest)) = Some (pre', q :: rest).
Proof.
  induction f as [|c f IHf IHt] using list_ind2; intros pre rest fuel Hok Hfuel;
    (destruct fuel as [|fu]; [inversion Hfuel|]).
  - cbn [app rep_loop is_zero_opt]. rewrite ends_sv_body, Hq, N.eqb_refl. eexists. reflexivity.
  - cbn [str_ok] in Hok. unfold c_bslash in Hok. cbn [app length] in Hfuel. apply Nat.succ_lt_mono in Hfuel.
    destruct (N.eqb c q) eqn:Hcq; [discriminate|].
    destruct (N.eqb c 92) eqn:Hc92;
      [destruct f as [|d f]; [discriminate|]; cbn [tl] in IHt; destruct (N.eqb d q) eqn:Hd|].
    + (* backslash quote: taken as one unit *)
      destruct (IHt (d :: c :: pre) rest fu Hok) as [pre' Hr]; [exact (Nat.lt_succ_l _ _ Hfuel)|].
      exists pre'. eapply star_first_step; [| |exact Hr].
      * cbn [app]. rewrite ends_sv_body, Hc92, Hd. reflexivity.
      * apply Nat.lt_lt_succ_r, Nat.lt_succ_diag_r.
    + (* a backslash that is part of the text *)
      destruct (IHf (c :: pre) rest fu Hok Hfuel) as [pre' Hr].
      exists pre'. eapply star_first_step; [| |exact Hr].
      * cbn [app]. rewrite ends_sv_body, Hc92, Hd, Hcq. reflexivity.
      * apply Nat.lt_succ_diag_r.
    + destruct (IHf (c :: pre) rest fu Hok Hfuel) as [pre' Hr].
      exists pre'. eapply star_first_step; [| |exact Hr].
      * cbn [app]. rewrite ends_sv_body, Hc92, Hcq. reflexivity.
      * apply Nat.lt_succ_diag_r.
Qed.

Lemma first_sv pre f rest : str_ok q f = true ->
  exists pre', rx_first E sv_rx (pre, q :: f ++ q :: rest) = Some (pre', rest).
Proof.
  intro Hok. unfold sv_rx.
  destruct (sv_star f (q :: pre) rest _ Hok (Nat.lt_succ_diag_r _)) as [pre' Hr].
  eexists. eapply first_seq.
  { unfold rx_first. rewrite ends_chr by exact Hic. rewrite N.eqb_refl. reflexivity. }
  eapply first_seq.
  { exact Hr. }
  unfold rx_first. rewrite ends_chr by exact Hic. rewrite N.eqb_refl. reflexivity.
Qed.
Lemma sv_none pre c t : N.eqb c q = false -> rx_first E sv_rx (pre, c :: t) = None.
Proof.
  intro H. apply first_none. unfold sv_rx. apply ends_seq_nil_l. rewrite ends_chr by exact Hic. rewrite H. reflexivity.
Qed.
End StringRx.

Lemma sv0_shape : rx_string_value_0 = sv_rx 39.
Proof. reflexivity. Qed.
Lemma sv1_shape : rx_string_value_1 = sv_rx 34.
Proof. reflexivity. Qed.

Lemma take_match_app m r : take_match (m ++ r) r = m.
Proof.
  unfold take_match. rewrite app_length, Nat.add_sub, firstn_app, firstn_all, Nat.sub_diag. apply app_nil_r.
Qed.

Lemma strip_ends_wrap a f b : strip_ends (a :: f ++ [b]) = f.
Proof. unfold strip_ends. cbn [tl]. apply removelast_last. Qed.

(* what may follow a token's text without running into it *)
Definition sep_ok (t : tok) (rest : list N) : Prop :=
  match t with
  | TId _ => stops (Rx.is_word E) rest
  | TDots _ => stops is_dot rest
  | _ => True
  end.

Lemma ws_char_cases c : ws_char c = false ->
  N.eqb c 9 = false /\ N.eqb c 10 = false /\ N.eqb c 13 = false /\ N.eqb c 32 = false.
Proof.
  unfold ws_char, g_ws. cbn [existsb]. intro H.
  apply orb_false_iff in H as [H9 H]. apply orb_false_iff in H as [H10 H].
  apply orb_false_iff in H as [H13 H]. apply orb_false_iff in H as [H32 _]. auto.
Qed.

Lemma first_tok_flags pre fl rest : struth fl = true -> forallb is_flagch fl = true ->
  exists pre', first_tok u pre (r_tok (TFlags fl) ++ rest) = Some (TFlags fl, (pre', rest)).
Proof.
  intros Hne Hall. unfold first_tok.
  destruct (first_flags pre fl rest Hne Hall) as [pre' ->]. cbn [snd r_tok]. exists pre'.
  rewrite take_match_app, strip_ends_wrap. reflexivity.
Qed.

Lemma first_tok_id pre s rest : ident u s = true -> stops (Rx.is_word E) rest ->
  exists pre', first_tok u pre (r_tok (TId s) ++ rest) = Some (TId s, (pre', rest)).
Proof.
  intros Hid Hstop. cbn [r_tok]. destruct s as [|c s]; [discriminate|].
  cbn [ident] in Hid. apply andb_true_iff in Hid as [Hc Hs].
  unfold first_tok. cbn [app].
  rewrite flags_none by (apply word_neq; [apply idstart_word; exact Hc | reflexivity]).
  pose proof (first_id pre c s rest Hc Hs Hstop) as H. cbn [app] in H. rewrite H. cbn [snd].
  eexists. f_equal. f_equal. f_equal.
  change (c :: s ++ rest) with ((c :: s) ++ rest). apply take_match_app.
Qed.

Lemma first_tok_dots pre n rest : Nat.eqb n 0 = false -> stops is_dot rest ->
  exists pre', first_tok u pre (r_tok (TDots n) ++ rest) = Some (TDots n, (pre', rest)).
Proof.
  intros Hn Hstop. destruct n as [|n]; [discriminate|]. cbn [r_tok].
  destruct (first_dots pre n rest Hstop) as [pre' H].
  unfold first_tok. cbn [repeat app] in *.
  rewrite flags_none by reflexivity. rewrite id_none by reflexivity. rewrite H. cbn [snd].
  exists pre'. f_equal. f_equal. f_equal.
  change (46%N :: repeat 46%N n ++ rest) with (repeat 46%N (S n) ++ rest).
  rewrite take_match_app. apply repeat_length.
Qed.

Lemma first_tok_str pre f q rest : (N.eqb q c_squote || N.eqb q c_dquote)%bool = true -> str_ok q f = true ->
  exists pre', first_tok u pre (r_tok (TStr f q) ++ rest) = Some (TStr f q, (pre', rest)).
Proof.
  intros Hq Hok. cbn [r_tok].
  assert (Happ : (q :: f ++ [q]) ++ rest = q :: f ++ q :: rest) by (cbn [app]; rewrite <- app_assoc; reflexivity).
  unfold c_squote, c_dquote in Hq. apply orb_true_iff in Hq as [Hq|Hq]; apply N.eqb_eq in Hq; subst q.
  - destruct (first_sv 39%N eq_refl pre f rest Hok) as [pre' H].
    unfold first_tok. rewrite Happ.
    rewrite flags_none by reflexivity. rewrite id_none by reflexivity. rewrite dots_none by reflexivity.
    rewrite sv0_shape, H. cbn [snd]. exists pre'. rewrite <- Happ, take_match_app, strip_ends_wrap. reflexivity.
  - destruct (first_sv 34%N eq_refl pre f rest Hok) as [pre' H].
    unfold first_tok. rewrite Happ.
    rewrite flags_none by reflexivity. rewrite id_none by reflexivity. rewrite dots_none by reflexivity.
    rewrite sv0_shape, sv_none by reflexivity.
    rewrite sv1_shape, H. cbn [snd]. exists pre'. rewrite <- Happ, take_match_app, strip_ends_wrap. reflexivity.
Qed.

Lemma first_tok_punct pre c t rest : punct c = Some t -> Rx.is_word E c = false ->
  N.eqb c 43 = false -> N.eqb c 46 = false -> N.eqb c 39 = false -> N.eqb c 34 = false ->
  first_tok u pre (c :: rest) = Some (t, (c :: pre, rest)).
Proof.
  intros Hp Hw H43 H46 H39 H34. unfold first_tok.
  rewrite flags_none by exact H43. rewrite id_none by exact Hw. rewrite dots_none by exact H46.
  rewrite sv0_shape, sv_none by exact H39. rewrite sv1_shape, sv_none by exact H34.
  rewrite Hp. reflexivity.
Qed.

Lemma first_tok_ok pre t rest : tok_ok u t = true -> sep_ok t rest ->
  exists pre', first_tok u pre (r_tok t ++ rest) = Some (t, (pre', rest)).
Proof.
  intros Hok Hsep. destruct t as [s | f q | n | | | | | | | fl]; cbn [tok_ok sep_ok] in *.
  4-9: eexists; apply first_tok_punct; reflexivity.
  - apply first_tok_id; assumption.
  - apply andb_true_iff in Hok as [Hq Hf]. apply first_tok_str; assumption.
  - apply first_tok_dots; [|assumption]. unfold nonzero in Hok. destruct (Nat.eqb n 0); [discriminate | reflexivity].
  - apply andb_true_iff in Hok as [Hne Hall]. apply first_tok_flags; assumption.
Qed.

(* the first character of a token's text *)
Lemma r_tok_head t : tok_ok u t = true ->
  exists c m, r_tok t = c :: m /\ ws_char c = false /\
              (cls t <> 1 -> Rx.is_word E c = false) /\ (cls t <> 2 -> is_dot c = false).
Proof.
  intro Hok. destruct t as [s | f q | n | | | | | | | fl]; cbn [tok_ok r_tok cls] in *.
  4-10: eexists _, _; split; [reflexivity|]; split; [reflexivity|]; split; intros _; reflexivity.
  - destruct s as [|c s]; [discriminate|]. cbn [ident] in Hok. apply andb_true_iff in Hok as [Hc _].
    exists c, s. split; [reflexivity|]. split; [apply word_not_ws, idstart_word; exact Hc|].
    split; [intro H; exfalso; apply H; reflexivity|]. intros _. apply word_neq; [apply idstart_word; exact Hc | reflexivity].
  - apply andb_true_iff in Hok as [Hq _]. unfold c_squote, c_dquote in Hq.
    apply orb_true_iff in Hq as [Hq|Hq]; apply N.eqb_eq in Hq; subst q;
      (eexists _, _; split; [reflexivity|]; split; [reflexivity|]; split; intros _; reflexivity).
  - destruct n as [|n]; [discriminate|]. cbn [repeat].
    eexists _, _. split; [reflexivity|]. split; [reflexivity|]. split; [intros _; reflexivity|].
    intro H. exfalso. apply H. reflexivity.
Qed.

Lemma sep_of_clash t t2 x : tok_ok u t2 = true -> clash (cls t) (cls t2) = false -> sep_ok t (r_tok t2 ++ x).
Proof.
  intros Hok Hcl. destruct (r_tok_head t2 Hok) as [c [m [-> [_ [Hw Hd]]]]]. cbn [app].
  destruct t; cbn [sep_ok cls stops] in *; try exact I.
  - apply Hw. intro H1. rewrite H1 in Hcl. discriminate.
  - apply Hd. intro H2. rewrite H2 in Hcl. discriminate.
Qed.

Lemma lex_render : forall ts p fuel pre,
  forallb (tok_ok u) ts = true -> adj_from p ts = true -> length (render ts) < fuel ->
  lex_rx u fuel pre (render ts) = Some ts.
Proof.
  induction ts as [|t r IH]; intros p fuel pre Hall Hadj Hfuel.
  - destruct fuel as [|f]; [inversion Hfuel|]. reflexivity.
  - cbn [forallb] in Hall. apply andb_true_iff in Hall as [Ht Hr].
    cbn [adj_from] in Hadj. apply andb_true_iff in Hadj as [_ Hadj].
    destruct (r_tok_head t Ht) as [c [m [Hrt [Hws _]]]].
    assert (Hf : exists f, fuel = S f /\ length (render r) < f).
    { rewrite render_cons, app_length, Hrt in Hfuel. cbn [length] in Hfuel. clear - Hfuel.
      destruct fuel as [|f]; [lia|]. exists f. split; [reflexivity | lia]. }
    destruct Hf as [f [-> Hf]].
    assert (Hsep : sep_ok t (render r)).
    { destruct r as [|t2 r']; [destruct t; exact I|].
      cbn [forallb] in Hr. apply andb_true_iff in Hr as [Ht2 _].
      cbn [adj_from] in Hadj. apply andb_true_iff in Hadj as [Hcl _].
      rewrite render_cons. apply sep_of_clash; [exact Ht2|]. destruct (clash (cls t) (cls t2)); [discriminate | reflexivity]. }
    destruct (first_tok_ok pre t (render r) Ht Hsep) as [pre' Hft].
    rewrite render_cons. rewrite Hrt in Hft |- *. cbn [app lex_rx] in Hft |- *. rewrite Hws, Hft.
    rewrite (IH (cls t) f pre' Hr Hadj Hf). reflexivity.
Qed.

Theorem lex_text_render ts : toks_ok u ts = true -> lex_text u (render ts) = Some ts.
Proof.
  unfold toks_ok, lex_text. intro H. apply andb_true_iff in H as [Hall Hadj].
  apply (lex_render ts 0); [exact Hall | exact Hadj | lia].
Qed.

End LexProofs.
