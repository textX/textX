From Coq Require Import Permutation.
From TxV Require Import Core.Base Gen.SrcResolve Model.Resolve.

(* What holds of step / round / loop / qround / qloop of Model/Resolve.v whatever the facts of
   Gen/SrcResolve.v are: at which end Postponed references are put back, what counts as progress,
   the loop condition, the error condition, how a list reference is stored. *)

Lemma carry_perm f x l : Permutation (carry f x l) (x :: l).
Proof. unfold carry. destruct f; [|reflexivity]. symmetry. apply Permutation_cons_append. Qed.

Lemma carry_length f x l : length (carry f x l) = S (length l).
Proof. exact (Permutation_length (carry_perm f x l)). Qed.

Lemma counted_le1 x : counted x <= 1.
Proof. unfold counted. destruct (if xmany x then _ else _); lia. Qed.

(* nothing below may look into the carriers of the facts *)
Opaque carry counted holds.

(* One pass and one round as relations: induction over a run replaces, in every lemma about a
   pass, the case analysis of the provider's answer and of the recursive call. *)
Inductive step_run (ans : provider) : list xref -> state -> state -> list xref -> list xref -> nat -> Prop :=
| run_done st : step_run ans [] st st [] [] 0
| run_resolved x t r st st' np d c :
    ans x st = Resolved t -> step_run ans r (store x t (bump x st)) st' np d c ->
    step_run ans (x :: r) st st' np d (counted x + c)
| run_postponed x r st st' np d c :
    ans x st = Postponed -> step_run ans r (bump x st) st' np d c ->
    step_run ans (x :: r) st st' (carry postponed_requeued_at_front x np) (carry postponed_reported_at_front x d) c.

Lemma step_spec ans : forall pend st,
  match step ans pend st with
  | Some (st', np, d, c) => step_run ans pend st st' np d c
  | None => exists x st1, ans x st1 = NotFound
  end.
Proof.
  induction pend as [|x r IH]; intro st; cbn [step]; [constructor|].
  destruct (ans x st) as [t| |] eqn:Ea; [| |exists x, st; exact Ea].
  - specialize (IH (store x t (bump x st))). destruct (step ans r _) as [[[[st1 np] d] c]|]; [|exact IH].
    exact (run_resolved ans x t r st _ _ _ _ Ea IH).
  - specialize (IH (bump x st)). destruct (step ans r _) as [[[[st1 np] d] c]|]; [|exact IH].
    exact (run_postponed ans x r st _ _ _ _ Ea IH).
Qed.

Lemma step_runs ans pend st st' np d c :
  step ans pend st = Some (st', np, d, c) -> step_run ans pend st st' np d c.
Proof. intro H. pose proof (step_spec ans pend st) as R. rewrite H in R. exact R. Qed.

Inductive qround_run (ans : sprovider) :
  list (list xref) -> state -> (nat -> bool) -> state -> list (list xref) -> list (list xref) -> nat -> (nat -> bool) -> Prop :=
| qrun_done st s : qround_run ans [] st s st [] [] 0 s
| qrun_model m ms st s st1 np d c st2 nps ds c' s2 :
    step (ans s) m st = Some (st1, np, d, c) -> qround_run ans ms st1 (commit m st1 s) st2 nps ds c' s2 ->
    qround_run ans (m :: ms) st s st2 (np :: nps) (d :: ds) (c + c') s2.

Lemma qround_spec ans : forall models st s,
  match qround ans models st s with
  | Some (st', pends, dels, c, s') => qround_run ans models st s st' pends dels c s'
  | None => exists s1 x st1, ans s1 x st1 = NotFound
  end.
Proof.
  induction models as [|m ms IH]; intros st s; cbn [qround]; [constructor|].
  pose proof (step_spec (ans s) m st) as R1.
  destruct (step (ans s) m st) as [[[[st1 np] d] c1]|] eqn:E1; [|exists s; exact R1].
  specialize (IH st1 (commit m st1 s)). destruct (qround ans ms st1 _) as [[[[[st2 nps] ds] c2] s2]|]; [|exact IH].
  exact (qrun_model ans m ms st s _ _ _ _ _ _ _ _ _ E1 IH).
Qed.

Lemma qround_runs ans models st s st' pends dels c s' :
  qround ans models st s = Some (st', pends, dels, c, s') -> qround_run ans models st s st' pends dels c s'.
Proof. intro H. pose proof (qround_spec ans models st s) as R. rewrite H in R. exact R. Qed.

(* only a provider that finds nothing stops a round *)
Lemma qround_some (ans : sprovider) :
  (forall s x st, ans s x st <> NotFound) -> forall models st s, qround ans models st s <> None.
Proof.
  intros Hans models st s E. pose proof (qround_spec ans models st s) as R. rewrite E in R.
  destruct R as [s1 [x [st1 Ea]]]. exact (Hans s1 x st1 Ea).
Qed.

(* A provider that does not look at the snapshot: round / loop / load are qround / qloop / qload of
   it, so what is proved of qload for every sprovider holds of load for every provider. *)
Lemma round_qround ans : forall models st s,
  round ans models st = option_map fst (qround (fun _ => ans) models st s).
Proof.
  induction models as [|m ms IH]; intros st s; cbn [round qround]; [reflexivity|].
  destruct (step ans m st) as [[[[st1 np] d] c]|]; [|reflexivity].
  rewrite (IH st1 (commit m st1 s)). destruct (qround _ ms st1 _) as [[[[[st2 nps] ds] c'] s2]|]; reflexivity.
Qed.

Lemma loop_qloop ans : forall fuel models st s,
  loop fuel ans models st = qloop fuel (fun _ => ans) models st s.
Proof.
  induction fuel as [|f IH]; intros models st s; cbn [loop qloop]; [reflexivity|].
  rewrite (round_qround ans models st s).
  destruct (qround _ models st s) as [[[[[st' pends] dels] c] s']|]; cbn [option_map fst]; [|reflexivity].
  rewrite (IH pends st' s'). reflexivity.
Qed.

Lemma load_qload ans models : load ans models = qload (fun _ => ans) models.
Proof. apply loop_qloop. Qed.

(* a pass touches the targets of its own references only *)
Lemma step_frame ans pend st st' np d c :
  step ans pend st = Some (st', np, d, c) -> forall i, ~ In i (map xid pend) -> tgt st' i = tgt st i.
Proof.
  intro H. apply step_runs in H.
  induction H as [st | x t r st st' np d c _ _ IH | x r st st' np d c _ _ IH]; intros i Hi; cbn [map In] in Hi.
  - reflexivity.
  - rewrite IH by tauto. cbn [tgt store bump].
    destruct (Nat.eqb_spec i (xid x)) as [E|]; [|reflexivity]. destruct Hi. left. symmetry. exact E.
  - apply IH. tauto.
Qed.

(* at the boundaries of the passes the snapshot is the resolved set *)
Definition agrees (s : nat -> bool) (st : state) : Prop := forall i, s i = resolved_set st i.

Lemma commit_agrees ans m st st1 np d c s :
  step ans m st = Some (st1, np, d, c) -> agrees s st -> agrees (commit m st1 s) st1.
Proof.
  intros E A i. unfold commit. destruct (existsb (fun x => Nat.eqb i (xid x)) m) eqn:Ex; [reflexivity|].
  rewrite (A i). unfold resolved_set. rewrite (step_frame _ _ _ _ _ _ _ E i); [reflexivity|].
  intro Hin. apply in_map_iff in Hin as [x [<- Hx]].
  rewrite (proj2 (existsb_exists _ m)) in Ex; [discriminate|]. exists x. split; [exact Hx | apply Nat.eqb_refl].
Qed.

Lemma qround_agrees ans models st s st' pends dels c s' :
  qround ans models st s = Some (st', pends, dels, c, s') -> agrees s st -> agrees s' st'.
Proof.
  intro H. apply qround_runs in H.
  induction H as [st s | m ms st s st1 np d c st2 nps ds c' s2 E1 _ IH]; intro A; [exact A|].
  apply IH. exact (commit_agrees _ _ _ _ _ _ _ _ E1 A).
Qed.

(* the pending references
   Over a fixed population [all] with unique identities, the pending lists of a load hold exactly
   the references without a target, each once.  A pass, and a round, keep that, together with any
   predicate of snapshot and state that survives a bump, the storing of an answer the provider gave
   for a reference without target, and the commit of the snapshot. *)
Section Pending.
  Variable all : list xref.
  Hypothesis ids_unique : NoDup (map xid all).

  Lemma same_id_same_ref x y : In x all -> In y all -> xid x = xid y -> x = y.
  Proof.
    revert ids_unique. induction all as [|a l IH]; intros ND Hx Hy E; [destruct Hx|].
    cbn [map] in ND. inversion ND as [|? ? Hn ND']; subst.
    destruct Hx as [Hx|Hx], Hy as [Hy|Hy]; subst.
    - reflexivity.
    - exfalso. apply Hn. rewrite E. apply in_map. exact Hy.
    - exfalso. apply Hn. rewrite <- E. apply in_map. exact Hx.
    - apply IH; assumption.
  Qed.

  Definition pending (st : state) (pend : list xref) : Prop :=
    (forall x, In x pend -> In x all /\ tgt st (xid x) = None) /\
    (forall x, In x all -> tgt st (xid x) = None -> In x pend).

  Lemma pending_perm st p q : Permutation p q -> pending st p -> pending st q.
  Proof.
    intros P [I1 I2]. split.
    - intros x Hx. apply I1. apply (Permutation_in x (Permutation_sym P) Hx).
    - intros x Hx Ht. apply (Permutation_in x P). apply I2; assumption.
  Qed.

  Lemma pending_store st x t pend :
    pending st (x :: pend) -> ~ In x pend -> pending (store x t (bump x st)) pend.
  Proof.
    intros [I1 I2] Hnin. destruct (I1 x (or_introl eq_refl)) as [Hx Hn]. split.
    - intros y Hy. destruct (I1 y (or_intror Hy)) as [Hya Hyn]. split; [exact Hya|].
      cbn [tgt store bump]. destruct (Nat.eqb_spec (xid y) (xid x)) as [E|]; [|exact Hyn].
      destruct Hnin. rewrite <- (same_id_same_ref y x Hya Hx E). exact Hy.
    - intros y Hya Hyn. cbn [tgt store bump] in Hyn.
      destruct (Nat.eqb_spec (xid y) (xid x)) as [|E]; [discriminate|].
      destruct (I2 y Hya Hyn) as [<-|Hy]; [destruct E; reflexivity | exact Hy].
  Qed.

  Lemma pending_init models : concat models = all -> pending init (concat models).
  Proof. intros ->. split; [intros x Hx; split; [exact Hx | reflexivity] | intros x Hx _; exact Hx]. Qed.

  Section Invariant.
    Variable ans : sprovider.
    Variable I : (nat -> bool) -> state -> Prop.
    Hypothesis I_bump : forall s x st, I s st -> I s (bump x st).
    Hypothesis I_store : forall s x t st,
      In x all -> tgt st (xid x) = None -> ans s x st = Resolved t -> I s st -> I s (store x t (bump x st)).
    Hypothesis I_commit : forall s m st, I s st -> I (commit m st s) st.

    (* [others]: the pending references of the other models *)
    Lemma step_inv s pend st st' np d c :
      step (ans s) pend st = Some (st', np, d, c) -> forall others,
      NoDup (pend ++ others) -> pending st (pend ++ others) -> I s st ->
      pending st' (np ++ others) /\ NoDup (np ++ others) /\ I s st' /\ Permutation d np.
    Proof.
      intro H. apply step_runs in H.
      induction H as [st | x t r st st' np d c Ea _ IH | x r st st' np d c _ _ IH]; intros others ND HP HI.
      - split; [exact HP | split; [exact ND | split; [exact HI | constructor]]].
      - cbn [app] in ND, HP. destruct (proj1 (NoDup_cons_iff _ _) ND) as [Hnin ND'].
        destruct (proj1 HP x (or_introl eq_refl)) as [Hx Hn].
        apply IH; [exact ND' | apply pending_store; assumption | exact (I_store s x t st Hx Hn Ea HI)].
      - (* x waits behind the rest of the pass, then is put back at one end of the queue *)
        assert (P : Permutation ((x :: r) ++ others) (r ++ x :: others)) by apply Permutation_middle.
        destruct (IH (x :: others)) as [HP' [ND' [HI' Pd]]];
          [exact (Permutation_NoDup P ND) | exact (pending_perm _ _ _ P HP) | apply I_bump; exact HI |].
        assert (Pm : Permutation (np ++ x :: others) (carry postponed_requeued_at_front x np ++ others)).
        { apply (Permutation_trans (Permutation_sym (Permutation_middle np others x))).
          exact (Permutation_app_tail others (Permutation_sym (carry_perm _ x np))). }
        split; [exact (pending_perm _ _ _ Pm HP') | split; [exact (Permutation_NoDup Pm ND') | split; [exact HI'|]]].
        apply (Permutation_trans (carry_perm _ x d)). apply (Permutation_trans (perm_skip x Pd)).
        symmetry. apply carry_perm.
    Qed.

    Lemma qround_inv models st s st' pends dels c s' :
      qround ans models st s = Some (st', pends, dels, c, s') -> forall others,
      NoDup (concat models ++ others) -> pending st (concat models ++ others) -> I s st ->
      pending st' (concat pends ++ others) /\ NoDup (concat pends ++ others) /\ I s' st' /\
      Permutation (concat dels) (concat pends).
    Proof.
      intro H. apply qround_runs in H.
      induction H as [st s | m ms st s st1 np d c st2 nps ds c' s2 E1 _ IH]; intros others ND HP HI.
      - split; [exact HP | split; [exact ND | split; [exact HI | constructor]]].
      - cbn [concat] in *. rewrite <- app_assoc in ND, HP.
        destruct (step_inv _ _ _ _ _ _ _ E1 _ ND HP HI) as [HP1 [ND1 [HI1 Pd]]].
        (* the models still to come move to the front, this model's new pending list joins [others] *)
        assert (P1 : Permutation (np ++ concat ms ++ others) (concat ms ++ np ++ others)).
        { rewrite !app_assoc. apply Permutation_app_tail. apply Permutation_app_comm. }
        destruct (IH (np ++ others)) as [HP2 [ND2 [HI2 Pds]]];
          [exact (Permutation_NoDup P1 ND1) | exact (pending_perm _ _ _ P1 HP1) | apply I_commit; exact HI1 |].
        assert (P2 : Permutation (concat nps ++ np ++ others) ((np ++ concat nps) ++ others)).
        { rewrite !app_assoc. apply Permutation_app_tail. apply Permutation_app_comm. }
        split; [exact (pending_perm _ _ _ P2 HP2) | split; [exact (Permutation_NoDup P2 ND2) | split; [exact HI2|]]].
        apply Permutation_app; assumption.
    Qed.
  End Invariant.
End Pending.

Transparent carry counted holds.
