(* C05 — proofs about Model/Nav.v *)
From TxV Require Import Core.Base Model.Nav.

Notation ids l := (map obj_id l).
Notation allf := (fun _ : obj => true).

Lemma flat_map_length_ge {A B} (f : A -> list B) l a : In a l -> length (f a) <= length (flat_map f l).
Proof.
  induction l as [|b l IH]; simpl; intros H; [contradiction|]. rewrite app_length.
  destruct H as [->|H]; [apply Nat.le_add_r | exact (Nat.le_trans _ _ _ (IH H) (Nat.le_add_l _ _))].
Qed.

(* the members of a duplicate-free flat_map are duplicate-free, and no element belongs to two of them *)
Lemma NoDup_flat_map_in {A B} (f : A -> list B) l a : NoDup (flat_map f l) -> In a l -> NoDup (f a).
Proof.
  induction l as [|b l IH]; simpl; intros Hn Ha; [contradiction|].
  apply NoDup_app_iff in Hn as [Hb [Hl _]]. destruct Ha as [<-|Ha]; auto.
Qed.

Lemma NoDup_flat_map_owner {A B} (f : A -> list B) l a a' x :
  NoDup (flat_map f l) -> In a l -> In a' l -> In x (f a) -> In x (f a') -> a = a'.
Proof.
  induction l as [|b l IH]; simpl; intros Hn Ha Ha' Hx Hx'; [contradiction|].
  apply NoDup_app_iff in Hn as [_ [Hl Hd]].
  assert (Hout : forall c, In c l -> In x (f c) -> In x (f b) -> False).
  { intros c Hc Hxc Hxb. apply (Hd x Hxb). apply in_flat_map. exists c. auto. }
  destruct Ha as [<-|Ha], Ha' as [<-|Ha']; [reflexivity | | | auto]; exfalso; eauto.
Qed.

Lemma NoDup_flat_map_sub {A B} (f g : A -> list B) (l : list A) :
  (forall a, In a l -> NoDup (g a) -> NoDup (f a)) ->
  (forall a x, In x (f a) -> In x (g a)) ->
  NoDup (flat_map g l) -> NoDup (flat_map f l).
Proof.
  induction l as [|a l IH]; simpl; intros H1 H2 Hn; [constructor|].
  apply NoDup_app_iff in Hn as [Ha [Hb Hd]]. apply NoDup_app_iff. repeat split.
  - apply H1; [left; reflexivity | assumption].
  - apply IH; [intros b Hb'; apply H1; right; assumption | assumption | assumption].
  - intros x Hx Hy. apply (Hd x); [apply H2; assumption|].
    apply in_flat_map in Hy as [b [Hb1 Hb2]]. apply in_flat_map. exists b. auto.
Qed.

Lemma ids_incl (l1 l2 : list obj) :
  (forall x, In x l1 -> In x l2) -> forall i, In i (ids l1) -> In i (ids l2).
Proof.
  intros H i Hi. apply in_map_iff in Hi as [o [E Ho]]. apply in_map_iff. exists o. auto.
Qed.

Lemma filter_ids_incl (sel : obj -> bool) l x : In x (ids (filter sel l)) -> In x (ids l).
Proof. apply ids_incl. intros o Ho. apply filter_In in Ho. apply Ho. Qed.

Lemma mem_N_false x l : ~ In x l -> mem_N x l = false.
Proof. apply existsb_N_false. Qed.

Lemma mem_N_true x l : In x l -> mem_N x l = true.
Proof. apply existsb_N_In. Qed.

(* Every recursion of Model/Nav.v over the slots of a node (walk, follow_attrs, build, strip) makes the
   same case split per slot; all of them are recursions over this one list, in this order. *)
Definition held (slots : list (ameta * list obj)) : list obj :=
  flat_map (fun mvs => if acont (fst mvs) then slot_vals (fst mvs) (snd mvs) else []) slots.

Lemma held_cons m vs slots :
  held ((m, vs) :: slots) = (if acont m then slot_vals m vs else []) ++ held slots.
Proof. reflexivity. Qed.

Lemma held_flat_map {B} (f : obj -> list B) slots :
  flat_map (fun mvs : ameta * list obj =>
              if acont (fst mvs) then
                if amany (fst mvs) then flat_map f (snd mvs)
                else match snd mvs with [] => [] | v :: _ => f v end
              else []) slots
  = flat_map f (held slots).
Proof.
  induction slots as [|[m vs] slots IH]; [reflexivity|].
  cbn [flat_map fst snd]. rewrite IH, held_cons, flat_map_app. apply (f_equal (fun l => l ++ _)).
  unfold slot_vals. destruct (acont m); [|reflexivity]. destruct (amany m); [reflexivity|].
  destruct vs; [reflexivity | symmetry; apply app_nil_r].
Qed.

Lemma follow_elems_app F sf l1 l2 st :
  follow_elems F sf (l1 ++ l2) st = follow_elems F sf l2 (follow_elems F sf l1 st).
Proof. revert st. induction l1 as [|v l1 IH]; intro st; [reflexivity | apply IH]. Qed.

Lemma follow_attrs_held F sf slots st :
  follow_attrs F sf slots st = follow_elems F sf (held slots) st.
Proof.
  revert st. induction slots as [|[m vs] slots IH]; intro st; [reflexivity|].
  rewrite held_cons, follow_elems_app, <- IH. cbn [follow_attrs]. apply f_equal.
  unfold slot_vals. destruct (acont m); [|reflexivity]. destruct (amany m); [reflexivity|].
  destruct vs; reflexivity.
Qed.

Lemma cont_child_held p c : cont_child p c <-> is_node c = true /\ In c (held (obj_slots p)).
Proof.
  unfold cont_child, held. rewrite in_flat_map. split.
  - intros [Hn [m [vs [H1 [H2 H3]]]]]. split; [assumption|]. exists (m, vs). simpl. rewrite H2. auto.
  - intros [Hn [[m vs] [H1 H2]]]. simpl in H2. destruct (acont m) eqn:E; [|contradiction].
    split; [assumption|]. exists m, vs. auto.
Qed.

(* induction on object trees; the usable form, with the hypothesis about the held values, is
   [obj_held_ind] *)
Section ObjInd.
  Variable P : obj -> Prop.
  Hypothesis HPrim : forall k t, P (Prim k t).
  Hypothesis HRef : forall t, P (Ref t).
  Hypothesis HNode : forall id c slots,
    Forall (fun mvs : ameta * list obj => Forall P (snd mvs)) slots -> P (Node id c slots).

  Fixpoint obj_ind' (o : obj) : P o :=
    match o with
    | Prim k t => HPrim k t
    | Ref t => HRef t
    | Node id c slots =>
        HNode id c slots
          ((fix slots_ind (ss : list (ameta * list obj))
              : Forall (fun mvs : ameta * list obj => Forall P (snd mvs)) ss :=
              match ss with
              | [] => Forall_nil _
              | mvs :: ss' =>
                  Forall_cons mvs
                    ((fix vals_ind (vs : list obj) : Forall P vs :=
                        match vs with
                        | [] => Forall_nil _
                        | v :: vs' => Forall_cons v (obj_ind' v) (vals_ind vs')
                        end) (snd mvs))
                    (slots_ind ss')
              end) slots)
    end.
End ObjInd.

Lemma obj_held_ind (P : obj -> Prop) :
  (forall k t, P (Prim k t)) -> (forall t, P (Ref t)) ->
  (forall id c slots, Forall P (held slots) -> P (Node id c slots)) ->
  forall o, P o.
Proof.
  intros HP HR HN. induction o as [k t|t|id c slots IH] using obj_ind'; auto.
  apply HN. apply Forall_flat_map. revert IH. apply Forall_impl. intros [m vs] H. simpl in *.
  destruct (acont m); [|constructor]. unfold slot_vals. destruct (amany m); [exact H|].
  destruct H; repeat constructor; assumption.
Qed.

Definition wval (sf : obj -> bool) (cf : bool) (v : obj) : list obj := if sf v then walk sf cf v else [].
Definition below (sf : obj -> bool) (cf : bool) (slots : list (ameta * list obj)) : list obj :=
  flat_map (wval sf cf) (held slots).

Lemma walk_node sf cf id c slots :
  walk sf cf (Node id c slots) =
  if cf then below sf cf slots ++ [Node id c slots] else Node id c slots :: below sf cf slots.
Proof. unfold below. rewrite <- held_flat_map. reflexivity. Qed.

Lemma nodes_node id c slots : nodes (Node id c slots) = Node id c slots :: flat_map nodes (held slots).
Proof. apply (walk_node allf false). Qed.

Lemma in_below sf cf slots x :
  In x (below sf cf slots) <-> exists v, In v (held slots) /\ sf v = true /\ In x (walk sf cf v).
Proof.
  unfold below, wval. rewrite in_flat_map. split; intros [v H]; exists v.
  - destruct (sf v); [tauto | destruct H as [_ []]].
  - destruct H as [Hv [-> Hx]]. auto.
Qed.

Lemma in_walk_node sf cf id c slots x :
  In x (walk sf cf (Node id c slots)) <-> x = Node id c slots \/ In x (below sf cf slots).
Proof.
  rewrite walk_node. destruct cf.
  - rewrite in_app_iff. simpl. split; [intros [H|[H|[]]]; auto | intros [H|H]; auto].
  - simpl. split; intros [H|H]; auto.
Qed.

(* the state after the selected objects of l were collected *)
Definition ext (sel : obj -> bool) (st : state) (l : list obj) : state :=
  (fst st ++ filter sel l, rev (ids (filter sel l)) ++ snd st).

(* l can still be walked from st: its identities are distinct and none was collected *)
Definition ok (l : list obj) (st : state) : Prop :=
  NoDup (ids l) /\ forall x, In x (ids l) -> ~ In x (snd st).

Lemma ext_nil sel st : ext sel st [] = st.
Proof. unfold ext; simpl. rewrite app_nil_r. destruct st; reflexivity. Qed.

Lemma ext_app sel st l1 l2 : ext sel (ext sel st l1) l2 = ext sel st (l1 ++ l2).
Proof.
  unfold ext; simpl. rewrite filter_app, map_app, rev_app_distr, !app_assoc. reflexivity.
Qed.

Lemma ext_one sel st o :
  ext sel st [o] = if sel o then collect o (obj_id o) st else st.
Proof.
  unfold ext, collect; simpl. destruct (sel o); simpl; [reflexivity|].
  rewrite app_nil_r. destruct st; reflexivity.
Qed.

Lemma ok_app_l l1 l2 st : ok (l1 ++ l2) st -> ok l1 st.
Proof.
  intros [Hn Hd]. rewrite map_app in Hn, Hd. apply NoDup_app_iff in Hn as [Ha _].
  split; [assumption|]. intros x Hx. apply Hd. apply in_or_app; left; assumption.
Qed.

Lemma ok_app_r sel l1 l2 st : ok (l1 ++ l2) st -> ok l2 (ext sel st l1).
Proof.
  intros [Hn Hd]. rewrite map_app in Hn, Hd. apply NoDup_app_iff in Hn as [_ [Hb Hdis]].
  split; [assumption|]. intros x Hx Hin. unfold ext in Hin; simpl in Hin.
  apply in_app_or in Hin as [Hin|Hin].
  - apply in_rev in Hin. apply filter_ids_incl in Hin. eapply Hdis; eauto.
  - eapply Hd; [|exact Hin]. apply in_or_app; right; assumption.
Qed.

Section FollowWalk.
  Variables sel sf : obj -> bool.
  Variable cf : bool.

  Definition follow_ok (v : obj) : Prop :=
    forall st, ok (walk sf cf v) st -> follow sel sf cf v st = ext sel st (walk sf cf v).

  Lemma follow_elems_walk vs :
    Forall follow_ok vs ->
    forall st, ok (flat_map (wval sf cf) vs) st ->
    follow_elems (follow sel sf cf) sf vs st = ext sel st (flat_map (wval sf cf) vs).
  Proof.
    induction 1 as [|v vs Hv Hvs IH]; intros st Hok; simpl.
    - symmetry; apply ext_nil.
    - simpl in Hok. rewrite <- ext_app. rewrite <- IH by (eapply ok_app_r; exact Hok).
      apply f_equal. apply ok_app_l in Hok. unfold wval in *. destruct (sf v).
      + apply Hv; assumption.
      + symmetry; apply ext_nil.
  Qed.

End FollowWalk.

Lemma follow_walk sel sf cf : forall o, follow_ok sel sf cf o.
Proof.
  induction o as [k t|t|id c slots IH] using obj_held_ind; intros st Hok;
    [symmetry; apply ext_nil | symmetry; apply ext_nil |].
  cbn [follow]. rewrite follow_attrs_held. rewrite walk_node in *. unfold below in *.
  assert (Hid : mem_N id (snd st) = false).
  { apply mem_N_false. destruct Hok as [_ Hd]. apply Hd. apply in_map_iff. exists (Node id c slots).
    split; [reflexivity|]. destruct cf; [apply in_or_app; right|]; left; reflexivity. }
  rewrite Hid. destruct cf; simpl.
  - (* children first: the contents from st, then the object *)
    rewrite (follow_elems_walk sel sf true _ IH st (ok_app_l _ _ _ Hok)).
    rewrite <- ext_app, ext_one. reflexivity.
  - (* the object, then the contents from the state that has it *)
    change (?o :: ?l) with ([o] ++ l) in *.
    rewrite <- ext_app. rewrite <- (follow_elems_walk sel sf false _ IH _ (ok_app_r sel _ _ _ Hok)).
    rewrite ext_one. destruct (sel (Node id c slots)); reflexivity.
Qed.

Theorem get_children_walk sel sf cf root :
  NoDup (ids (walk sf cf root)) ->
  get_children sel root cf sf = filter sel (walk sf cf root).
Proof.
  intro Hn. unfold get_children. rewrite follow_walk; [reflexivity|].
  split; [assumption | intros x _ []].
Qed.

Lemma self_in_walk sf cf o : is_node o = true -> In o (walk sf cf o).
Proof. destruct o; try discriminate. intros _. apply in_walk_node. left; reflexivity. Qed.

Lemma walk_child sf cf o p c :
  In p (walk sf cf o) -> cont_child p c -> sf c = true -> In c (walk sf cf o).
Proof.
  revert p c. induction o as [k t|t|id cl slots IH] using obj_held_ind; intros p c Hp Hc Hs; try contradiction.
  apply in_walk_node. right. apply in_below.
  apply in_walk_node in Hp as [->|Hp].
  - apply cont_child_held in Hc as [Hn Hc]. exists c. auto using self_in_walk.
  - apply in_below in Hp as [v [Hv [Hsv Hp]]]. rewrite Forall_forall in IH.
    exists v. split; [assumption|]. split; [assumption|]. exact (IH v Hv p c Hp Hc Hs).
Qed.

Lemma reach_trans sf o a b : reach sf o a -> reach sf a b -> reach sf o b.
Proof. induction 2; [assumption | eapply reach_step; eassumption]. Qed.

Lemma walk_reach sf cf o x : In x (walk sf cf o) -> reach sf o x.
Proof.
  revert x. induction o as [k t|t|id c slots IH] using obj_held_ind; intros x Hx; try contradiction.
  apply in_walk_node in Hx as [->|Hx]; [apply reach_root; reflexivity|].
  apply in_below in Hx as [v [Hv [Hs Hx]]]. rewrite Forall_forall in IH.
  apply reach_trans with v; [|exact (IH v Hv x Hx)].
  apply reach_step with (Node id c slots); [apply reach_root; reflexivity | | exact Hs].
  apply cont_child_held. split; [|exact Hv]. destruct v; try contradiction; reflexivity.
Qed.

Lemma walk_only_nodes sf cf o x : In x (walk sf cf o) -> is_node x = true.
Proof. intro H. apply walk_reach in H. destruct H as [|p c _ [Hc _] _]; assumption. Qed.

Lemma reach_walk sf cf o x : reach sf o x -> In x (walk sf cf o).
Proof.
  induction 1 as [Ho|p c Hr IH Hc Hs].
  - apply self_in_walk; assumption.
  - eapply walk_child; eassumption.
Qed.

Theorem walk_iff_reach sf cf o x : In x (walk sf cf o) <-> reach sf o x.
Proof. split; [apply walk_reach | apply reach_walk]. Qed.

Lemma reach_true sf o x : reach sf o x -> reach allf o x.
Proof. induction 1; [apply reach_root; assumption | eapply reach_step; eauto]. Qed.

Lemma walk_incl_nodes sf cf o x : In x (walk sf cf o) -> In x (nodes o).
Proof. intro H. apply walk_reach, reach_true in H. apply (reach_walk allf false). exact H. Qed.

Lemma nodes_trans o a b : In a (nodes o) -> In b (nodes a) -> In b (nodes o).
Proof. unfold nodes. rewrite !walk_iff_reach. apply reach_trans. Qed.

Lemma below_incl sf cf slots x : In x (below sf cf slots) -> In x (flat_map nodes (held slots)).
Proof.
  rewrite in_below, in_flat_map. intros [v [Hv [_ Hx]]]. exists v. eauto using walk_incl_nodes.
Qed.

(* distinct identities are inherited by every pruned walk *)
Lemma walk_nodup sf cf o : uniq o -> NoDup (ids (walk sf cf o)).
Proof.
  unfold uniq.
  induction o as [k t|t|id c slots IH] using obj_held_ind; intro Hn; try (simpl; constructor).
  rewrite nodes_node in Hn. simpl in Hn. apply NoDup_cons_iff in Hn as [Hnot Hb].
  assert (C1 : NoDup (ids (below sf cf slots))).
  { unfold below. rewrite map_flat_map in *. rewrite Forall_forall in IH.
    apply (NoDup_flat_map_sub _ (fun v => ids (nodes v))); [| |assumption].
    - intros v Hv. unfold wval. destruct (sf v); [exact (IH v Hv) | intros _; constructor].
    - intros v. apply ids_incl. intros y. unfold wval. destruct (sf v); [apply walk_incl_nodes | intros []]. }
  assert (C2 : ~ In id (ids (below sf cf slots))).
  { intro H. apply Hnot. revert H. apply ids_incl. intros y. apply below_incl. }
  rewrite walk_node. destruct cf.
  - rewrite map_app. apply NoDup_app_iff. repeat split; [assumption | constructor; [intros [] | constructor] |].
    intros x Hx [<-|[]]. contradiction.
  - simpl. constructor; assumption.
Qed.

Theorem get_children_uniq sel sf cf root :
  uniq root -> get_children sel root cf sf = filter sel (walk sf cf root).
Proof. intro H. apply get_children_walk. apply walk_nodup. exact H. Qed.

Lemma NoDup_ids_filter (sel : obj -> bool) l : NoDup (ids l) -> NoDup (ids (filter sel l)).
Proof.
  induction l as [|o l IH]; simpl; intro H; [constructor|]. apply NoDup_cons_iff in H as [Hnot Hl].
  destruct (sel o); simpl; [constructor; [intro Hin; apply Hnot; eapply filter_ids_incl; exact Hin | auto] | auto].
Qed.

Lemma build_node stack id c slots :
  build stack (Node id c slots) =
  (id, {| hcls := c; hparent := parent_attr stack slots |}) :: flat_map (build (id :: stack)) (held slots).
Proof. rewrite <- held_flat_map. reflexivity. Qed.

Lemma build_keys o : forall stack, map fst (build stack o) = ids (nodes o).
Proof.
  induction o as [k t|t|id c slots IH] using obj_held_ind; intro stack; try reflexivity.
  rewrite build_node, nodes_node. simpl. apply f_equal. rewrite !map_flat_map.
  apply flat_map_ext_in. rewrite Forall_forall in IH. intros v Hv. apply IH, Hv.
Qed.

Lemma lookup_In (h : heap) k v : NoDup (map fst h) -> In (k, v) h -> lookup k h = Some v.
Proof.
  induction h as [|[k' v'] h IH]; simpl; intros Hn Hin; [contradiction|].
  apply NoDup_cons_iff in Hn as [Hnot Hn]. destruct Hin as [E|Hin].
  - inversion E; subst. rewrite N.eqb_refl. reflexivity.
  - destruct (N.eqb k' k) eqn:E; [|auto].
    apply N.eqb_eq in E. subst. exfalso. apply Hnot. apply in_map_iff. exists (k, v). auto.
Qed.

(* the entry of a contained object: class and the container as parent *)
Lemma build_entry_child o : forall stack p c,
  In p (nodes o) -> cont_child p c -> find_slot s_parent (obj_slots c) = None ->
  In (obj_id c, {| hcls := obj_cls c; hparent := Some (PObj (obj_id p)) |}) (build stack o).
Proof.
  induction o as [k t|t|id cl slots IH] using obj_held_ind; intros stack p c Hp Hc Hf; try contradiction.
  rewrite build_node. right. apply in_flat_map.
  rewrite nodes_node in Hp. destruct Hp as [<-|Hp].
  - apply cont_child_held in Hc as [Hn Hc]. exists c. split; [exact Hc|].
    destruct c as [k t|t|cid ccl cslots]; try discriminate.
    rewrite build_node. left. simpl in *. unfold parent_attr. rewrite Hf. reflexivity.
  - apply in_flat_map in Hp as [v [Hv Hp]]. rewrite Forall_forall in IH.
    exists v. split; [exact Hv | exact (IH v Hv _ p c Hp Hc Hf)].
Qed.

Lemma build_entry_cls o : forall stack n,
  In n (nodes o) -> exists hp, In (obj_id n, {| hcls := obj_cls n; hparent := hp |}) (build stack o).
Proof.
  induction o as [k t|t|id cl slots IH] using obj_held_ind; intros stack n Hn; try contradiction.
  rewrite nodes_node in Hn. rewrite build_node. destruct Hn as [<-|Hn].
  - eexists. left. reflexivity.
  - apply in_flat_map in Hn as [v [Hv Hn]]. rewrite Forall_forall in IH.
    destruct (IH v Hv (id :: stack) n Hn) as [hp Hin].
    exists hp. right. apply in_flat_map. exists v. auto.
Qed.

Lemma no_parent_attr_slots root n :
  no_parent_attr root = true -> In n (nodes root) -> find_slot s_parent (obj_slots n) = None.
Proof.
  unfold no_parent_attr. rewrite forallb_forall. intros H Hn. specialize (H _ Hn).
  destruct (find_slot s_parent (obj_slots n)); [discriminate | reflexivity].
Qed.

Lemma nodes_child o p c : In p (nodes o) -> cont_child p c -> In c (nodes o).
Proof. intros Hp Hc. unfold nodes in *. eapply walk_child; eauto. Qed.

Lemma last_cons (p o : obj) l : last (p :: l) o = last l p.
Proof.
  revert p o. induction l as [|q l IH]; intros p o; [reflexivity|].
  change (last (p :: q :: l) o) with (last (q :: l) o). rewrite (IH q o), (IH q p). reflexivity.
Qed.

Section Heap.
  Variable root : obj.
  Hypothesis Hroot : is_node root = true.
  Hypothesis Huniq : uniq root.
  Hypothesis Hnp : no_parent_attr root = true.

  Lemma heap_keys_nodup : NoDup (map fst (heap_of root)).
  Proof. unfold heap_of. rewrite build_keys. exact Huniq. Qed.

  Lemma heap_root :
    lookup (obj_id root) (heap_of root) = Some {| hcls := obj_cls root; hparent := None |}.
  Proof.
    destruct root as [k t|t|id c slots] eqn:E; try discriminate.
    unfold heap_of. rewrite build_node. simpl. rewrite N.eqb_refl.
    assert (Hf : find_slot s_parent slots = None).
    { apply (no_parent_attr_slots (Node id c slots) (Node id c slots) Hnp). apply self_in_walk. reflexivity. }
    unfold parent_attr. rewrite Hf. reflexivity.
  Qed.

  Lemma heap_child p c :
    In p (nodes root) -> cont_child p c ->
    lookup (obj_id c) (heap_of root) = Some {| hcls := obj_cls c; hparent := Some (PObj (obj_id p)) |}.
  Proof.
    intros Hp Hc. apply lookup_In; [apply heap_keys_nodup|].
    apply build_entry_child; try assumption.
    apply (no_parent_attr_slots root); [assumption | eapply nodes_child; eauto].
  Qed.

  Lemma heap_cls n :
    In n (nodes root) -> exists hp, lookup (obj_id n) (heap_of root) = Some {| hcls := obj_cls n; hparent := hp |}.
  Proof.
    intro Hn. destruct (build_entry_cls root [] n Hn) as [hp Hin]. exists hp.
    apply lookup_In; [apply heap_keys_nodup | exact Hin].
  Qed.

  (* a chain of containers from o up to the root stays inside the tree *)
  Lemma chain_in_nodes l : forall o, up_chain o l -> last l o = root -> In o (nodes root).
  Proof.
    induction l as [|p l IH]; intros o Hc Hl.
    - simpl in Hl. subst o. apply self_in_walk. assumption.
    - destruct Hc as [Hpo Hc]. apply (nodes_child root p o); [|assumption].
      apply IH; [assumption|]. rewrite last_cons in Hl. assumption.
  Qed.

  Theorem get_model_root l : forall o fuel,
    up_chain o l -> last l o = root -> length l < fuel ->
    get_model (heap_of root) fuel (obj_id o) = GObj (obj_id root).
  Proof.
    induction l as [|p l IH]; intros o fuel Hc Hl Hf.
    - simpl in Hl. subst o. destruct fuel as [|f]; [inversion Hf|]. simpl. rewrite heap_root. reflexivity.
    - destruct fuel as [|f]; [inversion Hf|]. destruct Hc as [Hpo Hc].
      rewrite last_cons in Hl.
      assert (Hp : In p (nodes root)) by (apply (chain_in_nodes l); assumption).
      simpl. rewrite (heap_child p o Hp Hpo). simpl.
      apply IH; [assumption | assumption | simpl in Hf; apply Nat.succ_lt_mono; assumption].
  Qed.

  Theorem parent_of_type_nearest typ l : forall o fuel,
    up_chain o l -> last l o = root -> length l < fuel ->
    get_parent_of_type (heap_of root) fuel typ (obj_id o) = pres_of (find (cls_is typ) l).
  Proof.
    induction l as [|p l IH]; intros o fuel Hc Hl Hf.
    - simpl in Hl. subst o. destruct fuel as [|f]; [inversion Hf|]. simpl. rewrite heap_root. reflexivity.
    - destruct fuel as [|f]; [inversion Hf|]. destruct Hc as [Hpo Hc].
      rewrite last_cons in Hl.
      assert (Hp : In p (nodes root)) by (apply (chain_in_nodes l); assumption).
      simpl. rewrite (heap_child p o Hp Hpo). simpl.
      destruct (heap_cls p Hp) as [hp Hlk]. rewrite Hlk. simpl.
      unfold cls_is at 1. destruct (str_eqb (obj_cls p) typ); [reflexivity|].
      apply IH; [assumption | assumption | simpl in Hf; apply Nat.succ_lt_mono; assumption].
  Qed.
End Heap.

(* every object has a chain of containers up to the root *)
Lemma up_chain_snoc l : forall x o, up_chain x l -> cont_child o (last l x) -> up_chain x (l ++ [o]).
Proof.
  induction l as [|a l IH]; intros x o H Hc; simpl in *.
  - split; [assumption | exact I].
  - destruct H as [H1 H2]. split; [assumption|]. apply IH; [assumption|].
    change (cont_child o (last (a :: l) x)) in Hc. rewrite last_cons in Hc. assumption.
Qed.

Lemma chain_exists o : forall x, In x (nodes o) ->
  exists l, up_chain x l /\ last l x = o /\ length l < length (nodes o).
Proof.
  induction o as [k t|t|id c slots IH] using obj_held_ind; intros x Hx; try contradiction.
  rewrite nodes_node in *. destruct Hx as [<-|Hx].
  - exists []. simpl. repeat split. apply Nat.lt_0_succ.
  - apply in_flat_map in Hx as [v [Hv Hx]]. rewrite Forall_forall in IH.
    destruct (IH v Hv x Hx) as [l [Hc [Hl Hlen]]].
    exists (l ++ [Node id c slots]). repeat split.
    + apply up_chain_snoc; [assumption|]. rewrite Hl. apply cont_child_held.
      split; [destruct v; try contradiction; reflexivity | exact Hv].
    + apply last_last.
    + rewrite app_length, Nat.add_1_r. simpl. apply le_n_S.
      exact (Nat.le_trans _ _ _ Hlen (flat_map_length_ge nodes _ v Hv)).
Qed.

Lemma nodes_root_is_node root o : In o (nodes root) -> is_node root = true.
Proof. destruct root; simpl; try contradiction. reflexivity. Qed.

Theorem get_model_every_object root o fuel :
  uniq root -> no_parent_attr root = true -> In o (nodes root) -> length (nodes root) <= fuel ->
  get_model (heap_of root) fuel (obj_id o) = GObj (obj_id root).
Proof.
  intros Hu Hnp Ho Hf. destruct (chain_exists root o Ho) as [l [Hc [Hl Hlen]]].
  apply (get_model_root root (nodes_root_is_node root o Ho) Hu Hnp l);
    [assumption | assumption | exact (Nat.lt_le_trans _ _ _ Hlen Hf)].
Qed.

Theorem parent_of_type_every_object root o :
  uniq root -> no_parent_attr root = true -> In o (nodes root) ->
  exists l, up_chain o l /\ last l o = root /\
    forall typ fuel, length (nodes root) <= fuel ->
      get_parent_of_type (heap_of root) fuel typ (obj_id o) = pres_of (find (cls_is typ) l).
Proof.
  intros Hu Hnp Ho. destruct (chain_exists root o Ho) as [l [Hc [Hl Hlen]]].
  exists l. repeat split; try assumption. intros typ fuel Hf.
  apply (parent_of_type_nearest root (nodes_root_is_node root o Ho) Hu Hnp typ l);
    [assumption | assumption | exact (Nat.lt_le_trans _ _ _ Hlen Hf)].
Qed.

Definition st_strip (st : state) : state := (map strip (fst st), snd st).

Lemma strip_node id c slots :
  strip (Node id c slots) =
  Node id c (map (fun mvs : ameta * list obj =>
                    (fst mvs, if acont (fst mvs) then map strip (snd mvs) else [])) slots).
Proof. reflexivity. Qed.

Lemma held_strip slots :
  held (map (fun mvs : ameta * list obj =>
               (fst mvs, if acont (fst mvs) then map strip (snd mvs) else [])) slots)
  = map strip (held slots).
Proof.
  induction slots as [|[m vs] slots IH]; [reflexivity|].
  cbn [map fst snd]. rewrite !held_cons, map_app, IH. apply (f_equal (fun l => l ++ _)).
  unfold slot_vals. destruct (acont m); [|reflexivity]. destruct (amany m); [reflexivity|].
  destruct vs; reflexivity.
Qed.

Section Strip.
  Variables sel sf : obj -> bool.
  Variable cf : bool.
  Hypothesis Hsel : forall x, sel (strip x) = sel x.
  Hypothesis Hsf : forall x, sf (strip x) = sf x.

  Definition strip_ok (v : obj) : Prop :=
    forall st, follow sel sf cf (strip v) (st_strip st) = st_strip (follow sel sf cf v st).

  Lemma strip_elems vs :
    Forall strip_ok vs ->
    forall st, follow_elems (follow sel sf cf) sf (map strip vs) (st_strip st)
               = st_strip (follow_elems (follow sel sf cf) sf vs st).
  Proof.
    induction 1 as [|v vs Hv Hvs IH]; intro st; simpl; [reflexivity|].
    rewrite Hsf. destruct (sf v); [rewrite Hv|]; apply IH.
  Qed.

  Lemma collect_strip o id st : collect (strip o) id (st_strip st) = st_strip (collect o id st).
  Proof. unfold collect, st_strip; simpl. rewrite map_app. reflexivity. Qed.

  Lemma follow_strip : forall o, strip_ok o.
  Proof.
    induction o as [k t|t|id c slots IH] using obj_held_ind; intro st; try reflexivity.
    rewrite strip_node. cbn [follow]. rewrite <- strip_node, Hsel, !follow_attrs_held, held_strip.
    change (snd (st_strip st)) with (snd st).
    destruct (mem_N id (snd st)); [reflexivity|].
    destruct (negb cf && sel (Node id c slots))%bool; destruct (cf && sel (Node id c slots))%bool;
      rewrite ?collect_strip, (strip_elems _ IH), ?collect_strip; reflexivity.
  Qed.

  Theorem get_children_strip root :
    get_children sel (strip root) cf sf = map strip (get_children sel root cf sf).
  Proof.
    unfold get_children. change (@nil obj, @nil N) with (st_strip ([], [])) at 1.
    rewrite follow_strip. reflexivity.
  Qed.
End Strip.

Lemma strip_id o : obj_id (strip o) = obj_id o.
Proof. destruct o; reflexivity. Qed.

Lemma strip_head o : head_of (strip o) = head_of o.
Proof. destruct o; reflexivity. Qed.

(* the walk of a walked object is a segment of the walk *)
Lemma walk_split sf cf o : forall a,
  In a (walk sf cf o) -> exists l1 l2, walk sf cf o = l1 ++ walk sf cf a ++ l2.
Proof.
  induction o as [k t|t|id c slots IH] using obj_held_ind; intros a Ha; try contradiction.
  apply in_walk_node in Ha as [->|Ha].
  - exists [], []. rewrite app_nil_r. reflexivity.
  - apply in_below in Ha as [v [Hv [Hs Ha]]]. rewrite Forall_forall in IH.
    destruct (IH v Hv a Ha) as [l1 [l2 E]].
    apply in_split in Hv as [q1 [q2 Eq]].
    assert (Eb : exists b1 b2, below sf cf slots = b1 ++ walk sf cf a ++ b2).
    { exists (flat_map (wval sf cf) q1 ++ l1), (l2 ++ flat_map (wval sf cf) q2).
      unfold below. rewrite Eq, flat_map_app. cbn [flat_map]. unfold wval at 2.
      rewrite Hs, E, <- !app_assoc. reflexivity. }
    destruct Eb as [b1 [b2 Eb]]. rewrite walk_node, Eb. destruct cf.
    + exists b1, (b2 ++ [Node id c slots]). rewrite <- !app_assoc. reflexivity.
    + exists (Node id c slots :: b1), b2. reflexivity.
Qed.

(* in a tree with distinct identities, a walked object that lies in the subtree of a walked object a
   is reached from a through followed links: below the root both lie under the same held value,
   since two held values share no identity *)
Lemma walked_descendant_reached sf cf root a b :
  uniq root -> In a (walk sf cf root) -> In b (walk sf cf root) -> In b (nodes a) -> reach sf a b.
Proof.
  revert a b. induction root as [k t|t|id c slots IH] using obj_held_ind; intros a b Hu Ha Hb Hd; try contradiction.
  apply in_walk_node in Ha as [->|Ha]; [apply (walk_reach sf cf); exact Hb|].
  unfold uniq in Hu. rewrite nodes_node in Hu. cbn [map] in Hu. apply NoDup_cons_iff in Hu as [Hid Hn].
  apply in_below in Ha as [v [Hv [_ Ha]]].
  assert (Hbv : In b (nodes v)) by (eapply nodes_trans; [eapply walk_incl_nodes; exact Ha | exact Hd]).
  apply in_walk_node in Hb as [->|Hb].
  - exfalso. apply Hid. apply in_map. apply in_flat_map. exists v. auto.
  - apply in_below in Hb as [v' [Hv' [_ Hb]]]. rewrite map_flat_map in Hn.
    assert (v' = v) as ->.
    { apply (NoDup_flat_map_owner _ _ _ _ (obj_id b) Hn Hv' Hv); apply in_map;
        [eapply walk_incl_nodes; exact Hb | exact Hbv]. }
    rewrite Forall_forall in IH. apply (IH v Hv); try assumption.
    exact (NoDup_flat_map_in _ _ _ Hn Hv).
Qed.

(* a walked object stands before (children first: after) whatever else its own walk has *)
Lemma walk_order sf cf root a b :
  In a (walk sf cf root) -> In b (walk sf cf a) -> a <> b ->
  exists l1 l2 l3,
    walk sf cf root = if cf then l1 ++ b :: l2 ++ a :: l3 else l1 ++ a :: l2 ++ b :: l3.
Proof.
  intros Ha Hb Hne. destruct (walk_split sf cf root a Ha) as [L1 [L2 E]]. rewrite E.
  destruct a as [k t|t|id c slots]; try contradiction.
  apply in_walk_node in Hb as [Hb|Hb]; [congruence|].
  apply in_split in Hb as [m1 [m2 Em]]. rewrite walk_node, Em. destruct cf.
  - exists (L1 ++ m1), m2, L2. rewrite <- !app_assoc. reflexivity.
  - exists L1, m1, (m2 ++ L2). cbn [app]. rewrite <- app_assoc. reflexivity.
Qed.

Lemma filter_two {A} (sel : A -> bool) a b l1 l2 l3 :
  sel a = true -> sel b = true ->
  filter sel (l1 ++ a :: l2 ++ b :: l3) = filter sel l1 ++ a :: filter sel l2 ++ b :: filter sel l3.
Proof. intros Ha Hb. rewrite filter_app. cbn [filter]. rewrite Ha, filter_app. cbn [filter]. rewrite Hb. reflexivity. Qed.

From TxV Require Import Model.NavRun.

Lemma nodup_N_sound l : nodup_N l = true -> NoDup l.
Proof.
  induction l as [|x l IH]; simpl; intro H; [constructor|].
  apply andb_true_iff in H as [H1 H2]. constructor; [|auto].
  intro Hin. apply mem_N_true in Hin. rewrite Hin in H1. discriminate.
Qed.

Lemma uniq_b_sound root : uniq_b root = true -> uniq root.
Proof. apply nodup_N_sound. Qed.

Definition mk_attr (n : list N) (c m : bool) : ameta := {| aname := n; acont := c; amany := m |}.

Local Open Scope N_scope.
(* M{things=[A{inner=I, up->M}, B{kids=[A], name="b"}]} *)
Definition ex_tree : obj :=
  Node 0 [77] [
    (mk_attr [116] true true,
     [ Node 1 [65] [ (mk_attr [105] true false, [Node 2 [73] []]); (mk_attr [117] false false, [Ref 0]) ];
       Node 3 [66] [ (mk_attr [107] true true, [Node 4 [65] []]); (mk_attr [110] true false, [Prim 0 [98]]) ] ]) ].

(* the root rule has an attribute called `parent` *)
Definition ex_parent_attr : obj :=
  Node 0 [77] [ (mk_attr s_parent true false, [Prim 1 [53]]); (mk_attr [107] true true, [Node 1 [65] []]) ].
Local Close Scope N_scope.
