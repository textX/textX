(* C06 - object source spans and locations are exact.
   Model: Model/Build.v (process_node positions, get_location, pos_to_linecol) on Model/Peg.v trees. *)
From TxV Require Import Core.Base Model.PegSyntax Model.Peg Model.Spec Model.Build Proofs.BuildProofs Proofs.BuildObjProofs
     Proofs.SpecProofs Proofs.SpecSepProofs Proofs.SpecWf.
From TxV Require Proofs.ErrLocLoadProofs.

(* get_location: line = 1 + number of newlines before the position, col = distance from the start
   of that line + 1, nchar = end - position; for every input and position inside it. *)
Theorem C06_linecol_exact :
  forall input p e line col nchar,
    p <= List.length input ->
    get_location input p e = ((line, col), nchar) ->
    nchar = e - p /\
    line = 1 + count_nl (firstn p input) /\
    exists ls, ls <= p /\ col = p - ls + 1 /\
               (ls = 0 \/ nth_error input (ls - 1) = Some 10%N) /\
               (forall q, ls <= q < p -> nth_error input q <> Some 10%N).
Proof. exact ErrLocLoadProofs.get_location_exact. Qed.
Print Assumptions C06_linecol_exact.

Example C06_linecol_nonvacuous :
  get_location [97;10;32;98;99;10;100]%N 3 5 = ((2, 2), 2).
Proof. vm_compute. reflexivity. Qed.
Print Assumptions C06_linecol_nonvacuous.

(* Every node of a well-formed parse tree (non-empty terminals and NonTerminals, children left to
   right without overlap) spans exactly [start of its first terminal, end of its last terminal). *)
Theorem C06_node_span :
  forall t, wf_tree t = true ->
    exists p len rest, leaves t = (p, len) :: rest /\ tpos t = p /\
    exists p2 len2 pre, leaves t = pre ++ [(p2, len2)] /\ tend t = p2 + len2.
Proof.
  intros t H. destruct (leaves_first t H) as (len & rest & E).
  exists (tpos t), len, rest. split; [exact E|]. split; [reflexivity | exact (leaves_last t H)].
Qed.
Print Assumptions C06_node_span.

Theorem C06_node_nonempty : forall t, wf_tree t = true -> tpos t < tend t.
Proof. exact wf_tree_nonempty. Qed.
Print Assumptions C06_node_nonempty.

Theorem C06_node_nesting :
  forall n kids x, wf_tree (NT n kids) = true -> In x kids ->
    tpos (NT n kids) <= tpos x /\ tend x <= tend (NT n kids).
Proof. exact wf_tree_nesting. Qed.
Print Assumptions C06_node_nesting.

Theorem C06_node_siblings_disjoint :
  forall n l1 k1 l2 k2 l3, wf_tree (NT n (l1 ++ k1 :: l2 ++ k2 :: l3)) = true -> tend k1 <= tpos k2.
Proof.
  intros n l1 k1 l2 k2 l3 H. apply wf_tree_NT in H as [_ [Hf Ho]].
  assert (HF : Forall (fun k => tpos k < tend k) (l1 ++ k1 :: l2 ++ k2 :: l3)).
  { apply Forall_forall. intros x Hx. rewrite Forall_forall in Hf. apply wf_tree_nonempty. apply Hf. exact Hx. }
  clear Hf. induction l1 as [|a l1 IH].
  - cbn [app] in *. pose proof (chain_of_ordered _ HF Ho) as Hc. cbv beta iota in Hc.
    eapply chain_after; [exact Hc|]. apply in_or_app. right; left; reflexivity.
  - apply IH.
    + cbn [app ordered] in Ho. destruct (l1 ++ k1 :: l2 ++ k2 :: l3) eqn:E; [reflexivity|].
      apply andb_true_iff in Ho. tauto.
    + inversion HF; assumption.
Qed.
Print Assumptions C06_node_siblings_disjoint.

Example C06_node_nonvacuous :
  wf_tree (NT 0 [NT 1 [T 2 1 3 false]; T 3 5 1 false; NT 1 [T 2 7 2 false; T 3 9 1 false]]) = true.
Proof. vm_compute. reflexivity. Qed.
Print Assumptions C06_node_nonvacuous.

(* Every object is built from a common-rule node and carries exactly that node's span, for every
   grammar table, metamodel table, input, group oracle and option setting: processing the children
   (assignments, nested objects) never moves the positions of the object under construction.
   With C06_node_span: [_tx_position, _tx_position_end) = [start of the first terminal of the rule's
   node, end of its last terminal). *)
Theorem C06_object_span :
  forall g mm input grp auto use_grp n kids top cls p e attrs top',
    pnode g mm input grp auto use_grp (NT n kids) top = BOk (VObj cls p e attrs, top') ->
    (exists c a, info mm n = IRule RCommon c a) ->
    p = tpos (NT n kids) /\ e = tend (NT n kids).
Proof.
  intros g mm input grp auto use_grp n kids top cls p e attrs top' H [c [a Ei]]. destruct (common_node_object _ _ _ _ _ _ _ _ _ _ _ _ _ Ei H) as [_ [c1 [_ E]]].
  inversion E; subst. split; reflexivity.
Qed.
Print Assumptions C06_object_span.

Example C06_object_span_nonvacuous :
  pnode (mkGrammar [] 0 None) [IRule RCommon [65]%N []] [] (fun _ _ => None) true false
        (NT 0 [T 1 2 3 false; T 1 7 1 false]) None = BOk (VObj [65]%N 2 8 [], None).
Proof. vm_compute. reflexivity. Qed.
Print Assumptions C06_object_span_nonvacuous.

(* OBJECT level nesting and list order.  For every grammar table, metamodel table, input, group oracle and
   option setting: if the node is a well-formed tree and assignment nodes sit where the grammar compiler
   puts them (children of common-rule nodes; decidable, evaluated per case), the value Build returns for
   it is [good] for the node's span.  [good lo hi v] is spelled out by the three theorems that follow:
   every object has a non-empty span inside [lo, hi]; the values of its attributes are good for the
   object's own span (child slices inside the parent slice, recursively); the objects of one list are
   ordered and disjoint. *)
Theorem C06_objects_nested_ordered :
  forall g mm input grp auto use_grp t top v top' under,
    wf_tree t = true -> asg_placed mm under t = true ->
    pnode g mm input grp auto use_grp t top = BOk (v, top') -> good (tpos t) (tend t) v.
Proof. exact objects_nested_ordered. Qed.
Print Assumptions C06_objects_nested_ordered.

Theorem C06_good_object_nonempty_inside :
  forall lo hi c p e attrs, good lo hi (VObj c p e attrs) -> lo <= p /\ p < e /\ e <= hi.
Proof. intros lo hi c p e attrs H. apply good_obj in H. tauto. Qed.
Print Assumptions C06_good_object_nonempty_inside.

Theorem C06_good_child_inside_parent :
  forall lo hi c p e attrs a x, good lo hi (VObj c p e attrs) -> In (a, x) attrs -> good p e x.
Proof.
  intros lo hi c p e attrs a x H Hin. apply good_obj in H. destruct H as [_ [_ [_ F]]].
  unfold good_attrs in F. rewrite Forall_forall in F. exact (F (a, x) Hin).
Qed.
Print Assumptions C06_good_child_inside_parent.

Theorem C06_good_list_ordered_disjoint :
  forall l1 lo hi c1 p1 e1 a1 l2 c2 p2 e2 a2 l3,
    good lo hi (VList (l1 ++ VObj c1 p1 e1 a1 :: l2 ++ VObj c2 p2 e2 a2 :: l3)) -> e1 <= p2.
Proof. exact good_list_order. Qed.
Print Assumptions C06_good_list_ordered_disjoint.

Example C06_objects_nonvacuous :
  let mm := [IRule RCommon [77]%N [mkAttr [120]%N MPlus true false [65]%N false];
             IAsgn [120]%N OpList; IRule RCommon [65]%N []; ITerm [] 0] in
  let t := NT 0 [NT 1 [NT 2 [T 3 1 2 false]; NT 2 [T 3 5 1 false]]] in
  wf_tree t = true /\ asg_placed mm false t = true /\
  pnode (mkGrammar [] 0 None) mm [] (fun _ _ => None) true false t None
    = BOk (VObj [77]%N 1 6 [([120]%N, VList [VObj [65]%N 1 3 []; VObj [65]%N 5 6 []])], None).
Proof. vm_compute. repeat split. Qed.
Print Assumptions C06_objects_nonvacuous.

(* When are the interpreter's trees well formed?  For every grammar table in the class of the C01 refinement
   theorem (wfg), without separators (nosep) and with EOF only as the second child of the top node (eof_ok;
   all three decidable), every config, input, fuel and non-empty-match oracle: if the interpreter accepts,
   its result is the top NonTerminal and the subtree the model is built from (parse_tree[0]) is a wf_tree -
   so C06_node_span / C06_object_span / C06_objects_nested_ordered apply to it.  Proved on the reference
   semantics (Proofs/SpecWf.v seval_wf) and transported by C01_refinement_partial.  The boundary is the known
   findings: a trailing separator (nosep) and an empty literal (excluded by wfg) give trees that are not
   well formed (C06_wf_boundary_refuted); a suppressed edge match keeps the tree well formed and only
   breaks span = extent. *)
Theorem C06_run_wf :
  forall g pf c orc fuel input r,
    wfg g pf = true -> nosep g = true -> eof_ok g = true -> orc_pos orc ->
    run g c orc false fuel input = Parsed r ->
    exists t rest, r = RTree (NT (g_top g) (t :: rest)) /\ wf_tree t = true.
Proof. exact run_wf. Qed.
Print Assumptions C06_run_wf.

Example C06_run_wf_nonvacuous :
  wfg g_items 24 = true /\ nosep g_items = true /\ eof_ok g_items = true /\
  accepts (run g_items c_default (orc_of t_items) false 60 in_items) = true.
Proof. exact run_wf_nonvacuous. Qed.
Print Assumptions C06_run_wf_nonvacuous.

(* with a separator the hypothesis nosep is necessary: x,b under A: xs+=X[','] keeps the separator it gave
   back, the subtree of Model is not well formed (children overlap) *)
Theorem C06_wf_boundary_refuted :
  exists g c orc fuel input t rest,
    wfg g 24 = true /\ nosep g = false /\ eof_ok g = true /\
    run g c orc false fuel input = Parsed (RTree (NT (g_top g) (t :: rest))) /\ wf_tree t = false.
Proof. exact wf_boundary_refuted. Qed.
Print Assumptions C06_wf_boundary_refuted.

From TxV Require Proofs.BuildPlaced.

(* asg_placed derived from the TABLE.  BuildPlaced.table_asg_ok g mm K (decidable): below a root node that is not
   a common rule (match / abstract rules, assignment nodes, the top node) no assignment node is reachable without
   crossing another root.  For tables in the class of the C01 refinement theorem that satisfy it, every
   NonTerminal of the interpreter's result has its children placed - proved on the reference semantics
   (BuildPlaced.seval_placed) and transported by C01_refinement_partial.  Usable by every property that assumes
   asg_placed of the parsed tree (C02_parsed_object_values, C34's Build bridge). *)
Theorem C06_asg_placed_of_run :
  forall g pf mm K c orc fuel input n t rest,
    wfg g pf = true -> orc_pos orc -> BuildPlaced.table_asg_ok g mm K = true ->
    run g c orc false fuel input = Parsed (RTree (NT n (t :: rest))) ->
    asg_placed mm (BuildPlaced.commonb mm n) t = true.
Proof. exact BuildPlaced.asg_placed_of_run_tree. Qed.
Print Assumptions C06_asg_placed_of_run.

(* C06_objects_nested_ordered with hypotheses on the table and the oracle only *)
Theorem C06_objects_nested_ordered_run :
  forall g pf mm K c orc fuel input r,
    wfg g pf = true -> nosep g = true -> eof_ok g = true -> orc_pos orc -> BuildPlaced.table_asg_ok g mm K = true ->
    run g c orc false fuel input = Parsed r ->
    exists t rest, r = RTree (NT (g_top g) (t :: rest)) /\ wf_tree t = true /\
      asg_placed mm (BuildPlaced.commonb mm (g_top g)) t = true /\
      forall grp auto ug top v top', pnode g mm input grp auto ug t top = BOk (v, top') -> good (tpos t) (tend t) v.
Proof. exact BuildPlaced.objects_nested_ordered_run. Qed.
Print Assumptions C06_objects_nested_ordered_run.

Example C06_objects_run_nonvacuous :
  wfg g_items 24 = true /\ nosep g_items = true /\ eof_ok g_items = true /\
  BuildPlaced.table_asg_ok g_items BuildPlaced.mm_items 24 = true /\
  accepts (run g_items c_default (orc_of t_items) false 60 in_items) = true.
Proof. vm_compute. repeat split. Qed.
Print Assumptions C06_objects_run_nonvacuous.

(* the table condition fails when an assignment node sits below a match rule *)
Example C06_table_asg_refuted :
  BuildPlaced.table_asg_ok g_items [IOther; IRule RMatch [77]%N []; ITerm [] 0; IOther; IAsgn [105]%N OpList] 24 = false.
Proof. vm_compute. reflexivity. Qed.
Print Assumptions C06_table_asg_refuted.
