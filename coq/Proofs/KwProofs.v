(* Proofs for C20 (ignore_case) and C21 (autokwd): instances of the terminal simulation of
   Proofs/PegCongr.v plus lemmas about the literal terminals of Model/Kw.v. *)
From TxV Require Import Core.Base Model.PegSyntax Model.Peg Model.KwDefs Gen.SrcKw Model.Kw Proofs.PegCongr.

(* the identity relabelling *)
Notation sid := (fun (_ : nat) (b : bool) => b) (only parsing).

Lemma Forall2_skipn {A B} (R : A -> B -> Prop) l l' :
  Forall2 R l l' -> forall p, Forall2 R (skipn p l) (skipn p l').
Proof.
  induction 1 as [|x y l l' Hxy Hl IH]; intros [|p]; cbn [skipn]; try constructor; auto.
Qed.

(* what a terminal that matched has produced *)
Lemma term_parse_ok input orc nid k psq s r s' :
  term_parse input orc nid k psq s = Ok r s' ->
  r = RNone \/
  exists len sup, r = RTree (T nid (pos s) len sup) /\
    match k with
    | KEOF => True
    | KStr t None => len = length t /\ is_prefix t (skipn (pos s) input) = true
    | KStr t (Some o) => len = length t /\ orc o (pos s) <> None
    | KRegex o => orc o (pos s) = Some len
    | _ => False
    end.
Proof.
  unfold term_parse, nm_raise. cbv zeta.
  destruct k as [| | | | | | | | | |t [o|]|o]; try discriminate.
  - destruct (Nat.eqb (length input) (pos s)); [|discriminate].
    intro H. injection H as <- _. right. do 2 eexists. split; [reflexivity | exact I].
  - destruct (orc o (pos s)); [|discriminate].
    intro H. injection H as <- _. right. do 2 eexists. repeat split. discriminate.
  - destruct (is_prefix t (skipn (pos s) input)); [|discriminate].
    intro H. injection H as <- _. right. do 2 eexists. repeat split.
  - destruct (orc o (pos s)) as [len|]; [|discriminate].
    destruct (Nat.eqb len 0); intro H; injection H as <- _; [left; reflexivity|].
    right. do 2 eexists. split; reflexivity.
Qed.

Lemma nm_raise_fs supf p s : nm_raise p (fs supf s) = fo supf (nm_raise p s).
Proof. autorewrite with fsdb. reflexivity. Qed.

(* a terminal whose flag the relabelling leaves alone commutes with it *)
Lemma term_parse_fs supf input orc nid k psq s : (forall b, supf nid b = b) ->
  term_parse input orc nid k psq (fs supf s) = fo supf (term_parse input orc nid k psq s).
Proof.
  intro H. unfold term_parse. cbv zeta. change (pos (fs supf s)) with (pos s).
  destruct k as [| | | | | | | | | |t oid|o]; try reflexivity.
  - destruct (Nat.eqb (length input) (pos s)); [cbn [fo fr ft]; rewrite H; reflexivity | apply nm_raise_fs].
  - destruct (match oid with Some o => _ | None => _ end);
      [cbn [fo fr ft]; rewrite H; reflexivity | apply nm_raise_fs].
  - destruct (orc o (pos s)) as [len|]; [|apply nm_raise_fs].
    destruct (Nat.eqb len 0); [|cbn [fo fr ft]; rewrite H]; reflexivity.
Qed.

(* two tables related node by node, seen at one node: both lack it, both have the same non-terminal,
   or both have a terminal, with kinds related by [K] *)
Section NodeView.
Variable K : kind -> kind -> Prop.
Variables g g' : grammar.
Inductive node_view (nid : nat) : Prop :=
| NV_none : get_node g nid = None -> get_node g' nid = None -> node_view nid
| NV_term nd nd' : get_node g nid = Some nd -> get_node g' nid = Some nd' ->
    is_match_kind (n_kind nd) = true -> n_suppress nd' = n_suppress nd -> K (n_kind nd) (n_kind nd') -> node_view nid
| NV_same nd : get_node g nid = Some nd -> get_node g' nid = Some nd ->
    is_match_kind (n_kind nd) = false -> node_view nid.

Lemma node_case nid :
  match get_node g nid, get_node g' nid with
  | None, None => True
  | Some nd, Some nd' =>
    if is_match_kind (n_kind nd) then n_suppress nd' = n_suppress nd /\ K (n_kind nd) (n_kind nd') else nd' = nd
  | _, _ => False
  end -> node_view nid.
Proof.
  destruct (get_node g nid) as [nd|] eqn:En, (get_node g' nid) as [nd'|] eqn:En'; try contradiction.
  - destruct (is_match_kind (n_kind nd)) eqn:Em;
      [intros [Hs Hk]; exact (NV_term nid nd nd' En En' Em Hs Hk) | intros ->; exact (NV_same nid nd En En' Em)].
  - intros _. exact (NV_none nid En En').
Qed.
End NodeView.

(* the two texts agree at a position, or neither character belongs to any whitespace set *)
Definition char_ok (U : list N) (a b : N) : Prop := a = b \/ (~ In a U /\ ~ In b U).

Definition oracles_agree (g : grammar) (orc orc' : nat -> nat -> option nat) : Prop :=
  forall nid nd o, get_node g nid = Some nd -> kind_oid (n_kind nd) = Some o ->
                   forall p, orc' o p = orc o p.

Definition exact_agree (g : grammar) (input input' : list N) : Prop :=
  forall nid nd t, get_node g nid = Some nd -> n_kind nd = KStr t None ->
                   forall p, is_prefix t (skipn p input') = is_prefix t (skipn p input).

Lemma not_in_existsb U w a : incl w U -> ~ In a U -> existsb (N.eqb a) w = false.
Proof. intros Hw Ha. apply existsb_N_false. intro H. exact (Ha (Hw _ H)). Qed.

Lemma skip_agree U w : incl w U -> forall l l', Forall2 (char_ok U) l l' ->
  forall p, skip_ws_from w l' p = skip_ws_from w l p.
Proof.
  intros Hw l l' H. induction H as [|x y l l' Hxy Hl IH]; intros p; cbn [skip_ws_from]; [reflexivity|].
  assert (E : existsb (N.eqb y) w = existsb (N.eqb x) w).
  { destruct Hxy as [->|[Hx Hy]]; [reflexivity | rewrite !(not_in_existsb U w) by assumption; reflexivity]. }
  rewrite E. destruct (existsb (N.eqb x) w); [apply IH | reflexivity].
Qed.

Lemma incl_strip_eol U w : incl w U -> incl (strip_eol w) U.
Proof. intros H x Hx. unfold strip_eol in Hx. apply filter_In in Hx. apply H, Hx. Qed.

Lemma ws_universe_node g cfg nid nd w :
  get_node g nid = Some nd -> n_ws nd = Some w -> incl w (ws_universe g cfg).
Proof.
  intros Hn Hw x Hx. unfold ws_universe. apply in_or_app. right.
  apply in_flat_map. exists nd. split; [eapply nth_error_In; exact Hn | rewrite Hw; exact Hx].
Qed.

Theorem terminal_congruence g cfg orc orc' memo fuel input input' :
  Forall2 (char_ok (ws_universe g cfg)) input input' ->
  oracles_agree g orc orc' ->
  exact_agree g input input' ->
  run g cfg orc' memo fuel input' = run g cfg orc memo fuel input.
Proof.
  intros Hin Hor Hex.
  rewrite (run_sim sid g g input input' orc orc' memo (fun w => incl w (ws_universe g cfg)) cfg fuel).
  - apply foutcome_id.
  - intro nid. destruct (get_node g nid) as [nd|] eqn:En; [|exact I].
    unfold node_sim. destruct (is_match_kind (n_kind nd)) eqn:Em; [|reflexivity].
    split; [reflexivity|]. split; [reflexivity|]. intros psq s.
    rewrite <- (term_parse_fs sid) by reflexivity. generalize (fs sid s). clear s. intro s.
    unfold term_parse. cbv zeta.
    destruct (n_kind nd) as [| | | | | | | | | |t [o|]|o] eqn:Ek; try reflexivity.
    + rewrite <- (Forall2_length _ _ _ Hin). reflexivity.
    + rewrite (Hor nid nd o En); [reflexivity | rewrite Ek; reflexivity].
    + rewrite (Hex nid nd t En Ek). reflexivity.
    + rewrite (Hor nid nd o En); [reflexivity | rewrite Ek; reflexivity].
  - reflexivity.
  - reflexivity.
  - intros nid nd w Hn Hw. eapply ws_universe_node; eassumption.
  - intros w Hw. apply incl_strip_eol, Hw.
  - intros w p Hw. apply skip_agree with (U := ws_universe g cfg); [exact Hw|].
    apply Forall2_skipn, Hin.
  - unfold ws_universe. apply incl_appl, incl_refl.
Qed.

Lemma all_str_icase_exact g input input' : all_str_icase g = true -> exact_agree g input input'.
Proof.
  intros H nid nd t Hn Hk. exfalso. unfold all_str_icase in H. rewrite forallb_forall in H.
  specialize (H nd (nth_error_In _ _ Hn)). rewrite Hk in H. discriminate.
Qed.

Section Case.
Variable lower : N -> N.

Definition case_variant (s s' : list N) : Prop := map lower s' = map lower s.

(* an oracle family (the regex engine as a function of the text) that does not look at case *)
Definition case_blind (O : list N -> nat -> nat -> option nat) (o : nat) : Prop :=
  forall s s', case_variant s s' -> forall p, O s' o p = O s o p.

Theorem icase_invariant g cfg (O : list N -> nat -> nat -> option nat) memo fuel s s' :
  all_str_icase g = true ->
  (forall nid nd o, get_node g nid = Some nd -> kind_oid (n_kind nd) = Some o -> case_blind O o) ->
  case_variant s s' ->
  Forall2 (char_ok (ws_universe g cfg)) s s' ->
  run g cfg (O s') memo fuel s' = run g cfg (O s) memo fuel s.
Proof.
  intros Hall Hblind Hcv Hws. apply terminal_congruence; [exact Hws | | apply all_str_icase_exact, Hall].
  intros nid nd o Hn Ho p. exact (Hblind nid nd o Hn Ho s s' Hcv p).
Qed.

(* the modelled ignore_case terminals are case blind *)
Lemma case_variant_skipn s s' p : case_variant s s' -> case_variant (skipn p s) (skipn p s').
Proof. unfold case_variant. intro H. rewrite <- !skipn_map, H. reflexivity. Qed.

Lemma lit_prefix_blind t : forall s s', case_variant s s' ->
  lit_prefix lower true t s' = lit_prefix lower true t s.
Proof.
  induction t as [|x t IH]; intros s s' H; [reflexivity|].
  unfold case_variant in H. destruct s as [|a s], s' as [|b s']; try discriminate; [reflexivity|].
  cbn [map] in H. injection H as Hab Hs. cbn [lit_prefix ceq]. rewrite Hab, (IH s s' Hs). reflexivity.
Qed.

Theorem str_match_blind t s s' p : case_variant s s' ->
  str_match lower true t s' p = str_match lower true t s p.
Proof.
  intro H. unfold str_match. rewrite (lit_prefix_blind t _ _ (case_variant_skipn s s' p H)). reflexivity.
Qed.

Variable wordc : N -> bool.
Definition word_lower : Prop := forall a b, lower a = lower b -> wordc a = wordc b.

Lemma word_at_blind s s' q : word_lower -> case_variant s s' -> word_at wordc s' q = word_at wordc s q.
Proof.
  intros Hw H. unfold word_at. unfold case_variant in H.
  assert (E : nth_error (map lower s') q = nth_error (map lower s) q) by (rewrite H; reflexivity).
  rewrite !nth_error_map in E.
  destruct (nth_error s' q) as [b|], (nth_error s q) as [a|]; cbn in E; try discriminate; [|reflexivity].
  injection E as E. apply Hw, E.
Qed.

Theorem kw_match_blind t s s' p : word_lower -> case_variant s s' ->
  kw_match wordc lower true t s' p = kw_match wordc lower true t s p.
Proof.
  intros Hw H. unfold kw_match, boundary, word_before.
  rewrite (lit_prefix_blind t _ _ (case_variant_skipn s s' p H)), (word_at_blind s s' _ Hw H).
  destruct (p + length t) as [|q]; [reflexivity|]. rewrite (word_at_blind s s' q Hw H). reflexivity.
Qed.

(* values: the text of a regex terminal is the slice of the input at its position *)
Definition slice (s : list N) (p len : nat) : list N := firstn len (skipn p s).

Lemma slice_case_variant s s' p len : case_variant s s' -> case_variant (slice s p len) (slice s' p len).
Proof.
  intro H. unfold slice, case_variant. rewrite <- !firstn_map, <- !skipn_map.
  unfold case_variant in H. rewrite H. reflexivity.
Qed.

End Case.

Lemma slice_unchanged s s' p len :
  (forall i, p <= i < p + len -> nth_error s' i = nth_error s i) -> slice s' p len = slice s p len.
Proof.
  unfold slice. revert s s' p. induction len as [|len IH]; intros s s' p H; [reflexivity|].
  assert (H0 : nth_error s' p = nth_error s p) by (apply H; lia).
  rewrite <- (Nat.add_0_r p) in H0 at 1. rewrite <- (Nat.add_0_r p) in H0 at 2.
  rewrite <- !nth_error_skipn in H0.
  assert (IH' : firstn len (skipn (S p) s') = firstn len (skipn (S p) s)) by (apply IH; intros i Hi; apply H; lia).
  assert (Ht : forall (l : list N), skipn (S p) l = tl (skipn p l)).
  { clear. induction p as [|p IHp]; intros [|x l]; try reflexivity. cbn [skipn] in *. rewrite <- IHp. reflexivity. }
  rewrite !Ht in IH'.
  destruct (skipn p s') as [|a r'], (skipn p s) as [|b r]; cbn [nth_error] in H0; try discriminate.
  - reflexivity.
  - injection H0 as ->. cbn [firstn tl] in *. rewrite IH'. reflexivity.
Qed.

(* what textX builds under ignore_case=True: every literal terminal carries the flag *)
Lemma compile_lit_icase wordc digitc autokwd t :
  src_kw_icase = IcMM -> src_str_icase = IcMM ->
  spec_icase (compile_lit wordc digitc autokwd true t) = true.
Proof.
  intros H1 H2. unfold compile_lit. rewrite H1, H2.
  destruct (_ && _)%bool; reflexivity.
Qed.

Lemma compile_regex_icase pat : src_re_icase = IcMM -> spec_icase (compile_regex true pat) = true.
Proof. intro H. unfold compile_regex. rewrite H. reflexivity. Qed.

Section Kw.
Variable wordc : N -> bool.
Variable digitc : N -> bool.
Variable lower : N -> N.

Lemma word_run_all r : word_run wordc r = length r <-> forallb wordc r = true.
Proof.
  induction r as [|c r IH]; cbn [word_run length forallb]; [tauto|].
  destruct (wordc c); cbn [andb].
  - rewrite <- IH. split; [intro H; injection H as H; exact H | intro H; rewrite H; reflexivity].
  - split; discriminate.
Qed.

Theorem kw_like_spec t :
  kw_like wordc digitc t = true <->
  exists c r, t = c :: r /\ digitc c = false /\ wordc c = true /\ forallb wordc r = true.
Proof.
  unfold kw_like, kw_regex_end. destruct t as [|c r].
  - split; [discriminate | intros [c [r [H _]]]; discriminate].
  - destruct (digitc c) eqn:Ed; cbn [negb andb].
    + split; [discriminate | intros [c' [r' [H [Hd _]]]]; injection H as -> ->; congruence].
    + destruct (wordc c) eqn:Ew.
      * cbn [length]. rewrite Nat.eqb_eq. split.
        -- intro H. injection H as H. apply word_run_all in H. exists c, r. auto.
        -- intros [c' [r' [H [_ [_ Hr]]]]]. injection H as -> ->. f_equal. apply word_run_all, Hr.
      * split; [discriminate | intros [c' [r' [H [_ [Hw _]]]]]; injection H as -> ->; congruence].
Qed.

Lemma kw_like_all_word t : kw_like wordc digitc t = true -> forallb wordc t = true /\ t <> [].
Proof.
  intro H. apply kw_like_spec in H as [c [r [-> [_ [Hc Hr]]]]]. cbn [forallb]. rewrite Hc, Hr.
  split; [reflexivity | discriminate].
Qed.

(* the word classification does not depend on case (needed only with ignore_case) *)
Definition word_ok (icase : bool) : Prop :=
  icase = true -> forall a b, lower a = lower b -> wordc a = wordc b.

(* where a literal of word characters matches, the text has word characters *)
Lemma lit_prefix_words icase : word_ok icase -> forall t s i,
  lit_prefix lower icase t s = true -> forallb wordc t = true -> i < length t -> word_at wordc s i = true.
Proof.
  intros Hw t. induction t as [|x t IH]; intros [|y s] i H Hall Hi; try discriminate; try (cbn in Hi; lia).
  cbn [lit_prefix] in H. apply andb_true_iff in H as [Hxy Ht].
  cbn [forallb] in Hall. apply andb_true_iff in Hall as [Hx Hall].
  destruct i as [|i]; [|apply (IH s i Ht Hall); cbn [length] in Hi; lia].
  unfold word_at. cbn [nth_error]. rewrite <- Hx. unfold ceq in Hxy.
  destruct icase; apply N.eqb_eq in Hxy; [symmetry; apply Hw; [reflexivity | exact Hxy] | subst; reflexivity].
Qed.

(* so the character before the end of a matched keyword-like literal is one, and the boundary test only
   looks at the character after it *)
Theorem kw_match_char icase t input p :
  word_ok icase -> kw_like wordc digitc t = true ->
  kw_match wordc lower icase t input p =
  if (lit_prefix lower icase t (skipn p input) && negb (word_at wordc input (p + length t)))%bool
  then Some (length t) else None.
Proof.
  intros Hw Hk. unfold kw_match, boundary.
  destruct (lit_prefix lower icase t (skipn p input)) eqn:Hp; [|reflexivity].
  destruct (kw_like_all_word t Hk) as [Hall Hne]. destruct t as [|c r]; [congruence|].
  pose proof (lit_prefix_words icase Hw (c :: r) _ (length r) Hp Hall (Nat.lt_succ_diag_r _)) as Hb.
  unfold word_at in Hb. rewrite nth_error_skipn in Hb.
  cbn [length]. rewrite Nat.add_succ_r. cbn [word_before andb]. unfold word_at at 1. rewrite Hb.
  destruct (word_at wordc input (S (p + length r))); reflexivity.
Qed.

Theorem kw_boundary icase t input p :
  word_ok icase -> kw_like wordc digitc t = true ->
  word_at wordc input (p + length t) = true ->
  kw_match wordc lower icase t input p = None.
Proof.
  intros Hw Hk Hn. rewrite (kw_match_char icase t input p Hw Hk), Hn, andb_false_r. reflexivity.
Qed.

Theorem kw_match_length icase t input p len :
  kw_match wordc lower icase t input p = Some len -> len = length t.
Proof. unfold kw_match. destruct (_ && _)%bool; [intro H; injection H as <-; reflexivity | discriminate]. Qed.

Lemma lit_prefix_false t s : lit_prefix lower false t s = is_prefix t s.
Proof.
  revert s; induction t as [|x t IH]; intros [|y s]; try reflexivity.
  cbn [lit_prefix is_prefix ceq]. rewrite IH. reflexivity.
Qed.

(* what textX builds for a literal *)
Theorem compile_lit_kw icase t :
  src_kw_guard_is_autokwd = true -> src_kw_full_span = true ->
  compile_lit wordc digitc true icase t =
  if kw_like wordc digitc t
  then TRegex (src_kw_prefix ++ t ++ src_kw_suffix) (icase_of src_kw_icase icase) t
  else TStr t (icase_of src_str_icase icase).
Proof. intros H1 H2. unfold compile_lit. rewrite H1, H2. reflexivity. Qed.

Theorem compile_lit_plain icase t :
  src_kw_guard_is_autokwd = true ->
  compile_lit wordc digitc false icase t = TStr t (icase_of src_str_icase icase).
Proof. intros H1. unfold compile_lit. rewrite H1. reflexivity. Qed.

Theorem compile_lit_other icase t :
  src_kw_guard_is_autokwd = true -> src_kw_full_span = true ->
  kw_like wordc digitc t = false ->
  compile_lit wordc digitc true icase t = compile_lit wordc digitc false icase t.
Proof.
  intros H1 H2 Hk. rewrite (compile_lit_kw icase t H1 H2), (compile_lit_plain icase t H1), Hk. reflexivity.
Qed.

End Kw.

(* node nid is a StrMatch in the plain table and a RegExMatch in the autokwd table *)
Definition kwnode (g g' : grammar) (nid : nat) : bool :=
  match get_node g nid, get_node g' nid with
  | Some nd, Some nd' =>
    match n_kind nd, n_kind nd' with KStr _ _, KRegex _ => true | _, _ => false end
  | _, _ => false
  end.

(* Terminal.suppress: a StrMatch inside a Sequence is marked, a RegExMatch never is *)
Definition kw_supf (g g' : grammar) (nid : nat) (sup : bool) : bool :=
  if kwnode g g' nid then false else sup.

Definition plain_str_match (input : list N) (orc : nat -> nat -> option nat) (t : list N)
           (oid : option nat) (p : nat) : bool :=
  match oid with
  | None => is_prefix t (skipn p input)
  | Some o => match orc o p with Some _ => true | None => false end
  end.

Definition kind_rel (input : list N) (orc orc' : nat -> nat -> option nat) (k k' : kind) : Prop :=
  match k, k' with
  | KEOF, KEOF => True
  | KStr t None, KStr t' None => t' = t
  | KStr t (Some o), KStr t' (Some o') => t' = t /\ forall p, orc' o' p = orc o p
  | KRegex o, KRegex o' => forall p, orc' o' p = orc o p
  | KStr t oid, KRegex o' =>
    t <> [] /\ forall p, orc' o' p = if plain_str_match input orc t oid p then Some (length t) else None
  | _, _ => False
  end.

Definition node_rel (input : list N) (orc orc' : nat -> nat -> option nat) (nd nd' : node) : Prop :=
  if is_match_kind (n_kind nd)
  then n_suppress nd' = n_suppress nd /\ kind_rel input orc orc' (n_kind nd) (n_kind nd')
  else nd' = nd.

Definition tables_rel (g g' : grammar) (input : list N) (orc orc' : nat -> nat -> option nat) : Prop :=
  (forall nid,
      match get_node g nid, get_node g' nid with
      | None, None => True
      | Some nd, Some nd' => node_rel input orc orc' nd nd'
      | _, _ => False
      end) /\ g_comments g' = g_comments g /\ g_top g' = g_top g.

(* the kinds of two related terminals, by cases; [P] is what is known of a StrMatch replaced by a RegExMatch *)
Section KindView.
Variable P : list N -> option nat -> nat -> Prop.
Variables orc orc' : nat -> nat -> option nat.
Inductive kind_view (k k' : kind) : Prop :=
| KV_eof : k = KEOF -> k' = KEOF -> kind_view k k'
| KV_str t : k = KStr t None -> k' = KStr t None -> kind_view k k'
| KV_ostr t o o' : k = KStr t (Some o) -> k' = KStr t (Some o') -> (forall p, orc' o' p = orc o p) -> kind_view k k'
| KV_regex o o' : k = KRegex o -> k' = KRegex o' -> (forall p, orc' o' p = orc o p) -> kind_view k k'
| KV_repl t oid o' : k = KStr t oid -> k' = KRegex o' -> P t oid o' -> kind_view k k'.
End KindView.

Lemma kind_rel_case input orc orc' k k' : kind_rel input orc orc' k k' ->
  kind_view (fun t oid o' =>
               t <> [] /\
               forall p, orc' o' p = if plain_str_match input orc t oid p then Some (length t) else None)
            orc orc' k k'.
Proof.
  intro H. destruct k as [| | | | | | | | | |t [o|]|o]; try contradiction;
    destruct k' as [| | | | | | | | | |t' [o'|]|o']; try contradiction;
    cbn [kind_rel] in H; decompose [and] H; subst; eauto using KV_eof, KV_str, KV_ostr, KV_regex, KV_repl.
Qed.

Theorem autokwd_sim g g' cfg orc orc' memo fuel input :
  tables_rel g g' input orc orc' ->
  run g' cfg orc' memo fuel input = foutcome (kw_supf g g') (run g cfg orc memo fuel input).
Proof.
  intros [Hn [Hc Ht]].
  apply (run_sim (kw_supf g g') g g' input input orc orc' memo (fun _ => True) cfg fuel);
    try solve [auto].
  intro nid.
  destruct (node_case (kind_rel input orc orc') g g' nid (Hn nid)) as [En En'|nd nd' En En' Em Hsup Hk|nd En En' Em];
    rewrite En, En'; [exact I | | unfold node_sim; rewrite Em; reflexivity].
  unfold node_sim. rewrite Em.
  assert (Hsf : forall b, kw_supf g g' nid b =
                          if match n_kind nd, n_kind nd' with KStr _ _, KRegex _ => true | _, _ => false end
                          then false else b)
    by (intro b; unfold kw_supf, kwnode; rewrite En, En'; reflexivity).
  destruct (kind_rel_case _ _ _ _ _ Hk) as [Ek Ek'|t Ek Ek'|t o o' Ek Ek' Ho|o o' Ek Ek' Ho|t oid o' Ek Ek' [Hne Ho]];
    rewrite Ek, ?Ek' in Hsf; rewrite Ek, Ek'; (split; [reflexivity|]); (split; [exact Hsup|]); intros psq s.
  1-4: rewrite <- (term_parse_fs _ _ _ _ _ _ _ Hsf); unfold term_parse; rewrite ?Ho; reflexivity.
  (* a keyword regex answers like the StrMatch it replaces, and is never suppressed *)
  assert (Hl : Nat.eqb (length t) 0 = false) by (destruct t; [congruence | reflexivity]).
  unfold term_parse. cbv zeta. change (pos (fs (kw_supf g g') s)) with (pos s). rewrite Ho. unfold plain_str_match.
  destruct (match oid with Some o => _ | None => _ end); [|apply nm_raise_fs].
  rewrite Hl. cbn [fo fr ft]. rewrite Hsf. reflexivity.
Qed.

(* the same, from the behaviour of the keyword regex and the absence of glued keywords *)
Section KwRel.
Variable wordc : N -> bool.
Variable digitc : N -> bool.
Variable lower : N -> N.

Definition kw_kind_spec (input : list N) (orc orc' : nat -> nat -> option nat) (k k' : kind) : Prop :=
  match k, k' with
  | KEOF, KEOF => True
  | KStr t None, KStr t' None => t' = t
  | KStr t (Some o), KStr t' (Some o') => t' = t /\ forall p, orc' o' p = orc o p
  | KRegex o, KRegex o' => forall p, orc' o' p = orc o p
  | KStr t oid, KRegex o' =>
    kw_like wordc digitc t = true /\
    (forall p, orc' o' p = kw_match wordc lower (oid_icase oid) t input p) /\
    match oid with
    | Some o => forall p, orc o p = str_match lower true t input p
    | None => True
    end
  | _, _ => False
  end.

Definition kw_tables_spec (g g' : grammar) (input : list N) (orc orc' : nat -> nat -> option nat) : Prop :=
  (forall nid,
      match get_node g nid, get_node g' nid with
      | None, None => True
      | Some nd, Some nd' =>
        if is_match_kind (n_kind nd)
        then n_suppress nd' = n_suppress nd /\ kw_kind_spec input orc orc' (n_kind nd) (n_kind nd')
        else nd' = nd
      | _, _ => False
      end) /\ g_comments g' = g_comments g /\ g_top g' = g_top g.

Definition no_glued_keyword (g : grammar) (input : list N) : Prop :=
  forall nid nd t oid, get_node g nid = Some nd -> n_kind nd = KStr t oid ->
    kw_like wordc digitc t = true ->
    forall p, lit_prefix lower (oid_icase oid) t (skipn p input) = true ->
              word_at wordc input (p + length t) = false.

Lemma kw_kind_case input orc orc' k k' : kw_kind_spec input orc orc' k k' ->
  kind_view (fun t oid o' =>
               kw_like wordc digitc t = true /\
               (forall p, orc' o' p = kw_match wordc lower (oid_icase oid) t input p) /\
               match oid with Some o => forall p, orc o p = str_match lower true t input p | None => True end)
            orc orc' k k'.
Proof.
  intro H. destruct k as [| | | | | | | | | |t [o|]|o]; try contradiction;
    destruct k' as [| | | | | | | | | |t' [o'|]|o']; try contradiction;
    cbn [kw_kind_spec] in H; decompose [and] H; subst; eauto using KV_eof, KV_str, KV_ostr, KV_regex, KV_repl.
Qed.

Theorem autokwd_same_model g g' cfg orc orc' memo fuel input :
  (forall a b, lower a = lower b -> wordc a = wordc b) ->
  kw_tables_spec g g' input orc orc' ->
  no_glued_keyword g input ->
  run g' cfg orc' memo fuel input = foutcome (kw_supf g g') (run g cfg orc memo fuel input).
Proof.
  intros Hwl [Hn [Hc Ht]] Hglue. apply autokwd_sim. split; [|split; assumption].
  intro nid.
  destruct (node_case _ g g' nid (Hn nid)) as [En En'|nd nd' En En' Em Hsup Hk|nd En En' Em];
    rewrite En, En'; unfold node_rel; [exact I | | rewrite Em; reflexivity].
  rewrite Em. split; [exact Hsup|].
  destruct (kw_kind_case _ _ _ _ _ Hk) as [Ek Ek'|t Ek Ek'|t o o' Ek Ek' Ho|o o' Ek Ek' Ho|t oid o' Ek Ek' [Hkw [Ho' Ho]]];
    rewrite Ek, Ek'; cbn [kind_rel]; auto.
  (* a replaced literal: where it matches no word character follows, so the boundary test of the regex passes *)
  destruct oid as [o|]; (split; [exact (proj2 (kw_like_all_word wordc digitc t Hkw))|]); intro p;
    pose proof (Hglue nid nd t _ En Ek Hkw p) as Hg; cbn [oid_icase] in Ho', Hg;
    rewrite Ho', (kw_match_char wordc digitc lower _ t input p (fun _ => Hwl) Hkw); unfold plain_str_match.
  - rewrite Ho. unfold str_match.
    destruct (lit_prefix lower true t (skipn p input)); [rewrite Hg; reflexivity | reflexivity].
  - rewrite <- (lit_prefix_false lower).
    destruct (lit_prefix lower false t (skipn p input)); [rewrite Hg; reflexivity | reflexivity].
Qed.

End KwRel.

(* Soundness of the checks of Model/Kw.v: when the harness evaluates them to [true] on the dumped tables /
   oracle tables / texts of a case, the hypotheses of the theorems hold for the oracles [orc_of table],
   hence their conclusions. *)
Fixpoint row_get (row : list (nat * nat)) (p : nat) : option nat :=
  match row with
  | [] => None
  | (p', l) :: row' => if Nat.eqb p p' then Some l else row_get row' p
  end.

Lemma orc_of_row tbl o p : orc_of tbl o p = row_get (orc_row tbl o) p.
Proof.
  unfold orc_of, orc_row. induction tbl as [|[[o' p'] l] tbl IH]; [reflexivity|].
  cbn [flat_map fst snd]. rewrite (Nat.eqb_sym o' o). destruct (Nat.eqb o o'); cbn [andb app row_get].
  - destruct (Nat.eqb p p'); [reflexivity | exact IH].
  - exact IH.
Qed.

Lemma forall2b_eq {A} (f : A -> A -> bool) :
  (forall x y, f x y = true -> x = y) -> forall a b, forall2b f a b = true -> a = b.
Proof.
  intros Hf a. induction a as [|x a IH]; intros [|y b] H; try discriminate; [reflexivity|].
  cbn [forall2b] in H. apply andb_true_iff in H as [H1 H2]. rewrite (Hf x y H1), (IH b H2). reflexivity.
Qed.

Lemma row_eqb_eq a b : row_eqb a b = true -> a = b.
Proof.
  apply forall2b_eq. intros [x1 x2] [y1 y2] H. cbn [fst snd] in H.
  apply andb_true_iff in H as [H1 H2]. apply Nat.eqb_eq in H1, H2. congruence.
Qed.

Lemma forall2b_Forall2 {A B} (f : A -> B -> bool) (R : A -> B -> Prop) :
  (forall x y, f x y = true -> R x y) -> forall a b, forall2b f a b = true -> Forall2 R a b.
Proof.
  intros Hf a. induction a as [|x a IH]; intros [|y b] H; try discriminate; [constructor|].
  cbn [forall2b] in H. apply andb_true_iff in H as [H1 H2]. constructor; [apply Hf, H1 | apply IH, H2].
Qed.

Lemma memN_false c l : memN c l = false -> ~ In c l.
Proof.
  intros H Hin. unfold memN in H. assert (E : existsb (N.eqb c) l = true).
  { apply existsb_exists. exists c. split; [exact Hin | apply N.eqb_refl]. }
  congruence.
Qed.

Lemma char_okb_ok U a b : char_okb U a b = true -> char_ok U a b.
Proof.
  unfold char_okb, char_ok. intro H. apply orb_true_iff in H as [H|H].
  - left. apply N.eqb_eq, H.
  - right. apply andb_true_iff in H as [Ha Hb]. apply negb_true_iff in Ha, Hb.
    split; apply memN_false; assumption.
Qed.

Lemma kind_oids_In g nid nd o :
  get_node g nid = Some nd -> kind_oid (n_kind nd) = Some o -> In o (kind_oids g).
Proof.
  intros Hn Ho. unfold kind_oids. apply in_flat_map. exists nd.
  split; [eapply nth_error_In; exact Hn | rewrite Ho; left; reflexivity].
Qed.

Theorem c20_hyp_sound lower g cfg tbl tbl' s s' memo fuel :
  c20_hyp_b lower g cfg tbl tbl' s s' = true ->
  run g cfg (orc_of tbl') memo fuel s' = run g cfg (orc_of tbl) memo fuel s.
Proof.
  unfold c20_hyp_b. intro H.
  apply andb_true_iff in H as [H Hor]. apply andb_true_iff in H as [H _].
  apply andb_true_iff in H as [Hall Hws].
  apply terminal_congruence.
  - eapply forall2b_Forall2; [|exact Hws]. intros x y. apply char_okb_ok.
  - intros nid nd o Hn Ho p. rewrite !orc_of_row.
    rewrite forallb_forall in Hor. specialize (Hor o (kind_oids_In g nid nd o Hn Ho)).
    rewrite (row_eqb_eq _ _ Hor). reflexivity.
  - apply all_str_icase_exact, Hall.
Qed.

Lemma forall2b_nth {A B} (f : A -> B -> bool) : forall l l', forall2b f l l' = true ->
  forall i, match nth_error l i, nth_error l' i with
            | Some x, Some y => f x y = true
            | None, None => True
            | _, _ => False
            end.
Proof.
  induction l as [|x l IH]; intros [|y l'] H i; try discriminate.
  - destruct i; exact I.
  - cbn [forall2b] in H. apply andb_true_iff in H as [H1 H2].
    destruct i as [|i]; cbn [nth_error]; [exact H1 | apply IH, H2].
Qed.

Lemma row_get_expected (f : nat -> option nat) l p :
  row_get (flat_map (fun q => match f q with Some v => [(q, v)] | None => [] end) l) p
  = if existsb (Nat.eqb p) l then f p else None.
Proof.
  induction l as [|a l IH]; [reflexivity|]. cbn [flat_map existsb].
  destruct (Nat.eqb_spec p a) as [->|Hne]; cbn [orb].
  - destruct (f a); cbn [app row_get]; [rewrite Nat.eqb_refl; reflexivity|].
    rewrite IH. destruct (existsb (Nat.eqb a) l); reflexivity.
  - destruct (f a); cbn [app row_get]; [rewrite (proj2 (Nat.eqb_neq p a) Hne)|]; exact IH.
Qed.

Lemma expected_row_sound f input tbl o :
  (forall p, length input < p -> f p = None) ->
  row_eqb (orc_row tbl o) (expected_row f input) = true ->
  forall p, orc_of tbl o p = f p.
Proof.
  intros Hout H p. rewrite orc_of_row, (row_eqb_eq _ _ H). unfold expected_row, positions.
  rewrite (row_get_expected f). destruct (existsb (Nat.eqb p) (seq 0 (S (length input)))) eqn:E; [reflexivity|].
  symmetry. apply Hout. destruct (Nat.ltb_spec (length input) p) as [Hlt|Hle]; [exact Hlt|].
  assert (E' : existsb (Nat.eqb p) (seq 0 (S (length input))) = true)
    by (apply existsb_exists; exists p; split; [apply in_seq; lia | apply Nat.eqb_refl]).
  congruence.
Qed.

Lemma lit_prefix_beyond lower ic t (input : list N) p :
  t <> [] -> length input < p -> lit_prefix lower ic t (skipn p input) = false.
Proof.
  intros Hne Hp. rewrite skipn_all2 by lia. destruct t; [congruence | reflexivity].
Qed.

Lemma kind_nonmatch_eqb_eq k k' : kind_nonmatch_eqb k k' = true -> k' = k.
Proof. destruct k, k'; cbn; intro H; try discriminate; reflexivity. Qed.

Lemma opt_eqb_eq {A} (f : A -> A -> bool) : (forall x y, f x y = true -> y = x) ->
  forall a b, opt_eqb f a b = true -> b = a.
Proof. intros Hf [x|] [y|] H; try discriminate; [rewrite (Hf x y H)|]; reflexivity. Qed.

Lemma bool_eqb_eq a b : Bool.eqb a b = true -> b = a.
Proof. destruct a, b; cbn; intro H; try discriminate; reflexivity. Qed.

Lemma node_eqb_eq a b : node_eqb a b = true -> b = a.
Proof.
  unfold node_eqb. intro H. repeat (apply andb_true_iff in H as [H ?]).
  destruct a as [k1 kids1 sep1 eol1 rule1 root1 sup1 ws1 sk1], b as [k2 kids2 sep2 eol2 rule2 root2 sup2 ws2 sk2].
  cbn [n_kind n_kids n_sep n_eolterm n_rule n_root n_suppress n_ws n_skipws] in *.
  f_equal.
  - apply kind_nonmatch_eqb_eq; assumption.
  - symmetry. eapply forall2b_eq; [|eassumption]. intros x y E. apply Nat.eqb_eq, E.
  - eapply opt_eqb_eq; [|eassumption]. intros x y E. symmetry. apply Nat.eqb_eq, E.
  - apply bool_eqb_eq; assumption.
  - symmetry. apply str_eqb_eq; assumption.
  - apply bool_eqb_eq; assumption.
  - apply bool_eqb_eq; assumption.
  - eapply opt_eqb_eq; [|eassumption]. intros x y E. symmetry. apply str_eqb_eq, E.
  - eapply opt_eqb_eq; [|eassumption]. intros x y E. apply bool_eqb_eq, E.
Qed.

Theorem kw_case_sound wordc digitc lower input tbl tbl' g g' cfg memo fuel :
  (forall a b, lower a = lower b -> wordc a = wordc b) ->
  kw_case_ok wordc digitc lower input tbl tbl' g g' = true ->
  no_glue_ok wordc digitc lower input g = true ->
  run g' cfg (orc_of tbl') memo fuel input
  = foutcome (kw_supf g g') (run g cfg (orc_of tbl) memo fuel input).
Proof.
  intros Hwl Hok Hglue. unfold kw_case_ok in Hok.
  apply andb_true_iff in Hok as [Hok Hcm]. apply andb_true_iff in Hok as [Hnodes Htop].
  apply (autokwd_same_model wordc digitc lower); [exact Hwl | | ].
  - split; [|split].
    + intro nid. pose proof (forall2b_nth _ _ _ Hnodes nid) as Hn. unfold get_node.
      destruct (nth_error (g_nodes g) nid) as [nd|], (nth_error (g_nodes g') nid) as [nd'|]; try exact Hn.
      destruct (is_match_kind (n_kind nd)) eqn:Em; [|apply node_eqb_eq, Hn].
      apply andb_true_iff in Hn as [Hs Hk]. split; [apply bool_eqb_eq in Hs; congruence|].
      unfold kw_pair_ok in Hk. unfold kw_kind_spec.
      destruct (n_kind nd) as [| | | | | | | | | |t oid|o]; try discriminate;
        destruct (n_kind nd') as [| | | | | | | | | |t' oid'|o']; try discriminate.
      * exact I.
      * apply andb_true_iff in Hk as [Ht Ho]. apply str_eqb_eq in Ht. subst t'.
        destruct oid as [o|], oid' as [o'|]; try discriminate; [|reflexivity].
        split; [reflexivity|]. intro p. rewrite !orc_of_row, (row_eqb_eq _ _ Ho). reflexivity.
      * apply andb_true_iff in Hk as [Hk Hplain]. apply andb_true_iff in Hk as [Hkw Hrow].
        destruct (kw_like_all_word wordc digitc t Hkw) as [_ Hne].
        assert (Hsp : kw_like wordc digitc t = true /\
                      (forall p, orc_of tbl' o' p = kw_match wordc lower (oid_icase oid) t input p)).
        { split; [exact Hkw|]. apply (expected_row_sound _ input); [|exact Hrow].
          intros p Hp. unfold kw_match. rewrite lit_prefix_beyond by assumption. reflexivity. }
        destruct oid as [o|]; (split; [exact (proj1 Hsp)|]); (split; [exact (proj2 Hsp)|]); [|exact I].
        apply (expected_row_sound _ input); [|exact Hplain].
        intros p Hp. unfold str_match. rewrite lit_prefix_beyond by assumption. reflexivity.
      * intro p. rewrite !orc_of_row, (row_eqb_eq _ _ Hk). reflexivity.
    + symmetry. eapply opt_eqb_eq; [|exact Hcm]. intros x y E. apply Nat.eqb_eq in E. congruence.
    + apply Nat.eqb_eq, Htop.
  - intros nid nd t oid Hn Hk Hkw p Hp. unfold no_glue_ok in Hglue. rewrite forallb_forall in Hglue.
    specialize (Hglue nd (nth_error_In _ _ Hn)). rewrite Hk, Hkw in Hglue. rewrite forallb_forall in Hglue.
    destruct (kw_like_all_word wordc digitc t Hkw) as [_ Hne].
    destruct (Nat.ltb_spec (length input) p) as [Hlt|Hle].
    + rewrite lit_prefix_beyond in Hp by assumption. discriminate.
    + assert (Hin : In p (positions input)) by (unfold positions; apply in_seq; lia).
      specialize (Hglue p Hin). rewrite Hp in Hglue. cbn [negb orb] in Hglue.
      apply negb_true_iff in Hglue. exact Hglue.
Qed.
