(* C25 — grammar imports resolve rules in the documented order.

   Model: Model/Imports.v (namespaces, namespace stack as the nesting of loads, _new_import,
   _new_class/_cls_fqn, __getitem__, the second pass of every grammar file).
   [load_main fs main] is metamodel_from_file(main) for the folder contents [fs]
   (namespace name -> imports and rules with their references); [spec_resolve fs cur name] is
   the documented resolution computed from the file contents alone.  Gen/SrcImports.v is
   regenerated from textx/metamodel.py on every run. *)
From TxV Require Import Core.Base Gen.SrcImports Model.Imports Proofs.ImportsProofs.

(* The look-up driven by the search steps found in TextXMetaModel.__getitem__ (their order,
   the slice/reversal of the import list, the place where a qualified name is split) is the
   documented look-up.  Re-proved on every run; fails when the source searches differently. *)
Theorem C25_source_lookup_order : forall s cur name, lookup s cur name = lookup_doc s cur name.
Proof. exact lookup_src_doc. Qed.
Print Assumptions C25_source_lookup_order.

(* _new_import as found in the source registers the import on every import statement (not only
   when the file is loaded), normalises the import name, a new namespace starts with the
   built-in namespace as its only import, _cls_fqn builds namespace "." rule name, and the imports
   of the MAIN grammar are relative to its own folder whatever its file name is (dots in the name;
   fix 76155a4).  The load theorems below are stated for main file names without a dot; names
   with a dot are covered by this equation and by the correspondence. *)
Theorem C25_source_imports :
  (forall main rec stk cur imp s, has_dot main = false ->
     new_import main rec stk cur imp s = new_import_doc rec stk cur imp s) /\
  (forall cur imp, abs_import cur imp = norm_dots (rel_import cur imp)) /\
  initial_imports = [BASE] /\
  (forall c, fqn c = fqn_doc c) /\
  main_in_root = true /\
  (forall main imp, abs_import_src main main imp = norm_dots imp).
Proof.
  split; [exact new_import_src_doc|]. repeat split; try exact fqn_src_doc.
  intros main imp. unfold abs_import_src, main_in_root, normalise_import. rewrite str_eqb_refl. reflexivity.
Qed.
Print Assumptions C25_source_imports.

(* The load algorithm as found in the source (textx/lang.py language_from_str ->
   arpeggio.visit_parse_tree, the visitor's visit_import_stm -> metamodel._new_import ->
   metamodel_from_file recursion): import statements are visited in textual order, both passes of
   an imported grammar run inside _new_import before the importer continues (the source of the
   cyclic-import finding), and the namespace is entered before and left after the nested load.
   With these generated facts the source-driven load is the documented one; every theorem below
   about load_main is proved through this equation and so re-proved against the source. *)
Theorem C25_source_load : forall fs main, has_dot main = false -> no_refs fs ->
  load_main fs main = load_main_doc fs main /\
  (forall fuel stk ns s, load main fuel fs stk ns s = load_doc fuel fs stk ns s).
Proof. exact (fun fs main H H' => conj (load_main_src_doc fs main H H') (load_src_doc fs main H H')). Qed.
Print Assumptions C25_source_load.

(* Unqualified names: the rule of the current namespace if it has one; otherwise the first
   namespace of the current namespace's import list, in import order, that has one. *)
Theorem C25_unqualified : forall s cur name c, has_dot name = false ->
  (lookup s cur name = Some c <->
   lookup_in s cur name = Some c \/
   (lookup_in s cur name = None /\
    exists pre i post, imports_of s cur = pre ++ i :: post
                       /\ (forall j, In j pre -> lookup_in s j name = None)
                       /\ lookup_in s i name = Some c)).
Proof.
  intros s cur name c Hd. rewrite lookup_src_doc. unfold lookup_doc. rewrite (rsplit1_nodot _ Hd).
  destruct (lookup_in s cur name) as [c'|] eqn:E.
  - split; [intro H; left; exact H | intros [H|[H _]]; [exact H | discriminate]].
  - split; [intro H; right; split; [reflexivity | apply first_def_some; exact H] | intros [H|[_ H]]; [discriminate | apply first_def_some; exact H]].
Qed.
Print Assumptions C25_unqualified.

Theorem C25_unqualified_none : forall s cur name, has_dot name = false ->
  (lookup s cur name = None <->
   lookup_in s cur name = None /\ forall j, In j (imports_of s cur) -> lookup_in s j name = None).
Proof.
  intros s cur name Hd. rewrite lookup_src_doc. unfold lookup_doc. rewrite (rsplit1_nodot _ Hd).
  destruct (lookup_in s cur name) as [c'|] eqn:E.
  - split; [discriminate | intros [H _]; discriminate].
  - split; [intro H; split; [reflexivity | apply first_def_none; exact H] | intros [_ H]; apply first_def_none; exact H].
Qed.
Print Assumptions C25_unqualified_none.

(* A qualified name: when its first part is an alias of a referenced language (`reference lang as
   alias`) it is resolved in that language's meta-model, otherwise it selects the named
   grammar-file namespace's rule. *)
Theorem C25_qualified : forall s cur q n, has_dot n = false ->
  lookup s cur (q ++ DOT :: n) =
  match aget q (reflangs s) with
  | Some lang => ext_lookup (slangs s) lang n
  | None => lookup_in s q n
  end.
Proof. intros s cur q n Hd. rewrite lookup_src_doc. unfold lookup_doc. rewrite (rsplit1_qualified _ _ Hd). reflexivity. Qed.
Print Assumptions C25_qualified.

(* Every reference resolved while loading (rule references, attribute classes, [Class] links,
   qualified or not, in the main grammar and in every imported one) is the documented one:
   own file first, then built-in types, then the imported files in import order; a qualified
   name selects the named file's rule — provided no grammar imports a grammar that is still
   being loaded (no import cycle was followed: [backs] is the log of such imports).
   Hypotheses: no grammar file is called __base__.tx. *)
Theorem C25_resolution_order : forall fs main, has_dot main = false -> no_refs fs ->
  aget BASE fs = None -> main <> BASE ->
  serr (load_main fs main) = None -> backs (load_main fs main) = [] ->
  forall l, In l (links (load_main fs main)) ->
    option_map cls_key (l_target l) = spec_resolve fs (l_ns l) (l_name l).
Proof. intros fs main Hm Hnr. rewrite (load_main_src_doc fs main Hm Hnr). apply links_spec. Qed.
Print Assumptions C25_resolution_order.

(* The same for import cycles that are harmless: every followed import (importer, imported)
   of a grammar still being loaded is such that each unqualified name written in the importer
   is defined by the importer itself, is a built-in, or is not defined by the imported grammar
   ([safe], a decidable predicate on the file contents and the log; self-imports always
   qualify).  Its negation is exactly the class of the known finding. *)
Theorem C25_resolution_order_cycles : forall fs main, has_dot main = false -> no_refs fs ->
  aget BASE fs = None -> main <> BASE ->
  serr (load_main fs main) = None -> safe fs (load_main fs main) = true ->
  forall l, In l (links (load_main fs main)) ->
    option_map cls_key (l_target l) = spec_resolve fs (l_ns l) (l_name l).
Proof. intros fs main Hm Hnr. rewrite (load_main_src_doc fs main Hm Hnr). apply links_spec_safe. Qed.
Print Assumptions C25_resolution_order_cycles.

(* metamodel[name] after ANY successful load (import cycles included) is the documented rule
   as seen from the main grammar ... *)
Theorem C25_metamodel_getitem : forall fs main, has_dot main = false -> no_refs fs ->
  aget BASE fs = None -> main <> BASE -> serr (load_main fs main) = None ->
  forall name c, lookup (load_main fs main) main name = Some c ->
    Some (cls_key c) = spec_resolve fs main name.
Proof. intros fs main Hm Hnr. rewrite (load_main_src_doc fs main Hm Hnr). apply final_lookup. Qed.
Print Assumptions C25_metamodel_getitem.

(* ... and an unqualified name that is not found has no documented rule either. *)
Theorem C25_metamodel_getitem_none : forall fs main, has_dot main = false -> no_refs fs ->
  aget BASE fs = None -> main <> BASE -> serr (load_main fs main) = None ->
  forall name, has_dot name = false -> lookup (load_main fs main) main name = None ->
    spec_resolve fs main name = None.
Proof. intros fs main Hm Hnr. rewrite (load_main_src_doc fs main Hm Hnr). apply final_lookup_none. Qed.
Print Assumptions C25_metamodel_getitem_none.

(* Each class sits under its rule name in the namespace of its grammar file and reports the
   file-based qualified name (built-ins report the bare name); holds for every load, failed
   ones included. *)
Theorem C25_fqn : forall fs main, has_dot main = false -> no_refs fs -> main <> BASE ->
  forall a n c, lookup_in (load_main fs main) a n = Some c ->
    c_ns c = a /\ c_name c = n /\ fqn c = (if str_eqb a BASE then n else a ++ DOT :: n).
Proof. intros fs main Hm Hnr. rewrite (load_main_src_doc fs main Hm Hnr). apply classes_fqn. Qed.
Print Assumptions C25_fqn.

(* One set of classes per grammar file, however many import paths lead to it: two table
   entries never share a class object (with C25_fqn an entry's class is determined by its
   namespace and rule name), and a successful load creates, besides the 9 built-in classes,
   exactly one class per rule of every file read (each file being read once,
   C25_each_file_read_once). *)
Theorem C25_one_class_set_per_file : forall fs main, has_dot main = false -> no_refs fs -> main <> BASE ->
  (forall a n c a' n' c',
     lookup_in (load_main fs main) a n = Some c -> lookup_in (load_main fs main) a' n' = Some c' ->
     c_id c = c_id c' -> a = a' /\ n = n') /\
  (serr (load_main fs main) = None ->
   created (load_main fs main) = length base_names + nrules_of fs (loads (load_main fs main))).
Proof. intros fs main Hm Hnr. rewrite (load_main_src_doc fs main Hm Hnr). apply one_class_set. Qed.
Print Assumptions C25_one_class_set_per_file.

(* Every grammar file is read at most once, however many import paths (or cycles) lead to
   it; holds for failed loads too. *)
Theorem C25_each_file_read_once : forall fs main, has_dot main = false -> no_refs fs -> main <> BASE -> NoDup (loads (load_main fs main)).
Proof. intros fs main Hm Hnr. rewrite (load_main_src_doc fs main Hm Hnr). apply loads_once. Qed.
Print Assumptions C25_each_file_read_once.

(* Loading terminates for every import graph (cycles of imports included): the fuel
   |fs|+1 used by load_main is never exhausted, so EFuel is not a possible outcome. *)
Theorem C25_terminates : forall fs main, has_dot main = false -> no_refs fs -> serr (load_main fs main) <> Some EFuel.
Proof. intros fs main Hm Hnr. rewrite (load_main_src_doc fs main Hm Hnr). apply load_main_terminates. Qed.
Print Assumptions C25_terminates.

(* Known finding: import cycles.  In a cycle the imported file's second pass runs before the
   importing file has any rule.
   (1) a imports b; b imports a, c: b's X silently becomes c.X although a.X is the first
   import in order that defines X. *)
Theorem C25_cycles_refuted :
  serr (load_main ex_silent [97]%N) = None /\
  exists l, In l (links (load_main ex_silent [97]%N)) /\ l_ns l = [98]%N /\ l_name l = [88]%N /\
            option_map cls_key (l_target l) = Some ([99], [88])%N /\
            spec_resolve ex_silent (l_ns l) (l_name l) = Some ([97], [88])%N.
Proof.
  split; [vm_compute; reflexivity|].
  eexists. split; [vm_compute; left; reflexivity|]. vm_compute. repeat split; reflexivity.
Qed.
Print Assumptions C25_cycles_refuted.

(* (2) a imports b; b imports a and refers to a's X: the load fails with 'Unexisting rule'. *)
Theorem C25_cycles_unexisting_refuted :
  serr (load_main ex_unexisting [97]%N) = Some (EUnexisting [98] [[88]])%N /\
  spec_resolve ex_unexisting [98]%N [88]%N = Some ([97], [88])%N.
Proof. split; vm_compute; reflexivity. Qed.
Print Assumptions C25_cycles_unexisting_refuted.

Example C25_nonvacuous :
  aget BASE ex_diamond = None /\ serr (load_main ex_diamond [97]%N) = None /\
  backs (load_main ex_diamond [97]%N) = [] /\ length (links (load_main ex_diamond [97]%N)) = 6 /\
  loads (load_main ex_diamond [97]%N) = [[97]; [98]; [100]; [99]]%N /\
  created (load_main ex_diamond [97]%N) = 9 + 8 /\ nrules_of ex_diamond [[97]; [98]; [100]; [99]]%N = 8 /\
  option_map cls_key (lookup (load_main ex_diamond [97]%N) [97]%N [87]%N) = Some ([99], [87])%N /\
  option_map cls_key (lookup (load_main ex_diamond [97]%N) [97]%N [88]%N) = Some ([98], [88])%N /\
  option_map cls_key (lookup (load_main ex_diamond [97]%N) [97]%N [89]%N) = Some ([97], [89])%N.
Proof. vm_compute. repeat split; reflexivity. Qed.
Print Assumptions C25_nonvacuous.

(* a cyclic tree (mutual import and self-import) within the hypotheses of
   C25_resolution_order_cycles, and the finding witness outside them *)
Example C25_nonvacuous_harmless_cycle :
  aget BASE ex_harmless = None /\ serr (load_main ex_harmless [97]%N) = None /\
  backs (load_main ex_harmless [97]%N) = [([98], [97]); ([97], [97])]%N /\
  safe ex_harmless (load_main ex_harmless [97]%N) = true /\
  length (links (load_main ex_harmless [97]%N)) = 4 /\
  safe ex_silent (load_main ex_silent [97]%N) = false.
Proof. vm_compute. repeat split; reflexivity. Qed.
Print Assumptions C25_nonvacuous_harmless_cycle.

(* the hypothesis of C25_metamodel_getitem holds on a cyclic tree too (the finding witness) *)
Example C25_nonvacuous_cycle :
  serr (load_main ex_silent [97]%N) = None /\ backs (load_main ex_silent [97]%N) <> [] /\
  option_map cls_key (lookup (load_main ex_silent [97]%N) [97]%N [89]%N) = Some ([98], [89])%N.
Proof. vm_compute. repeat split; try reflexivity. discriminate. Qed.
Print Assumptions C25_nonvacuous_cycle.
