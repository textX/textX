(* Concrete parser models (dumped by tools/pegdump.py from the real textX) used as non-vacuity
   examples and refutation witnesses of Props/C20.v and Props/C21.v. *)
From TxV Require Import Core.Base Model.PegSyntax Model.Peg.

Definition cfg_default : config := mkConfig true [9;10;13;32]%N.
Definition accepted (o : outcome) : bool := match o with Parsed _ => true | _ => false end.

(* Model: 'begin' name=ID 'end';   ignore_case=True *)
Definition g_begin : grammar := (mkGrammar [mkNode KSeq [1;6] None false [77;111;100;101;108]%N true false None None;
  mkNode KSeq [2;3;5] None false [77;111;100;101;108]%N true false None None;
  mkNode (KStr [98;101;103;105;110]%N (Some 0)) [] None false []%N false false None None;
  mkNode KSeq [4] None false [95;95;97;115;103;110;95;112;108;97;105;110]%N true false None None;
  mkNode (KRegex 1) [] None false [73;68]%N true false None None;
  mkNode (KStr [101;110;100]%N (Some 2)) [] None false []%N false false None None;
  mkNode KEOF [] None false [69;79;70]%N false false None None] 0 None).
Definition in_begin1 : list N := [98;101;103;105;110;32;120;32;101;110;100]%N.     (* "begin x end" *)
Definition in_begin2 : list N := [66;69;71;73;78;32;120;32;69;110;100]%N.         (* "BEGIN x End" *)
(* Python's answers are the same for both texts *)
Definition tbl_begin := [((0,0),5);((1,0),5);((1,1),4);((1,2),3);((1,3),2);((1,4),1);((1,6),1);((1,8),3);((1,9),2);((1,10),1);((2,8),3)].

(* Model: b=BOOL | 'true' x=ID;   ignore_case=True.  BOOL is a built-in, case sensitive by design *)
Definition g_bool : grammar := (mkGrammar [mkNode KSeq [1;8] None false [77;111;100;101;108]%N true false None None;
  mkNode KChoice [2;4] None false [77;111;100;101;108]%N true false None None;
  mkNode KSeq [3] None false [95;95;97;115;103;110;95;112;108;97;105;110]%N true false None None;
  mkNode (KRegex 0) [] None false [66;79;79;76]%N true false None None;
  mkNode KSeq [5;6] None false []%N false false None None;
  mkNode (KStr [116;114;117;101]%N (Some 1)) [] None false []%N false false None None;
  mkNode KSeq [7] None false [95;95;97;115;103;110;95;112;108;97;105;110]%N true false None None;
  mkNode (KRegex 2) [] None false [73;68]%N true false None None;
  mkNode KEOF [] None false [69;79;70]%N false false None None] 0 None).
Definition in_bool1 : list N := [84;82;85;69;32;97]%N.          (* "TRUE a" *)
Definition in_bool2 : list N := [116;114;117;101;32;97]%N.      (* "true a" *)
(* the literal (oracle 1) and ID (2) answer alike on the two texts, BOOL (0) only on "true a" *)
Definition tbl_bool1 := [((1,0),4);((2,0),4);((2,1),3);((2,2),2);((2,3),1);((2,5),1)].
Definition tbl_bool2 := [((0,0),4);((1,0),4);((2,0),4);((2,1),3);((2,2),2);((2,3),1);((2,5),1)].

(* Model: ('in' x=ID | y=ID) ';';   plain and autokwd=True *)
Definition g_in_plain : grammar := (mkGrammar [mkNode KSeq [1;9] None false [77;111;100;101;108]%N true false None None;
  mkNode KSeq [2;8] None false [77;111;100;101;108]%N true false None None;
  mkNode KChoice [3;7] None false []%N false false None None;
  mkNode KSeq [4;5] None false []%N false false None None;
  mkNode (KStr [105;110]%N None) [] None false []%N false false None None;
  mkNode KSeq [6] None false [95;95;97;115;103;110;95;112;108;97;105;110]%N true false None None;
  mkNode (KRegex 0) [] None false [73;68]%N true false None None;
  mkNode KSeq [6] None false [95;95;97;115;103;110;95;112;108;97;105;110]%N true false None None;
  mkNode (KStr [59]%N None) [] None false []%N false false None None;
  mkNode KEOF [] None false [69;79;70]%N false false None None] 0 None).
Definition g_in_kw : grammar := (mkGrammar [mkNode KSeq [1;9] None false [77;111;100;101;108]%N true false None None;
  mkNode KSeq [2;8] None false [77;111;100;101;108]%N true false None None;
  mkNode KChoice [3;7] None false []%N false false None None;
  mkNode KSeq [4;5] None false []%N false false None None;
  mkNode (KRegex 0) [] None false []%N false false None None;
  mkNode KSeq [6] None false [95;95;97;115;103;110;95;112;108;97;105;110]%N true false None None;
  mkNode (KRegex 1) [] None false [73;68]%N true false None None;
  mkNode KSeq [6] None false [95;95;97;115;103;110;95;112;108;97;105;110]%N true false None None;
  mkNode (KStr [59]%N None) [] None false []%N false false None None;
  mkNode KEOF [] None false [69;79;70]%N false false None None] 0 None).
Definition in_in1 : list N := [105;110;32;120;59]%N.     (* "in x;" *)
Definition in_in2 : list N := [105;110;120;59]%N.        (* "inx;"  *)
Definition tbl_in1_plain := [((0,0),2);((0,1),1);((0,3),1)].
Definition tbl_in1_kw := [((0,0),2);((1,0),2);((1,1),1);((1,3),1)].
Definition tbl_in2_plain := [((0,0),3);((0,1),2);((0,2),1)].
Definition tbl_in2_kw := [((1,0),3);((1,1),2);((1,2),1)].

