(* C01 - the compiled parser and the model follow the grammar's PEG semantics.
   Model/Peg.v = the interpreter textX drives (validated by correspondence); Model/Spec.v = the
   reference semantics; both over the parser model dumped from the live metamodel. *)
From TxV Require Import Core.Base Model.PegSyntax Model.Peg Model.Spec Model.Build Proofs.SpecProofs Proofs.SpecSepProofs.
From TxV Require Proofs.PegFuel Proofs.PegTerm Proofs.SpecTotal.

(* FULL STATEMENT (the property, for the documented fragment of grammars):
     forall g c orc input, exists fuel0, forall fuel >= fuel0,
       build (run g c orc false fuel input) = build_spec (spec_run g c orc fuel input)
   i.e. same acceptance, same objects, classes, attribute values, defaults and containment, for EVERY
   dumped grammar table.  It is false as stated (see the *_refuted theorems below: Arpeggio deviates from
   PEG semantics on several constructs), so it is proved for the class [wfg]:

   C01_refinement_partial.  For every grammar table g in the class wfg g pf, every config (global skipws
   on or off, any ws), every input, every fuel and every regex oracle that never reports an empty match:
   if the interpreter terminates within the fuel, then
     - it accepts exactly when the DOCUMENTED reference semantics accept, at the same end position;
     - its parse tree is the tree of the trailing-separator variant of the semantics (spec_run_q);
     - when no repetition has a separator (nosep g) that is the documented tree itself.
   Class wfg (Model/Spec.v node_ok): Sequence, OrderedChoice, Optional, ZeroOrMore, OneOrMore with or
   without separator, StrMatch (also ignore_case), RegExMatch, EOF, rule references incl. recursion, the
   four assignment operators, suppression anywhere, the predicates & ! (not as rule roots), rule-level
   ws / skipws modifiers on Sequence/OrderedChoice rule roots, eolterm repetitions when no rule has a ws
   modifier (eol_ws_ok); every choice alternative, repetition element and (unsuppressed) rule is
   productive, no empty literal.
   Outside wfg: unordered groups and a Comment rule (C01_refinement_unordered, C01_refinement_comments
   below), memoization on (C19); termination is a hypothesis here (C01_refinement_fuel transfers the
   statement to every larger fuel, C01_refinement_total removes it for terminating tables). *)
Theorem C01_refinement_partial :
  forall g pf c orc fuel input,
    wfg g pf = true -> orc_pos orc ->
    match run g c orc false fuel input with
    | Parsed r =>
      exists ts p, spec_run g c orc fuel input = SOk ts p /\
                   (nosep g = true -> erase_all ts = flatten r) /\
                   exists tsq, spec_run_q g c orc fuel input = SOk tsq p /\ erase_all tsq = flatten r
    | SyntaxErr _ => spec_run g c orc fuel input = SFail
    | Aborted _ => True
    end.
Proof. exact refinement. Qed.
Print Assumptions C01_refinement_partial.

(* The trailing-separator variant and the documented semantics accept the same inputs with the same end
   position, for EVERY grammar table (no class hypothesis): the quirk only changes trees. *)
Theorem C01_trailing_separator_changes_only_trees :
  forall g c orc fuel input,
    match spec_run_q g c orc fuel input, spec_run g c orc fuel input with
    | SOk _ p, SOk _ p' => p = p'
    | SFail, SFail => True
    | SOut, SOut => True
    | _, _ => False
    end.
Proof. exact spec_q_acceptance. Qed.
Print Assumptions C01_trailing_separator_changes_only_trees.

(* One sufficient fuel is enough: if the interpreter does not run out of fuel at f, its outcome is the
   same at every f' >= f and agrees with the reference semantics evaluated at f'. *)
Theorem C01_refinement_fuel :
  forall g pf c orc f f' input,
    wfg g pf = true -> orc_pos orc -> f <= f' -> run g c orc false f input <> Aborted 0 ->
    run g c orc false f' input = run g c orc false f input /\
    match run g c orc false f input with
    | Parsed r => exists ts p, spec_run g c orc f' input = SOk ts p /\ (nosep g = true -> erase_all ts = flatten r)
    | SyntaxErr _ => spec_run g c orc f' input = SFail
    | Aborted _ => True
    end.
Proof.
  intros g pf c orc f f' input Hwf Horc L NA.
  pose proof (PegFuel.run_fuel_mono g c orc false f f' input L NA) as E. split; [exact E|].
  pose proof (refinement g pf c orc f' input Hwf Horc) as H. rewrite E in H.
  destruct (run g c orc false f input); [| exact H | exact I].
  destruct H as [ts [p [Es [Hn _]]]]. exists ts, p. split; assumption.
Qed.
Print Assumptions C01_refinement_fuel.

(* Model equality: for grammars in the class (and a parser model whose top node is a rule root, as textX
   builds it), the model textX constructs from the interpreter's parse tree (Build.build, for every
   metamodel table, group oracle, auto_init_attributes and use_regexp_group setting) is the model
   constructed from the reference tree: same objects, classes, attribute values, defaults, positions.
   With separators the reference tree is the trailing-separator variant's; without, the documented one. *)
Theorem C01_model_equality :
  forall g mm pf c orc fuel input grp auto ug r,
    wfg g pf = true -> orc_pos orc -> root_top g = true ->
    run g c orc false fuel input = Parsed r ->
    exists tsq p, spec_run_q g c orc fuel input = SOk tsq p /\
      build g mm input grp auto ug r = build_flat g mm input grp auto ug (erase_all tsq) /\
      (nosep g = true -> exists ts, spec_run g c orc fuel input = SOk ts p /\
                                    build g mm input grp auto ug r = build_flat g mm input grp auto ug (erase_all ts)).
Proof.
  intros g mm pf c orc fuel input grp auto ug r Hwf Horc Hrt Hrun.
  pose proof (refinement g pf c orc fuel input Hwf Horc) as H. rewrite Hrun in H.
  destruct H as [ts [p [Es [Hn [tsq [Eq Ee]]]]]].
  pose proof (build_flat_flatten g mm input grp auto ug r (run_shape g c orc fuel input r Hrt Hrun)) as HB.
  exists tsq, p. split; [exact Eq|]. split; [rewrite Ee; exact HB|].
  intro Hns. exists ts. split; [exact Es|]. rewrite (Hn Hns). exact HB.
Qed.
Print Assumptions C01_model_equality.

(* non-vacuity: suppression, separator, predicates and a rule modifier inside the class
   (Model: 'm'- items+=Item[','] !'z' &';' ';';  Item[noskipws]: name=ID ('=' v=INT)?;) *)
Example C01_refinement_rich_nonvacuous :
  wfg g_rich 24 = true /\ nosep g_rich = false /\ root_top g_rich = true /\
  accepts (run g_rich c_default (orc_of t_rich) false 60 in_rich) = true /\
  saccepts (spec_run g_rich c_default (orc_of t_rich) 60 in_rich) = true /\
  accepts (run g_rich c_default (orc_of t_rich) false 60 [109;32;97]%N) = false.
Proof. vm_compute. repeat split. Qed.
Print Assumptions C01_refinement_rich_nonvacuous.

(* non-vacuity: a grammar with recursion-free rules, all four node kinds and assignments is in the
   class, and is accepted / rejected on concrete inputs
   (Model: 'a' items+=Item*; Item: name=ID ('=' v=INT)? | 'b';) *)
Example C01_refinement_nonvacuous :
  wfg g_items 24 = true /\
  accepts (run g_items c_default (orc_of t_items) false 60 in_items) = true /\
  saccepts (spec_run g_items c_default (orc_of t_items) 60 in_items) = true /\
  accepts (run g_items c_default (orc_of [((0,0),1)]) false 60 [97;32;61]%N) = false.
Proof. vm_compute. repeat split. Qed.
Print Assumptions C01_refinement_nonvacuous.

(* Outside the class: an ordered-choice alternative that succeeds without producing a node
   (suppressed match) counts as failed.  M: ('a'- | 'b') 'c';  rejects "ac". *)
Theorem C01_choice_suppressed_alt_refuted :
  exists g c orc fuel input,
    wfg g 24 = false /\
    saccepts (spec_run g c orc fuel input) = true /\
    run g c orc false fuel input = SyntaxErr 1.
Proof. exists g_sup_alt, c_default, (fun _ _ => None), 50, [97;99]%N. vm_compute. repeat split. Qed.
Print Assumptions C01_choice_suppressed_alt_refuted.

(* ... or an empty optional:  M: x=INT ('a'? | 'b') y=INT;  rejects "1 2". *)
Theorem C01_choice_empty_optional_alt_refuted :
  exists g c orc fuel input,
    wfg g 24 = false /\
    saccepts (spec_run g c orc fuel input) = true /\
    run g c orc false fuel input = SyntaxErr 2.
Proof. exists g_opt_alt, c_default, (orc_of t_opt_alt), 50, [49;32;50]%N. vm_compute. repeat split. Qed.
Print Assumptions C01_choice_empty_optional_alt_refuted.

(* A rule that matches the empty string yields no node (Model: a=A b=B?; A: x=ID?; B: 'b'; on ""):
   the reference tree has the nodes of Model and of the assignment a=A, the interpreter's has none. *)
Theorem C01_nullable_rule_refuted :
  exists g c orc fuel input,
    wfg g 24 = false /\
    run_tree (run g c orc false fuel input) = [NT 0 [T 9 0 0 true]] /\
    spec_tree (spec_run g c orc fuel input) = [NT 0 [NT 1 [NT 2 []]; T 9 0 0 true]].
Proof. exists g_nullable, c_default, (fun _ _ => None), 50, []. vm_compute. repeat split. Qed.
Print Assumptions C01_nullable_rule_refuted.

(* A repetition with separator keeps the separator it gave back (x,b): the grammar is IN the class, the
   interpreter's tree is the variant's (terminal 6 at 1 stays in A.xs), not the documented one - so the
   tree clause of C01_refinement_partial cannot drop its nosep hypothesis. *)
Theorem C01_trailing_separator_refuted :
  exists g c orc fuel input,
    wfg g 24 = true /\
    run_tree (run g c orc false fuel input) =
      [NT 0 [NT 1 [NT 2 [NT 3 [NT 4 [T 5 0 1 false; T 6 1 1 false]]]; T 7 1 1 true; NT 8 [T 9 2 1 true]]; T 10 3 0 true]] /\
    spec_tree (spec_run g c orc fuel input) =
      [NT 0 [NT 1 [NT 2 [NT 3 [NT 4 [T 5 0 1 false]]]; T 7 1 1 true; NT 8 [T 9 2 1 true]]; T 10 3 0 true]] /\
    spec_tree (spec_run_q g c orc fuel input) = run_tree (run g c orc false fuel input).
Proof. exists g_trailsep, c_default, (fun _ _ => None), 50, [120;44;98]%N. vm_compute. repeat split. Qed.
Print Assumptions C01_trailing_separator_refuted.

(* The oracle hypothesis orc_pos is necessary: with a regex match of length 0 (x=/a*/ 'b' on "b") the
   grammar is in the class but the assignment node is missing from the interpreter's tree. *)
Theorem C01_empty_regex_match_refuted :
  exists g c orc fuel input,
    wfg g 24 = true /\ orc 0 0 = Some 0 /\
    run_tree (run g c orc false fuel input) = [NT 0 [NT 1 [T 4 0 1 true]; T 5 1 0 true]] /\
    spec_tree (spec_run g c orc fuel input) = [NT 0 [NT 1 [NT 2 [T 3 0 0 false]; T 4 0 1 true]; T 5 1 0 true]].
Proof. exists g_emptyrx, c_default, (orc_of t_emptyrx), 50, [98]%N. vm_compute. repeat split. Qed.
Print Assumptions C01_empty_regex_match_refuted.

(* A repetition stops after an iteration that produces no node: ('a'-)* 'b' rejects "aab". *)
Theorem C01_rep_elem_nonproductive_refuted :
  exists g c orc fuel input,
    wfg g 24 = false /\
    saccepts (spec_run g c orc fuel input) = true /\
    run g c orc false fuel input = SyntaxErr 1.
Proof. exists g_repsup, c_default, (fun _ _ => None), 50, [97;97;98]%N. vm_compute. repeat split. Qed.
Print Assumptions C01_rep_elem_nonproductive_refuted.

(* C01_refinement_total: the refinement theorem without the "if the interpreter terminates" proviso.  For
   every table in the class wfg that passes the termination analysis of Proofs/PegTerm.v (no left
   recursion, no repetition over an element that is truthy without consuming; both conditions decidable
   and evaluated per case), every config, every input, every oracle whose matches are non-empty and stay
   inside the input, and EVERY fuel from the computable bound fuel_bound on: the interpreter returns a
   verdict (it neither runs out of fuel nor crashes), it accepts exactly when the documented semantics
   accept, and the tree clauses of C01_refinement_partial hold (hence, by C01_model_equality, the models). *)
Theorem C01_refinement_total :
  forall g pf c orc input f,
    wfg g pf = true -> PegTerm.terminating PegTerm.none_nullable g = true ->
    PegTerm.orc_sane g input orc -> orc_pos orc ->
    PegTerm.fuel_bound PegTerm.none_nullable g input <= f ->
    (exists r ts p, run g c orc false f input = Parsed r /\ spec_run g c orc f input = SOk ts p /\
                    (nosep g = true -> erase_all ts = flatten r) /\
                    exists tsq, spec_run_q g c orc f input = SOk tsq p /\ erase_all tsq = flatten r) \/
    (exists e, run g c orc false f input = SyntaxErr e /\ spec_run g c orc f input = SFail).
Proof.
  intros g pf c orc input f Hwf Ht Hs Hp L. apply SpecTotal.refines_total.
  - exact (refinement g pf c orc f input Hwf Hp).
  - exact (PegTerm.run_terminates_pos g c orc false input f Ht Hs Hp L).
  - intros w E. exact (SpecTotal.wfg_no_crash g pf c orc f input w Hwf E).
Qed.
Print Assumptions C01_refinement_total.

(* tables in the class never crash the interpreter *)
Theorem C01_no_crash :
  forall g pf c orc fuel input w, wfg g pf = true -> run g c orc false fuel input = Aborted w -> w = 0.
Proof. exact SpecTotal.wfg_no_crash. Qed.
Print Assumptions C01_no_crash.

Example C01_refinement_total_nonvacuous :
  wfg g_rich 24 = true /\ PegTerm.terminating PegTerm.none_nullable g_rich = true /\
  PegTerm.orc_sane g_rich in_rich (orc_of t_rich) /\ orc_pos (orc_of t_rich) /\
  PegTerm.fuel_bound PegTerm.none_nullable g_rich in_rich = 106 /\
  accepts (run g_rich c_default (orc_of t_rich) false 106 in_rich) = true.
Proof.
  destruct SpecTotal.rich_orc_facts as [A B].
  split; [vm_compute; reflexivity|]. split; [vm_compute; reflexivity|]. split; [exact A|]. split; [exact B|].
  split; vm_compute; reflexivity.
Qed.
Print Assumptions C01_refinement_total_nonvacuous.

(* eolterm repetitions are in the class (when the table has no rule-level ws modifier) ... *)
Example C01_eolterm_in_class_nonvacuous :
  wfg SpecTotal.g_eol 24 = true /\
  accepts (run SpecTotal.g_eol c_default (fun _ _ => None) false 50 [97;32;97;10;101;110;100]%N) = true /\
  accepts (run SpecTotal.g_eol c_default (fun _ _ => None) false 50 [97;10;97;10;101;110;100]%N) = false.
Proof. vm_compute. repeat split. Qed.
Print Assumptions C01_eolterm_in_class_nonvacuous.

(* ... and the boundary: a rule-level ws inside an eolterm repetition is restored wrongly by the interpreter
   (the newline-stripped set becomes the real one): Model: xs+=A[eolterm] 'end'; A[ws=' ']: 'a'; rejects
   "a a\nend" at the newline *)
Theorem C01_eolterm_rule_ws_refuted :
  exists g c orc fuel input,
    wfg g 24 = false /\ eol_ws_ok g = false /\
    saccepts (spec_run g c orc fuel input) = true /\
    run g c orc false fuel input = SyntaxErr 3.
Proof. exists SpecTotal.g_eolws, c_default, (fun _ _ => None), 50, [97;32;97;10;101;110;100]%N. vm_compute. repeat split. Qed.
Print Assumptions C01_eolterm_rule_ws_refuted.

(* a predicate as the body of a rule stays outside the class: the rule matches the empty string and yields no
   node (Model: a=A 'x'; A: &'x'; on "x") - the nullable-rule deviation *)
Theorem C01_predicate_rule_root_refuted :
  exists g c orc fuel input,
    wfg g 24 = false /\
    run_tree (run g c orc false fuel input) = [NT 0 [NT 1 [T 5 0 1 true]; T 6 1 0 true]] /\
    spec_tree (spec_run g c orc fuel input) = [NT 0 [NT 1 [NT 2 [NT 3 []]; T 5 0 1 true]; T 6 1 0 true]].
Proof. exists SpecTotal.g_predroot, c_default, (fun _ _ => None), 50, [120]%N. vm_compute. repeat split. Qed.
Print Assumptions C01_predicate_rule_root_refuted.

From TxV Require Proofs.SpecCmt.

(* The Comment rule.  For tables whose Comment rule is a single regex terminal, in the mode-constant class
   (every node passes node_ok; no rule-level ws/skipws, no eolterm: SpecCmt.wfgc, decidable), global skipws
   on, a non-empty-match oracle whose matches stay inside the input, every input and every fuel: if the
   interpreter terminates, it accepts exactly when the documented semantics accept and the tree clauses of
   C01_refinement_partial hold - with the reference side evaluated at fuel + |input| + 2, because a
   comment_positions cache hit lets the interpreter skip comments at a recursion depth where the reference
   semantics has to re-parse them (the simulation at equal fuel is false near fuel exhaustion). *)
Theorem C01_refinement_comments :
  forall g pf c orc fuel input,
    SpecCmt.wfgc g pf = true -> c_skipws c = true -> orc_pos orc ->
    (forall o p l, orc o p = Some l -> p + l <= length input) ->
    let fs := fuel + (length input + 2) in
    match run g c orc false fuel input with
    | Parsed r =>
      exists ts p, spec_run g c orc fs input = SOk ts p /\
                   (nosep g = true -> erase_all ts = flatten r) /\
                   exists tsq, spec_run_q g c orc fs input = SOk tsq p /\ erase_all tsq = flatten r
    | SyntaxErr _ => spec_run g c orc fs input = SFail
    | Aborted _ => True
    end.
Proof. exact SpecCmt.refinement_cmt. Qed.
Print Assumptions C01_refinement_comments.

Example C01_refinement_comments_nonvacuous :
  SpecCmt.wfgc SpecCmt.g_cmt 24 = true /\ wfg SpecCmt.g_cmt 24 = false /\
  match run SpecCmt.g_cmt SpecCmt.c_skip (orc_of SpecCmt.t_cmt1) false 40 SpecCmt.in_cmt1 with Parsed _ => true | _ => false end = true /\
  match spec_run SpecCmt.g_cmt SpecCmt.c_skip (orc_of SpecCmt.t_cmt1) (40 + (16 + 2)) SpecCmt.in_cmt1 with SOk _ _ => true | _ => false end = true.
Proof. vm_compute. repeat split. Qed.
Print Assumptions C01_refinement_comments_nonvacuous.

(* the hypothesis global skipws = true is necessary: Arpeggio parses comments even under noskipws
   ("ma/*c*/b" is accepted), the documented semantics skip nothing *)
Theorem C01_comments_noskipws_refuted :
  SpecCmt.wfgc SpecCmt.g_cmt 24 = true /\ c_skipws SpecCmt.c_noskip = false /\
  match run SpecCmt.g_cmt SpecCmt.c_noskip (orc_of SpecCmt.t_cmt2) false 40 SpecCmt.in_cmt2 with Parsed _ => true | _ => false end = true /\
  spec_run SpecCmt.g_cmt SpecCmt.c_noskip (orc_of SpecCmt.t_cmt2) (40 + (8 + 2)) SpecCmt.in_cmt2 = SFail.
Proof. vm_compute. repeat split. Qed.
Print Assumptions C01_comments_noskipws_refuted.

(* ... and unconditionally: tables of the Comment class that pass the termination analysis return a verdict at
   every fuel from the computable bound on (they neither run out of fuel nor crash), and it is the verdict
   of the documented semantics *)
Theorem C01_refinement_comments_total :
  forall g pf c orc input f,
    SpecCmt.wfgc g pf = true -> c_skipws c = true -> PegTerm.terminating PegTerm.none_nullable g = true ->
    PegTerm.orc_sane g input orc -> orc_pos orc -> PegTerm.fuel_bound PegTerm.none_nullable g input <= f ->
    let fs := f + (length input + 2) in
    (exists r ts p, run g c orc false f input = Parsed r /\ spec_run g c orc fs input = SOk ts p /\
                    (nosep g = true -> erase_all ts = flatten r) /\
                    exists tsq, spec_run_q g c orc fs input = SOk tsq p /\ erase_all tsq = flatten r) \/
    (exists e, run g c orc false f input = SyntaxErr e /\ spec_run g c orc fs input = SFail).
Proof.
  intros g pf c orc input f Hwf Hsk Ht Hs Hp L fs. apply SpecTotal.refines_total.
  - exact (SpecCmt.refinement_cmt g pf c orc f input Hwf Hsk Hp (proj1 Hs)).
  - exact (PegTerm.run_terminates_pos g c orc false input f Ht Hs Hp L).
  - intros w E. exact (SpecCmt.wfgc_no_crash g pf c orc f input w Hwf E).
Qed.
Print Assumptions C01_refinement_comments_total.

Example C01_refinement_comments_total_nonvacuous :
  SpecCmt.wfgc SpecCmt.g_cmt 24 = true /\ c_skipws SpecCmt.c_skip = true /\
  PegTerm.terminating PegTerm.none_nullable SpecCmt.g_cmt = true /\
  PegTerm.orc_sane SpecCmt.g_cmt SpecCmt.in_cmt1 (orc_of SpecCmt.t_cmt1) /\ orc_pos (orc_of SpecCmt.t_cmt1) /\
  PegTerm.fuel_bound PegTerm.none_nullable SpecCmt.g_cmt SpecCmt.in_cmt1 = 194 /\
  accepts (run SpecCmt.g_cmt SpecCmt.c_skip (orc_of SpecCmt.t_cmt1) false 194 SpecCmt.in_cmt1) = true.
Proof.
  destruct SpecCmt.cmt_orc_facts as [A B].
  split; [vm_compute; reflexivity|]. split; [reflexivity|]. split; [vm_compute; reflexivity|].
  split; [exact A|]. split; [exact B|]. split; vm_compute; reflexivity.
Qed.
Print Assumptions C01_refinement_comments_total_nonvacuous.

From TxV Require Proofs.SpecUg.

(* Unordered groups.  Class wfgu: as wfg, plus unordered groups WITHOUT separator (and without eolterm) all of
   whose members are productive (decidable).  There the interpreter's ug_loop and the reference clause agree:
   each round takes the first remaining member that matches, the group succeeds exactly when every member was
   matched once.  Same conclusion as C01_refinement_partial (if the interpreter terminates). *)
Theorem C01_refinement_unordered :
  forall g pf c orc fuel input,
    wfgu g pf = true -> orc_pos orc ->
    match run g c orc false fuel input with
    | Parsed r =>
      exists ts p, spec_run g c orc fuel input = SOk ts p /\
                   (nosep g = true -> erase_all ts = flatten r) /\
                   exists tsq, spec_run_q g c orc fuel input = SOk tsq p /\ erase_all tsq = flatten r
    | SyntaxErr _ => spec_run g c orc fuel input = SFail
    | Aborted _ => True
    end.
Proof. exact refinement_u. Qed.
Print Assumptions C01_refinement_unordered.

Example C01_refinement_unordered_nonvacuous :
  wfgu SpecUg.g_ug 24 = true /\ wfg SpecUg.g_ug 24 = false /\
  accepts (run SpecUg.g_ug c_default (orc_of [((0,4),1)]) false 50 [109;32;98;32;51;32;97]%N) = true /\
  saccepts (spec_run SpecUg.g_ug c_default (orc_of [((0,4),1)]) 50 [109;32;98;32;51;32;97]%N) = true /\
  accepts (run SpecUg.g_ug c_default (orc_of [((0,4),1)]) false 50 [109;32;98;32;97]%N) = false.
Proof. vm_compute. repeat split. Qed.
Print Assumptions C01_refinement_unordered_nonvacuous.

(* boundary: a group WITH separator - Model: ('a' 'b')#[','] 'b'?; on "a b" the interpreter fails the group when
   the separator is missing, the reference clause ends it (its reading is the laxer one here) *)
Theorem C01_unordered_separator_refuted :
  exists g c orc fuel input,
    wfgu g 24 = false /\
    saccepts (spec_run g c orc fuel input) = true /\
    run g c orc false fuel input = SyntaxErr 2.
Proof. exists SpecUg.g_ugsep, c_default, (fun _ _ => None), 50, [97;32;98]%N. vm_compute. repeat split. Qed.
Print Assumptions C01_unordered_separator_refuted.
