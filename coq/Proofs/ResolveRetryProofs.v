From TxV Require Import Core.Base Gen.SrcResolve Model.Resolve Proofs.ResolveStepProofs.

(* C08: the retry queue keeps the textual order.
   This file depends on exactly two facts of Gen/SrcResolve.v (read from textx/model.py): a
   Postponed reference is put back at the END of parser._crossrefs and of delayed_crossrefs
   (append, not insert(0, ...)). *)
Lemma fact_requeue : postponed_requeued_at_front = false. Proof. reflexivity. Qed.
Lemma fact_report : postponed_reported_at_front = false. Proof. reflexivity. Qed.

Lemma carry_requeue x d : carry postponed_requeued_at_front x d = x :: d.
Proof. unfold carry. rewrite fact_requeue. reflexivity. Qed.
Lemma carry_report x d : carry postponed_reported_at_front x d = x :: d.
Proof. unfold carry. rewrite fact_report. reflexivity. Qed.

Opaque carry counted.

Inductive sub {A} : list A -> list A -> Prop :=
| sub_nil : sub [] []
| sub_keep x l l' : sub l l' -> sub (x :: l) (x :: l')
| sub_drop x l l' : sub l l' -> sub l (x :: l').

(* a Postponed reference keeps its place: the new pending list is the delayed list and it is the
   old pending list with the resolved references removed, nothing reordered *)
Theorem retry_order ans : forall pend st st' np d c,
  step ans pend st = Some (st', np, d, c) -> np = d /\ sub np pend.
Proof.
  intros pend st st' np d c H. apply step_runs in H.
  induction H as [st | x t r st st' np d c _ _ [E S] | x r st st' np d c _ _ [E S]].
  - split; [reflexivity | constructor].
  - split; [exact E | apply sub_drop; exact S].
  - rewrite carry_requeue, carry_report. split; [rewrite E; reflexivity | apply sub_keep; exact S].
Qed.

Transparent carry counted.
