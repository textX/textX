(* Terminal congruence (simulation) for the interpreter of Model/Peg.v.

   Two "worlds" (grammar table, input, oracle) whose non-terminal nodes are identical and whose
   terminals behave alike at every position, and whose whitespace skipping agrees for every
   whitespace set the interpreter can be in, produce the same outcome for every node, every
   state, both memoization settings and every fuel - up to a fixed relabelling [supf] of the
   Terminal.suppress flag per node (needed because a StrMatch inside a Sequence is marked
   suppress while the RegExMatch that autokwd puts in its place is not).

   Used by C20 (same grammar, inputs differing in letter case) and C21 (autokwd grammar vs the
   plain one, same input). *)
From TxV Require Import Core.Base Model.PegSyntax Model.Peg Proofs.PegProofs Proofs.PegRel.

Section ResInd.
Variable P : res -> Prop.
Hypothesis HN : P RNone.
Hypothesis HT : forall t, P (RTree t).
Hypothesis HL : forall l, Forall P l -> P (RList l).
Fixpoint res_ind2 (r : res) : P r :=
  match r with
  | RNone => HN
  | RTree t => HT t
  | RList l =>
    HL l ((fix go (l : list res) : Forall P l :=
             match l with
             | [] => Forall_nil P
             | x :: l' => Forall_cons x (res_ind2 x) (go l')
             end) l)
  end.
End ResInd.

Section Relabel.
Variable supf : nat -> bool -> bool.

Fixpoint ft (t : tree) : tree :=
  match t with
  | T nid p len sup => T nid p len (supf nid sup)
  | NT nid kids => NT nid (map ft kids)
  end.

Fixpoint fr (r : res) : res :=
  match r with
  | RNone => RNone
  | RTree t => RTree (ft t)
  | RList l => RList (map fr l)
  end.

Definition fcr (c : cres) : cres := match c with CNoMatch => CNoMatch | CRes r => CRes (fr r) end.

Definition fcache (m : list ((nat * nat) * (cres * nat))) : list ((nat * nat) * (cres * nat)) :=
  map (fun e => (fst e, (fcr (fst (snd e)), snd (snd e)))) m.

Definition fs (s : st) : st :=
  mkSt (pos s) (ws s) (real_ws s) (skipws s) (eolterm s) (in_cmt s) (nm s) (cpos s) (fcache (cache s)).

Definition fo (o : out) : out :=
  match o with
  | Ok r s => Ok (fr r) (fs s)
  | Fail s => Fail (fs s)
  | Abort w => Abort w
  end.

Definition foutcome (o : outcome) : outcome :=
  match o with
  | Parsed r => Parsed (fr r)
  | SyntaxErr p => SyntaxErr p
  | Aborted w => Aborted w
  end.

Lemma truthy_fr r : truthy (fr r) = truthy r.
Proof. destruct r as [|[nid p len sup|nid [|k ks]]|[|x l]]; reflexivity. Qed.

Lemma is_none_fr r : is_none (fr r) = is_none r.
Proof. destruct r; reflexivity. Qed.

Lemma head_is_none_fr r : head_is_none (fr r) = head_is_none r.
Proof. destruct r as [|t|[|[|t|l0] l]]; reflexivity. Qed.

Lemma is_ptnode_fr r : is_ptnode (fr r) = is_ptnode r.
Proof. destruct r; reflexivity. Qed.

Lemma flatten_fr r : flatten (fr r) = map ft (flatten r).
Proof.
  induction r as [| t | l IH] using res_ind2; try reflexivity.
  cbn [fr flatten]. induction IH as [| x l Hx Hl IHl]; [reflexivity|].
  cbn [map]. rewrite map_app, <- IHl, Hx. reflexivity.
Qed.

Lemma post_fr nid nd r : post nid nd (fr r) = fr (post nid nd r).
Proof.
  unfold post. rewrite head_is_none_fr.
  destruct (n_suppress nd || head_is_none r)%bool.
  - cbn. rewrite andb_false_r. reflexivity.
  - rewrite truthy_fr, is_ptnode_fr.
    destruct (n_root nd && truthy r && negb (is_ptnode r))%bool; [|reflexivity].
    cbn [fr ft]. rewrite flatten_fr. reflexivity.
Qed.

Lemma clookup_fcache n p m :
  clookup n p (fcache m) =
  match clookup n p m with Some v => Some (fcr (fst v), snd v) | None => None end.
Proof.
  induction m as [|[[n' p'] v] m IH]; [reflexivity|].
  cbn [fcache map clookup fst snd]. destruct (Nat.eqb n n' && Nat.eqb p p')%bool; [reflexivity|].
  exact IH.
Qed.

(* fs commutes with every state operation *)
Lemma fs_pos s : pos (fs s) = pos s. Proof. reflexivity. Qed.
Lemma fs_ws s : ws (fs s) = ws s. Proof. reflexivity. Qed.
Lemma fs_real_ws s : real_ws (fs s) = real_ws s. Proof. reflexivity. Qed.
Lemma fs_skipws s : skipws (fs s) = skipws s. Proof. reflexivity. Qed.
Lemma fs_eolterm s : eolterm (fs s) = eolterm s. Proof. reflexivity. Qed.
Lemma fs_in_cmt s : in_cmt (fs s) = in_cmt s. Proof. reflexivity. Qed.
Lemma fs_nm s : nm (fs s) = nm s. Proof. reflexivity. Qed.
Lemma fs_cpos s : cpos (fs s) = cpos s. Proof. reflexivity. Qed.
Lemma fs_cache s : cache (fs s) = fcache (cache s). Proof. reflexivity. Qed.
Lemma fs_set_pos p s : set_pos p (fs s) = fs (set_pos p s). Proof. reflexivity. Qed.
Lemma fs_set_skipws b s : set_skipws b (fs s) = fs (set_skipws b s). Proof. reflexivity. Qed.
Lemma fs_set_in_cmt b s : set_in_cmt b (fs s) = fs (set_in_cmt b s). Proof. reflexivity. Qed.
Lemma fs_set_nm n s : set_nm n (fs s) = fs (set_nm n s). Proof. reflexivity. Qed.
Lemma fs_set_cpos c s : set_cpos c (fs s) = fs (set_cpos c s). Proof. reflexivity. Qed.
Lemma fs_set_ws w s : set_ws w (fs s) = fs (set_ws w s). Proof. reflexivity. Qed.
Lemma fs_set_eolterm b s : set_eolterm b (fs s) = fs (set_eolterm b s). Proof. reflexivity. Qed.
Lemma fs_nm_pos s : nm_pos (fs s) = nm_pos s. Proof. reflexivity. Qed.
Lemma fs_cput_res n p r np s : cput n p (CRes (fr r), np) (fs s) = fs (cput n p (CRes r, np) s). Proof. reflexivity. Qed.
Lemma fs_cput_nomatch n p np s : cput n p (CNoMatch, np) (fs s) = fs (cput n p (CNoMatch, np) s). Proof. reflexivity. Qed.
Lemma fs_init c : fs (init_st c) = init_st c. Proof. reflexivity. Qed.
Lemma fs_reg_fail p s : reg_fail p (fs s) = fs (reg_fail p s).
Proof.
  unfold reg_fail. rewrite fs_nm, fs_in_cmt. destruct (nm s) as [q|]; [|reflexivity].
  destruct (in_cmt s); [reflexivity|]. destruct (Nat.ltb q p); reflexivity.
Qed.
Lemma fs_nm_raise p s : nm_raise p (fs s) = fo (nm_raise p s).
Proof. unfold nm_raise. rewrite fs_reg_fail. reflexivity. Qed.
Lemma fs_enter_ws nd s : enter_ws nd (fs s) = fs (enter_ws nd s).
Proof. unfold enter_ws. destruct (n_ws nd), (n_skipws nd); reflexivity. Qed.
Lemma fs_leave_ws nd old s : leave_ws nd (fs old) (fs s) = fs (leave_ws nd old s).
Proof. unfold leave_ws. destruct (n_ws nd), (n_skipws nd); reflexivity. Qed.
Lemma fs_enter_eol nd s : enter_eol nd (fs s) = fs (enter_eol nd s).
Proof. unfold enter_eol. destruct (n_eolterm nd); reflexivity. Qed.
Lemma fs_leave_eol nd old s : leave_eol nd (fs old) (fs s) = fs (leave_eol nd old s).
Proof. unfold leave_eol. destruct (n_eolterm nd); reflexivity. Qed.

End Relabel.

#[export] Hint Rewrite fs_pos fs_ws fs_real_ws fs_skipws fs_eolterm fs_in_cmt fs_nm fs_cpos
  fs_set_pos fs_set_skipws fs_set_in_cmt fs_set_nm fs_set_cpos fs_nm_raise fs_reg_fail : fsdb.

(* the identity relabelling changes nothing *)
Lemma ft_id t : ft (fun _ b => b) t = t.
Proof.
  induction t as [nid p len sup | nid kids IH] using tree_ind2; [reflexivity|].
  cbn [ft]. f_equal. induction IH as [| x l Hx Hl IHl]; [reflexivity|].
  cbn [map]. rewrite Hx, IHl. reflexivity.
Qed.

Lemma fr_id r : fr (fun _ b => b) r = r.
Proof.
  induction r as [| t | l IH] using res_ind2; [reflexivity | cbn [fr]; rewrite ft_id; reflexivity |].
  cbn [fr]. f_equal. induction IH as [| x l Hx Hl IHl]; [reflexivity|].
  cbn [map]. rewrite Hx, IHl. reflexivity.
Qed.

Lemma foutcome_id o : foutcome (fun _ b => b) o = o.
Proof. destruct o; cbn; rewrite ?fr_id; reflexivity. Qed.

Section Sim.
Variable supf : nat -> bool -> bool.
Variables g g' : grammar.
Variables input input' : list N.
Variables orc orc' : nat -> nat -> option nat.
Variable memo : bool.
Variable wsP : list N -> Prop.       (* the whitespace sets the interpreter can be in *)

Notation fr := (fr supf).
Notation fs := (fs supf).
Notation fo := (fo supf).
Notation parser := (nat -> bool -> st -> out) (only parsing).

Definition inv (s : st) : Prop := wsP (ws s) /\ wsP (real_ws s).
Definition RSc (s s' : st) : Prop := s' = fs s /\ inv s.
Definition RRc (r r' : res) : Prop := r' = fr r.
Notation osim := (rel_out RSc RSc no_abort no_abort RRc).
Notation psim := (rel_parser RSc RSc RRc no_abort no_abort).

Lemma osim_fo o o' : osim o o' -> o' = fo o.
Proof.
  destruct o as [r s|s|w], o' as [r' s'|s'|w']; cbn; try contradiction.
  - intros [-> [-> _]]. reflexivity.
  - intros [-> _]. reflexivity.
  - intros [[]|[[]| ->]]. reflexivity.
Qed.

(* terminals of the two worlds behave alike (up to the relabelling) *)
Definition node_sim (nid : nat) (nd nd' : node) : Prop :=
  if is_match_kind (n_kind nd)
  then is_match_kind (n_kind nd') = true /\ n_suppress nd' = n_suppress nd /\
       forall psq s, term_parse input' orc' nid (n_kind nd') psq (fs s)
                     = fo (term_parse input orc nid (n_kind nd) psq s)
  else nd' = nd.

Hypothesis H_nodes : forall nid,
  match get_node g nid, get_node g' nid with
  | None, None => True
  | Some nd, Some nd' => node_sim nid nd nd'
  | _, _ => False
  end.
Hypothesis H_comments : g_comments g' = g_comments g.
Hypothesis H_ws_nodes : forall nid nd w, get_node g nid = Some nd -> n_ws nd = Some w -> wsP w.
Hypothesis H_ws_strip : forall w, wsP w -> wsP (strip_eol w).
Hypothesis H_skip : forall w p, wsP w ->
  skip_ws_from w (skipn p input') p = skip_ws_from w (skipn p input) p.

(* the state operations respect RSc: each commutes with fs and keeps inv *)
Lemma inv_set_ws w s : wsP w -> inv (set_ws w s).
Proof.
  intro Hw. split; [|exact Hw]. cbn [set_ws ws]. destruct (eolterm s); [apply H_ws_strip|]; exact Hw.
Qed.
Lemma inv_set_eolterm b s : inv s -> inv (set_eolterm b s).
Proof.
  intros [H1 H2]. split; [|exact H2]. cbn [set_eolterm ws].
  destruct b; [apply H_ws_strip; exact H1 | exact H2].
Qed.

Lemma sim_set_pos p p' s s' : p' = p -> RSc s s' -> RSc (set_pos p s) (set_pos p' s').
Proof. intros -> [-> H]. split; [reflexivity | exact H]. Qed.
Lemma inv_reg_fail p s : inv s -> inv (reg_fail p s).
Proof.
  intro H. unfold reg_fail. destruct (nm s) as [q|]; [|exact H].
  destruct (in_cmt s); [exact H|]. destruct (Nat.ltb q p); exact H.
Qed.
Lemma inv_term_parse nid k psq s : inv s ->
  match term_parse input orc nid k psq s with Ok _ s' | Fail s' => inv s' | Abort _ => True end.
Proof.
  intro H. destruct (term_parse_cases input orc nid k psq s) as [(r & p' & E)|[E|E]].
  - rewrite (E s eq_refl). exact H.
  - rewrite (E s eq_refl). apply inv_reg_fail, H.
  - rewrite (E s). exact I.
Qed.
Lemma sim_reg_fail p p' s s' : p' = p -> RSc s s' -> RSc (reg_fail p s) (reg_fail p' s').
Proof. intros -> [-> H]. split; [apply fs_reg_fail | apply inv_reg_fail, H]. Qed.
Definition ws_ok (nd : node) : Prop := forall w, n_ws nd = Some w -> wsP w.
Lemma sim_enter_ws nd s s' : ws_ok nd -> RSc s s' -> RSc (enter_ws nd s) (enter_ws nd s').
Proof.
  intros Hn [-> H]. split; [apply fs_enter_ws|]. unfold enter_ws. destruct (n_ws nd) as [w|] eqn:Ew.
  - pose proof (inv_set_ws w s (Hn w Ew)) as Hi. destruct (n_skipws nd); exact Hi.
  - destruct (n_skipws nd); exact H.
Qed.
Lemma sim_leave_ws nd old old' s s' : ws_ok nd ->
  RSc old old' -> RSc s s' -> RSc (leave_ws nd old s) (leave_ws nd old' s').
Proof.
  intros _ [-> Ho] [-> H]. split; [apply fs_leave_ws|]. unfold leave_ws. destruct (n_ws nd) as [w|].
  - pose proof (inv_set_ws (ws old) s (proj1 Ho)) as Hi. destruct (n_skipws nd); exact Hi.
  - destruct (n_skipws nd); exact H.
Qed.
Lemma sim_enter_eol nd s s' : ws_ok nd -> RSc s s' -> RSc (enter_eol nd s) (enter_eol nd s').
Proof.
  intros _ [-> H]. split; [apply fs_enter_eol|].
  unfold enter_eol. destruct (n_eolterm nd); [apply inv_set_eolterm|]; exact H.
Qed.
Lemma sim_leave_eol nd old old' s s' : ws_ok nd ->
  RSc old old' -> RSc s s' -> RSc (leave_eol nd old s) (leave_eol nd old' s').
Proof.
  intros _ [-> _] [-> H]. split; [apply fs_leave_eol|].
  unfold leave_eol. destruct (n_eolterm nd); [apply inv_set_eolterm|]; exact H.
Qed.
Lemma sim_maybe_skip_ws s s' : RSc s s' -> RSc (maybe_skip_ws input s) (maybe_skip_ws input' s').
Proof.
  intros [-> H]. unfold maybe_skip_ws, do_skip_ws. cbn [fs skipws pos ws].
  destruct (skipws s); [|split; [reflexivity | exact H]].
  rewrite (H_skip _ _ (proj1 H)). split; [reflexivity | exact H].
Qed.

Lemma RRc_list l l' : Forall2 RRc l l' -> RRc (RList l) (RList l').
Proof. intro H. unfold RRc. cbn [fr]. rewrite (Forall2_eq_map _ _ _ H). reflexivity. Qed.
Lemma RRc_truthy r r' : RRc r r' -> truthy r' = truthy r.
Proof. intros ->. apply truthy_fr. Qed.
Lemma RRc_is_none r r' : RRc r r' -> is_none r' = is_none r.
Proof. intros ->. apply is_none_fr. Qed.

Lemma cmt_sim rec rec' : psim rec rec' ->
  forall cm k s s', RSc s s' -> osim (cmt_loop input rec cm k s) (cmt_loop input' rec' cm k s').
Proof.
  intros Hrec cm k. induction k as [|k IH]; intros s s' Hs; cbn [cmt_loop]; [right; right; reflexivity|].
  apply (rel_case RSc RSc no_abort no_abort _ _ RRc); [apply abort_ok_out | apply Hrec, Hs | |].
  - intros r r' s1 s1' _ H1. apply IH, sim_maybe_skip_ws, H1.
  - intros s1 s1' H1. split; [reflexivity | exact H1].
Qed.

Lemma sim_set_in_cmt b s s' : RSc s s' -> RSc (set_in_cmt b s) (set_in_cmt b s').
Proof. intros [-> H]. split; [reflexivity | exact H]. Qed.

Lemma parse_comments_sim rec rec' : psim rec rec' ->
  forall k s s', RSc s s' -> osim (parse_comments g input rec k s) (parse_comments g' input' rec' k s').
Proof.
  intros Hrec k s s' Hs. unfold parse_comments. rewrite H_comments.
  destruct (g_comments g) as [cm|].
  - apply (rel_case RSc RSc no_abort no_abort _ _ RRc);
      [apply abort_ok_out | apply cmt_sim; [exact Hrec | apply sim_set_in_cmt, Hs] | |].
    + intros r r' s1 s1' _ H1. split; [reflexivity | apply sim_set_in_cmt, H1].
    + intros s1 s1' H1. exact H1.
  - split; [reflexivity | apply sim_set_in_cmt, sim_set_in_cmt, Hs].
Qed.

Lemma match_pre_sim rec rec' : psim rec rec' ->
  forall k s s', RSc s s' -> osim (match_pre g input rec k s) (match_pre g' input' rec' k s').
Proof.
  intros Hrec k s s' Hs. unfold match_pre. cbv zeta.
  pose proof (sim_maybe_skip_ws s s' Hs) as [E I]. rewrite E.
  set (s1 := maybe_skip_ws input s) in *. clearbody s1. cbn [fs skipws pos cpos in_cmt].
  destruct (if skipws s1 then lookup (pos s1) (cpos s1) else None) as [p'|].
  - split; [reflexivity | split; [reflexivity | exact I]].
  - destruct (in_cmt s1); [split; [reflexivity | split; [reflexivity | exact I]]|].
    apply (rel_case RSc RSc no_abort no_abort _ _ RRc);
      [apply abort_ok_out | apply parse_comments_sim; [exact Hrec | split; [reflexivity | exact I]] | |].
    + intros r r' s2 s2' _ [-> I2]. split; [reflexivity | split; [reflexivity | exact I2]].
    + intros s2 s2' H2. exact H2.
Qed.

Lemma body_sim rec rec' : psim rec rec' ->
  forall k nid nd s s', get_node g nid = Some nd -> RSc s s' -> osim (body rec k nd s) (body rec' k nd s').
Proof.
  intros Hrec k nid nd s s' Hn Hs.
  apply (body_rel RSc RSc RRc (fun p p' => p' = p) ws_ok no_abort no_abort); try assumption.
  - intros s0 s0' [-> _]. reflexivity.
  - exact (fun _ _ H => H).
  - exact sim_set_pos.
  - exact sim_reg_fail.
  - exact sim_enter_ws.
  - exact sim_leave_ws.
  - exact sim_enter_eol.
  - exact sim_leave_eol.
  - exact sim_leave_eol.
  - reflexivity.
  - exact RRc_list.
  - exact RRc_truthy.
  - exact RRc_is_none.
  - intros w Hw. exact (H_ws_nodes nid nd w Hn Hw).
Qed.

Theorem parse_sim : forall fuel,
  psim (parse g input orc memo fuel) (parse g' input' orc' memo fuel).
Proof.
  induction fuel as [|f IH]; intros nid psq s s' Hs; cbn [parse]; [right; right; reflexivity|].
  pose proof (H_nodes nid) as Hn.
  destruct (get_node g nid) as [nd|] eqn:En; destruct (get_node g' nid) as [nd'|] eqn:En';
    try contradiction; [|right; right; reflexivity].
  unfold node_sim in Hn. destruct (is_match_kind (n_kind nd)) eqn:Em.
  - destruct Hn as [Hm' [Hsup Hterm]]. rewrite Hm'.
    apply (rel_case RSc RSc no_abort no_abort _ _ RRc); [apply abort_ok_out | apply match_pre_sim; assumption | |].
    + intros _ _ s1 s1' _ [-> I]. rewrite Hterm, Hsup.
      pose proof (inv_term_parse nid (n_kind nd) psq s1 I) as It.
      destruct (term_parse input orc nid (n_kind nd) psq s1) as [r2 s2|s2|w]; cbn [fo].
      * split; [destruct (n_suppress nd); reflexivity | split; [reflexivity | exact It]].
      * split; [reflexivity | exact It].
      * right; right; reflexivity.
    + intros s1 s1' H1. exact H1.
  - subst nd'. rewrite Em. destruct Hs as [-> I]. cbn [fs pos cache].
    assert (Hb : osim (body (parse g input orc memo f) f nd s) (body (parse g' input' orc' memo f) f nd (fs s)))
      by (apply (body_sim _ _ IH f nid); [exact En | split; [reflexivity | exact I]]).
    destruct memo.
    + rewrite clookup_fcache.
      destruct (clookup nid (pos s) (cache s)) as [[[|cr] np]|]; cbn [fst snd fcr].
      * split; [reflexivity | exact I].
      * split; [reflexivity | split; [reflexivity | exact I]].
      * apply (rel_case RSc RSc no_abort no_abort _ _ RRc); [apply abort_ok_out | exact Hb | |].
        -- intros r r' s1 s1' -> [-> I1]. rewrite post_fr.
           split; [reflexivity | split; [reflexivity | exact I1]].
        -- intros s1 s1' [-> I1]. split; [reflexivity | exact I1].
    + apply (rel_case RSc RSc no_abort no_abort _ _ RRc); [apply abort_ok_out | exact Hb | |].
      * intros r r' s1 s1' -> H1. rewrite post_fr. split; [reflexivity | exact H1].
      * intros s1 s1' H1. apply sim_set_pos; [reflexivity | exact H1].
Qed.

End Sim.

Theorem run_sim :
  forall supf g g' input input' orc orc' memo (wsP : list N -> Prop) cfg fuel,
    (forall nid,
        match get_node g nid, get_node g' nid with
        | None, None => True
        | Some nd, Some nd' => node_sim supf input input' orc orc' nid nd nd'
        | _, _ => False
        end) ->
    g_comments g' = g_comments g ->
    g_top g' = g_top g ->
    (forall nid nd w, get_node g nid = Some nd -> n_ws nd = Some w -> wsP w) ->
    (forall w, wsP w -> wsP (strip_eol w)) ->
    (forall w p, wsP w -> skip_ws_from w (skipn p input') p = skip_ws_from w (skipn p input) p) ->
    wsP (c_ws cfg) ->
    run g' cfg orc' memo fuel input' = foutcome supf (run g cfg orc memo fuel input).
Proof.
  intros supf g g' input input' orc orc' memo wsP cfg fuel Hn Hc Ht Hw Hs Hk Hcfg.
  unfold run. rewrite Ht.
  rewrite (osim_fo _ _ _ _ (parse_sim supf g g' input input' orc orc' memo wsP Hn Hc Hw Hs Hk fuel (g_top g) false
                                    (init_st cfg) (init_st cfg) (conj eq_refl (conj Hcfg Hcfg)))).
  destruct (parse g input orc memo fuel (g_top g) false (init_st cfg)) as [r s|s|w]; reflexivity.
Qed.
