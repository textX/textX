(* Completeness of the RREL search (Model/Rrel.v) with the visited set and prevent_doubles:
   every failed search leaves a set of visited keys that passes the closure check closure_ok,
   hence (Proofs/RrelProofs.v, closure_complete) no justified result exists. *)
From TxV Require Import Core.Base Gen.SrcRrel Model.RrelSyntax Model.Rrel Proofs.RrelProofs.

Definition vmonoc (f : st -> res * st) : Prop :=
  forall s, incl (vis s) (vis (snd (f s))) /\ nxt s <= nxt (snd (f s)).
Definition vmono (k : cfg -> st -> res * st) : Prop := forall c, vmonoc (k c).

(* vmonoc and vmono are fwdc and fwd for this order *)
Lemma vis_forward : forward (fun s s' => incl (vis s) (vis s') /\ nxt s <= nxt s').
Proof.
  split; simpl.
  - intros s. split; [apply incl_refl | apply Nat.le_refl].
  - intros s1 s2 s3 [A B] [C D]. split; [exact (incl_tran A C) | exact (Nat.le_trans _ _ _ B D)].
  - intros s k. split; [apply incl_tl, incl_refl | apply Nat.le_refl].
  - intros s e. split; [apply incl_refl | apply Nat.le_refl].
  - intros s. split; [apply incl_refl | apply Nat.le_succ_diag_r].
  - intros s. split; [apply incl_refl | apply Nat.le_refl].
Qed.

Definition on (c : cfg) : nat * list (list N) := (c_obj c, c_names c).

(* the outputs of a navigation step do not depend on the path collected so far *)
Lemma nav_outs_on m cs fx c tr xs :
  map on (nav_outs m cs fx (mk (c_obj c) (c_names c) tr) xs) = map on (nav_outs m cs fx c xs).
Proof.
  unfold nav_outs, pick. simpl.
  destruct cs, fx, (c_names c); try reflexivity; try (destruct (List.find _ xs); reflexivity);
    rewrite !map_map; reflexivity.
Qed.

Lemma apply_nav_repath F m n cs fx f c tr l :
  apply_nav F m n cs fx f c = SOuts l ->
  exists l', apply_nav F m n cs fx f (mk (c_obj c) (c_names c) tr) = SOuts l' /\ map on l' = map on l.
Proof.
  rewrite !apply_nav_eq. simpl.
  destruct (if f then root_of F m (c_obj c) else Some (c_obj c)) as [b|]; [|discriminate].
  destruct (m_attr m b n); intro H; inversion H; try (eexists; split; [reflexivity | apply nav_outs_on]).
  destruct cs, (c_names c); inversion H. exists []. split; reflexivity.
Qed.

Section Complete.
  Variable F : nat.
  Variable m : model.
  Variable names0 : list (list N).
  Variable T : option (list N).
  Variable top : seq.
  Variable V : list (nat * list nat * nat * bool).

  Notation Hp := (nat -> list (list N) -> bool) (only parsing).

  Inductive node := NElem (e : elem) | NSeq (sq : seq).

  Inductive alts_from : seq -> nat -> seq -> Prop :=
  | af_0 sq : alts_from sq 0 sq
  | af_S sq i p sq' : alts_from sq i (SCons p sq') -> alts_from sq (S i) sq'.

  Inductive elems_from : path -> nat -> path -> Prop :=
  | ef_0 p : elems_from p 0 p
  | ef_S p j e p' : elems_from p j (PCons e p') -> elems_from p (S j) p'.

  Definition head_path (sq : seq) : path := match sq with S1 p => p | SCons p _ => p end.

  (* Site pos n H: the node n sits at position pos, and H is what "handled" means for the items it
     passes on (the key of the next guard is visited, or the acceptance test fails) *)
  Inductive Site : list nat -> node -> Hp -> Prop :=
  | S_root : Site [] (NSeq top) (hfinal m T)
  | S_last q sq H i sq1 j e :
      Site q (NSeq sq) H -> alts_from sq i sq1 -> elems_from (head_path sq1) j (P1 e) ->
      Site (j :: i :: q) (NElem e) H
  | S_mid q sq H i sq1 j e p' :
      Site q (NSeq sq) H -> alts_from sq i sq1 -> elems_from (head_path sq1) j (PCons e p') ->
      Site (j :: i :: q) (NElem e) (hnext V (S j :: i :: q))
  | S_br p sq H : Site p (NElem (EBr sq)) H -> Site (0 :: p) (NSeq sq) H
  | S_star p sq H : Site p (NElem (EStar sq)) H -> Site (0 :: p) (NSeq sq) (hnext V p).

  (* The node at a position, computed.  A position lists the indices from the node up to the
     root; between a sequence and one of its elements lies the choice of the alternative, which
     is a spot but no node. *)
  Inductive spot := AtNode (n : node) (H : Hp) | AtAlt (sq1 : seq) (Hq : Hp).

  Fixpoint alt_at (sq : seq) (i : nat) : option seq :=
    match i with
    | 0 => Some sq
    | S i' => match alt_at sq i' with Some (SCons _ sq') => Some sq' | _ => None end
    end.

  Fixpoint elem_at (p : path) (j : nat) : option path :=
    match j with
    | 0 => Some p
    | S j' => match elem_at p j' with Some (PCons _ p') => Some p' | _ => None end
    end.

  Fixpoint spot_at (pos : list nat) : option spot :=
    match pos with
    | [] => Some (AtNode (NSeq top) (hfinal m T))
    | x :: q =>
        match spot_at q with
        | Some (AtNode (NSeq sq) Hq) => option_map (fun sq1 => AtAlt sq1 Hq) (alt_at sq x)
        | Some (AtAlt sq1 Hq) =>
            match elem_at (head_path sq1) x with
            | Some (P1 e) => Some (AtNode (NElem e) Hq)
            | Some (PCons e _) => Some (AtNode (NElem e) (hnext V (S x :: q)))
            | None => None
            end
        | Some (AtNode (NElem (EBr sq)) H) =>
            match x with 0 => Some (AtNode (NSeq sq) H) | _ => None end
        | Some (AtNode (NElem (EStar sq)) H) =>
            match x with 0 => Some (AtNode (NSeq sq) (hnext V q)) | _ => None end
        | _ => None
        end
    end.

  Lemma alts_from_at sq i sq1 : alts_from sq i sq1 -> alt_at sq i = Some sq1.
  Proof. induction 1 as [sq|sq i p sq' _ IH]; simpl; [|rewrite IH]; reflexivity. Qed.

  Lemma elems_from_at p j p1 : elems_from p j p1 -> elem_at p j = Some p1.
  Proof. induction 1 as [p|p j e p' _ IH]; simpl; [|rewrite IH]; reflexivity. Qed.

  Lemma Site_spot pos n H : Site pos n H -> spot_at pos = Some (AtNode n H).
  Proof.
    induction 1 as [|q sq H i sq1 j e _ IH Ha He|q sq H i sq1 j e p' _ IH Ha He|p sq H _ IH|p sq H _ IH];
      simpl; try rewrite IH; simpl; try reflexivity.
    - rewrite (alts_from_at _ _ _ Ha). simpl. rewrite (elems_from_at _ _ _ He). reflexivity.
    - rewrite (alts_from_at _ _ _ Ha). simpl. rewrite (elems_from_at _ _ _ He). reflexivity.
  Qed.

  Lemma Site_fun pos n H : Site pos n H -> forall n' H', Site pos n' H' -> n = n' /\ H = H'.
  Proof.
    intros H1 n' H' H2. apply Site_spot in H1, H2. rewrite H1 in H2. inversion H2. split; reflexivity.
  Qed.

  Definition pos_of (k : nat * list nat * nat * bool) : list nat := snd (fst (fst k)).

  Definition key_rule (n : node) (H : Hp) (pos : list nat) (k : nat * list nat * nat * bool) : bool :=
    match n with
    | NElem (EBr _) => br_key_ok V pos k
    | NElem (EStar sq) => star_key_ok F m names0 V pos (sl_seq sq) (sr_seq sq) H k
    | NElem e => base_key_ok F m names0 e H k
    | NSeq sq => seq_key_ok V pos sq k
    end.

  (* the closure rule of the node at the key's position holds for the key *)
  Definition Good (k : nat * list nat * nat * bool) : Prop :=
    forall n H, Site (pos_of k) n H -> key_rule n H (pos_of k) k = true.

  Definition pd_id (e : nat * list nat * nat * nat) : nat := fst (fst (fst e)).
  Definition pdok (e : nat * list nat * nat * nat) : Prop :=
    let '(_, p, o, l) := e in forall e' H, Site p (NElem e') H -> H o (sufl names0 l) = true.
  Definition PDI (X : nat * list nat * nat * nat -> Prop) (s : st) : Prop :=
    forall e, In e (pds s) -> X e \/ pdok e.
  Definition Xok (U : nat -> Prop) (s : st) (X : nat * list nat * nat * nat -> Prop) : Prop :=
    forall e, X e -> ~ U (pd_id e) /\ pd_id e < nxt s.
  Definition UB (U : nat -> Prop) (s : st) : Prop := forall u, U u -> u < nxt s.

  Definition Post (s s' : st) : Prop :=
    incl (vis s) (vis s') /\ nxt s <= nxt s' /\
    (forall k, In k (vis s') -> In k (vis s) \/ Good k).

  Definition KC (k : cfg -> st -> res * st) (H : Hp) (U : nat -> Prop) : Prop :=
    vmono k /\ forall c s s' X, Suf names0 c -> UB U s -> Xok U s X -> PDI X s ->
      k c s = (RNone, s') -> incl (vis s') V ->
      Post s s' /\ PDI X s' /\ H (c_obj c) (c_names c) = true.

  Lemma Post_refl s : Post s s.
  Proof. split; [apply incl_refl|]. split; [lia|]. intros k Hk. left; exact Hk. Qed.

  Lemma Post_trans s1 s2 s3 : Post s1 s2 -> Post s2 s3 -> Post s1 s3.
  Proof.
    intros [A1 [B1 C1]] [A2 [B2 C2]]. split; [eapply incl_tran; eauto|]. split; [lia|].
    intros k Hk. destruct (C2 k Hk) as [H|H]; [|right; exact H]. apply C1. exact H.
  Qed.

  Lemma memk_of_In A k : In k A -> memk A k = true.
  Proof. intro H. apply (memk_In A). exact H. Qed.

  Lemma memk_incl A B k : incl A B -> memk A k = true -> memk B k = true.
  Proof. intros Hi H. apply memk_In. apply Hi. apply (memk_In A). exact H. Qed.

  Lemma firsts_in_incl A B q i sq o l f :
    incl A B -> firsts_in A q i sq o l f = true -> firsts_in B q i sq o l f = true.
  Proof.
    intro Hi. revert i. induction sq as [p|p sq IH]; intros i H; simpl in *.
    - eapply memk_incl; eauto.
    - apply andb_true_iff in H as [H1 H2]. apply andb_true_iff. split; [eapply memk_incl; eauto | apply IH; exact H2].
  Qed.
  (* a state passed on the way to s' has visited no more than s' *)
  Lemma vis_back (f : st -> res * st) s r s' :
    vmonoc f -> f s = (r, s') -> incl (vis s') V -> incl (vis s) V.
  Proof. intros Hf E Hi. destruct (Hf s) as [Hm _]. rewrite E in Hm. exact (incl_tran Hm Hi). Qed.

  (* guard with the repaired key *)
  Lemma guard_inv pos first c s body s' :
    guard true pos first c s body = (RNone, s') ->
    let key := (c_obj c, pos, List.length (c_names c), first) in
    (In key (vis s) /\ vis s' = vis s /\ pds s' = pds s /\ nxt s' = nxt s) \/
    (~ In key (vis s) /\
     body {| vis := key :: vis s; pds := pds s; nxt := nxt s; hit := hit s |} = (RNone, s')).
  Proof.
    unfold guard. simpl.
    destruct (existsb (key_eqb (c_obj c, pos, List.length (c_names c), first)) (vis s)) eqn:E; intro H.
    - left. inversion H; subst; simpl. apply (memk_In (vis s)) in E. auto.
    - right. split; [|exact H]. intro Hin. apply (memk_In (vis s)) in Hin. unfold memk in Hin. congruence.
  Qed.

  Lemma Suf_step e f c c' : r_elem m e f c c' -> Suf names0 c -> Suf names0 c'.
  Proof. intros Hr. exact (Suf_extends m names0 c c' (proj1 (r_extends m) _ _ _ _ Hr)). Qed.

  Lemma Suf_same c o tr : Suf names0 c -> Suf names0 (mk o (c_names c) tr).
  Proof. intros [pre E]. exists pre. exact E. Qed.

  Lemma pd_eqb_eq a b : pd_eqb a b = true <-> a = b.
  Proof.
    destruct a as [[[i1 p1] o1] l1], b as [[[i2 p2] o2] l2]. unfold pd_eqb. split; intro H.
    - repeat (apply andb_true_iff in H as [H ?]).
      apply Nat.eqb_eq in H. apply pos_eqb_eq in H2. apply Nat.eqb_eq in H1. apply Nat.eqb_eq in H0.
      subst. reflexivity.
    - inversion H; subst. rewrite !Nat.eqb_refl.
      replace (pos_eqb p2 p2) with true by (symmetry; apply pos_eqb_eq; reflexivity). reflexivity.
  Qed.

  Definition Pre (U : nat -> Prop) (X : nat * list nat * nat * nat -> Prop) (c : cfg) (s : st) : Prop :=
    Suf names0 c /\ UB U s /\ Xok U s X /\ PDI X s.
  Definition Res (s s' : st) (X : nat * list nat * nat * nat -> Prop) (key : nat * list nat * nat * bool) : Prop :=
    Post s s' /\ PDI X s' /\ In key (vis s').

  Lemma Pre_eq U X c s s1 : pds s1 = pds s -> nxt s1 = nxt s -> Pre U X c s -> Pre U X c s1.
  Proof.
    intros Ep En [A [B [C D]]]. split; [exact A|]. split; [|split].
    - intros u Hu. rewrite En. apply B; exact Hu.
    - intros e He. rewrite En. apply C; exact He.
    - intros e He. rewrite Ep in He. apply D; exact He.
  Qed.

  Lemma Pre_step U X c c' s s' : Post s s' -> PDI X s' -> Suf names0 c' -> Pre U X c s -> Pre U X c' s'.
  Proof.
    intros [_ [Hn _]] Hp Hs [_ [B [C _]]]. split; [exact Hs|]. split; [|split; [|exact Hp]].
    - intros u Hu. exact (Nat.lt_le_trans _ _ _ (B u Hu) Hn).
    - intros e He. destruct (C e He) as [A B']. split; [exact A | exact (Nat.lt_le_trans _ _ _ B' Hn)].
  Qed.

  Lemma Pre_item U X c c' s : Suf names0 c' -> Pre U X c s -> Pre U X c' s.
  Proof. intros Hs [_ Hr]. exact (conj Hs Hr). Qed.

  (* using a contract, and establishing the one whose "handled" is "the next key is visited" *)
  Lemma KC_apply k H U X c s s' :
    KC k H U -> Pre U X c s -> k c s = (RNone, s') -> incl (vis s') V ->
    Post s s' /\ PDI X s' /\ H (c_obj c) (c_names c) = true.
  Proof. intros [_ Hk] [A [B [C D]]]. exact (Hk c s s' X A B C D). Qed.

  Lemma KC_next k pos U :
    vmono k ->
    (forall c s s' X, Pre U X c s -> k c s = (RNone, s') -> incl (vis s') V ->
                      Res s s' X (c_obj c, pos, List.length (c_names c), false)) ->
    KC k (hnext V pos) U.
  Proof.
    intros Hvm Hk. split; [exact Hvm|]. intros c s s' X A B C D E Hi.
    destruct (Hk c s s' X (conj A (conj B (conj C D))) E Hi) as [P [D' Hin]].
    split; [exact P|]. split; [exact D'|]. apply memk_of_In. exact (Hi _ Hin).
  Qed.

  Lemma KC_if (b : bool) k H U X c s s' :
    KC k H U -> Pre U X c s -> (if b then k c s else (RNone, s)) = (RNone, s') -> incl (vis s') V ->
    Post s s' /\ PDI X s' /\ implb b (H (c_obj c) (c_names c)) = true.
  Proof.
    destruct b; [apply KC_apply|]. intros _ Hpre E _. inversion E; subst.
    split; [apply Post_refl|]. split; [apply Hpre | reflexivity].
  Qed.

  Lemma Good_intro pos n H k : Site pos n H -> pos_of k = pos -> key_rule n H pos k = true -> Good k.
  Proof.
    intros Hs Hp Hr n' H' Hs'. rewrite Hp in *. destruct (Site_fun _ _ _ Hs _ _ Hs') as [E1 E2]. subst. exact Hr.
  Qed.

  (* a guard that lets the item pass records its key; what the body has to add is that the key
     satisfies the closure rule of its site *)
  Lemma guard_case pos first c s body s' U X :
    Pre U X c s -> guard true pos first c s body = (RNone, s') ->
    (forall s1, Pre U X c s1 -> body s1 = (RNone, s') ->
                Post s1 s' /\ PDI X s' /\ Good (c_obj c, pos, List.length (c_names c), first)) ->
    Res s s' X (c_obj c, pos, List.length (c_names c), first).
  Proof.
    intros Hpre Hg Hb. apply guard_inv in Hg. simpl in Hg. destruct Hg as [[Hin [Ev [Ep En]]]|[Hnin Hbody]].
    - split; [|split].
      + split; [rewrite Ev; apply incl_refl|]. split; [rewrite En; apply Nat.le_refl|].
        intros k Hk. left. rewrite Ev in Hk. exact Hk.
      + intros e He. rewrite Ep in He. apply Hpre; exact He.
      + rewrite Ev. exact Hin.
    - apply Hb in Hbody; [|exact (Pre_eq U X c s _ eq_refl eq_refl Hpre)].
      destruct Hbody as [[A [B C]] [D G]]. simpl in *.
      split; [|split; [exact D|]].
      + split; [intros k Hk; apply A; right; exact Hk|]. split; [exact B|].
        intros k Hk. destruct (C k Hk) as [[E|Hin]|Hg]; [subst; right; exact G | left; exact Hin | right; exact Hg].
      + apply A. left. reflexivity.
  Qed.

  Lemma iter_outs_inv k H U l : KC k H U ->
    forall c0 s s' X, (forall c, In c l -> Suf names0 c) -> Pre U X c0 s ->
      iter_outs l k s = (RNone, s') -> incl (vis s') V ->
      Post s s' /\ PDI X s' /\ (forall c, In c l -> H (c_obj c) (c_names c) = true).
  Proof.
    intros Hkc. induction l as [|a l IH]; intros c0 s s' X Hsuf Hpre Hev Hi; simpl in Hev.
    - inversion Hev; subst. split; [apply Post_refl|]. split; [apply Hpre|]. intros c [].
    - destruct (k a s) as [r s1] eqn:E. destruct r; try discriminate.
      pose proof (vis_back _ _ _ _ (iter_outs_fwd _ vis_forward l k (proj1 Hkc)) Hev Hi) as Hi1.
      pose proof (Pre_item U X c0 a s (Hsuf a (or_introl eq_refl)) Hpre) as Hpa.
      destruct (KC_apply _ _ _ _ _ _ _ Hkc Hpa E Hi1) as [P1 [D1 Ha]].
      destruct (IH a s1 s' X (fun c Hc => Hsuf c (or_intror Hc)) (Pre_step U X a a s s1 P1 D1 (proj1 Hpa) Hpa) Hev Hi)
        as [P2 [D2 Hl]].
      split; [exact (Post_trans _ _ _ P1 P2)|].
      split; [exact D2|]. intros c [<-|Hc]; [exact Ha | apply Hl; exact Hc].
  Qed.

  Section Star.
    Variable pos : list nat.
    Variable sq : seq.
    Variable H : Hp.
    Hypothesis Hsite : Site pos (NElem (EStar sq)) H.
    Variable U : nat -> Prop.
    Variable k : cfg -> st -> res * st.
    Hypothesis Hk : KC k H U.
    Variable id : nat.
    Hypothesis Hid : forall u, U u -> u < id.

    Definition U' (u : nat) : Prop := U u \/ u = id.

    Lemma kc_pd : KC (pd_filter id pos k) H U'.
    Proof.
      destruct Hk as [Hvm Hkc]. split; [exact (pd_filter_fwd _ vis_forward id pos k Hvm)|].
      intros c s s' X Hsuf Hub Hx Hpd Hev Hi. unfold pd_filter in Hev.
      destruct (existsb (pd_eqb (id, pos, c_obj c, List.length (c_names c))) (pds s)) eqn:E.
      - inversion Hev; subst; simpl. apply existsb_exists in E as [e [He Ee]]. apply pd_eqb_eq in Ee. subst e.
        split; [apply (Post_refl {| vis := vis s; pds := pds s; nxt := nxt s; hit := true |})|].
        split; [exact Hpd|].
        destruct (Hpd _ He) as [Hxe|Hok].
        + destruct (Hx _ Hxe) as [Hnu _]. exfalso. apply Hnu. right. reflexivity.
        + simpl in Hok. rewrite <- (sufl_suf names0 c Hsuf). eapply Hok. exact Hsite.
      - set (e := (id, pos, c_obj c, List.length (c_names c))) in *.
        set (s1 := {| vis := vis s; pds := e :: pds s; nxt := nxt s; hit := hit s |}) in *.
        set (X' := fun e' => X e' \/ e' = e).
        assert (Hub1 : UB U s1) by (intros u Hu; apply (Hub u); left; exact Hu).
        assert (Hx1 : Xok U s1 X').
        { intros e' [Hxe | ->].
          - destruct (Hx _ Hxe) as [A B]. split; [intro Hu; apply A; left; exact Hu | exact B].
          - split; [intro Hu; exact (Nat.lt_irrefl _ (Hid _ Hu)) | apply (Hub id); right; reflexivity]. }
        assert (Hpd1 : PDI X' s1).
        { intros e' [<-|He']; [left; right; reflexivity|].
          destruct (Hpd _ He') as [A|B]; [left; left; exact A | right; exact B]. }
        destruct (Hkc c s1 s' X' Hsuf Hub1 Hx1 Hpd1 Hev Hi) as [P [D Hc]].
        split; [exact P|]. split; [|exact Hc].
        intros e' He'. destruct (D _ He') as [[A | ->] | B]; [left; exact A | | right; exact B].
        right. simpl. intros e0 H0 Hs0. destruct (Site_fun _ _ _ Hsite _ _ Hs0) as [_ <-].
        rewrite (sufl_suf names0 c Hsuf). exact Hc.
    Qed.

    Definition zero_part (first : bool) (c : cfg) : bool :=
      if first then implb (sl_seq sq) (H (c_obj c) (c_names c)) &&
                    implb (sr_seq sq) (match root_of F m (c_obj c) with
                                       | Some rt => H rt (c_names c) | None => false end)
      else H (c_obj c) (c_names c).

    Lemma star_zero_inv first c s1 s2 X :
      Pre U' X c s1 ->
      star_zero (sl_seq sq) (sr_seq sq) F m (pd_filter id pos k) first c s1 = (RNone, s2) ->
      incl (vis s2) V ->
      Post s1 s2 /\ PDI X s2 /\ zero_part first c = true.
    Proof.
      pose proof kc_pd as Hkp. intros Hpre Hz Hi. unfold star_zero in Hz. unfold zero_part.
      destruct first; [|exact (KC_apply _ _ _ _ _ _ _ Hkp Hpre Hz Hi)].
      destruct (if sl_seq sq then pd_filter id pos k c s1 else (RNone, s1)) as [r1 s1'] eqn:E1.
      destruct r1; try discriminate.
      pose proof (vis_back _ _ _ _ (star_root_fwd _ vis_forward (sr_seq sq) F m _ c (proj1 Hkp)) Hz Hi) as Hi1.
      destruct (KC_if _ _ _ _ _ _ _ _ Hkp Hpre E1 Hi1) as [P1 [D1 Hc1]]. rewrite Hc1.
      assert (Hpre1 : forall rt, Pre U' X (mk rt (c_names c) (c_path c)) s1').
      { intro rt. exact (Pre_step U' X c _ s1 s1' P1 D1 (Suf_same c rt _ (proj1 Hpre)) Hpre). }
      destruct (root_of F m (c_obj c)) as [rt|].
      - destruct (KC_if _ _ _ _ _ _ _ _ Hkp (Hpre1 rt) Hz Hi) as [P2 [D2 Hc2]].
        split; [exact (Post_trans _ _ _ P1 P2)|]. split; [exact D2 | exact Hc2].
      - destruct (sr_seq sq); [discriminate|]. inversion Hz; subst.
        split; [exact P1|]. split; [exact D1 | reflexivity].
    Qed.

    Variable evs : bool -> cfg -> (cfg -> st -> res * st) -> st -> res * st.
    Hypothesis Hevs_vm : forall f c k1, vmono k1 -> vmonoc (evs f c k1).
    Hypothesis Hevs : forall f c k1 s s' X,
      Pre U' X c s -> KC k1 (hnext V pos) U' -> evs f c k1 s = (RNone, s') -> incl (vis s') V ->
      Res s s' X (c_obj c, 0 :: pos, List.length (c_names c), f).

    Lemma gfz_inv n : forall first c s s' X,
      Pre U' X c s ->
      gfz evs (sl_seq sq) (sr_seq sq) F m true pos (pd_filter id pos k) n first c s = (RNone, s') ->
      incl (vis s') V ->
      Res s s' X (c_obj c, pos, List.length (c_names c), first).
    Proof.
      pose proof (proj1 kc_pd) as Hvm'.
      induction n as [|n IH]; intros first c s s' X Hpre Hev Hi; simpl in Hev; [discriminate|].
      apply (guard_case _ _ _ _ _ _ U' X Hpre Hev). intros s1 Hpre1 Hb. cbv beta in Hb.
      destruct (star_zero (sl_seq sq) (sr_seq sq) F m (pd_filter id pos k) first c s1) as [r s2] eqn:Ez.
      destruct r; try discriminate.
      (* the re-entry of `*` after one more unfolding is a contract for "the key at pos is visited" *)
      set (kn := fun c1 s3 => gfz evs (sl_seq sq) (sr_seq sq) F m true pos (pd_filter id pos k) n false c1 s3) in *.
      assert (Hkn : KC kn (hnext V pos) U').
      { apply KC_next; [|exact (IH false)]. intros c1. apply (gfz_fwd _ vis_forward); [exact Hevs_vm | exact Hvm']. }
      pose proof (vis_back _ _ _ _ (Hevs_vm first c kn (proj1 Hkn)) Hb Hi) as Hi2.
      destruct (star_zero_inv first c s1 s2 X Hpre1 Ez Hi2) as [P1 [D1 Hz]].
      destruct (Hevs first c kn s2 s' X (Pre_step U' X c c s1 s2 P1 D1 (proj1 Hpre) Hpre1) Hkn Hb Hi) as [P2 [D2 Hin2]].
      split; [exact (Post_trans _ _ _ P1 P2)|]. split; [exact D2|].
      eapply Good_intro; [exact Hsite | reflexivity|]. simpl. unfold star_key_ok.
      rewrite (memk_of_In V _ (Hi _ Hin2)). simpl.
      rewrite (sufl_suf names0 c (proj1 Hpre)). exact Hz.
    Qed.
  End Star.

  (* a step that passes on at most one item, the names unchanged: parent(T) and dots *)
  Lemma one_item_inv k H U X c s1 s' (r : option nat) :
    KC k H U -> Pre U X c s1 ->
    match r with Some p => k (mk p (c_names c) (c_path c)) s1 | None => (RNone, s1) end = (RNone, s') ->
    incl (vis s') V ->
    Post s1 s' /\ PDI X s' /\ match r with Some p => H p (c_names c) | None => true end = true.
  Proof.
    intros Hkc Hpre Hb Hi. destruct r as [p|].
    - exact (KC_apply _ _ _ _ _ _ _ Hkc (Pre_item U X c _ s1 (Suf_same c p _ (proj1 Hpre)) Hpre) Hb Hi).
    - inversion Hb; subst. split; [apply Post_refl|]. split; [apply Hpre | reflexivity].
  Qed.

  (* the items of l' are handled if those of l are and both lists show the same objects and names *)
  Lemma handled_on (H : Hp) l l' :
    map on l' = map on l -> (forall c, In c l -> H (c_obj c) (c_names c) = true) ->
    forallb (fun c' => H (c_obj c') (c_names c')) l' = true.
  Proof.
    intros Hmap Hl. apply forallb_forall. intros c' Hc'.
    assert (Hin : In (on c') (map on l)) by (rewrite <- Hmap; apply in_map; exact Hc').
    apply in_map_iff in Hin as [c2 [Eq Hc2]]. unfold on in Eq. injection Eq as Eo En.
    rewrite <- Eo, <- En. apply Hl. exact Hc2.
  Qed.

  (* the sequence node is its guard around the loop over its alternatives *)
  Lemma seq_of_alts sq1 :
    (forall q sq Hq i first c k s s' U X,
        Site q (NSeq sq) Hq -> alts_from sq i sq1 -> Pre U X c s -> KC k Hq U ->
        ev_alts F m true q i sq1 first c k s = (RNone, s') -> incl (vis s') V ->
        Post s s' /\ PDI X s' /\
        firsts_in (vis s') q i sq1 (c_obj c) (List.length (c_names c)) first = true) ->
    forall q Hq first c k s s' U X,
      Site q (NSeq sq1) Hq -> Pre U X c s -> KC k Hq U ->
      ev_seq F m true q sq1 first c k s = (RNone, s') -> incl (vis s') V ->
      Res s s' X (c_obj c, q, List.length (c_names c), first).
  Proof.
    intros IH q Hq first c k s s' U X Hs Hpre Hkc Hev Hi. rewrite ev_seq_eq in Hev.
    apply (guard_case _ _ _ _ _ _ U X Hpre Hev). intros s1 Hpre1 Hb.
    destruct (IH q sq1 Hq 0 first c k s1 s' U X Hs (af_0 _) Hpre1 Hkc Hb Hi) as [P [D Hf]].
    split; [exact P|]. split; [exact D|].
    eapply Good_intro; [exact Hs | reflexivity|]. exact (firsts_in_incl _ _ _ _ _ _ _ _ Hi Hf).
  Qed.

  Lemma main :
    (forall e pos H first c k s s' U X,
        Site pos (NElem e) H -> Pre U X c s -> KC k H U ->
        ev_elem F m true pos e first c k s = (RNone, s') -> incl (vis s') V ->
        Res s s' X (c_obj c, pos, List.length (c_names c), first)) /\
    (forall p q sq Hq i sq1 j first c k s s' U X,
        Site q (NSeq sq) Hq -> alts_from sq i sq1 -> elems_from (head_path sq1) j p ->
        Pre U X c s -> KC k Hq U ->
        ev_path F m true q i j p first c k s = (RNone, s') -> incl (vis s') V ->
        Res s s' X (c_obj c, j :: i :: q, List.length (c_names c), first)) /\
    (forall sq1,
        (forall q sq Hq i first c k s s' U X,
            Site q (NSeq sq) Hq -> alts_from sq i sq1 -> Pre U X c s -> KC k Hq U ->
            ev_alts F m true q i sq1 first c k s = (RNone, s') -> incl (vis s') V ->
            Post s s' /\ PDI X s' /\
            firsts_in (vis s') q i sq1 (c_obj c) (List.length (c_names c)) first = true) /\
        (forall q Hq first c k s s' U X,
            Site q (NSeq sq1) Hq -> Pre U X c s -> KC k Hq U ->
            ev_seq F m true q sq1 first c k s = (RNone, s') -> incl (vis s') V ->
            Res s s' X (c_obj c, q, List.length (c_names c), first))).
  Proof.
    destruct (ev_fwd _ vis_forward F m true) as [_ [VMp VMs]].
    apply rrel_mutind.
    - (* EParent *)
      intros T0 pos H first c k s s' U X Hs Hpre Hkc Hev Hi. simpl in Hev.
      apply (guard_case _ _ _ _ _ _ U X Hpre Hev). intros s1 Hpre1 Hb. cbv beta in Hb.
      destruct (apply_parent F m T0 (c_obj c)) as [r|] eqn:E; [|discriminate].
      destruct (one_item_inv k H U X c s1 s' r Hkc Hpre1 Hb Hi) as [P [D Hc]].
      split; [exact P|]. split; [exact D|].
      eapply Good_intro; [exact Hs | reflexivity|]. simpl.
      rewrite E, (sufl_suf names0 c (proj1 Hpre)). destruct r; exact Hc.
    - (* ENav *)
      intros name consume fixed pos H first c k s s' U X Hs Hpre Hkc Hev Hi. simpl in Hev.
      apply (guard_case _ _ _ _ _ _ U X Hpre Hev). intros s1 Hpre1 Hb. cbv beta in Hb.
      destruct (apply_nav F m name consume fixed first c) as [l| |] eqn:E; try discriminate.
      assert (Hsl : forall c', In c' l -> Suf names0 c').
      { intros c' Hc'. exact (Suf_step _ _ _ _ (apply_nav_spec _ _ _ _ _ _ _ _ E c' Hc') (proj1 Hpre)). }
      destruct (iter_outs_inv k H U l Hkc c s1 s' X Hsl Hpre1 Hb Hi) as [P [D Hl]].
      split; [exact P|]. split; [exact D|].
      eapply Good_intro; [exact Hs | reflexivity|]. simpl.
      destruct (apply_nav_repath F m name consume fixed first c [] l E) as [l' [E' Hmap]].
      rewrite (sufl_suf names0 c (proj1 Hpre)), E'. exact (handled_on H l l' Hmap Hl).
    - (* EDots *)
      intros n pos H first c k s s' U X Hs Hpre Hkc Hev Hi. simpl in Hev.
      apply (guard_case _ _ _ _ _ _ U X Hpre Hev). intros s1 Hpre1 Hb. cbv beta in Hb.
      destruct (one_item_inv k H U X c s1 s' (apply_dots m n (c_obj c)) Hkc Hpre1 Hb Hi) as [P [D Hc]].
      split; [exact P|]. split; [exact D|].
      eapply Good_intro; [exact Hs | reflexivity|]. simpl.
      rewrite (sufl_suf names0 c (proj1 Hpre)). destruct (apply_dots m n (c_obj c)); exact Hc.
    - (* EBr *)
      intros sq IH pos H first c k s s' U X Hs Hpre Hkc Hev Hi. simpl in Hev.
      apply (guard_case _ _ _ _ _ _ U X Hpre Hev). intros s1 Hpre1 Hb. cbv beta in Hb.
      destruct (proj2 IH (0 :: pos) H first c k s1 s' U X (S_br _ _ _ Hs) Hpre1 Hkc Hb Hi) as [P [D Hin]].
      split; [exact P|]. split; [exact D|].
      eapply Good_intro; [exact Hs | reflexivity|]. simpl. apply memk_of_In. exact (Hi _ Hin).
    - (* EStar: the invocation draws the number nxt s, which no pending entry and no continuation uses *)
      intros sq IH pos H first c k s s' U X Hs [Hsuf [Hub [Hx Hpd]]] Hkc Hev Hi. simpl in Hev.
      set (s0 := {| vis := vis s; pds := pds s; nxt := S (nxt s); hit := hit s |}) in *.
      assert (Hpre0 : Pre (U' U (nxt s)) X c s0).
      { split; [exact Hsuf|]. split; [|split; [|exact Hpd]].
        - intros u [Hu| ->]; [exact (Nat.lt_lt_succ_r _ _ (Hub u Hu)) | apply Nat.lt_succ_diag_r].
        - intros e He. destruct (Hx e He) as [A B]. split; [|exact (Nat.lt_lt_succ_r _ _ B)].
          intros [Hu|Hu]; [exact (A Hu) | rewrite Hu in B; exact (Nat.lt_irrefl _ B)]. }
      destruct (gfz_inv pos sq H Hs U k Hkc (nxt s) Hub
                        (fun f c1 k1 s1 => ev_seq F m true (0 :: pos) sq f c1 k1 s1)
                        (fun f c1 k1 Hk1 => ev_seq_fwd _ vis_forward F m true (0 :: pos) sq f c1 k1 (VMs sq (0 :: pos) 0 f c1 k1 Hk1))
                        (fun f c1 k1 s1 s1' X1 Hp1 Hk1 He1 Hi1 =>
                           proj2 IH (0 :: pos) (hnext V pos) f c1 k1 s1 s1' (U' U (nxt s)) X1 (S_star _ _ _ Hs) Hp1 Hk1 He1 Hi1)
                        F first c s0 s' X Hpre0 Hev Hi) as [[A [B C]] [D Hin]].
      split; [|split; [exact D | exact Hin]].
      split; [exact A|]. split; [exact (Nat.lt_le_incl _ _ B) | exact C].
    - (* P1 *)
      intros e IH q sq Hq i sq1 j first c k s s' U X Hs Ha He.
      exact (IH (j :: i :: q) Hq first c k s s' U X (S_last _ _ _ _ _ _ _ Hs Ha He)).
    - (* PCons: the rest of the path is a contract for "the key of the next element is visited" *)
      intros e IHe p IHp q sq Hq i sq1 j first c k s s' U X Hs Ha He Hpre Hkc Hev Hi. simpl in Hev.
      refine (IHe (j :: i :: q) _ first c _ s s' U X (S_mid _ _ _ _ _ _ _ _ Hs Ha He) Hpre _ Hev Hi).
      apply KC_next; [intros c1; apply VMp; exact (proj1 Hkc)|].
      intros c1 s1 s1' X1 Hpre1. exact (IHp q sq Hq i sq1 (S j) false c1 k s1 s1' U X1 Hs Ha (ef_S _ _ _ _ He) Hpre1 Hkc).
    - (* S1 *)
      intros p IHp. refine ((fun A => conj A (seq_of_alts (S1 p) A)) _).
      intros q sq Hq i first c k s s' U X Hs Ha Hpre Hkc Hev Hi. simpl in Hev.
      destruct (IHp q sq Hq i (S1 p) 0 first c k s s' U X Hs Ha (ef_0 _) Hpre Hkc Hev Hi) as [P [D Hin]].
      split; [exact P|]. split; [exact D|]. simpl. apply memk_of_In. exact Hin.
    - (* SCons *)
      intros p IHp sq' [IHa _]. refine ((fun A => conj A (seq_of_alts (SCons p sq') A)) _).
      intros q sq Hq i first c k s s' U X Hs Ha Hpre Hkc Hev Hi. simpl in Hev.
      destruct (ev_path F m true q i 0 p first c k s) as [r s1] eqn:E. destruct r; try discriminate.
      pose proof (vis_back _ _ _ _ (VMs sq' q (S i) first c k (proj1 Hkc)) Hev Hi) as Hi1.
      destruct (IHp q sq Hq i (SCons p sq') 0 first c k s s1 U X Hs Ha (ef_0 _) Hpre Hkc E Hi1) as [P1 [D1 Hin1]].
      destruct (IHa q sq Hq (S i) first c k s1 s' U X Hs (af_S _ _ _ _ Ha)
                    (Pre_step U X c c s s1 P1 D1 (proj1 Hpre) Hpre) Hkc Hev Hi) as [P2 [D2 Hf]].
      split; [exact (Post_trans _ _ _ P1 P2)|]. split; [exact D2|]. simpl.
      apply andb_true_iff. split; [|exact Hf]. apply memk_of_In. exact (proj1 P2 _ Hin1).
  Qed.

  Hypothesis HG : forall k, In k V -> Good k.

  (* every visited key at a site satisfies the site's rule *)
  Lemma site_rule pos n H : Site pos n H -> forallb (key_rule n H pos) (keys_at V pos) = true.
  Proof.
    intro Hs. apply forallb_forall. intros k Hk. apply filter_In in Hk as [Hin Hp].
    apply pos_eqb_eq in Hp. pose proof (HG k Hin n H) as Hg. unfold pos_of in Hg. rewrite Hp in Hg. exact (Hg Hs).
  Qed.

  Lemma ck_all :
    (forall e pos H, Site pos (NElem e) H -> ck_elem F m names0 V pos e H = true) /\
    (forall p q sq Hq i sq1 j, Site q (NSeq sq) Hq -> alts_from sq i sq1 -> elems_from (head_path sq1) j p ->
                               ck_path F m names0 V q i j p Hq = true) /\
    (forall sq1 q sq Hq i, Site q (NSeq sq) Hq -> alts_from sq i sq1 -> ck_alts F m names0 V q i sq1 Hq = true).
  Proof.
    apply rrel_mutind.
    - intros T0 pos H Hs. exact (site_rule pos _ H Hs).
    - intros name consume fixed pos H Hs. exact (site_rule pos _ H Hs).
    - intros n pos H Hs. exact (site_rule pos _ H Hs).
    - intros sq IH pos H Hs.
      change (ck_elem F m names0 V pos (EBr sq) H) with
        (br_rule V pos && seq_rule V (0 :: pos) sq && ck_alts F m names0 V (0 :: pos) 0 sq H).
      rewrite (IH (0 :: pos) sq H 0 (S_br _ _ _ Hs) (af_0 _)), andb_true_r.
      apply andb_true_iff. split; [exact (site_rule pos _ H Hs) | exact (site_rule (0 :: pos) _ H (S_br _ _ _ Hs))].
    - intros sq IH pos H Hs.
      change (ck_elem F m names0 V pos (EStar sq) H) with
        (star_rule F m names0 V pos (sl_seq sq) (sr_seq sq) H && seq_rule V (0 :: pos) sq
         && ck_alts F m names0 V (0 :: pos) 0 sq (hnext V pos)).
      rewrite (IH (0 :: pos) sq (hnext V pos) 0 (S_star _ _ _ Hs) (af_0 _)), andb_true_r.
      apply andb_true_iff. split; [exact (site_rule pos _ H Hs) | exact (site_rule (0 :: pos) _ _ (S_star _ _ _ Hs))].
    - intros e IH q sq Hq i sq1 j Hs Ha He.
      change (ck_path F m names0 V q i j (P1 e) Hq) with (ck_elem F m names0 V (j :: i :: q) e Hq).
      exact (IH _ _ (S_last _ _ _ _ _ _ _ Hs Ha He)).
    - intros e IHe p IHp q sq Hq i sq1 j Hs Ha He.
      change (ck_path F m names0 V q i j (PCons e p) Hq) with
        (ck_elem F m names0 V (j :: i :: q) e (hnext V (S j :: i :: q)) && ck_path F m names0 V q i (S j) p Hq).
      apply andb_true_iff. split.
      + exact (IHe _ _ (S_mid _ _ _ _ _ _ _ _ Hs Ha He)).
      + exact (IHp q sq Hq i sq1 (S j) Hs Ha (ef_S _ _ _ _ He)).
    - intros p IHp q sq Hq i Hs Ha.
      change (ck_alts F m names0 V q i (S1 p) Hq) with (ck_path F m names0 V q i 0 p Hq).
      exact (IHp q sq Hq i (S1 p) 0 Hs Ha (ef_0 _)).
    - intros p IHp sq' IHa q sq Hq i Hs Ha.
      change (ck_alts F m names0 V q i (SCons p sq') Hq) with
        (ck_path F m names0 V q i 0 p Hq && ck_alts F m names0 V q (S i) sq' Hq).
      apply andb_true_iff. split.
      + exact (IHp q sq Hq i (SCons p sq') 0 Hs Ha (ef_0 _)).
      + exact (IHa q sq Hq (S i) Hs (af_S _ _ _ _ Ha)).
  Qed.
End Complete.
(* every failed search leaves a closed set of visited keys *)
Theorem fowp_closed F m sq o names T s :
  fowp F m true sq o names T = (RNone, s) -> closure_ok F m names (vis s) sq o T = true.
Proof.
  intro Hev. unfold fowp in Hev.
  assert (Hpre : Pre m names T sq (vis s) (fun _ => False) (fun _ => False) (mk o names []) st0).
  { split; [exists []; reflexivity|]. split; [intros u []|]. split; [intros e []|]. intros e []. }
  assert (Hkc : KC F m names T sq (vis s) (final m T) (hfinal m T) (fun _ => False)).
  { split; [exact (final_fwd _ vis_forward m T)|].
    intros c s1 s1' X _ _ _ Hpd Hf _. unfold final in Hf. unfold hfinal.
    destruct (c_names c) as [|n ns].
    + destruct (conf_opt m T (c_obj c)); [discriminate|]. inversion Hf; subst.
      split; [apply Post_refl|]. split; [exact Hpd | reflexivity].
    + inversion Hf; subst. split; [apply Post_refl|]. split; [exact Hpd | reflexivity]. }
  destruct (proj1 (proj2 (proj2 (main F m names T sq (vis s))) sq)
              [] sq (hfinal m T) 0 true (mk o names []) (final m T) st0 s (fun _ => False) (fun _ => False)
              (S_root m T sq (vis s)) (af_0 sq) Hpre Hkc Hev (incl_refl _)) as [[_ [_ Hg]] [_ Hf]].
  unfold closure_ok. simpl in Hf. rewrite Hf. simpl.
  destruct (ck_all F m names T sq (vis s)) as [_ [_ Hck]].
  - intros k Hk. destruct (Hg k Hk) as [[]|G]. exact G.
  - apply (Hck sq [] sq (hfinal m T) 0 (S_root m T sq (vis s)) (af_0 sq)).
Qed.

(* completeness of find: under unique sibling names, "not found" means that no expansion of the
   expression reaches a conforming object with all name parts consumed *)
Theorem find_complete F m sq o names T px :
  siblings_unique m -> find F m true sq o names T px = FNone ->
  forall t tr, ~ justified m sq o names T t tr.
Proof.
  intros Hu Hf. apply find_none_fowp in Hf.
  destruct (fowp F m true sq o names T) as [r s] eqn:E. simpl in Hf. subst r.
  eapply closure_complete; [exact Hu | eapply fowp_closed; exact E].
Qed.

Theorem find_certified_always F m sq o names T :
  fst (fowp F m true sq o names T) = RNone -> find_certified F m true sq o names T = true.
Proof.
  intro H. unfold find_certified. destruct (fowp F m true sq o names T) as [r s] eqn:E. simpl in *. subst r.
  eapply fowp_closed; exact E.
Qed.

Theorem find_complete_exists F m sq o names T px :
  siblings_unique m -> (exists t tr, justified m sq o names T t tr) ->
  find F m true sq o names T px <> FNone.
Proof. intros Hu [t [tr Hj]] Hf. exact (find_complete F m sq o names T px Hu Hf t tr Hj). Qed.

(* the same for the key form read from the source *)
Theorem find_complete_src F m sq o names T px :
  siblings_unique m -> find F m (key_has_first src_facts) sq o names T px = FNone ->
  forall t tr, ~ justified m sq o names T t tr.
Proof. rewrite src_key_form. apply find_complete. Qed.
