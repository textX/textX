From TxV Require Import Core.Base Gen.SrcRegistry Model.Registry.

(* The facts read from textx/registration.py (Gen/SrcRegistry.v).  When one of them changes this
   lemma, and the equation below that computes with it, stop compiling and C26_refines is no longer
   established. *)
Lemma facts_of_source :
  (lang_lookup_lowered, gen_lookup_lang_lowered, gen_lookup_target_lowered, reg_lang_check_lowered, reg_lang_store_lowered,
   reg_gen_lang_lowered, reg_gen_check_lowered, reg_gen_store_lowered, mm_key_lowered)
  = (true, true, true, true, true, true, true, true, true) /\
  (clear_langs_forgets_table, clear_langs_drops_cache, clear_gens_forgets_table, patternless_skipped) = (true, true, true, true) /\
  register_loads_then_refuses_then_inserts = true.
Proof. repeat split. Qed.

Lemma lw_true s : lw true s = lower s. Proof. reflexivity. Qed.

Lemma update_absent {A} k (v : A) l : lookup k l = None -> update k v l = l ++ [(k, v)].
Proof.
  induction l as [|[k0 v0] l IH]; simpl; [reflexivity|].
  destruct (str_eqb k k0); [discriminate|]. intro H. rewrite (IH H). reflexivity.
Qed.

Section Proofs.
  Variable fnm : list N -> list N -> bool.
  Variable ep_langs : list ldesc.
  Variable ep_gens : list gdesc.
  Notation step := (step fnm ep_langs ep_gens).
  Notation step_ok := (step_ok fnm ep_langs ep_gens).
  Notation sstep_ok := (sstep_ok fnm ep_langs ep_gens).
  Notation sstep := (sstep fnm ep_langs ep_gens).
  Notation abs := (abs ep_langs ep_gens).
  Notation run := (run fnm ep_langs ep_gens).
  Notation srun := (srun fnm ep_langs ep_gens).

  Lemma lower_idem s : lower (lower s) = lower s.
  Proof.
    induction s as [|c s IH]; simpl; [reflexivity|]. f_equal; [|exact IH].
    unfold lower_char. destruct (N.leb 65 c && N.leb c 90)%bool eqn:E; [|rewrite E; reflexivity].
    apply andb_true_iff in E as [E1 E2]. apply N.leb_le in E1, E2.
    replace (N.leb (c + 32) 90) with false by (symmetry; apply N.leb_gt; lia).
    rewrite andb_false_r. reflexivity.
  Qed.

  (* Under the facts the functions of the source are the canonical ones: each proof computes with
     the generated constants. *)
  Lemma ireg_lang_eq d t : ireg_lang d t = reg_lang d t.
  Proof.
    unfold ireg_lang, reg_lang, reg_lang_check_lowered, reg_lang_store_lowered, lw.
    destruct (lookup (lower (lname d)) t) eqn:E; [reflexivity|]. rewrite (update_absent _ _ _ E). reflexivity.
  Qed.

  Lemma ireg_gen_eq d t : ireg_gen d t = reg_gen d t.
  Proof.
    unfold ireg_gen, reg_gen, reg_gen_lang_lowered, reg_gen_check_lowered, reg_gen_store_lowered, lw.
    destruct (lookup (lower (glang d)) t) as [lg|]; [|reflexivity].
    destruct (lookup (lower (gtarget d)) lg) eqn:E; [reflexivity|]. rewrite (update_absent _ _ _ E). reflexivity.
  Qed.

  Lemma ilang_description_eq n t : ilang_description n t = lookup (lower n) t.
  Proof. reflexivity. Qed.

  Lemma igen_description_eq l tg a t : igen_description l tg a t = gen_description l tg a t.
  Proof. reflexivity. Qed.

  Lemma ilangs_for_file_eq f t : ilangs_for_file fnm f t = Some (langs_for_file fnm f t).
  Proof. reflexivity. Qed.

  Lemma imm_for_lang_eq n kw t c k : imm_for_lang n kw t c k = mm_for_lang n kw t c k.
  Proof. unfold imm_for_lang, mm_for_lang, mm_key_lowered, lw. rewrite ilang_description_eq, lower_idem. reflexivity. Qed.

  Lemma imms_for_eq : forall ds t c k acc, imms_for ds t c k acc = mms_for ds t c k acc.
  Proof.
    induction ds as [|d ds IH]; intros t c k acc; cbn [imms_for mms_for]; [reflexivity|].
    rewrite imm_for_lang_eq. destruct (mm_for_lang (lname d) false t c k) as [[[m|] c'] k']; [apply IH | reflexivity].
  Qed.

  (* discovery through the register functions of the source = discovery through the canonical ones *)
  Lemma load_from_ext {T D} (f g : D -> T -> option T) : (forall d t, f d t = g d t) ->
    forall eps t, load_from f eps t = load_from g eps t.
  Proof.
    intros E. induction eps as [|d r IH]; intro t; cbn [load_from]; [reflexivity|].
    rewrite E. destruct (g d t); [apply IH | reflexivity].
  Qed.
  Lemma iload_langs_eq : iload_langs_full ep_langs = load_langs_full ep_langs.
  Proof. apply load_from_ext. exact ireg_lang_eq. Qed.
  Lemma iload_gens_eq : iload_gens_full ep_gens = load_gens_full ep_gens.
  Proof. apply load_from_ext. exact ireg_gen_eq. Qed.

  Lemma needs_l_eq o c : needs_l o c = sneeds_l o c.
  Proof. destruct o; reflexivity. Qed.   (* uses mm_key_lowered = true by conversion *)

  (* One operation when no discovery failure is due.  With the flag of the table it consults known to
     be off, [abs] of the implementation's next state is the specification's next state by
     computation, once the functions of the source are replaced by the canonical ones. *)
  Lemma step_ok_refines s o :
    (needs_l o (cache s) = true -> fail_l ep_langs s = false) -> (needs_g o = true -> fail_g ep_gens s = false) ->
    sstep_ok (abs s) o = (abs (fst (step_ok s o)), snd (step_ok s o)).
  Proof.
    intros Hl Hg. unfold Registry.abs at 1.
    destruct o; cbn [needs_l needs_g] in Hl, Hg; try specialize (Hl eq_refl); try specialize (Hg eq_refl);
      cbn [Registry.step_ok Registry.sstep_ok slangs slfail sgens sgfail scache sserial].
    - (* RegLang *) rewrite ireg_lang_eq, Hl. destruct (reg_lang d _); reflexivity.
    - (* ClearLangs *) unfold Registry.abs, force_l, fail_l. cbn [fst snd langs]. rewrite iload_langs_eq. reflexivity.
    - (* RegGen *) rewrite ireg_gen_eq, Hg. destruct (reg_gen d _); reflexivity.
    - (* ClearGens *) unfold Registry.abs, force_g, fail_g. cbn [fst snd gens]. rewrite iload_gens_eq. reflexivity.
    - (* the two look-ups are the canonical ones by conversion (ilang_description_eq, igen_description_eq) *)
      rewrite Hl. reflexivity.
    - rewrite Hg. reflexivity.
    - rewrite ilangs_for_file_eq, Hl. reflexivity.
    - rewrite ilangs_for_file_eq, Hl. reflexivity.
    - (* MMForLang: a cached answer does not touch the language table *)
      rewrite imm_for_lang_eq. unfold mm_key_lowered, lw in *.
      destruct (lookup (lower n) (cache s)) as [m|] eqn:Hc; [destruct kw|].
      2: { unfold mm_for_lang. rewrite Hc. reflexivity. }
      all: rewrite (Hl eq_refl); destruct (mm_for_lang _ _ _ _ _) as [[[m'|] c'] n']; reflexivity.
    - (* MMForFile *)
      rewrite ilangs_for_file_eq, Hl. destruct (langs_for_file _ _ _) as [|d [|d' ds]]; try reflexivity.
      rewrite imm_for_lang_eq. destruct (mm_for_lang _ _ _ _ _) as [[[m'|] c'] n']; reflexivity.
    - rewrite ilangs_for_file_eq, imms_for_eq, Hl. destruct (mms_for _ _ _ _ _) as [[[ms|] c'] n']; reflexivity.
    - rewrite Hl. reflexivity.
    - rewrite Hg. reflexivity.
  Qed.

  Lemma step_refines s o : sstep (abs s) o = (abs (fst (step s o)), snd (step s o)).
  Proof.
    unfold Registry.step, Registry.sstep. rewrite <- needs_l_eq.
    change (scache (abs s)) with (cache s). change (slfail (abs s)) with (fail_l ep_langs s). change (sgfail (abs s)) with (fail_g ep_gens s).
    destruct (needs_l o (cache s) && fail_l ep_langs s)%bool eqn:El.
    - apply andb_true_iff in El as [_ El]. destruct s as [l g c n]. destruct l as [t|]; [discriminate|]. reflexivity.
    - destruct (needs_g o && fail_g ep_gens s)%bool eqn:Eg.
      + apply andb_true_iff in Eg as [_ Eg]. destruct s as [l g c n]. destruct g as [t|]; [discriminate|]. reflexivity.
      + apply step_ok_refines.
        * intro H. rewrite H in El. exact El.
        * intro H. rewrite H in Eg. exact Eg.
  Qed.

  Lemma run_refines : forall ops s, run s ops = srun (abs s) ops.
  Proof.
    induction ops as [|o ops IH]; intro s; [reflexivity|].
    cbn [Registry.run Registry.srun]. rewrite step_refines.
    destruct (step s o) as [s' r]. cbn [fst snd]. rewrite IH. reflexivity.
  Qed.

  (* Laws of [sstep_ok], the specification machine when no discovery failure is pending. *)

  Lemma lookup_app_none {A} k (l : list (list N * A)) k' v :
    lookup k l = None -> lookup k (l ++ [(k', v)]) = if str_eqb k k' then Some v else None.
  Proof.
    induction l as [|[k0 v0] l IH]; simpl; [reflexivity|].
    destruct (str_eqb k k0); [discriminate|]. exact IH.
  Qed.

  Lemma lookup_app_some {A} k (l l' : list (list N * A)) v :
    lookup k l = Some v -> lookup k (l ++ l') = Some v.
  Proof.
    induction l as [|[k0 v0] l IH]; simpl; [discriminate|].
    destruct (str_eqb k k0); [tauto|]. exact IH.
  Qed.

  Lemma lookup_app_other {A} k (l : list (list N * A)) k' v :
    str_eqb k k' = false -> lookup k (l ++ [(k', v)]) = lookup k l.
  Proof.
    intro H. induction l as [|[k0 v0] l IH]; simpl; [rewrite H; reflexivity|].
    destruct (str_eqb k k0); [reflexivity | exact IH].
  Qed.

  Lemma lookup_update_same_ok {A} k (v : A) l : lookup k (update k v l) = Some v.
  Proof.
    induction l as [|[k0 v0] l IH]; simpl; [rewrite str_eqb_refl; reflexivity|].
    destruct (str_eqb k k0) eqn:E; simpl; [rewrite str_eqb_refl; reflexivity|]. rewrite E. exact IH.
  Qed.

  (* 1. case-insensitive lookup: the answer depends only on the lowered name *)
  Lemma lang_lookup_ci_ok s n n' : lower n = lower n' ->
    snd (sstep_ok s (LangDescription n)) = snd (sstep_ok s (LangDescription n')).
  Proof. intro H. cbn. rewrite H. reflexivity. Qed.

  Lemma gen_lookup_ci_ok s l l' t t' a : lower l = lower l' -> lower t = lower t' ->
    snd (sstep_ok s (GenDescription l t a)) = snd (sstep_ok s (GenDescription l' t' a)).
  Proof. intros H1 H2. cbn. unfold gen_description. rewrite H1, H2. reflexivity. Qed.

  (* 2. registration: succeeds iff no case variant is registered; then every case variant finds it,
        a second registration of any case variant is refused, other names are unaffected *)
  Lemma reg_lang_ok_iff_ok s d :
    snd (sstep_ok s (RegLang d)) = RUnit <-> lookup (lower (lname d)) (slangs s) = None.
  Proof.
    cbn. unfold reg_lang. destruct (lookup _ _); cbn; split; intro H; try reflexivity; discriminate.
  Qed.

  Lemma reg_lang_then_lookup_ok s d n :
    snd (sstep_ok s (RegLang d)) = RUnit -> lower n = lower (lname d) ->
    snd (sstep_ok (fst (sstep_ok s (RegLang d))) (LangDescription n)) = RLang d.
  Proof.
    intros H Hn. apply reg_lang_ok_iff_ok in H. cbn. unfold reg_lang. rewrite H. cbn.
    rewrite Hn, (lookup_app_none _ _ _ _ H), str_eqb_refl. reflexivity.
  Qed.

  Lemma reg_lang_dup_refused_ok s d d' :
    snd (sstep_ok s (RegLang d)) = RUnit -> lower (lname d') = lower (lname d) ->
    snd (sstep_ok (fst (sstep_ok s (RegLang d))) (RegLang d')) = RErr.
  Proof.
    intros H Hn. apply reg_lang_ok_iff_ok in H. cbn. unfold reg_lang at 2. rewrite H. cbn.
    unfold reg_lang. rewrite Hn, (lookup_app_none _ _ _ _ H), str_eqb_refl. reflexivity.
  Qed.

  Lemma reg_lang_refused_keeps_state_ok s d : snd (sstep_ok s (RegLang d)) = RErr -> fst (sstep_ok s (RegLang d)) = s.
  Proof. cbn. destruct (reg_lang d _); cbn; [discriminate | reflexivity]. Qed.

  Lemma reg_lang_other_unaffected_ok s d n :
    lower n <> lower (lname d) ->
    snd (sstep_ok (fst (sstep_ok s (RegLang d))) (LangDescription n)) = snd (sstep_ok s (LangDescription n)).
  Proof.
    intro Hn. cbn. unfold reg_lang. destruct (lookup (lower (lname d)) (slangs s)); cbn; [reflexivity|].
    rewrite lookup_app_other; [reflexivity|]. apply str_eqb_neq. exact Hn.
  Qed.

  (* 3. entry-point registrations survive clearing *)
  Lemma clear_langs_restores_entry_points_ok s :
    slangs (fst (sstep_ok s ClearLangs)) = load_langs ep_langs /\ scache (fst (sstep_ok s ClearLangs)) = [].
  Proof. split; reflexivity. Qed.

  Lemma clear_gens_restores_entry_points_ok s : sgens (fst (sstep_ok s ClearGens)) = load_gens ep_gens.
  Proof. reflexivity. Qed.

  Lemma entry_point_lang_found_after_clear_ok s d :
    lookup (lower (lname d)) (load_langs ep_langs) = Some d ->
    snd (sstep_ok (fst (sstep_ok s ClearLangs)) (LangDescription (lname d))) = RLang d.
  Proof. intro H. cbn. rewrite H. reflexivity. Qed.

  (* 4. languages_for_file: exactly the registered languages whose pattern matches, in order *)
  Lemma langs_for_file_exact_ok s f d :
    In d (match snd (sstep_ok s (LangsForFile f)) with RLangs l => l | _ => [] end) <->
    In d (map snd (slangs s)) /\ matches fnm f d = true.
  Proof. cbn. unfold langs_for_file. apply filter_In. Qed.

  Lemma lang_for_file_exactly_one_ok s f :
    (forall d, snd (sstep_ok s (LangForFile f)) = RLang d <-> langs_for_file fnm f (slangs s) = [d]) /\
    (length (langs_for_file fnm f (slangs s)) <> 1 -> snd (sstep_ok s (LangForFile f)) = RErr).
  Proof.
    cbn. destruct (langs_for_file fnm f (slangs s)) as [|d0 [|d1 l]]; cbn; split; try reflexivity.
    1, 4: intro d; split; discriminate.
    - intro d. split; intro H; inversion H; reflexivity.
    - intro H. exfalso. apply H. reflexivity.
  Qed.

  (* 5. metamodel cache: without arguments a cached instance is returned and nothing changes *)
  Lemma mm_cached_returned_ok s n m :
    lookup (lower n) (scache s) = Some m -> sstep_ok s (MMForLang n false) = (s, RMM m).
  Proof. intro H. cbn. unfold mm_for_lang. rewrite H. destruct s; reflexivity. Qed.

  (* a successful request leaves its answer in the cache under the lowered name *)
  Lemma mm_for_lang_cached n kw t c k m c' k' :
    mm_for_lang n kw t c k = (Some m, c', k') -> lookup (lower n) c' = Some m.
  Proof.
    unfold mm_for_lang. destruct (lookup (lower n) c) as [m0|] eqn:Hc; [destruct kw|].
    2: { intro H. injection H as <- <- _. exact Hc. }
    all: destruct (lookup (lower n) t) as [d|]; [destruct (lsrc d)|]; intro H; try discriminate H;
      injection H as <- <- _; apply lookup_update_same_ok.
  Qed.

  (* so whatever a successful request returns is what the next request without arguments
     returns, under any case variant of the name *)
  Lemma mm_then_cached_ok s n kw m n' :
    snd (sstep_ok s (MMForLang n kw)) = RMM m -> lower n' = lower n ->
    snd (sstep_ok (fst (sstep_ok s (MMForLang n kw))) (MMForLang n' false)) = RMM m.
  Proof.
    intros H Hn. rewrite (mm_cached_returned_ok _ n' m); [reflexivity|].
    rewrite Hn. cbn [Registry.sstep_ok] in *.
    destruct (mm_for_lang n kw (slangs s) (scache s) (sserial s)) as [[[m'|] c'] k'] eqn:E; [|discriminate H].
    injection H as <-. exact (mm_for_lang_cached _ _ _ _ _ _ _ _ E).
  Qed.

  (* a factory-registered language called with arguments yields a fresh instance *)
  Lemma mm_factory_kwargs_fresh_ok s n d f :
    lookup (lower n) (slangs s) = Some d -> lsrc d = Factory f ->
    snd (sstep_ok s (MMForLang n true)) = RMM (MMFresh f (sserial s) true) /\
    sserial (fst (sstep_ok s (MMForLang n true))) = S (sserial s).
  Proof.
    intros Hl Hs. cbn. unfold mm_for_lang. rewrite Hl, Hs.
    destruct (lookup (lower n) (scache s)); cbn; split; reflexivity.
  Qed.

  (* an instance-registered language always yields that instance *)
  Lemma mm_instance_ok s n d i kw :
    lookup (lower n) (scache s) = None \/ kw = true ->
    lookup (lower n) (slangs s) = Some d -> lsrc d = Instance i ->
    snd (sstep_ok s (MMForLang n kw)) = RMM (MMInst i).
  Proof.
    intros Hc Hl Hs. cbn. unfold mm_for_lang. rewrite Hl, Hs.
    destruct Hc as [Hc| ->]; [rewrite Hc; reflexivity|].
    destruct (lookup (lower n) (scache s)); reflexivity.
  Qed.

  (* The full specification machine [sstep] reports a pending entry-point discovery failure first and
     is [sstep_ok] otherwise; through these the laws above become laws of [sstep] (Props/C26.v). *)
  Lemma sstep_no_failure s o : slfail s = false -> sgfail s = false -> sstep s o = sstep_ok s o.
  Proof. intros H1 H2. unfold Registry.sstep. rewrite H1, H2, !andb_false_r. reflexivity. Qed.

  Lemma sstep_lang s o : needs_g o = false -> slfail s = false -> sstep s o = sstep_ok s o.
  Proof. intros H1 H2. unfold Registry.sstep. rewrite H1, H2, andb_false_r. reflexivity. Qed.

  Lemma sstep_failure_l s o : sneeds_l o (scache s) = true -> slfail s = true -> snd (sstep s o) = RErr.
  Proof. intros H1 H2. unfold Registry.sstep. rewrite H1, H2. reflexivity. Qed.

  Lemma reg_lang_unit_no_failure s d : snd (sstep s (RegLang d)) = RUnit -> slfail s = false.
  Proof. intro H. destruct (slfail s) eqn:E; [|reflexivity]. rewrite (sstep_failure_l s (RegLang d) eq_refl E) in H. discriminate. Qed.

  Lemma reg_lang_keeps_flag s d : slfail (fst (sstep_ok s (RegLang d))) = slfail s.
  Proof. cbn. destruct (reg_lang d (slangs s)); reflexivity. Qed.
End Proofs.
