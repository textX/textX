(* C22 - insertion of Comment text: invariance of the interpreter (memoization off) for grammars
   whose Comment rule is a single regex terminal and that never change the whitespace mode.
   Unary part: in this class the comment loop and the comment_positions table compute a pure
   function of the position (relation CL); binary part: simulation of the two runs. *)
From TxV Require Import Core.Base Model.PegSyntax Model.Peg Model.PegWsDefs Proofs.PegWs Proofs.PegWsSim Proofs.PegRel.
Require Import Lia.

Section Unary.
Variable g : grammar.
Variable inp : list N.
Variable orcl : nat -> nat -> option nat.
Variable wset : list N.
Variables cm oc : nat.
Variable ndc : node.
Hypothesis Hcm : g_comments g = Some cm.
Hypothesis Hnd : get_node g cm = Some ndc.
Hypothesis Hkd : n_kind ndc = KRegex oc.

Definition sk (p : nat) : nat := skip_ws_from wset (skipn p inp) p.

Lemma sk_idem p : sk (sk p) = sk p.
Proof.
  unfold sk. pose proof (skip_stops wset (skipn p inp) p) as H. pose proof (skip_le wset (skipn p inp) p) as Hle.
  set (r := skip_ws_from wset (skipn p inp) p) in *.
  rewrite nth_error_skipn in H. replace (p + (r - p)) with r in H by lia.
  rewrite (skipn_hd r inp). destruct (nth_error inp r) as [c|].
  - simpl. unfold inw in H. rewrite H. reflexivity.
  - reflexivity.
Qed.

(* the comment loop as a relation on (post-skip) positions *)
Inductive CL : nat -> nat -> Prop :=
| CL_stop q : orcl oc q = None -> CL q q
| CL_step q len e : orcl oc q = Some (S len) -> CL (sk (q + S len)) e -> CL q e.

Lemma CL_end q e : CL q e -> orcl oc e = None.
Proof. induction 1; assumption. Qed.

Definition sound (cp : list (nat * nat)) : Prop := forall q e, lookup q cp = Some e -> CL q e.

Lemma sound_upd cp q e : sound cp -> CL q e -> sound (upd q e cp).
Proof.
  intros Hs Hc r v. rewrite lookup_upd. destruct (Nat.eqb_spec r q) as [->|_]; [intro E; injection E as <-; exact Hc | apply Hs].
Qed.

Lemma set_pos_same x : set_pos (pos x) x = x.
Proof. destruct x; reflexivity. Qed.

(* invariant of the states outside the comment loop *)
Definition CI (x : st) : Prop :=
  skipws x = true /\ ws x = wset /\ in_cmt x = false /\ sound (cpos x).

Lemma CI_ext y x : scf y x -> CI x -> CI y.
Proof. unfold scf, CI. intros (A1 & A2 & A3 & A4 & A5 & A6). rewrite A1, A3, A5, A6. tauto. Qed.

Lemma msw_pos x : skipws x = true -> ws x = wset -> maybe_skip_ws inp x = set_pos (sk (pos x)) x.
Proof. intros H1 H2. unfold maybe_skip_ws, do_skip_ws, sk. rewrite H1, H2. reflexivity. Qed.

(* one attempt of the Comment terminal inside the comment loop *)
Lemma parse_cm_spec f y :
  in_cmt y = true -> skipws y = true -> ws y = wset -> sound (cpos y) -> sk (pos y) = pos y ->
  match parse g inp orcl false f cm false y with
  | Ok _ y1 => (orcl oc (pos y) = Some 0 /\ y1 = y) \/
               (exists len, orcl oc (pos y) = Some (S len) /\ y1 = set_pos (pos y + S len) y)
  | Fail y1 => scf y1 y /\ CL (pos y) (pos y1)
  | Abort _ => True
  end.
Proof.
  intros Hin Hsk Hws Hso Hpost. destruct f as [|f']; simpl; [exact I|].
  rewrite Hnd, Hkd. simpl. unfold match_pre. cbv zeta.
  rewrite (msw_pos y Hsk Hws), Hpost, set_pos_same. rewrite Hsk.
  destruct (lookup (pos y) (cpos y)) as [e|] eqn:EL.
  - pose proof (Hso _ _ EL) as HC. pose proof (CL_end _ _ HC) as HE. simpl. rewrite HE. simpl.
    split; [eapply scf_tr; [apply scf_reg_fail | apply scf_set_pos] | rewrite pos_reg_fail; exact HC].
  - rewrite Hin. simpl. destruct (orcl oc (pos y)) as [[|len]|] eqn:EO; simpl.
    + left. split; reflexivity.
    + right. exists len. split; reflexivity.
    + split; [apply scf_reg_fail | rewrite pos_reg_fail; apply CL_stop; exact EO].
Qed.

Lemma cmt_loop_CL f : forall kf y,
  in_cmt y = true -> skipws y = true -> ws y = wset -> sound (cpos y) -> sk (pos y) = pos y ->
  match cmt_loop inp (parse g inp orcl false f) cm kf y with
  | Ok _ y1 => CL (pos y) (pos y1) /\ scf y1 y
  | Fail _ => False
  | Abort _ => True
  end.
Proof.
  intros kf; induction kf as [|kf IH]; intros y Hin Hsk Hws Hso Hpost; cbn [cmt_loop]; [exact I|].
  pose proof (parse_cm_spec f y Hin Hsk Hws Hso Hpost) as HS.
  destruct (parse g inp orcl false f cm false y) as [r y1|y1|w]; [|split; [apply HS | apply HS]|exact I].
  destruct HS as [[EO ->]|[len [EO ->]]].
  - rewrite (msw_pos y Hsk Hws), Hpost, set_pos_same. apply IH; assumption.
  - assert (E1 : maybe_skip_ws inp (set_pos (pos y + S len) y) = set_pos (sk (pos y + S len)) y).
    { rewrite msw_pos by assumption. destruct y; reflexivity. }
    rewrite E1.
    specialize (IH (set_pos (sk (pos y + S len)) y) Hin Hsk Hws Hso (sk_idem _)).
    destruct (cmt_loop inp (parse g inp orcl false f) cm kf (set_pos (sk (pos y + S len)) y)) as [r2 y2|y2|w];
      [|exact IH|exact I].
    destruct IH as [HC Hf]. split; [eapply CL_step; [exact EO | exact HC] | eapply scf_tr; [exact Hf | apply scf_set_pos]].
Qed.

Lemma match_pre_CL f x : CI x ->
  match match_pre g inp (parse g inp orcl false f) f x with
  | Ok r x1 => r = RNone /\ CL (sk (pos x)) (pos x1) /\ CI x1
  | Fail _ => False
  | Abort _ => True
  end.
Proof.
  intros (Hsk & Hws & Hin & Hso). unfold match_pre. cbv zeta.
  rewrite (msw_pos x Hsk Hws). simpl. rewrite Hsk.
  destruct (lookup (sk (pos x)) (cpos x)) as [e|] eqn:EL.
  - split; [reflexivity|]. split; [apply Hso; exact EL|]. repeat split; assumption.
  - rewrite Hin. unfold parse_comments. rewrite Hcm.
    pose proof (cmt_loop_CL f f (set_in_cmt true (set_pos (sk (pos x)) x)) eq_refl Hsk Hws Hso (sk_idem _)) as H.
    destruct (cmt_loop inp (parse g inp orcl false f) cm f (set_in_cmt true (set_pos (sk (pos x)) x))) as [r y1|y1|w];
      [|exact H|exact I].
    destruct H as [HC (A1 & A2 & A3 & A4 & A5 & A6)]. simpl in *.
    split; [reflexivity|]. split; [exact HC|]. unfold CI; simpl.
    rewrite A3, A1, A6. repeat split; try assumption. apply sound_upd; assumption.
Qed.

End Unary.

Section Bin.
Variable g : grammar.
Variables a w1 c w2 b : list N.
Variables orc orc' : nat -> nat -> option nat.
Variable wset : list N.
Variables cm oc : nat.
Variable ndc : node.
Let ins := w1 ++ c ++ w2.
Let k := length a.
Let n := length ins.
Let qc := k + length w1.
Notation s0 := (a ++ b).
Notation s1 := (a ++ ins ++ b).
Notation ph := (phi (length a) (length ins)).
Notation sks := (sk s0 wset).
Notation sks' := (sk s1 wset).
Notation CLs := (CL s0 orc wset oc).
Notation CLs' := (CL s1 orc' wset oc).

Hypothesis Hcm : g_comments g = Some cm.
Hypothesis Hnd : get_node g cm = Some ndc.
Hypothesis Hkd : n_kind ndc = KRegex oc.
Hypothesis Hw1 : subset_ws w1 wset = true.
Hypothesis Hw2 : subset_ws w2 wset = true.
Hypothesis Hc0 : exists c0 ct, c = c0 :: ct /\ inw wset c0 = false.
Hypothesis Hoc : orc' oc qc = Some (length c).
Hypothesis Htok : forall nd, In nd (g_nodes g) -> is_match_kind (n_kind nd) = true ->
                             tok a ins b orc orc' (n_kind nd).
Hypothesis Hfree : forall nd, In nd (g_nodes g) -> node_mode_free nd = true.

Lemma len_s0 : length s0 = k + length b.
Proof. unfold k. apply app_length. Qed.
Lemma len_ins : n = length w1 + (length c + length w2).
Proof. unfold n, ins. rewrite !app_length. reflexivity. Qed.
Lemma len_c_pos : 0 < length c.
Proof. destruct Hc0 as (c0 & ct & -> & _). simpl. lia. Qed.

Lemma tok_cm : tok a ins b orc orc' (KRegex oc).
Proof.
  rewrite <- Hkd. apply Htok; [unfold get_node in Hnd; eapply nth_error_In; exact Hnd | rewrite Hkd; reflexivity].
Qed.

(* the comment oracle is shifted and its matches neither leave the input nor cross k *)
Lemma oc_spec p : p <= length s0 ->
  orc' oc (ph p) = orc oc p /\
  forall len, orc oc p = Some len -> p + len <= length s0 /\ (p < k -> p + len <= k).
Proof. intro Hp. exact (tok_spec a ins b orc orc' (KRegex oc) p tok_cm Hp). Qed.

(* positions before skipping *)
Definition Rpc (p p' : nat) : Prop :=
  p <= length s0 /\ ((p < k /\ p' = p) \/ (p = k /\ (p' = k \/ p' = k + n)) \/ (k < p /\ p' = p + n)).

Lemma Rpc_advance p len :
  p <= length s0 -> p + len <= length s0 -> (p < k -> p + len <= k) -> Rpc (p + len) (ph p + len).
Proof.
  intros H1 H2 H3. unfold Rpc, phi. fold k n. split; [exact H2|].
  destruct (Nat.ltb_spec p k) as [Hlt|Hge]; [specialize (H3 Hlt)|]; lia.
Qed.

Lemma Rpc_phi p : p <= length s0 -> Rpc p (ph p).
Proof. intro H. unfold Rpc, phi. fold k n. split; [exact H|]. destruct (Nat.ltb_spec p k); lia. Qed.

Lemma skipn_s0_k : skipn k s0 = b.
Proof. rewrite skipn_app_ge by (fold k; lia). fold k. rewrite Nat.sub_diag. reflexivity. Qed.

Lemma sks_k_ge : k <= sks k /\ sks k <= length s0.
Proof.
  unfold sk. rewrite skipn_s0_k. pose proof (skip_le wset b k). pose proof (skip_bound wset b k).
  pose proof len_s0. lia.
Qed.

Lemma skip_c_head rest p : skip_ws_from wset (c ++ rest) p = p.
Proof. destruct Hc0 as (c0 & ct & -> & Hc). simpl. unfold inw in Hc. rewrite Hc. reflexivity. Qed.

(* from the end of the inserted comment, skipping reaches the image of where skipping from k ends *)
Lemma skA : sks' (qc + length c) = ph (sks k).
Proof.
  unfold sk. rewrite skipn_s0_k.
  assert (E : skipn (qc + length c) s1 = w2 ++ b).
  { unfold qc, ins. rewrite skipn_app_ge by (fold k; lia). fold k.
    replace (k + length w1 + length c - k) with (length w1 + length c) by lia.
    rewrite <- app_assoc. rewrite skipn_app_ge by lia.
    replace (length w1 + length c - length w1) with (length c) by lia.
    rewrite <- app_assoc. rewrite skipn_app_ge by lia. rewrite Nat.sub_diag. reflexivity. }
  rewrite E, skip_app. unfold subset_ws in Hw2. rewrite Hw2.
  replace (qc + length c + length w2) with (k + n) by (unfold qc; rewrite len_ins; lia).
  rewrite skip_offset. unfold phi. fold k n. pose proof (skip_le wset b k).
  destruct (Nat.ltb_spec (skip_ws_from wset b k) k); lia.
Qed.

(* skipping from related positions: aligned, or the mutated run stands at the inserted comment *)
Lemma skip_c p p' : Rpc p p' ->
  (sks' p' = ph (sks p) /\ sks p <= length s0) \/ (sks' p' = qc /\ sks p = sks k).
Proof.
  intros [Hlen H]. pose proof len_s0 as Ls.
  assert (Hb : sks p <= length s0).
  { unfold sk. pose proof (skip_bound wset (skipn p s0) p) as Hb. rewrite skipn_length in Hb. lia. }
  assert (Hq : skip_ws_from wset (ins ++ b) k = qc).
  { unfold ins. rewrite <- !app_assoc, skip_app. unfold subset_ws in Hw1. rewrite Hw1. apply skip_c_head. }
  assert (HA : forall p0, p0 <= k -> forallb (inw wset) (skipn p0 a) = true ->
               sk s1 wset p0 = qc /\ sk s0 wset p0 = sks k).
  { intros p0 Hp0 Hall. destruct (skip_ins_run a ins b wset p0 Hp0 Hall) as [E1 E2].
    unfold sk. rewrite E1, E2, skipn_s0_k. split; [exact Hq | reflexivity]. }
  assert (HR : forall p0, k <= p0 -> sk s1 wset (p0 + n) = ph (sks p0)).
  { intros p0 Hp0. unfold sk, n. rewrite (skip_ins_right a ins b wset p0 Hp0).
    pose proof (skip_le wset (skipn p0 s0) p0). unfold phi. fold k.
    destruct (Nat.ltb_spec (skip_ws_from wset (skipn p0 s0) p0) k); lia. }
  destruct H as [[Hlt ->] | [[-> [-> | ->]] | [Hgt ->]]].
  - destruct (forallb (inw wset) (skipn p a)) eqn:Ea.
    + right. apply HA; [lia | exact Ea].
    + left. split; [|exact Hb]. destruct (skip_ins_stop a ins b wset p (Nat.lt_le_incl _ _ Hlt) Ea) as [E L].
      unfold sk. rewrite E. unfold phi. apply Nat.ltb_lt in L. rewrite L. reflexivity.
  - right. apply HA; [lia|]. unfold k. rewrite skipn_all. reflexivity.
  - left. split; [apply HR; lia | exact Hb].
  - left. split; [apply HR; lia | exact Hb].
Qed.

(* the comment loops of the two runs end at corresponding positions *)
Lemma CL_sim q e : CLs q e -> q <= length s0 ->
  forall e', CLs' (ph q) e' -> e' = ph e /\ e <= length s0.
Proof.
  induction 1 as [q EO | q len e EO HC IH]; intros Hq e' HC'.
  - destruct (oc_spec q Hq) as [Eq _]. rewrite EO in Eq.
    inversion HC' as [q0 EO' | q0 len' e0 EO' HC0]; subst; [split; [reflexivity | exact Hq]|].
    rewrite Eq in EO'. discriminate.
  - destruct (oc_spec q Hq) as [Eq Hlen]. rewrite EO in Eq. destruct (Hlen _ EO) as [L1 L2].
    inversion HC' as [q0 EO' | q0 len' e0 EO' HC0]; subst; [rewrite Eq in EO'; discriminate|].
    rewrite Eq in EO'. injection EO' as <-.
    destruct (skip_c (q + S len) (ph q + S len) (Rpc_advance q (S len) Hq L1 L2)) as [[E Hb] | [E E2]].
    + rewrite E in HC0. apply IH; assumption.
    + rewrite E in HC0.
      inversion HC0 as [q1 EO1 | q1 len1 e1 EO1 HC1]; subst; [fold qc in EO1; rewrite Hoc in EO1; discriminate|].
      fold qc in EO1. rewrite Hoc in EO1. injection EO1 as E3. rewrite <- E3 in HC1.
      rewrite skA in HC1. rewrite <- E2 in HC1. apply IH; [|exact HC1].
      rewrite E2. apply sks_k_ge.
Qed.

Notation CIs := (CI s0 orc wset oc).
Notation CIs' := (CI s1 orc' wset oc).
Definition Rstc (x x' : st) : Prop := Rpc (pos x) (pos x') /\ CIs x /\ CIs' x'.

Lemma Rstc_set_pos p p' x x' : Rpc p p' -> Rstc x x' -> Rstc (set_pos p x) (set_pos p' x').
Proof.
  intros Hp (_ & H1 & H2). split; [exact Hp|].
  split; [eapply CI_ext; [apply scf_set_pos | exact H1] | eapply CI_ext; [apply scf_set_pos | exact H2]].
Qed.

Lemma Rstc_reg_fail p p' x x' : Rstc x x' -> Rstc (reg_fail p x) (reg_fail p' x').
Proof.
  intros (Hp & H1 & H2). split; [rewrite !pos_reg_fail; exact Hp|].
  split; [eapply CI_ext; [apply scf_reg_fail | exact H1] | eapply CI_ext; [apply scf_reg_fail | exact H2]].
Qed.

(* simulation up to aborts: nothing is claimed when either run runs out of fuel (the mutated run
   needs one more iteration of the comment loop) *)
Notation simc := (rel_out Rstc Rstc any_abort any_abort (RRw a ins)).
Notation parser := (nat -> bool -> st -> out) (only parsing).
Notation Wc := (rel_parser Rstc Rstc (RRw a ins) any_abort any_abort).

Lemma simc_abl w o : simc (Abort w) o.
Proof. exact (proj1 (proj2 (abort_ok_out Rstc Rstc any_abort any_abort _)) w o I). Qed.

(* after the pre-terminal phase the two runs stand at corresponding positions *)
Definition Rpre (x x' : st) : Prop := Rstc x x' /\ pos x' = ph (pos x) /\ pos x <= length s0.
Notation simpre := (rel_out Rpre Rpre any_abort any_abort (fun _ _ : res => True)).

Lemma match_pre_simc f x x' : Rstc x x' ->
  simpre (match_pre g s0 (parse g s0 orc false f) f x) (match_pre g s1 (parse g s1 orc' false f) f x').
Proof.
  intros (Hp & H1 & H2).
  pose proof (match_pre_CL g s0 orc wset cm oc ndc Hcm Hnd Hkd f x H1) as A.
  pose proof (match_pre_CL g s1 orc' wset cm oc ndc Hcm Hnd Hkd f x' H2) as B.
  destruct (match_pre g s0 (parse g s0 orc false f) f x) as [r y|y|w]; [|contradiction|apply simc_abl].
  destruct (match_pre g s1 (parse g s1 orc' false f) f x') as [r' y'|y'|w']; [|contradiction|exact I].
  destruct A as (_ & CA & IA). destruct B as (_ & CB & IB).
  assert (E : pos y' = ph (pos y) /\ pos y <= length s0).
  { destruct (skip_c _ _ Hp) as [[E Hb] | [E E2]].
    - rewrite E in CB. exact (CL_sim _ _ CA Hb _ CB).
    - rewrite E in CB. rewrite E2 in CA.
      inversion CB as [q1 EO1 | q1 len1 e1 EO1 HC1]; subst; [fold qc in EO1; rewrite Hoc in EO1; discriminate|].
      fold qc in EO1. rewrite Hoc in EO1. injection EO1 as E3. rewrite <- E3 in HC1.
      rewrite skA in HC1. exact (CL_sim _ _ CA (proj2 sks_k_ge) _ HC1). }
  destruct E as [E Hb]. split; [exact I|]. split; [|split; assumption].
  split; [rewrite E; apply Rpc_phi, Hb | split; assumption].
Qed.

Lemma term_parse_simc nid kd psq x x' :
  tok a ins b orc orc' kd -> Rstc x x' -> pos x' = ph (pos x) -> pos x <= length s0 ->
  simc (term_parse s0 orc nid kd psq x) (term_parse s1 orc' nid kd psq x').
Proof.
  intros Ht HR HQb HQa. apply rel_out_lax, term_parse_shift; try assumption.
  - intros len L1 L2. apply Rstc_set_pos; [apply Rpc_advance; assumption | exact HR].
  - apply Rstc_reg_fail, HR.
Qed.

Lemma free_spec nd : node_mode_free nd = true -> n_ws nd = None /\ n_skipws nd = None /\ n_eolterm nd = false.
Proof.
  unfold node_mode_free. destruct (n_ws nd); [discriminate|]. destruct (n_skipws nd); [discriminate|].
  intro H. apply negb_true_iff in H. auto.
Qed.

Lemma body_simc rec rec' kf nd : Wc rec rec' -> node_mode_free nd = true -> forall x x',
  Rstc x x' -> simc (body rec kf nd x) (body rec' kf nd x').
Proof.
  intros HW Hn x x' HR.
  apply (body_rel Rstc Rstc (RRw a ins) Rpc (fun nd0 => node_mode_free nd0 = true) any_abort any_abort);
    try assumption.
  - intros y y' H. exact (proj1 H).
  - exact (fun _ _ H => H).
  - exact Rstc_set_pos.
  - intros p p' y y' _. apply Rstc_reg_fail.
  - intros nd0 y y' F H. destruct (free_spec nd0 F) as (F1 & F2 & _). unfold enter_ws. rewrite F1, F2. exact H.
  - intros nd0 o o' y y' F _ H. destruct (free_spec nd0 F) as (F1 & F2 & _). unfold leave_ws. rewrite F1, F2. exact H.
  - intros nd0 y y' F H. destruct (free_spec nd0 F) as (_ & _ & F3). unfold enter_eol. rewrite F3. exact H.
  - intros nd0 o o' y y' F _ H. destruct (free_spec nd0 F) as (_ & _ & F3). unfold leave_eol. rewrite F3. exact H.
  - intros nd0 o o' y y' F _ H. destruct (free_spec nd0 F) as (_ & _ & F3). unfold leave_eol. rewrite F3. exact H.
  - reflexivity.
  - intros l l' H. unfold RRw. cbn [shift_res]. rewrite (Forall2_eq_map _ _ _ H). reflexivity.
  - intros r r' ->. apply truthy_sh.
  - intros r r' ->. apply is_none_sh.
Qed.

Lemma parse_simc : forall fuel, Wc (parse g s0 orc false fuel) (parse g s1 orc' false fuel).
Proof.
  intro fuel; induction fuel as [|f IH]; intros nid psq x x' HR; cbn [parse]; [apply simc_abl|].
  destruct (get_node g nid) as [nd|] eqn:EN; [|apply simc_abl].
  assert (Hin : In nd (g_nodes g)) by (unfold get_node in EN; eapply nth_error_In; exact EN).
  destruct (is_match_kind (n_kind nd)) eqn:EM.
  - apply (rel_case Rpre Rpre any_abort any_abort _ _ (fun _ _ => True)); [apply (abort_ok_out Rstc Rstc) | apply match_pre_simc, HR | |].
    + intros _ _ x1 x1' _ (HR1 & HQb & HQa).
      apply (rel_case Rstc Rstc any_abort any_abort _ _ (RRw a ins));
        [apply abort_ok_out | apply term_parse_simc; [exact (Htok nd Hin EM) | assumption..] | |].
      * intros r r' x2 x2' -> HR2. split; [destruct (n_suppress nd); reflexivity | exact HR2].
      * intros x2 x2' HR2. exact HR2.
    + intros x1 x1' H1. exact (proj1 H1).
  - apply (rel_case Rstc Rstc any_abort any_abort _ _ (RRw a ins)); [apply abort_ok_out | apply body_simc; [exact IH | exact (Hfree nd Hin) | exact HR] | |].
    + intros r r' x1 x1' -> HR1. split; [apply post_sh | exact HR1].
    + intros x1 x1' HR1. apply Rstc_set_pos; [apply HR | exact HR1].
Qed.

End Bin.

Lemma cmt_oid_spec g oc : cmt_oid g = Some oc ->
  exists cm ndc, g_comments g = Some cm /\ get_node g cm = Some ndc /\ n_kind ndc = KRegex oc.
Proof.
  unfold cmt_oid. destruct (g_comments g) as [cm|]; [|discriminate].
  destruct (get_node g cm) as [ndc|] eqn:E; [|discriminate].
  destruct (n_kind ndc) eqn:K; try discriminate. intro H; injection H as ->. eauto.
Qed.

Theorem comment_insert_invariant g cfg orc orc' fuel a w1 c w2 b :
  cmt_wf g cfg = true ->
  cmt_ins_okb g cfg orc' a w1 c w2 = true ->
  shift_okb g (a ++ b) orc (a ++ (w1 ++ c ++ w2) ++ b) orc' (length a) (length (w1 ++ c ++ w2)) = true ->
  not_aborted (run g cfg orc false fuel (a ++ b)) ->
  not_aborted (run g cfg orc' false fuel (a ++ (w1 ++ c ++ w2) ++ b)) ->
  outcome_shifted (length a) (length (w1 ++ c ++ w2))
                  (run g cfg orc false fuel (a ++ b)) (run g cfg orc' false fuel (a ++ (w1 ++ c ++ w2) ++ b)).
Proof.
  intros Hwf Hins Hok Hna Hna'.
  unfold cmt_wf in Hwf. apply andb_true_iff in Hwf as [Hwf Hoid]. apply andb_true_iff in Hwf as [Hsk Hfree].
  destruct (cmt_oid g) as [oc|] eqn:EO; [|discriminate].
  destruct (cmt_oid_spec g oc EO) as (cm & ndc & Hcm & Hnd & Hkd).
  unfold cmt_ins_okb in Hins. rewrite EO in Hins.
  apply andb_true_iff in Hins as [Hins Hoc]. apply andb_true_iff in Hins as [Hins Hc0].
  apply andb_true_iff in Hins as [Hw1 Hw2]. apply opt_nat_eqb_eq in Hoc.
  assert (Hc0' : exists c0 ct, c = c0 :: ct /\ inw (c_ws cfg) c0 = false).
  { destruct c as [|c0 ct]; [discriminate|]. exists c0, ct. split; [reflexivity|]. apply negb_true_iff, Hc0. }
  rewrite forallb_forall in Hfree.
  assert (Htok : forall nd, In nd (g_nodes g) -> is_match_kind (n_kind nd) = true ->
                 tok a (w1 ++ c ++ w2) b orc orc' (n_kind nd)).
  { intros nd Hin EM. unfold shift_okb in Hok. rewrite forallb_forall in Hok. specialize (Hok nd Hin).
    rewrite EM in Hok. exact Hok. }
  pose proof (parse_simc g a w1 c w2 b orc orc' (c_ws cfg) cm oc ndc Hcm Hnd Hkd Hw1 Hw2 Hc0' Hoc Htok Hfree
                         fuel (g_top g) false (init_st cfg) (init_st cfg)) as Hsim.
  assert (HR : Rstc a w1 c w2 b orc orc' (c_ws cfg) oc (init_st cfg) (init_st cfg)).
  { unfold Rstc, CI, init_st; simpl. split.
    - unfold Rpc. split; [lia|]. destruct (length a); [right; left; lia | left; lia].
    - repeat split; try assumption; intros q e H; discriminate H. }
  specialize (Hsim HR). unfold run in *.
  destruct (parse g (a ++ b) orc false fuel (g_top g) false (init_st cfg)) as [r x1|x1|w];
    destruct (parse g (a ++ (w1 ++ c ++ w2) ++ b) orc' false fuel (g_top g) false (init_st cfg)) as [r' x1'|x1'|w'];
    simpl in Hna, Hna'; try contradiction;
    simpl in Hsim; try contradiction; simpl.
  - apply Hsim.
  - exact I.
Qed.
