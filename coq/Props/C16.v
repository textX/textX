(* C16 — loading is independent of the metamodel's history.

   Model/History.v is the state machine of everything that survives a metamodel creation or a
   model load inside one process; parsing/building/resolving/processors are oracles that may
   depend ARBITRARILY on the part of the persistent state the code reads (the `view`).
   `src_facts` (Gen/SrcHistory.v) is regenerated from textx/lang.py, model.py, metamodel.py and
   arpeggio on every run, so the theorems below are re-proved against the current source. *)
From TxV Require Import Core.Base Model.History Gen.SrcHistory Proofs.HistoryProofs Proofs.HistorySrcProofs.

(* Every operation (metamodel creation -- successful or failing -- and model load -- successful,
   or failing at the parse, before or after the end of construction, or in a model processor)
   maps a canonical persistent state to a canonical one: all memo caches empty, every blueprint
   parser pristine, no user class instrumented, class data owned by a metamodel of the class's grammar. *)
Theorem C16_canonical_invariant : forall create_out load_out cls_gram st o,
  wf_op cls_gram o -> inv src_facts create_out cls_gram st ->
  inv src_facts create_out cls_gram (fst (step src_facts create_out load_out st o)).
Proof. intros co lo cg. exact (step_inv src_facts co lo cg src_good). Qed.
Print Assumptions C16_canonical_invariant.

(* hence every reachable state is canonical, for histories of any length *)
Theorem C16_reachable_canonical : forall create_out load_out cls_gram ops,
  Forall (wf_op cls_gram) ops -> inv src_facts create_out cls_gram (final src_facts create_out load_out ops).
Proof. intros co lo cg. exact (final_inv src_facts co lo cg src_good). Qed.
Print Assumptions C16_reachable_canonical.

(* in a canonical state a load sees exactly the fresh view: its result is a function of the
   metamodel configuration and the input (and, with a global repository, of the cached files) *)
Theorem C16_load_function_of_config_and_input : forall create_out load_out cls_gram st s m i,
  inv src_facts create_out cls_gram st -> slots st s = Some m ->
  result src_facts create_out load_out st (Load s i)
  = OLoad (load_out (m_cfg m) i (fresh_view (m_cfg m) (if c_repo (m_cfg m) then m_repo m else []))).
Proof. exact (load_result src_facts). Qed.
Print Assumptions C16_load_function_of_config_and_input.

(* THE PROPERTY: after any history -- any interleaving of creations and loads, successful or failing,
   over any number of metamodels -- a load returns (model or error) what the same configuration
   returns for that input on a fresh process state. `cache_ok`: the grammar-parser cache is keyed by
   the memoization flag too, or the textX-grammar parser is memo-transparent (see C16_memo_flag_visible). *)
Theorem C16_history_independent : forall create_out load_out cls_gram ops s m i,
  cache_ok src_facts create_out -> Forall (wf_op cls_gram) ops ->
  slots (final src_facts create_out load_out ops) s = Some m -> c_repo (m_cfg m) = false ->
  result src_facts create_out load_out (final src_facts create_out load_out ops) (Load s i)
  = result src_facts create_out load_out (final src_facts create_out load_out [New s (m_cfg m)]) (Load s i).
Proof. intros co lo cg. exact (history_independent src_facts co lo cg src_good). Qed.
Print Assumptions C16_history_independent.

(* with a global repository (cached models are returned by design): same outcome kind and same
   structural dump, provided returning a cached model is not observable in the dump (`repo_blind`:
   files unchanged during the history, idempotent model processors) *)
Theorem C16_history_independent_repo : forall create_out load_out cls_gram ops s m i,
  cache_ok src_facts create_out -> repo_blind load_out -> Forall (wf_op cls_gram) ops ->
  slots (final src_facts create_out load_out ops) s = Some m ->
  out_obs (result src_facts create_out load_out (final src_facts create_out load_out ops) (Load s i))
  = out_obs (result src_facts create_out load_out (final src_facts create_out load_out [New s (m_cfg m)]) (Load s i)).
Proof. intros co lo cg. exact (history_independent_repo src_facts co lo cg src_good). Qed.
Print Assumptions C16_history_independent_repo.

(* Loads started from inside a load (operation `Nested`; histories in all theorems above may contain them).
   From an object or model processor the outer load has already restored its classes: the inner load is an
   ordinary load. From a scope provider the outer load still holds the instrumentation of its user classes; the
   inner load then sees the fresh view except for the counters of the classes it shares with the outer load
   (nested_provider_view), so under `instr_blind` it answers exactly what the same load answers at top level. *)
Theorem C16_nested_provider_inner : forall create_out load_out cls_gram st s m i s' m' i',
  inv src_facts create_out cls_gram st -> instr_blind load_out ->
  slots st s = Some m -> slots st s' = Some m' ->
  snd (step src_facts create_out load_out st (Nested s i PhProvider s' i'))
  = ONest (load_out (m_cfg m) i (fresh_view (m_cfg m) (if c_repo (m_cfg m) then m_repo m else [])))
          (result src_facts create_out load_out st (Load s' i')).
Proof. intros co lo cg. exact (nested_provider_inner src_facts co lo cg src_good). Qed.
Print Assumptions C16_nested_provider_inner.

(* `instr_blind` is necessary: with an outcome that reads the counters (the code before the fix c78a09e bypassed a user
   class's own __setattr__ for finished objects of an instrumented class) the load started by a provider differs.
   Witness replayed on the implementation: corpus/C16/nested_load_from_provider.json. *)
Theorem C16_nested_provider_refuted :
  let st := final good_facts wit_create wit_load [New 0 wit_cfg] in
  snd (step good_facts wit_create wit_load st (Nested 0 1 PhProvider 0 1))
  <> ONest (wit_load wit_cfg 1 (fresh_view wit_cfg [])) (result good_facts wit_create wit_load st (Load 0 1)).
Proof. vm_compute. discriminate. Qed.
Print Assumptions C16_nested_provider_refuted.

Example C16_nested_nonvacuous :
  instr_blind wit_load_blind /\
  slots (final src_facts wit_create wit_load_blind [New 0 wit_cfg; New 1 wit_repo_cfg; Nested 0 4 PhProvider 1 5; Nested 1 6 PhAfter 0 1]) 0 <> None /\
  slots (final src_facts wit_create wit_load_blind [New 0 wit_cfg; New 1 wit_repo_cfg; Nested 0 4 PhProvider 1 5; Nested 1 6 PhAfter 0 1]) 1 <> None.
Proof. split; [intros c i v l; reflexivity | split; vm_compute; discriminate]. Qed.
Print Assumptions C16_nested_nonvacuous.

(* creating a metamodel (successfully or not) is history independent as well *)
Theorem C16_creation_independent : forall create_out load_out cls_gram ops s c,
  cache_ok src_facts create_out -> Forall (wf_op cls_gram) ops ->
  result src_facts create_out load_out (final src_facts create_out load_out ops) (New s c)
  = result src_facts create_out load_out init (New s c).
Proof. intros co lo cg. exact (create_independent src_facts co lo cg src_good). Qed.
Print Assumptions C16_creation_independent.

(* Necessity of the hypothesis on the grammar-parser cache: with the cache keyed by `debug` only, if
   memoization of the grammar parser were observable for some configuration, creating a metamodel
   with the other flag first would change that configuration's creation outcome. *)
Theorem C16_memo_flag_visible : forall F create_out load_out c,
  good F = true -> f_gp_key_memo F = false ->
  create_out c {| gv_memo := negb (c_memo c); gv_cache := [] |} <> create_out c {| gv_memo := c_memo c; gv_cache := [] |} ->
  result F create_out load_out (final F create_out load_out [New 0 (flip_memo c)]) (New 1 c)
  <> result F create_out load_out init (New 1 c).
Proof.
  intros F create_out load_out c Hg Hk Hne.
  destruct (good_parts F Hg) as [Hc _].
  unfold result, final, History.run. cbn [History.step].
  unfold step_new at 3. cbn [snd init gparsers].
  unfold step_new at 2. cbn [fst init gparsers gp_keys].
  unfold step_new. cbn [snd gparsers]. unfold gp_km. rewrite Hk. cbn [flip_memo c_debug c_memo c_gram].
  unfold upd2. rewrite Bool.eqb_reflx. cbn [andb Bool.eqb gp_memo gp_cache].
  unfold after_parse. rewrite Hc.
  intro E. inversion E as [E1]. apply Hne. revert E1.
  destruct (c_memo c); cbn; intro E1; exact E1.
Qed.
Print Assumptions C16_memo_flag_visible.

(* The defect found (fixed in textX): the code before the fix (no restore when the model is a primitive
   value) is history dependent -- after loading a primitive model the user classes stay instrumented
   and the next load observes it. Witness replayed on the implementation: corpus/C16/prim_leak.json. *)
Theorem C16_primitive_model_leak_refuted :
  result prefix_facts wit_create wit_load (final prefix_facts wit_create wit_load [New 0 wit_cfg; Load 0 0]) (Load 0 1)
  <> result prefix_facts wit_create wit_load (final prefix_facts wit_create wit_load [New 0 wit_cfg]) (Load 0 1).
Proof. vm_compute. discriminate. Qed.
Print Assumptions C16_primitive_model_leak_refuted.

(* The restore must cover every root value that cannot carry `_tx_parser`, not only int/float/str/bool: with a
   restore limited to the primitive types a root value such as a Decimal or a tuple (a match rule converted by an
   object processor) leaves the classes instrumented. Witness: corpus/C16/immutable_root_values.json. *)
Theorem C16_immutable_model_leak_refuted :
  result primonly_facts wit_create wit_load_imm (final primonly_facts wit_create wit_load_imm [New 0 wit_cfg; Load 0 0; Load 0 2]) (Load 0 1)
  <> result primonly_facts wit_create wit_load_imm (final primonly_facts wit_create wit_load_imm [New 0 wit_cfg]) (Load 0 1).
Proof. vm_compute. discriminate. Qed.
Print Assumptions C16_immutable_model_leak_refuted.

(* The second defect found (fixed in textX): before the fix a nested load that fails to parse (an imported
   file) ran the except-path restore although it had not instrumented anything, un-instrumenting the classes
   of the enclosing load; with a global repository and a user class on the root rule the half-built model
   stayed cached and the next load of the file returned it. Witness: corpus/C16/stale_repo_after_import_syntax_error.json. *)
Theorem C16_unguarded_restore_refuted :
  result unguarded_facts wit_create wit_load_repo (final unguarded_facts wit_create wit_load_repo [New 0 wit_cfg_repo; Load 0 3]) (Load 0 3)
  <> result unguarded_facts wit_create wit_load_repo (final unguarded_facts wit_create wit_load_repo [New 0 wit_cfg_repo]) (Load 0 3).
Proof. vm_compute. discriminate. Qed.
Print Assumptions C16_unguarded_restore_refuted.

(* and clearing the memo caches in `finally` is necessary *)
Theorem C16_uncleared_caches_refuted :
  result noclear_facts wit_create wit_load (final noclear_facts wit_create wit_load [New 0 wit_cfg_memo; Load 0 1]) (Load 0 2)
  <> result noclear_facts wit_create wit_load (final noclear_facts wit_create wit_load [New 0 wit_cfg_memo]) (Load 0 2).
Proof. vm_compute. discriminate. Qed.
Print Assumptions C16_uncleared_caches_refuted.

(* non-vacuity: the hypotheses are satisfiable together on a history that exercises two metamodels
   (one memoizing with a global repository and two user classes), a primitive model, a replaced slot *)
Example C16_hypotheses_satisfiable :
  cache_ok src_facts wit_create /\ repo_blind wit_load /\ Forall (wf_op wit_gram) wit_ops /\
  inv src_facts wit_create wit_gram (final src_facts wit_create wit_load wit_ops) /\
  slots (final src_facts wit_create wit_load wit_ops) 1 <> None /\
  slots (final src_facts wit_create wit_load wit_ops) 0 <> None.
Proof.
  split; [right; intros c b; reflexivity|]. split; [intros c i v r; destruct i; split; reflexivity|].
  split; [exact wit_ops_wf|]. split; [exact (final_inv src_facts wit_create wit_load wit_gram src_good wit_ops wit_ops_wf)|].
  split; vm_compute; discriminate.
Qed.
Print Assumptions C16_hypotheses_satisfiable.

Example C16_concrete_run :
  map (fun o => match o with OLoad r => Some (l_dump r) | _ => None end) (snd (run src_facts wit_create wit_load init wit_ops))
  = [None; Some 0; None; Some 0; Some 0; None; Some 0; Some 0].
Proof. vm_compute. reflexivity. Qed.
Print Assumptions C16_concrete_run.

(* the memo-visibility hypothesis of C16_memo_flag_visible is satisfiable *)
Example C16_memo_flag_visible_nonvacuous :
  let co := fun (_ : cfg) (g : gview) => {| k_kind := COk; k_dump := if gv_memo g then 1 else 0 |} in
  good good_facts = true /\ f_gp_key_memo good_facts = false /\
  co wit_cfg {| gv_memo := negb (c_memo wit_cfg); gv_cache := [] |} <> co wit_cfg {| gv_memo := c_memo wit_cfg; gv_cache := [] |}.
Proof. cbn. repeat split; discriminate. Qed.
Print Assumptions C16_memo_flag_visible_nonvacuous.
