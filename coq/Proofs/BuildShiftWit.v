(* C22 - witness for the model-level theorems (dumped by tools/pegdump.py + tools/mmdump.py):
   Model: 'm' items+=Item; Item: name=ID v=INT;     "m a 1 b 2" -> "m a 1 \n b 2" *)
From TxV Require Import Core.Base Model.PegSyntax Model.Peg Model.Build.
Definition g_obj : grammar := (mkGrammar [mkNode KSeq [1;9] None false [77;111;100;101;108]%N true false None None;
  mkNode KSeq [2;3] None false [77;111;100;101;108]%N true false None None;
  mkNode (KStr [109]%N None) [] None false []%N false false None None;
  mkNode KPlus [4] None false [95;95;97;115;103;110;95;111;110;101;111;114;109;111;114;101]%N true false None None;
  mkNode KSeq [5;7] None false [73;116;101;109]%N true false None None;
  mkNode KSeq [6] None false [95;95;97;115;103;110;95;112;108;97;105;110]%N true false None None;
  mkNode (KRegex 0) [] None false [73;68]%N true false None None;
  mkNode KSeq [8] None false [95;95;97;115;103;110;95;112;108;97;105;110]%N true false None None;
  mkNode (KRegex 1) [] None false [73;78;84]%N true false None None;
  mkNode KEOF [] None false [69;79;70]%N false false None None] 0 None).
Definition mm_obj : list ninfo := [IOther;
  IRule RCommon [77;111;100;101;108]%N [mkAttr [105;116;101;109;115]%N MPlus true true [73;116;101;109]%N false];
  ITerm []%N 0;
  IAsgn [105;116;101;109;115]%N OpList;
  IRule RCommon [73;116;101;109]%N [mkAttr [110;97;109;101]%N M1 true false [73;68]%N false;mkAttr [118]%N M1 true false [73;78;84]%N false];
  IAsgn [110;97;109;101]%N OpPlain;
  ITerm [73;68]%N 0;
  IAsgn [118]%N OpPlain;
  ITerm [73;78;84]%N 0;
  ITerm [69;79;70]%N 0].
Definition in_obj : list N := [109;32;97;32;49;32;98;32;50]%N.
Definition tbl_obj := [((0,0),1);((0,2),1);((0,6),1);((1,4),1);((1,8),1)].
Definition in_obj' : list N := [109;32;97;32;49;32;10;32;98;32;50]%N.
Definition tbl_obj' := [((0,0),1);((0,2),1);((0,8),1);((1,4),1);((1,10),1)].
Definition c_obj : config := mkConfig true [9;10;13;32]%N.
Definition no_grp : nat -> nat -> option (nat * nat) := fun _ _ => None.
Definition is_obj (m : bres value) : bool := match m with BOk (VObj _ _ _ _) => true | _ => false end.

