(* Relational lifting for the interpreter of Model/Peg.v.

   The loops of the interpreter (seq_loop, choice_loop, rep_loop, ug_try, ug_loop) and [body] are
   written over an arbitrary child parser.  Given a relation RS on states (RF on the states a
   NoMatch leaves behind, which a loop only ever resets to a saved position, propagates or puts
   through leave_eol), RR on results and RP on the positions a loop saves and restores, closed
   under the state operations the loops use, two child parsers that map related states to related
   outcomes are lifted to related loops and a related [body].  What a particular simulation (or,
   on the diagonal RS s s' := s' = s /\ P s, a particular invariant) has to supply is the closure
   facts, the terminal step and the fuel induction of [parse]. *)
From TxV Require Import Core.Base Model.PegSyntax Model.Peg.

Definition no_abort (_ : nat) : Prop := False.
Definition any_abort (_ : nat) : Prop := True.

Section Rel.
Variable RS : st -> st -> Prop.
Variable RF : st -> st -> Prop.         (* states after a NoMatch *)
Variable RR : res -> res -> Prop.
Variable RP : nat -> nat -> Prop.       (* positions saved by a loop and restored on NoMatch *)
Variable NP : node -> Prop.             (* nodes whose mode changes (ws, skipws, eolterm) respect RS *)
Variables laxl laxr : nat -> Prop.      (* Abort codes that, on the left / right, are related to anything *)

Notation parser := (nat -> bool -> st -> out) (only parsing).

(* results of seq_loop and rep_loop: always lists *)
Inductive RL : res -> res -> Prop :=
| RL_intro l l' : Forall2 RR l l' -> RL (RList l) (RList l').

Definition rel_out (Q : res -> res -> Prop) (o o' : out) : Prop :=
  match o, o' with
  | Ok r s, Ok r' s' => Q r r' /\ RS s s'
  | Fail s, Fail s' => RF s s'
  | Abort w, Abort w' => laxl w \/ laxr w' \/ w' = w
  | Abort w, _ => laxl w
  | _, Abort w' => laxr w'
  | _, _ => False
  end.

Definition rel_ugr (u u' : ugr) : Prop :=
  match u, u' with
  | UGHit e r s, UGHit e' r' s' => e' = e /\ RR r r' /\ RS s s'
  | UGNone mt s, UGNone mt' s' => mt' = mt /\ RS s s'
  | UGAbort w, UGAbort w' => laxl w \/ laxr w' \/ w' = w
  | UGAbort w, _ => laxl w
  | _, UGAbort w' => laxr w'
  | _, _ => False
  end.

Definition rel_ugo (u u' : ugo) : Prop :=
  match u, u' with
  | UGDone mt acc s, UGDone mt' acc' s' => mt' = mt /\ Forall2 RR acc acc' /\ RS s s'
  | UGOAbort w, UGOAbort w' => laxl w \/ laxr w' \/ w' = w
  | UGOAbort w, _ => laxl w
  | _, UGOAbort w' => laxr w'
  end.

Definition rel_parser (rec rec' : parser) : Prop :=
  forall n psq s s', RS s s' -> rel_out RR (rec n psq s) (rec' n psq s').

(* An outcome type with an abort constructor that the relation treats as rel_out treats Abort. *)
Definition abort_ok {T} (RT : T -> T -> Prop) (ab : nat -> T) : Prop :=
  (forall w, RT (ab w) (ab w)) /\
  (forall w t, laxl w -> RT (ab w) t) /\ (forall w t, laxr w -> RT t (ab w)).

Lemma abort_ok_out Q : abort_ok (rel_out Q) Abort.
Proof.
  split; [right; right; reflexivity|].
  split; intros w [r s|s|w'] L; cbn; auto.
Qed.
Lemma abort_ok_ugr : abort_ok rel_ugr UGAbort.
Proof.
  split; [right; right; reflexivity|].
  split; intros w [e r s|mt s|w'] L; cbn; auto.
Qed.
Lemma abort_ok_ugo : abort_ok rel_ugo UGOAbort.
Proof.
  split; [right; right; reflexivity|].
  split; intros w [mt acc s|w'] L; cbn; auto.
Qed.

(* The one case analysis: a match on related outcomes whose branches are related is related. *)
Lemma rel_case {T} (RT : T -> T -> Prop) (ab : nat -> T) Q o o'
      (F F' : res -> st -> T) (G G' : st -> T) :
  abort_ok RT ab -> rel_out Q o o' ->
  (forall r r' s s', Q r r' -> RS s s' -> RT (F r s) (F' r' s')) ->
  (forall s s', RF s s' -> RT (G s) (G' s')) ->
  RT match o with Ok r s => F r s | Fail s => G s | Abort w => ab w end
     match o' with Ok r s => F' r s | Fail s => G' s | Abort w => ab w end.
Proof.
  intros (A1 & A2 & A3) H HF HG.
  destruct o as [r s|s|w], o' as [r' s'|s'|w']; cbn in H; try contradiction.
  - apply HF; apply H.
  - apply A3, H.
  - apply HG, H.
  - apply A3, H.
  - apply A2, H.
  - apply A2, H.
  - destruct H as [L|[L| ->]]; [apply A2, L | apply A3, L | apply A1].
Qed.

Lemma ugr_case {T} (RT : T -> T -> Prop) (ab : nat -> T) u u'
      (F F' : nat -> res -> st -> T) (G G' : bool -> st -> T) :
  abort_ok RT ab -> rel_ugr u u' ->
  (forall e r r' s s', RR r r' -> RS s s' -> RT (F e r s) (F' e r' s')) ->
  (forall mt s s', RS s s' -> RT (G mt s) (G' mt s')) ->
  RT match u with UGHit e r s => F e r s | UGNone mt s => G mt s | UGAbort w => ab w end
     match u' with UGHit e r s => F' e r s | UGNone mt s => G' mt s | UGAbort w => ab w end.
Proof.
  intros (A1 & A2 & A3) H HF HG.
  destruct u as [e r s|mt s|w], u' as [e' r' s'|mt' s'|w']; cbn in H; try contradiction.
  - destruct H as (-> & Hr & Hs). apply HF; assumption.
  - apply A3, H.
  - destruct H as [-> Hs]. apply HG, Hs.
  - apply A3, H.
  - apply A2, H.
  - apply A2, H.
  - destruct H as [L|[L| ->]]; [apply A2, L | apply A3, L | apply A1].
Qed.

Lemma ugo_case {T} (RT : T -> T -> Prop) (ab : nat -> T) u u' (F F' : bool -> list res -> st -> T) :
  abort_ok RT ab -> rel_ugo u u' ->
  (forall mt acc acc' s s', Forall2 RR acc acc' -> RS s s' -> RT (F mt acc s) (F' mt acc' s')) ->
  RT match u with UGDone mt acc s => F mt acc s | UGOAbort w => ab w end
     match u' with UGDone mt acc s => F' mt acc s | UGOAbort w => ab w end.
Proof.
  intros (A1 & A2 & A3) H HF. destruct u as [mt acc s|w], u' as [mt' acc' s'|w']; cbn in H.
  - destruct H as (-> & Ha & Hs). apply HF; assumption.
  - apply A3, H.
  - apply A2, H.
  - destruct H as [L|[L| ->]]; [apply A2, L | apply A3, L | apply A1].
Qed.

Hypothesis RS_pos : forall s s', RS s s' -> RP (pos s) (pos s').
Hypothesis RS_RF : forall s s', RS s s' -> RF s s'.
Hypothesis RF_set_pos : forall p p' s s', RP p p' -> RF s s' -> RS (set_pos p s) (set_pos p' s').
Hypothesis RS_reg_fail : forall p p' s s', RP p p' -> RS s s' -> RS (reg_fail p s) (reg_fail p' s').
Hypothesis RS_enter_ws : forall nd s s', NP nd -> RS s s' -> RS (enter_ws nd s) (enter_ws nd s').
Hypothesis RS_leave_ws : forall nd old old' s s', NP nd ->
  RS old old' -> RS s s' -> RS (leave_ws nd old s) (leave_ws nd old' s').
Hypothesis RS_enter_eol : forall nd s s', NP nd -> RS s s' -> RS (enter_eol nd s) (enter_eol nd s').
Hypothesis RS_leave_eol : forall nd old old' s s', NP nd ->
  RS old old' -> RS s s' -> RS (leave_eol nd old s) (leave_eol nd old' s').
Hypothesis RF_leave_eol : forall nd old old' s s', NP nd ->
  RS old old' -> RF s s' -> RF (leave_eol nd old s) (leave_eol nd old' s').
Hypothesis RR_none : RR RNone RNone.
Hypothesis RR_list : forall l l', Forall2 RR l l' -> RR (RList l) (RList l').
Hypothesis RR_truthy : forall r r', RR r r' -> truthy r' = truthy r.
Hypothesis RR_is_none : forall r r', RR r r' -> is_none r' = is_none r.

Lemma RS_set_pos p p' s s' : RP p p' -> RS s s' -> RS (set_pos p s) (set_pos p' s').
Proof. intros Hp Hs. apply RF_set_pos; [exact Hp | apply RS_RF, Hs]. Qed.

Lemma rel_nm_raise Q p p' s s' : RP p p' -> RS s s' -> rel_out Q (nm_raise p s) (nm_raise p' s').
Proof. intros Hp Hs. apply RS_RF, RS_reg_fail; assumption. Qed.

Lemma acc_rel acc acc' r r' : Forall2 RR acc acc' -> RR r r' ->
  Forall2 RR (if truthy r then acc ++ [r] else acc) (if truthy r' then acc' ++ [r'] else acc').
Proof.
  intros Ha Hr. rewrite (RR_truthy _ _ Hr). destruct (truthy r); [|exact Ha].
  apply Forall2_app; [exact Ha | constructor; [exact Hr | constructor]].
Qed.

Section Loops.
Variables rec rec' : parser.
Hypothesis Hrec : rel_parser rec rec'.

Lemma seq_rel psq kids : forall acc acc' s s', Forall2 RR acc acc' -> RS s s' ->
  rel_out RL (seq_loop rec psq kids acc s) (seq_loop rec' psq kids acc' s').
Proof.
  induction kids as [|c kids IH]; intros acc acc' s s' Ha Hs; cbn [seq_loop].
  - split; [constructor; exact Ha | exact Hs].
  - apply (rel_case _ _ RR); [apply abort_ok_out | apply Hrec, Hs | | intros s1 s1' H1; exact H1].
    intros r r' s1 s1' Hr H1. apply IH; [apply acc_rel; assumption | exact H1].
Qed.

Lemma choice_rel kids : forall cp cp' s s', RP cp cp' -> RS s s' ->
  rel_out RR (choice_loop rec cp kids s) (choice_loop rec' cp' kids s').
Proof.
  induction kids as [|c kids IH]; intros cp cp' s s' Hp Hs; cbn [choice_loop].
  - split; [exact RR_none | exact Hs].
  - apply (rel_case _ _ RR); [apply abort_ok_out | apply Hrec, Hs | |].
    + intros r r' s1 s1' Hr H1. rewrite (RR_is_none _ _ Hr).
      destruct (is_none r); [apply IH; assumption | split; assumption].
    + intros s1 s1' H1. apply IH; [exact Hp | apply RF_set_pos; assumption].
Qed.

Lemma rep_rel e sep plus k : forall first acc acc' s s', Forall2 RR acc acc' -> RS s s' ->
  rel_out RL (rep_loop rec e sep plus k first acc s) (rep_loop rec' e sep plus k first acc' s').
Proof.
  induction k as [|k IH]; intros first acc acc' s s' Ha Hs; cbn [rep_loop]; [right; right; reflexivity|].
  pose proof (RS_pos _ _ Hs) as Hp.
  assert (Helem : forall acc1 acc1' s1 s1', Forall2 RR acc1 acc1' -> RS s1 s1' ->
    rel_out RL
      match rec e false s1 with
      | Ok r s2 => if truthy r then rep_loop rec e sep plus k false (acc1 ++ [r]) s2
                   else Ok (RList acc1) s2
      | Fail s2 => if (plus && first)%bool then Fail (set_pos (pos s) s2)
                   else Ok (RList acc1) (set_pos (pos s) s2)
      | Abort w => Abort w
      end
      match rec' e false s1' with
      | Ok r s2 => if truthy r then rep_loop rec' e sep plus k false (acc1' ++ [r]) s2
                   else Ok (RList acc1') s2
      | Fail s2 => if (plus && first)%bool then Fail (set_pos (pos s') s2)
                   else Ok (RList acc1') (set_pos (pos s') s2)
      | Abort w => Abort w
      end).
  { intros acc1 acc1' s1 s1' Ha1 H1.
    apply (rel_case _ _ RR); [apply abort_ok_out | apply Hrec, H1 | |].
    - intros r r' s2 s2' Hr H2. pose proof (acc_rel _ _ _ _ Ha1 Hr) as Ha2.
      rewrite (RR_truthy _ _ Hr) in *.
      destruct (truthy r); [apply IH; assumption | split; [constructor|]; assumption].
    - intros s2 s2' H2. pose proof (RF_set_pos _ _ _ _ Hp H2) as H3.
      destruct (plus && first)%bool; [exact (RS_RF _ _ H3) | split; [constructor|]; assumption]. }
  destruct sep as [sp|]; [|apply Helem; assumption].
  destruct first; [apply Helem; assumption|].
  apply (rel_case _ _ RR); [apply abort_ok_out | apply Hrec, Hs | |].
  - intros r r' s1 s1' Hr H1. apply Helem; [apply acc_rel; assumption | exact H1].
  - intros s1 s1' H1. rewrite andb_false_r.
    split; [constructor; exact Ha | apply RF_set_pos; assumption].
Qed.

Lemma ug_try_rel sf todo : forall cl cl' mt s s', RP cl cl' -> RS s s' ->
  rel_ugr (ug_try rec sf cl todo mt s) (ug_try rec' sf cl' todo mt s').
Proof.
  induction todo as [|e rest IH]; intros cl cl' mt s s' Hp Hs; cbn [ug_try].
  - split; [reflexivity | exact Hs].
  - apply (rel_case _ _ RR); [apply abort_ok_ugr | apply Hrec, Hs | |].
    + intros r r' s1 s1' Hr H1. rewrite (RR_truthy _ _ Hr).
      destruct (truthy r); [destruct sf|].
      * apply IH; [exact Hp | apply RS_set_pos; assumption].
      * split; [reflexivity | split; assumption].
      * apply IH; assumption.
    + intros s1 s1' H1. apply IH; [exact Hp | apply RF_set_pos; assumption].
Qed.

Lemma ug_loop_rel sep n : forall todo first sr sr' acc acc' s s',
  RR sr sr' -> Forall2 RR acc acc' -> RS s s' ->
  rel_ugo (ug_loop rec sep n todo first sr acc s) (ug_loop rec' sep n todo first sr' acc' s').
Proof.
  induction n as [|n IH]; intros [|t0 todo0] first sr sr' acc acc' s s' Hsr Ha Hs; cbn [ug_loop];
    try (split; [reflexivity | split; assumption]); [right; right; reflexivity|].
  set (todo := t0 :: todo0). pose proof (RS_pos _ _ Hs) as Hp.
  assert (Hcont : forall sf sr1 sr1' s1 s1', RR sr1 sr1' -> RS s1 s1' ->
    rel_ugo
      match ug_try rec sf (pos s1) todo true s1 with
      | UGHit e r s2 => ug_loop rec sep n (remove_first e todo) false sr1
                                ((if truthy sr1 then acc ++ [sr1] else acc) ++ [r]) s2
      | UGNone mt s2 => UGDone mt acc (set_pos (pos s) s2)
      | UGAbort w => UGOAbort w
      end
      match ug_try rec' sf (pos s1') todo true s1' with
      | UGHit e r s2 => ug_loop rec' sep n (remove_first e todo) false sr1'
                                ((if truthy sr1' then acc' ++ [sr1'] else acc') ++ [r]) s2
      | UGNone mt s2 => UGDone mt acc' (set_pos (pos s') s2)
      | UGAbort w => UGOAbort w
      end).
  { intros sf sr1 sr1' s1 s1' Hsr1 H1.
    apply ugr_case; [apply abort_ok_ugo | apply ug_try_rel; [apply RS_pos, H1 | exact H1] | |].
    - intros e r r' s2 s2' Hr H2. apply IH; [exact Hsr1 | | exact H2].
      apply Forall2_app; [apply acc_rel; assumption | constructor; [exact Hr | constructor]].
    - intros mt s2 s2' H2. split; [reflexivity | split; [exact Ha | apply RS_set_pos; assumption]]. }
  destruct sep as [sp|]; [|apply Hcont; assumption].
  destruct first; [apply Hcont; assumption|].
  apply (rel_case _ _ RR); [apply abort_ok_ugo | apply Hrec, Hs | |].
  - intros r r' s1 s1' Hr H1. apply Hcont; assumption.
  - intros s1 s1' H1. apply Hcont; [exact Hsr | apply RF_set_pos; assumption].
Qed.

Lemma body_rel k nd s s' : NP nd -> RS s s' -> rel_out RR (body rec k nd s) (body rec' k nd s').
Proof.
  intros Hn Hs. pose proof (RS_pos _ _ Hs) as Hp. unfold body.
  destruct (n_kind nd); try (right; right; reflexivity).
  - (* Sequence *)
    apply (rel_case _ _ RL);
      [apply abort_ok_out | apply seq_rel; [constructor | apply RS_enter_ws; assumption] | |].
    + intros r r' s1 s1' [l l' [|x x' l0 l0' Hx Hl]] H1;
        (split; [|apply RS_leave_ws; assumption]);
        [exact RR_none | apply RR_list; constructor; assumption].
    + intros s1 s1' H1. cbn. apply RS_RF, RS_leave_ws; [exact Hn | exact Hs | apply RF_set_pos; assumption].
  - (* OrderedChoice *)
    apply (rel_case _ _ RR);
      [apply abort_ok_out | apply choice_rel; [exact Hp | apply RS_enter_ws; assumption] | |].
    + intros r r' s1 s1' Hr H1. pose proof (RS_leave_ws _ _ _ _ _ Hn Hs H1) as H2.
      rewrite (RR_is_none _ _ Hr). destruct (is_none r).
      * apply rel_nm_raise; assumption.
      * split; [apply RR_list; constructor; [exact Hr | constructor] | exact H2].
    + intros s1 s1' H1. exact H1.
  - (* Optional *)
    destruct (n_kids nd) as [|e kids]; [right; right; reflexivity|].
    apply (rel_case _ _ RR); [apply abort_ok_out | apply Hrec, Hs | |].
    + intros r r' s1 s1' Hr H1. split; [apply RR_list; constructor; [exact Hr | constructor] | exact H1].
    + intros s1 s1' H1. split; [exact RR_none | apply RF_set_pos; assumption].
  - (* ZeroOrMore *)
    destruct (n_kids nd) as [|e kids]; [right; right; reflexivity|].
    apply (rel_case _ _ RL);
      [apply abort_ok_out | apply rep_rel; [constructor | apply RS_enter_eol; assumption] | |].
    + intros r r' s1 s1' [l l' Hl] H1. split; [apply RR_list, Hl | apply RS_leave_eol; assumption].
    + intros s1 s1' H1. cbn. apply RF_leave_eol; assumption.
  - (* OneOrMore *)
    destruct (n_kids nd) as [|e kids]; [right; right; reflexivity|].
    apply (rel_case _ _ RL);
      [apply abort_ok_out | apply rep_rel; [constructor | apply RS_enter_eol; assumption] | |].
    + intros r r' s1 s1' [l l' Hl] H1. split; [apply RR_list, Hl | apply RS_leave_eol; assumption].
    + intros s1 s1' H1. cbn. apply RF_leave_eol; assumption.
  - (* UnorderedGroup *)
    destruct (n_kids nd) as [|e kids]; [right; right; reflexivity|].
    apply ugo_case;
      [apply abort_ok_out | apply ug_loop_rel; [exact RR_none | constructor | apply RS_enter_eol; assumption] |].
    intros mt acc acc' s1 s1' Ha H1. pose proof (RS_leave_eol _ _ _ _ _ Hn Hs H1) as H2.
    destruct mt.
    + split; [|exact H2]. destruct Ha; [exact RR_none | apply RR_list; constructor; assumption].
    + apply rel_nm_raise; [exact Hp | apply RS_set_pos; assumption].
  - (* And *)
    apply (rel_case _ _ RL); [apply abort_ok_out | apply seq_rel; [constructor | exact Hs] | |].
    + intros r r' s1 s1' _ H1. split; [exact RR_none | apply RS_set_pos; assumption].
    + intros s1 s1' H1. cbn. apply RS_RF, RF_set_pos; assumption.
  - (* Not *)
    apply (rel_case _ _ RL); [apply abort_ok_out | apply seq_rel; [constructor | exact Hs] | |].
    + intros r r' s1 s1' _ H1. apply rel_nm_raise; [exact Hp | apply RS_set_pos; assumption].
    + intros s1 s1' H1. split; [exact RR_none | apply RF_set_pos; assumption].
  - (* Empty *)
    split; [exact RR_none | exact Hs].
Qed.

End Loops.
End Rel.

Lemma rel_out_lax RS RF (laxl laxr : nat -> Prop) Q o o' :
  rel_out RS RF no_abort no_abort Q o o' -> rel_out RS RF laxl laxr Q o o'.
Proof.
  destruct o, o'; cbn; intro H; try exact H; try contradiction.
  destruct H as [[]|[[]|H]]. right; right; exact H.
Qed.

(* Invariants of one run: the diagonal RS s s' := s' = s /\ P s. *)
Section Inv.
Variable P : st -> Prop.
Variable PF : st -> Prop.               (* states after a NoMatch *)
Variable PR : res -> Prop.
Variable PP : nat -> Prop.
Variable NP : node -> Prop.

Notation parser := (nat -> bool -> st -> out) (only parsing).

Definition inv_out (o : out) : Prop :=
  match o with Ok r s => PR r /\ P s | Fail s => PF s | Abort _ => True end.
Definition inv_parser (rec : parser) : Prop := forall n psq s, P s -> inv_out (rec n psq s).

Hypothesis P_pos : forall s, P s -> PP (pos s).
Hypothesis P_PF : forall s, P s -> PF s.
Hypothesis PF_set_pos : forall p s, PP p -> PF s -> P (set_pos p s).
Hypothesis P_reg_fail : forall p s, PP p -> P s -> P (reg_fail p s).
Hypothesis P_enter_ws : forall nd s, NP nd -> P s -> P (enter_ws nd s).
Hypothesis P_leave_ws : forall nd old s, NP nd -> P old -> P s -> P (leave_ws nd old s).
Hypothesis P_enter_eol : forall nd s, NP nd -> P s -> P (enter_eol nd s).
Hypothesis P_leave_eol : forall nd old s, NP nd -> P old -> P s -> P (leave_eol nd old s).
Hypothesis PF_leave_eol : forall nd old s, NP nd -> P old -> PF s -> PF (leave_eol nd old s).
Hypothesis PR_none : PR RNone.
Hypothesis PR_list : forall l, Forall PR l -> PR (RList l).

Let RS (s s' : st) : Prop := s' = s /\ P s.
Let RF (s s' : st) : Prop := s' = s /\ PF s.
Let RR (r r' : res) : Prop := r' = r /\ PR r.
Let RP (p p' : nat) : Prop := p' = p /\ PP p.

Lemma diag_list l l' : Forall2 RR l l' -> l' = l /\ Forall PR l.
Proof.
  induction 1 as [|r r' l l' [-> Hr] _ [-> Hl]]; [split; [reflexivity | constructor]|].
  split; [reflexivity | constructor; assumption].
Qed.

Lemma diag_out o : inv_out o <-> rel_out RS RF no_abort no_abort RR o o.
Proof.
  destruct o as [r s|s|w]; cbn.
  - split; [intros [H1 H2]; exact (conj (conj eq_refl H1) (conj eq_refl H2))
           | intros [[_ H1] [_ H2]]; exact (conj H1 H2)].
  - split; [intro H; exact (conj eq_refl H) | intros [_ H]; exact H].
  - split; [right; right; reflexivity | exact (fun _ => I)].
Qed.

Lemma d_pos s s' : RS s s' -> RP (pos s) (pos s').
Proof. intros [-> H]. exact (conj eq_refl (P_pos _ H)). Qed.
Lemma d_fail s s' : RS s s' -> RF s s'.
Proof. intros [-> H]. exact (conj eq_refl (P_PF _ H)). Qed.
Lemma d_set_pos p p' s s' : RP p p' -> RF s s' -> RS (set_pos p s) (set_pos p' s').
Proof. intros [-> Hp] [-> H]. exact (conj eq_refl (PF_set_pos _ _ Hp H)). Qed.
Lemma d_truthy r r' : RR r r' -> truthy r' = truthy r.
Proof. intros [-> _]. reflexivity. Qed.
Lemma d_is_none r r' : RR r r' -> is_none r' = is_none r.
Proof. intros [-> _]. reflexivity. Qed.
Lemma d_parser rec : inv_parser rec -> rel_parser RS RF RR no_abort no_abort rec rec.
Proof. intros Hrec n psq s s' [-> H]. apply diag_out, Hrec, H. Qed.

Theorem body_inv rec k nd s : inv_parser rec -> NP nd -> P s -> inv_out (body rec k nd s).
Proof.
  intros Hrec Hn Hs. apply diag_out.
  apply (body_rel RS RF RR RP NP no_abort no_abort); try exact Hn; try (split; [reflexivity | assumption]).
  - exact d_pos.
  - exact d_fail.
  - exact d_set_pos.
  - intros p p' s0 s0' [-> Hp] [-> H]. split; [reflexivity | apply P_reg_fail; assumption].
  - intros nd0 s0 s0' N [-> H]. split; [reflexivity | apply P_enter_ws; assumption].
  - intros nd0 o o' s0 s0' N [-> Ho] [-> H]. split; [reflexivity | apply P_leave_ws; assumption].
  - intros nd0 s0 s0' N [-> H]. split; [reflexivity | apply P_enter_eol; assumption].
  - intros nd0 o o' s0 s0' N [-> Ho] [-> H]. split; [reflexivity | apply P_leave_eol; assumption].
  - intros nd0 o o' s0 s0' N [-> Ho] [-> H]. split; [reflexivity | apply PF_leave_eol; assumption].
  - intros l l' H. apply diag_list in H as [-> H]. split; [reflexivity | apply PR_list, H].
  - exact d_truthy.
  - exact d_is_none.
  - exact (d_parser _ Hrec).
Qed.

End Inv.
