(* C03: the recorded inheritance lists (_tx_inh_by).  Without a cycle through abstract rules the lists
   _determine_rule_types leaves are exactly `recorded`, the declarative early-exit walk over the final kinds, and
   textx_isinstance is the closure of `recorded`.  Under wf_inh that walk holds every first non-match reference,
   which is the completeness half of the textx_isinstance characterisation. *)
From TxV Require Import Core.Base Model.Kinds Proofs.KindsProofs.
Require Import Lia.

Fixpoint skippable_all (K : nat -> kind) (l : list expr) : bool :=
  match l with [] => true | x :: l' => skippable K x && skippable_all K l' end.
Fixpoint firsts_seq (K : nat -> kind) (l : list expr) : list nat :=
  match l with [] => [] | x :: l' => firsts K x ++ (if skippable K x then firsts_seq K l' else []) end.
Fixpoint firsts_choice (K : nat -> kind) (l : list expr) : list nat :=
  match l with [] => [] | x :: l' => firsts K x ++ firsts_choice K l' end.
Fixpoint seq_ok_seq (K : nat -> kind) (l : list expr) : bool :=
  match l with
  | [] => true
  | x :: l' => seq_ok K x && (if has_nm K x && skippable K x then negb (existsb (has_nm K) l') else true) && seq_ok_seq K l'
  end.
Fixpoint seq_ok_all (K : nat -> kind) (l : list expr) : bool :=
  match l with [] => true | x :: l' => seq_ok K x && seq_ok_all K l' end.
Fixpoint walk_seq (K : nat -> kind) (l : list expr) (acc : list nat) : bool * list nat :=
  match l with
  | [] => (false, acc)
  | x :: l' => let (b, a1) := walk K x acc in if b then (true, a1) else walk_seq K l' a1
  end.
Fixpoint walk_choice (K : nat -> kind) (l : list expr) (acc : list nat) : bool * list nat :=
  match l with
  | [] => (false, acc)
  | x :: l' => let (b, a1) := walk K x acc in let (b', a2) := walk_choice K l' a1 in (b || b', a2)
  end.

Lemma firsts_Seq K es : firsts K (Seq es) = firsts_seq K es.
Proof. simpl. induction es as [|a es IH]; simpl; [reflexivity | rewrite IH; reflexivity]. Qed.
Lemma firsts_Choice K es : firsts K (Choice es) = firsts_choice K es.
Proof. simpl. induction es as [|a es IH]; simpl; [reflexivity | rewrite IH; reflexivity]. Qed.
Lemma seq_ok_Seq K es : seq_ok K (Seq es) = seq_ok_seq K es.
Proof. simpl. induction es as [|a es IH]; simpl; [reflexivity | rewrite IH; reflexivity]. Qed.
Lemma seq_ok_Choice K es : seq_ok K (Choice es) = seq_ok_all K es.
Proof. simpl. induction es as [|a es IH]; simpl; [reflexivity | rewrite IH; reflexivity]. Qed.
Lemma walk_Seq K es acc : walk K (Seq es) acc = walk_seq K es acc.
Proof.
  simpl. revert acc. induction es as [|a es IH]; intro acc; simpl; [reflexivity|].
  destruct (walk K a acc) as [b a1]. destruct b; [reflexivity | apply IH].
Qed.
Lemma walk_Choice K es acc : walk K (Choice es) acc = walk_choice K es acc.
Proof.
  simpl. revert acc. induction es as [|a es IH]; intro acc; simpl; [reflexivity|].
  destruct (walk K a acc) as [b a1]. rewrite IH. reflexivity.
Qed.

Lemma has_nm_Ref K r : has_nm K (Ref r) = negb (is_match (K r)).
Proof. apply orb_false_r. Qed.
Lemma has_nm_Seq_cons K x l : has_nm K (Seq (x :: l)) = has_nm K x || has_nm K (Seq l).
Proof. unfold has_nm. rewrite !refs_Seq. simpl. apply existsb_app. Qed.
Lemma has_nm_Choice_cons K x l : has_nm K (Choice (x :: l)) = has_nm K x || has_nm K (Choice l).
Proof. unfold has_nm. rewrite !refs_Choice. simpl. apply existsb_app. Qed.
Lemma has_nm_Seq_nil K : has_nm K (Seq []) = false.
Proof. reflexivity. Qed.
Lemma has_nm_Choice_nil K : has_nm K (Choice []) = false.
Proof. reflexivity. Qed.

Lemma existsb_has_nm K l : existsb (has_nm K) l = has_nm K (Seq l).
Proof.
  induction l as [|a l IH]; [reflexivity|]. simpl existsb. rewrite has_nm_Seq_cons, IH. reflexivity.
Qed.

Lemma firsts_nil K : forall e, has_nm K e = false -> firsts K e = [].
Proof.
  induction e as [|r|es IH|es IH|e IH|e IH] using expr_ind'; intro H.
  - reflexivity.
  - rewrite has_nm_Ref in H. apply negb_false_iff in H. simpl. rewrite H. reflexivity.
  - rewrite firsts_Seq. induction IH as [|a es Ha _ IHl]; [reflexivity|].
    rewrite has_nm_Seq_cons in H. apply orb_false_iff in H as [H1 H2]. simpl.
    rewrite (Ha H1), (IHl H2). destruct (skippable K a); reflexivity.
  - rewrite firsts_Choice. induction IH as [|a es Ha _ IHl]; [reflexivity|].
    rewrite has_nm_Choice_cons in H. apply orb_false_iff in H as [H1 H2]. simpl.
    rewrite (Ha H1), (IHl H2). reflexivity.
  - simpl. apply IH. exact H.
  - simpl. apply IH. exact H.
Qed.

(* The walk leaves a sequence at the first element that added a class.  An element that holds a non-match reference
   and added none may hide the first references of the elements behind it: seq_ok rules that out when the element is
   skippable, and when it is not, nothing behind it is a first reference. *)
Lemma walk_firsts K : forall e acc,
  incl acc (snd (walk K e acc)) /\
  (seq_ok K e = true -> incl (firsts K e) (snd (walk K e acc))) /\
  (has_nm K e = false -> fst (walk K e acc) = false).
Proof.
  induction e as [|r|es IH|es IH|e IH|e IH] using expr_ind'; intro acc.
  - split; [apply incl_refl|]. split; [intros _ c []|reflexivity].
  - rewrite has_nm_Ref. simpl. destruct (is_match (K r)); simpl.
    + split; [apply incl_refl|]. split; [intros _ c []|reflexivity].
    + destruct (mem r acc) eqn:M; simpl; (split; [|split; [|discriminate]]).
      * apply incl_refl.
      * intros _ c [<-|[]]. apply mem_In. exact M.
      * apply incl_appl, incl_refl.
      * intros _ c [<-|[]]. apply in_or_app. right. left. reflexivity.
  - rewrite walk_Seq, firsts_Seq, seq_ok_Seq. revert acc.
    induction IH as [|a es Ha _ IHl]; intro acc; [split; [apply incl_refl|]; split; [intros _ c []|reflexivity]|].
    rewrite has_nm_Seq_cons. simpl. destruct (Ha acc) as [G [F N]]. destruct (walk K a acc) as [b a1]. simpl in G, F, N.
    destruct b.
    + simpl. split; [exact G|]. split.
      * intros Hs c Hc. apply andb_true_iff in Hs as [Hs _]. apply andb_true_iff in Hs as [Hs1 Hs2].
        apply in_app_or in Hc as [Hc|Hc]; [apply F; assumption|].
        destruct (skippable K a); [|destruct Hc].
        destruct (has_nm K a); [|specialize (N eq_refl); discriminate].
        simpl in Hs2. apply negb_true_iff in Hs2. rewrite existsb_has_nm in Hs2.
        rewrite <- firsts_Seq, (firsts_nil K (Seq es) Hs2) in Hc. destruct Hc.
      * intro H. apply orb_false_iff in H as [H _]. specialize (N H). discriminate.
    + destruct (IHl a1) as [G2 [F2 N2]]. destruct (walk_seq K es a1) as [b2 a2]. simpl in G2, F2, N2.
      split; [intros c Hc; apply G2, G, Hc|]. split.
      * intros Hs c Hc. apply andb_true_iff in Hs as [Hs Hs3]. apply andb_true_iff in Hs as [Hs1 _].
        apply in_app_or in Hc as [Hc|Hc]; [apply G2, F; assumption|].
        destruct (skippable K a); [apply F2; assumption | destruct Hc].
      * intro H. apply orb_false_iff in H as [_ H]. apply N2. exact H.
  - rewrite walk_Choice, firsts_Choice, seq_ok_Choice. revert acc.
    induction IH as [|a es Ha _ IHl]; intro acc; [split; [apply incl_refl|]; split; [intros _ c []|reflexivity]|].
    rewrite has_nm_Choice_cons. simpl. destruct (Ha acc) as [G [F N]]. destruct (walk K a acc) as [b a1]. simpl in G, F, N.
    destruct (IHl a1) as [G2 [F2 N2]]. destruct (walk_choice K es a1) as [b2 a2]. simpl in G2, F2, N2 |- *.
    split; [intros c Hc; apply G2, G, Hc|]. split.
    + intros Hs c Hc. apply andb_true_iff in Hs as [Hs1 Hs2].
      apply in_app_or in Hc as [Hc|Hc]; [apply G2, F; assumption | apply F2; assumption].
    + intro H. apply orb_false_iff in H as [H1 H2]. rewrite (N H1), (N2 H2). reflexivity.
  - simpl. apply IH.
  - simpl. apply IH.
Qed.

Lemma firsts_recorded g K x :
  (forall e, r_body (rule_of g x) = Body e -> seq_ok K e = true) -> incl (rule_firsts g K x) (recorded g K x).
Proof.
  unfold rule_firsts, recorded. intro Hok. destruct (r_body (rule_of g x)) as [t|e]; [apply incl_refl|].
  apply (walk_firsts K e []). apply Hok. reflexivity.
Qed.

Theorem yields_recorded g K :
  (forall x e, K x = KAbstract -> r_body (rule_of g x) = Body e -> seq_ok K e = true) ->
  forall r k, yields g K r k -> recorded_reach g K r k.
Proof.
  intros Hok r k H. induction H as [x | x y z Kx Hy _ IH]; [apply rreach_refl|].
  apply (rreach_step g K x y z Kx); [|exact IH]. apply (firsts_recorded g K x (fun e => Hok x e Kx)). exact Hy.
Qed.

(* the stateful walks with accurate reads are the pure ones *)
Section Exact.
Variable K : nat -> kind.
Variable P : st -> Prop.
Variable det : nat -> st -> st.
Variable ok : nat -> Prop.
Variable y : nat.
(* a nested call keeps the invariant, reads the referenced rule's final kind, and leaves y's list alone *)
Hypothesis Hacc : forall c a, ok c -> P a ->
  P (det c a) /\ is_match (types (det c a) c) = is_match (K c) /\ inh (det c a) y = inh a y.
Hypothesis Hadd : forall c a, P a -> P (set_inh y (inh a y ++ [c]) a).

Lemma hnm_exact : forall e s, (forall c, In c (refs e) -> ok c) -> P s ->
  P (snd (hnm det e s)) /\ fst (hnm det e s) = has_nm K e /\ inh (snd (hnm det e s)) y = inh s y.
Proof.
  assert (L : forall es,
    Forall (fun e => forall s, (forall c, In c (refs e) -> ok c) -> P s ->
              P (snd (hnm det e s)) /\ fst (hnm det e s) = has_nm K e /\ inh (snd (hnm det e s)) y = inh s y) es ->
    forall s, (forall c, In c (refs_list es) -> ok c) -> P s ->
      P (snd (hnm_list det es s)) /\ fst (hnm_list det es s) = has_nm K (Seq es) /\ inh (snd (hnm_list det es s)) y = inh s y).
  { induction 1 as [|a es Ha _ IHl]; intros s Hok HP; [split; [exact HP | split; reflexivity]|].
    rewrite has_nm_Seq_cons. simpl. destruct (Ha s (fun c Hc => Hok c (in_or_app _ _ _ (or_introl Hc))) HP) as [A [B C]].
    destruct (hnm det a s) as [b s1]. simpl in A, B, C. rewrite <- B. destruct b; [split; [exact A | split; [reflexivity | exact C]]|].
    rewrite <- C. apply (IHl s1 (fun c Hc => Hok c (in_or_app _ _ _ (or_intror Hc))) A). }
  induction e as [|r|es IH|es IH|e IH|e IH] using expr_ind'; intros s Hok HP.
  - split; [exact HP | split; reflexivity].
  - simpl. destruct (Hacc r s (Hok r (or_introl eq_refl)) HP) as [A [B C]].
    rewrite has_nm_Ref, B. split; [exact A | split; [reflexivity | exact C]].
  - rewrite hnm_Seq. rewrite refs_Seq in Hok. exact (L es IH s Hok HP).
  - rewrite hnm_Choice. rewrite refs_Choice in Hok. exact (L es IH s Hok HP).
  - simpl. apply IH; assumption.
  - simpl. apply IH; assumption.
Qed.

Lemma addr_exact : forall e s, (forall c, In c (refs e) -> ok c) -> P s ->
  P (snd (addr det y e s)) /\ fst (addr det y e s) = fst (walk K e (inh s y)) /\
  inh (snd (addr det y e s)) y = snd (walk K e (inh s y)).
Proof.
  induction e as [|r|es IH|es IH|e IH|e IH] using expr_ind'; intros s Hok HP.
  - split; [exact HP | split; reflexivity].
  - destruct (Hacc r s (Hok r (or_introl eq_refl)) HP) as [A [B C]]. simpl.
    rewrite B, C. destruct (negb (is_match (K r)) && negb (mem r (inh s y))); simpl.
    + split; [assert (HA := Hadd r (det r s) A); rewrite C in HA; exact HA|]. split; [reflexivity | apply upd_same].
    + split; [exact A|]. split; [reflexivity | exact C].
  - rewrite addr_Seq, walk_Seq. rewrite refs_Seq in Hok. revert s Hok HP.
    induction IH as [|a es Ha _ IHl]; intros s Hok HP; [split; [exact HP | split; reflexivity]|].
    simpl. destruct (Ha s (fun c Hc => Hok c (in_or_app _ _ _ (or_introl Hc))) HP) as [A [B C]].
    destruct (addr det y a s) as [b s1]. destruct (walk K a (inh s y)) as [wb wa]. simpl in A, B, C. subst wb wa.
    destruct b; [split; [exact A | split; reflexivity]|].
    apply (IHl s1 (fun c Hc => Hok c (in_or_app _ _ _ (or_intror Hc))) A).
  - rewrite addr_Choice, walk_Choice. rewrite refs_Choice in Hok. revert s Hok HP.
    induction IH as [|a es Ha _ IHl]; intros s Hok HP; [split; [exact HP | split; reflexivity]|].
    simpl. destruct (Ha s (fun c Hc => Hok c (in_or_app _ _ _ (or_introl Hc))) HP) as [A [B C]].
    destruct (addr det y a s) as [b s1]. destruct (walk K a (inh s y)) as [wb wa]. simpl in A, B, C. subst wb wa.
    destruct (IHl s1 (fun c Hc => Hok c (in_or_app _ _ _ (or_intror Hc))) A) as [A2 [B2 C2]].
    destruct (addr_choice det y es s1) as [b2 s2]. destruct (walk_choice K es (inh s1 y)) as [wb2 wa2].
    simpl in A2, B2, C2 |- *. subst wb2. split; [exact A2 | split; [reflexivity | exact C2]].
  - simpl. apply IH; assumption.
  - simpl. apply IH; assumption.
Qed.
End Exact.

(* rules resolved before a call are not touched *)
Section Frozen.
Variable g : list rule.

Definition Frozen (B : nat -> bool) (a b : st) : Prop :=
  (forall z, B z = true -> resolved a z = true) ->
  (forall z, B z = true -> resolved b z = true) /\
  (forall z, B z = true -> types b z = types a z /\ inh b z = inh a z).

Lemma Frozen_refl B a : Frozen B a a.
Proof. intro H. split; auto. Qed.

Lemma Frozen_trans B a b c : Frozen B a b -> Frozen B b c -> Frozen B a c.
Proof.
  intros F1 F2 H. destruct (F1 H) as [R1 T1]. destruct (F2 R1) as [R2 T2].
  split; [exact R2|]. intros z Hz. destruct (T1 z Hz), (T2 z Hz). split; congruence.
Qed.

Lemma determine_Frozen : forall f x s B, Frozen B s (determine g f x s).
Proof.
  induction f as [|f IH]; intros x s B; [intro H; split; auto|].
  rewrite determine_S. destruct (resolved s x) eqn:Hres; [apply Frozen_refl|].
  intro HB. assert (HxB : forall z, B z = true -> z <> x) by (intros z Hz ->; rewrite (HB x Hz) in Hres; discriminate).
  (* the mark and every write of the body are at x, and x is not in B *)
  assert (Hmark : Frozen B s (mark x s)).
  { intros _. split; [|auto]. intros z Hz. simpl. unfold upd. destruct (Nat.eqb z x); [reflexivity | apply HB; exact Hz]. }
  assert (Hset : forall k a, Frozen B a (set_type x k a)).
  { intros k a Ha. split; [exact Ha|]. intros z Hz. simpl. rewrite (upd_other _ _ _ _ (HxB z Hz)). auto. }
  assert (Hinh : forall l a, Frozen B a (set_inh x l a)).
  { intros l a Ha. split; [exact Ha|]. intros z Hz. simpl. rewrite (upd_other _ _ _ _ (HxB z Hz)). auto. }
  revert HB. change (Frozen B s (det_body g f x (mark x s))). eapply Frozen_trans; [exact Hmark|].
  apply (det_body_R g (Frozen B) (Frozen_refl B) (Frozen_trans B) (fun y => y = x)); [| | |exact (fun y a => IH y a B)|reflexivity].
  - intros y a ->. intros. apply Hset.
  - intros y a ->. intros. apply Hset.
  - intros y r o a -> _ Hoa _ _. apply (Frozen_trans B o a); [exact Hoa | apply Hinh].
Qed.

Lemma determine_frozen f x s z : resolved s z = true ->
  resolved (determine g f x s) z = true /\ types (determine g f x s) z = types s z /\ inh (determine g f x s) z = inh s z.
Proof.
  intro H. destruct (determine_Frozen f x s (resolved s) (fun _ Hz => Hz)) as [R T]. split; [apply R | apply T]; exact H.
Qed.
End Frozen.

(* the first pass resolves everything, exactly *)
Section Rec.
Variable g : list rule.
Let n := length g.
Variable K : nat -> kind.
Hypothesis HK : forall x, kind_spec g x (K x).
Variable rank : nat -> nat.
Hypothesis Hac : acyclic_abstract g K rank.

Lemma K_common x : K x = KCommon <-> r_attrs (rule_of g x) = true.
Proof.
  split; intro H.
  - assert (S := HK x). rewrite H in S. exact S.
  - assert (S := HK x). destruct (K x) eqn:E; simpl in S; [|destruct S as [S _]; congruence | reflexivity].
    exfalso. apply S. apply nm_attrs. exact H.
Qed.

Lemma K_nonmatch x : nonmatch g x <-> K x <> KMatch.
Proof.
  split.
  - intros Hn E. assert (S := HK x). rewrite E in S. exact (S Hn).
  - intro H. assert (S := HK x). destruct (K x) eqn:E; simpl in S; [congruence | | apply nm_attrs; exact S].
    destruct S as [_ [y [Hy Hn]]]. apply (nm_ref g x y Hy Hn).
Qed.

Lemma K_parent x c : r_attrs (rule_of g x) = false -> In c (rule_refs g x) -> K c <> KMatch -> K x = KAbstract.
Proof.
  intros Hat Hc Hn. assert (S := HK x). destruct (K x) eqn:E; simpl in S; [|reflexivity|congruence].
  exfalso. apply S. apply (nm_ref g x c Hc). apply K_nonmatch. exact Hn.
Qed.

Lemma K_abstract_has x : K x = KAbstract ->
  r_attrs (rule_of g x) = false /\ exists c, In c (rule_refs g x) /\ K c <> KMatch.
Proof.
  intro H. assert (S := HK x). rewrite H in S. destruct S as [S1 [c [Hc Hn]]]. split; [exact S1|].
  exists c. split; [exact Hc | apply K_nonmatch; exact Hn].
Qed.

Lemma K_overflow x : n <= x -> K x = KMatch.
Proof.
  intro H. assert (S := HK x). unfold kind_spec, rule_refs in S. rewrite (rule_of_overflow g x H) in S.
  destruct (K x); simpl in S; [reflexivity | destruct S as [_ [c [[] _]]] | discriminate].
Qed.

Lemma Inv_match s z : Inv g s -> K z = KMatch -> types s z = KMatch.
Proof.
  intros HI Kz. destruct (is_match (types s z)) eqn:E; [apply is_match_true; exact E|].
  apply (proj2 (proj2 (HI z))), K_nonmatch in E. contradiction.
Qed.

Lemma has_nm_of x e : r_body (rule_of g x) = Body e -> has_nm K e = true -> K x <> KMatch.
Proof.
  intros Hb H. apply existsb_exists in H as [c [Hc Hn]]. apply negb_true_iff, is_match_false in Hn.
  intro Kx. assert (S := HK x). rewrite Kx in S. apply S, (nm_ref g x c); [|apply K_nonmatch; exact Hn].
  unfold rule_refs. rewrite Hb. exact Hc.
Qed.

(* z has its final kind and, if abstract, its final list *)
Definition done (s : st) (z : nat) : Prop :=
  types s z = K z /\ (K z = KAbstract -> inh s z = recorded g K z).
(* A: the rules whose resolution is under way (marked resolved, not yet final) *)
Definition DA (A : nat -> bool) (s : st) : Prop := forall z, resolved s z = true -> A z = true \/ done s z.
Definition P1 (s : st) : Prop := forall z, resolved s z = false -> types s z = KMatch /\ inh s z = [].
(* they have no assignments and, when y is abstract, are abstract rules of larger rank: a call for y never reads
   the kind of one of them as that of a non-match rule *)
Definition AncR (A : nat -> bool) (y : nat) : Prop :=
  (forall a, A a = true -> r_attrs (rule_of g a) = false) /\
  (K y = KAbstract -> forall a, A a = true -> K a = KAbstract /\ rank y < rank a).
Definition Pre (A : nat -> bool) (c0 : nat) (s : st) : Prop :=
  Inv g s /\ P1 s /\ DA A s /\ unres g s <= c0.

(* a write at y, a member of A that is already marked, keeps P1 and DA *)
Lemma Pre_write A c0 y a b :
  A y = true -> resolved a y = true -> Inv g b -> (forall z, resolved b z = resolved a z) ->
  (forall z, z <> y -> types b z = types a z /\ inh b z = inh a z) -> Pre A c0 a -> Pre A c0 b.
Proof.
  intros Ay Ry HIb HR HO [_ [H1 [HD HU]]]. split; [exact HIb|]. split; [|split].
  - intros z Hz. rewrite HR in Hz. destruct (Nat.eq_dec z y) as [->|Hne]; [congruence|].
    destruct (HO z Hne) as [-> ->]. apply H1. exact Hz.
  - intros z Hz. rewrite HR in Hz. destruct (Nat.eq_dec z y) as [->|Hne]; [left; exact Ay|].
    destruct (HD z Hz) as [L|[D1 D2]]; [left; exact L|]. right. destruct (HO z Hne) as [T I]. split; [rewrite T; exact D1 | rewrite I; exact D2].
  - unfold unres, unmarked, count in *. erewrite filter_ext; [exact HU|]. intro z. rewrite HR. reflexivity.
Qed.

Lemma Pre_set_inh A c0 y c a : A y = true -> resolved a y = true -> Pre A c0 a -> Pre A c0 (set_inh y (inh a y ++ [c]) a).
Proof.
  intros Ay Ry HP. apply (Pre_write A c0 y a); auto; [intro x; apply (proj1 HP x)|].
  intros z Hz. simpl. rewrite (upd_other _ _ _ _ Hz). auto.
Qed.

Lemma Pre_set_type A c0 y k a :
  A y = true -> resolved a y = true -> Big g a (set_type y k a) -> Pre A c0 a -> Pre A c0 (set_type y k a).
Proof.
  intros Ay Ry HB HP. apply (Pre_write A c0 y a); auto; [apply (proj2 HB (proj1 HP))|].
  intros z Hz. simpl. rewrite (upd_other _ _ _ _ Hz). auto.
Qed.

Lemma DA_close A y a : DA (upd A y true) a -> done a y -> DA A a.
Proof.
  intros HD Hy z Hz. destruct (Nat.eq_dec z y) as [->|Hne]; [right; exact Hy|].
  destruct (HD z Hz) as [L|R]; [left; rewrite (upd_other _ _ _ _ Hne) in L; exact L | right; exact R].
Qed.

(* One call of _determine_rule_type in the first pass, by induction on the fuel.  The set A grows by y for the nested
   calls; a referenced rule c is then either final or in A, and in A it is a match rule (AncR), so that the kind read
   for c is accurate and the walks are the pure ones (hnm_exact, addr_exact). *)
Lemma first_pass_call : forall f y s A, unres g s < f -> Inv g s -> P1 s -> AncR A y -> DA A s ->
  Inv g (determine g f y s) /\ P1 (determine g f y s) /\ DA A (determine g f y s) /\
  resolved (determine g f y s) y = true.
Proof.
  induction f as [|f IH]; intros y s A Hu HI H1 HA HD; [lia|].
  split; [apply (proj2 (determine_Big g (S f) y s) HI)|].
  cut (P1 (determine g (S f) y s) /\ DA A (determine g (S f) y s)); [intros [X Y]; split; [exact X | split; [exact Y | apply determine_marks]]|].
  rewrite determine_S. destruct (resolved s y) eqn:Hres; [auto|].
  set (s0 := mark y s). set (A' := upd A y true). set (c0 := unres g s0).
  assert (Ay : A' y = true) by apply upd_same.
  assert (Ry0 : resolved s0 y = true) by (simpl; apply upd_same).
  destruct (H1 y Hres) as [Ty0 Iy0]. change (types s0 y = KMatch) in Ty0. change (inh s0 y = []) in Iy0.
  assert (H1m : P1 s0).
  { intros z Hz. simpl in Hz |- *. apply H1. unfold upd in Hz. destruct (Nat.eqb z y); [discriminate | exact Hz]. }
  assert (HDm : DA A' s0).
  { intros z Hz. destruct (Nat.eq_dec z y) as [->|Hne]; [left; exact Ay|]. unfold A'.
    simpl in Hz. rewrite (upd_other _ _ _ _ Hne) in Hz. rewrite (upd_other _ _ _ _ Hne). apply HD. exact Hz. }
  (* y is final at the end: what remains of each case *)
  assert (Fin : forall a, Pre A' c0 a -> done a y -> P1 a /\ DA A a).
  { intros a [_ [Q1 [QD _]]] Dy. split; [exact Q1 | apply (DA_close A y); assumption]. }
  destruct (Nat.lt_ge_cases y n) as [Hlt|Hge].
  2:{ rewrite (det_body_overflow g f y _ Hge). split; [exact H1m|]. apply (DA_close A y); [exact HDm|].
      split; [rewrite (K_overflow y Hge); exact Ty0 | intro C; rewrite (K_overflow y Hge) in C; discriminate]. }
  assert (Hc0 : c0 < f) by (assert (M := unres_mark g y s Hlt Hres); unfold c0, s0; lia).
  assert (HP0 : Pre A' c0 s0) by (split; [intro x; apply (HI x) | split; [exact H1m | split; [exact HDm | apply le_n]]]).
  unfold det_body. destruct (r_attrs (rule_of g y)) eqn:Hat.
  - (* common *)
    assert (Ky : K y = KCommon) by (apply K_common; exact Hat).
    rewrite Ty0. simpl.
    apply Fin; [apply Pre_set_type; auto; apply Big_set_common; [exact Hat | exact Hlt | rewrite Ty0; discriminate]|].
    split; [simpl; rewrite upd_same; congruence | intro C; congruence].
  - (* no assignments *)
    assert (Kyc : K y <> KCommon) by (intro C; apply K_common in C; congruence).
    assert (HAnc : forall c, In c (rule_refs g y) -> AncR A' c).
    { intros c Hc. split.
      - intros a Ha. unfold A', upd in Ha. destruct (Nat.eqb a y) eqn:E; [apply Nat.eqb_eq in E; subst; exact Hat | apply (proj1 HA); exact Ha].
      - intros Kc a Ha. assert (Ky : K y = KAbstract) by (apply (K_parent y c Hat Hc); congruence).
        assert (Rc : rank c < rank y) by (apply (Hac y c Ky Hc Kc)).
        unfold A', upd in Ha. destruct (Nat.eqb a y) eqn:E.
        + apply Nat.eqb_eq in E. subst a. auto.
        + destruct (proj2 HA Ky a Ha) as [Ka Ra]. split; [exact Ka | lia]. }
    (* the invariant of the walks: y stays marked and keeps the kind t it has at their start *)
    set (P := fun t a => Pre A' c0 a /\ resolved a y = true /\ types a y = t).
    assert (Hacc : forall t c a, In c (rule_refs g y) -> P t a ->
              P t (determine g f c a) /\ is_match (types (determine g f c a) c) = is_match (K c) /\
              inh (determine g f c a) y = inh a y).
    { intros t c a Hc [[QI [Q1 [QD QU]]] [QR QT]].
      destruct (IH c a A' ltac:(lia) QI Q1 (HAnc c Hc) QD) as [RI [R1 [RD RR]]].
      destruct (determine_frozen g f c a y QR) as [FR [FT FI]].
      split; [|split; [|exact FI]].
      - split; [|split; [exact FR | rewrite FT; exact QT]].
        split; [exact RI|]. split; [exact R1|]. split; [exact RD|].
        assert (M := unres_mono g a _ (proj1 (determine_Big g f c a))). lia.
      - destruct (RD c RR) as [L|[D1 _]]; [|rewrite D1; reflexivity].
        (* c is in A': then it is a match rule, and so it is read *)
        assert (Kc : K c = KMatch).
        { destruct (K c) eqn:Kc; [reflexivity | destruct (proj2 (HAnc c Hc) Kc c L) as [_ Bad]; lia|].
          apply K_common in Kc. rewrite (proj1 (HAnc c Hc) c L) in Kc. discriminate. }
        rewrite Kc, (Inv_match _ c RI Kc). reflexivity. }
    assert (Hadd : forall t c a, P t a -> P t (set_inh y (inh a y ++ [c]) a)).
    { intros t c a [Q [R T]]. split; [apply Pre_set_inh; assumption | split; assumption]. }
    assert (HP0' : P KMatch s0) by (split; [exact HP0 | split; assumption]).
    assert (Habs : forall s1, P KMatch s1 -> (exists w, In w (rule_refs g y) /\ is_match (types s1 w) = false) ->
                     P KAbstract (set_type y KAbstract s1)).
    { intros s1 [Q [R T]] Hw. split; [|split; [exact R | simpl; apply upd_same]].
      apply Pre_set_type; auto. apply Big_set_abstract; [exact Hat | exact Hlt | rewrite T; discriminate | exact Hw]. }
    destruct (r_body (rule_of g y)) as [t|e] eqn:Hb.
    + (* alias *)
      assert (Ht : In t (rule_refs g y)) by (unfold rule_refs; rewrite Hb; simpl; auto).
      cbv zeta. destruct (Hacc KMatch t s0 Ht HP0') as [Q [Acc I1]]. rewrite Iy0 in I1.
      generalize dependent (determine g f t s0). intros s1 Q Acc I1.
      rewrite Acc, (proj2 (proj2 Q)). simpl. rewrite andb_true_r.
      destruct (is_match (K t)) eqn:Kt; simpl.
      * apply Fin; [exact (proj1 Q)|].
        assert (Ky : K y = KMatch).
        { destruct (K y) eqn:Ky; [reflexivity | | congruence]. destruct (K_abstract_has y Ky) as [_ [c [Hc Hn]]].
          unfold rule_refs in Hc. rewrite Hb in Hc. destruct Hc as [<-|[]]. apply is_match_true in Kt. congruence. }
        split; [rewrite Ky; exact (proj2 (proj2 Q)) | intro C; congruence].
      * assert (Q2 := Habs s1 Q (ex_intro _ t (conj Ht Acc))).
        assert (Q3 := Hadd KAbstract t _ Q2). simpl in Q3 |- *. rewrite I1 in Q3 |- *.
        apply Fin; [exact (proj1 Q3)|].
        assert (Ky : K y = KAbstract) by (apply (K_parent y t Hat Ht); apply is_match_false; exact Kt).
        split; simpl; rewrite upd_same; [congruence|]. intros _. unfold recorded. rewrite Hb, Kt. reflexivity.
    + (* own body *)
      assert (Hrr : forall c, In c (refs e) -> In c (rule_refs g y)) by (unfold rule_refs; rewrite Hb; auto).
      destruct (hnm_exact K (P KMatch) (determine g f) (fun c => In c (rule_refs g y)) y (Hacc KMatch) e s0 Hrr HP0') as [Q [Hb1 I1]].
      assert (Htrue := hnm_true (determine g f) e s0). rewrite Iy0 in I1.
      destruct (hnm (determine g f) e s0) as [b s1]. simpl in Q, Hb1, I1, Htrue.
      rewrite (proj2 (proj2 Q)). simpl. rewrite andb_true_r. destruct b.
      * destruct (Htrue eq_refl) as [w [Hw Hwm]].
        assert (Q2 := Habs s1 Q (ex_intro _ w (conj (Hrr w Hw) Hwm))).
        destruct (addr_exact K (P KAbstract) (determine g f) (fun c => In c (rule_refs g y)) y (Hacc KAbstract) (Hadd KAbstract) e _ Hrr Q2)
          as [Q3 [_ I3]].
        simpl in I3. rewrite I1 in I3.
        destruct (addr (determine g f) y e (set_type y KAbstract s1)) as [b3 s3]. simpl in Q3, I3 |- *.
        apply Fin; [exact (proj1 Q3)|].
        assert (Ky : K y = KAbstract).
        { destruct (K y) eqn:Ky; [|reflexivity|congruence]. exfalso. apply (has_nm_of y e Hb); [symmetry; exact Hb1 | exact Ky]. }
        split; [rewrite Ky; exact (proj2 (proj2 Q3))|]. intros _. rewrite I3. unfold recorded. rewrite Hb. reflexivity.
      * apply Fin; [exact (proj1 Q)|].
        assert (Ky : K y = KMatch).
        { destruct (K y) eqn:Ky; [reflexivity | | congruence]. destruct (K_abstract_has y Ky) as [_ [c [Hc Hn]]].
          unfold rule_refs in Hc. rewrite Hb in Hc. simpl in Hc.
          assert (H : has_nm K e = true); [|congruence].
          apply existsb_exists. exists c. split; [exact Hc | apply negb_true_iff, is_match_false; exact Hn]. }
        split; [rewrite Ky; exact (proj2 (proj2 Q)) | intro C; congruence].
Qed.

Lemma first_pass_done : forall z, done (run_pass g init) z.
Proof.
  assert (F : forall l s, Inv g s -> P1 s -> DA (fun _ => false) s ->
                DA (fun _ => false) (fold_left (step g) l s)).
  { induction l as [|x l IH]; intros s HI H1 HD; [exact HD|]. simpl.
    assert (Hu : unres g s < S n) by (apply Nat.lt_succ_r, count_bound).
    assert (HA : AncR (fun _ => false) x) by (split; [intros a C; discriminate | intros _ a C; discriminate]).
    destruct (first_pass_call (S n) x s (fun _ => false) Hu HI H1 HA HD) as [A [B [C _]]].
    apply IH; assumption. }
  intro z. rewrite run_pass_eq. destruct (Nat.lt_ge_cases z n) as [L|G].
  - destruct (F (seq 0 n) (reset init) (Inv_init g)) with (z := z) as [C|D]; [| |apply fold_resolved, in_seq; unfold n in L; lia|discriminate|exact D].
    + intros x _. split; reflexivity.
    + intros x Hx. discriminate.
  - split; [|intro C; rewrite (K_overflow z G) in C; discriminate]. rewrite (K_overflow z G).
    apply Inv_match; [apply (proj2 (fold_Big g (seq 0 n) (reset init))), Inv_init | apply K_overflow; exact G].
Qed.

(* once every kind is final nothing is recorded any more *)
Definition NI (a b : st) : Prop :=
  (Inv g a /\ forall z, types a z = K z) ->
  (Inv g b /\ (forall z, types b z = K z) /\ forall z, inh b z = inh a z).

Lemma NI_refl a : NI a a.
Proof. intros [H1 H2]. auto. Qed.
Lemma NI_trans a b c : NI a b -> NI b c -> NI a c.
Proof.
  intros F1 F2 H. destruct (F1 H) as [I1 [T1 E1]]. destruct (F2 (conj I1 T1)) as [I2 [T2 E2]].
  split; [exact I2|]. split; [exact T2|]. intro z. rewrite E2. apply E1.
Qed.

Lemma determine_NI : forall f x s, NI s (determine g f x s).
Proof.
  induction f as [|f IH]; intros x s; [intros [H1 H2]; split; [intro z; apply (H1 z) | split; auto]|].
  rewrite determine_S. destruct (resolved s x) eqn:Hres; [apply NI_refl|].
  apply (NI_trans s (mark x s)); [intros [H1 H2]; split; [intro z; apply (H1 z) | split; auto]|].
  generalize (mark x s) as s0. intro s0. unfold det_body.
  destruct (r_attrs (rule_of g x)) eqn:Hat.
  - intros [H1 H2]. assert (E : types s0 x = KCommon) by (rewrite H2; apply K_common; exact Hat).
    rewrite E. simpl. split; [exact H1 | split; auto].
  - (* a non-match reference is read: x is abstract already, nothing is written *)
    assert (Stay : forall s1 w, In w (rule_refs g x) -> Inv g s1 -> (forall z, types s1 z = K z) ->
                     is_match (types s1 w) = false -> kind_eqb (types s1 x) KAbstract = true).
    { intros s1 w Hw H1 H2 Hm. apply kind_eqb_eq. rewrite H2. apply (K_parent x w Hat Hw).
      rewrite <- H2. apply is_match_false. exact Hm. }
    destruct (r_body (rule_of g x)) as [t|e] eqn:Hb.
    + cbv zeta. apply (NI_trans s0 (determine g f t s0)); [apply IH|]. generalize (determine g f t s0) as s1. intro s1.
      intros [H1 H2]. destruct (is_match (types s1 t)) eqn:Mt; simpl; [split; [exact H1 | split; auto]|].
      rewrite (Stay s1 t ltac:(unfold rule_refs; rewrite Hb; simpl; auto) H1 H2 Mt). simpl. split; [exact H1 | split; auto].
    + assert (Hn := hnm_R NI NI_refl NI_trans (determine g f) IH e s0).
      assert (Htrue := hnm_true (determine g f) e s0).
      destruct (hnm (determine g f) e s0) as [b s1]. simpl in Hn, Htrue.
      apply (NI_trans s0 s1); [exact Hn|]. intros [H1 H2]. destruct b; simpl; [|split; [exact H1 | split; auto]].
      destruct (Htrue eq_refl) as [w [Hw Hwm]].
      rewrite (Stay s1 w ltac:(unfold rule_refs; rewrite Hb; simpl; exact Hw) H1 H2 Hwm). simpl. split; [exact H1 | split; auto].
Qed.

Lemma pass_done a : Inv g a -> (forall z, done a z) -> Inv g (run_pass g a) /\ forall z, done (run_pass g a) z.
Proof.
  intros HI HD. rewrite run_pass_eq.
  assert (F := fold_rel g NI NI_refl NI_trans (fun s x => determine_NI (S n) x s) (seq 0 n) (reset a)).
  destruct (F (conj (Inv_reset g a HI) (fun z => proj1 (HD z)))) as [I1 [T1 E1]]. split; [exact I1|].
  intro z. split; [apply T1 | rewrite E1; apply (HD z)].
Qed.

Lemma loop_done : forall k a s, Inv g a -> (forall z, done (run_pass g a) z) -> loop g k a = Some s ->
  forall z, done s z.
Proof.
  induction k as [|k IH]; intros a s HI HD HL; [discriminate|]. simpl in HL.
  destruct (oof (run_pass g a)); [discriminate|]. destruct (changed (run_pass g a)).
  - assert (HI1 : Inv g (run_pass g a)).
    { rewrite run_pass_eq. apply (proj2 (fold_Big g (seq 0 n) (reset a))). apply Inv_reset. exact HI. }
    apply (IH (run_pass g a) s HI1); [apply (pass_done _ HI1 HD) | exact HL].
  - inversion HL. subst. exact HD.
Qed.

Theorem inh_exact s : determine_types g = Some s -> forall z, done s z.
Proof. apply (loop_done _ _ _ (Inv_init g) first_pass_done). Qed.
End Rec.

(* _tx_inh_by = recorded; isinstance = its closure *)
Lemma final_kinds g s : determine_types g = Some s -> forall x, kind_spec g x (types s x).
Proof. intro Hs. destruct (kinds_correct g) as [s0 [E [H _]]]. rewrite Hs in E. inversion E. subst. exact H. Qed.

Theorem tx_inh_by_recorded (g : list rule) (rank : nat -> nat) (s : st) :
  determine_types g = Some s -> acyclic_abstract g (types s) rank ->
  forall x, types s x = KAbstract -> inh s x = recorded g (types s) x.
Proof.
  intros Hs Hac x Hx. apply (inh_exact g (types s) (final_kinds g s Hs) rank Hac s Hs x). exact Hx.
Qed.

Theorem isinstance_exact (g : list rule) (rank : nat -> nat) (s : st) :
  determine_types g = Some s -> acyclic_abstract g (types s) rank ->
  forall r k, isinstance (length g) (inh s) k (Some r) = Some true <-> recorded_reach g (types s) r k.
Proof.
  intros Hs Hac r k.
  assert (HR := tx_inh_by_recorded g rank s Hs Hac).
  destruct (kinds_correct g) as [s1 [E1 [_ H2]]]. rewrite Hs in E1. inversion E1. subst s1.
  assert (Iff : ireach (inh s) r k <-> recorded_reach g (types s) r k).
  { split; intro H.
    - induction H as [x | x y z Hy _ IH]; [apply rreach_refl|].
      destruct (H2 x y Hy) as [Tx _]. apply (rreach_step g (types s) x y z Tx); [rewrite <- (HR x Tx); exact Hy | exact IH].
    - induction H as [x | x y z Tx Hy _ IH]; [apply ireach_refl|].
      apply (ireach_step (inh s) x y z); [rewrite (HR x Tx); exact Hy | exact IH]. }
  destruct (isinstance_correct g) as [s0 [E H]]. rewrite Hs in E. inversion E. subst s0.
  destruct (H k r) as [b [Hb [Hiff _]]]. rewrite Hb. split.
  - intro Hq. inversion Hq. subst b. apply Iff. apply Hiff. reflexivity.
  - intro Hq. f_equal. apply Hiff. apply Iff. exact Hq.
Qed.

(* the completeness half of the isinstance characterisation *)
Theorem isinstance_complete (g : list rule) (rank : nat -> nat) (s : st) :
  determine_types g = Some s -> wf_inh g (types s) rank ->
  forall r k, yields g (types s) r k -> isinstance (length g) (inh s) k (Some r) = Some true.
Proof.
  intros Hs [Hac Hok] r k Hy. apply (isinstance_exact g rank s Hs Hac). apply (yields_recorded g (types s) Hok). exact Hy.
Qed.

(* when, in addition, the first non-match references of every abstract rule are all its non-match
   references, the two bounds meet *)
Definition tight (g : list rule) (K : nat -> kind) : Prop :=
  forall x c, K x = KAbstract -> In c (rule_refs g x) -> K c <> KMatch -> In c (rule_firsts g K x).

Lemma reach_yields g K : tight g K -> forall r k, reach g K r k -> yields g K r k.
Proof.
  intros Ht r k H. induction H as [x | x y z Kx Hy Ky _ IH]; [apply yields_refl|].
  apply (yields_step g K x y z Kx); [apply Ht; assumption | exact IH].
Qed.

Theorem isinstance_iff (g : list rule) (rank : nat -> nat) (s : st) :
  determine_types g = Some s -> wf_inh g (types s) rank -> tight g (types s) ->
  forall r k, isinstance (length g) (inh s) k (Some r) = Some true <-> yields g (types s) r k.
Proof.
  intros Hs Hwf Ht r k. split.
  - intro H. apply (reach_yields g (types s) Ht).
    destruct (isinstance_correct g) as [s0 [E H0]]. rewrite Hs in E. inversion E. subst s0.
    destruct (H0 k r) as [b [Hb [_ Hr]]]. rewrite Hb in H. inversion H. subst b. apply Hr. reflexivity.
  - apply (isinstance_complete g rank s Hs Hwf).
Qed.

