(* metamodel_export_tofile (Model/ExportMeta.v): which classes get a node statement / class declaration, how
   often, that links and specialisation edges only join declared classes, and that exactly two lines of a PlantUML
   document start with '@'. *)
From Coq Require Import String.
From TxV Require Import Core.Base Model.ExportDefs Gen.SrcExport Model.Export Model.ExportWalk Model.ExportMeta
  Proofs.ExportProofs.

Lemma In_combine_seq {X : Type} (l : list X) : forall s k c,
  In (k, c) (combine (seq s (length l)) l) <-> exists i, k = s + i /\ nth_error l i = Some c.
Proof.
  induction l as [|x l IH]; intros s k c; cbn [length seq combine In].
  - split; [intros [] | intros [[|i] [_ H]]; discriminate].
  - rewrite IH. split.
    + intros [E|[i [-> H]]].
      * injection E as <- <-. exists 0. split; [apply plus_n_O | reflexivity].
      * exists (S i). split; [apply plus_n_Sm | exact H].
    + intros [[|i] [-> H]].
      * left. injection H as ->. rewrite <- plus_n_O. reflexivity.
      * right. exists i. split; [symmetry; apply plus_n_Sm | exact H].
Qed.

Lemma In_indexed {X : Type} (l : list X) k c : In (k, c) (indexed l) <-> nth_error l k = Some c.
Proof.
  unfold indexed. rewrite In_combine_seq. split; [intros [i [-> H]]; exact H | intro H; exists k; auto].
Qed.

Lemma map_fst_combine_seq {X : Type} (l : list X) s : map fst (combine (seq s (length l)) l) = seq s (length l).
Proof.
  revert s; induction l as [|x l IH]; intro s; [reflexivity|].
  cbn [length seq combine map fst]. rewrite IH. reflexivity.
Qed.

Section MetaProofs.
  Variable cl : list mcls.
  Variable R : renderer.
  Notation first_part := (first_part cl R).
  Notation second_part := (second_part cl R).
  Notation stmts := (mm_stmts cl R).

  Lemma mnode_ids_app a b : mnode_ids (a ++ b) = mnode_ids a ++ mnode_ids b.
  Proof. unfold mnode_ids. apply flat_map_app. Qed.

  Lemma in_mnode_ids k l : In k (mnode_ids l) <-> exists t, In (MNode k, t) l.
  Proof.
    unfold mnode_ids. rewrite in_flat_map. split.
    - intros [[[j| |] t] [Hin H]]; cbn in H; try contradiction. destruct H as [<-|[]]. exists t. exact Hin.
    - intros [t H]. exists (MNode k, t). split; [exact H | left; reflexivity].
  Qed.

  Lemma in_medges a b l : In (a, b) (medges l) <-> exists t, In (MEdge a b, t) l.
  Proof.
    unfold medges. rewrite in_flat_map. split.
    - intros [[[|a' b'|] t] [Hin H]]; cbn in H; try contradiction. destruct H as [[= <- <-]|[]]. exists t. exact Hin.
    - intros [t H]. exists (MEdge a b, t). split; [exact H | left; reflexivity].
  Qed.

  (* the first loop writes the statement of every class that has one, and nothing else *)
  Lemma in_first s : In s first_part <->
    exists k c, nth_error cl k = Some c /\ has_node c = true /\ s = (MNode k, r_class R cl k c).
  Proof.
    unfold ExportMeta.first_part, has_node, class_stmt. rewrite in_flat_map. split.
    - intros [[k c] [Hin H]]. apply In_indexed in Hin. cbn [fst snd] in H.
      destruct (in_classes c && negb (named_builtin c)) eqn:E1; [|contradiction].
      destruct (is_match c) eqn:E2; [contradiction|]. destruct H as [<-|[]]. exists k, c. rewrite E1, E2. auto.
    - intros [k [c [Hn [Hh ->]]]]. exists (k, c). split; [apply In_indexed, Hn|]. cbn [fst snd].
      apply andb_true_iff in Hh as [-> Hm]. apply negb_true_iff in Hm. rewrite Hm. left. reflexivity.
  Qed.

  Lemma first_ids : mnode_ids first_part = map fst (filter (fun kc => has_node (snd kc)) (indexed cl)).
  Proof.
    unfold ExportMeta.first_part. induction (indexed cl) as [|[k c] l IH]; [reflexivity|].
    cbn [flat_map filter fst snd]. rewrite mnode_ids_app, IH. unfold has_node, class_stmt.
    destruct (in_classes c && negb (named_builtin c)); [|reflexivity]. destruct (is_match c); reflexivity.
  Qed.

  (* what the second loop writes for an exported class k: a link for an attribute whose type is a class of its own,
     the statement of an attribute type outside the exported list (OBJECT), a specialisation edge *)
  Inductive of_second : mstmt -> Prop :=
  | S_link k c a t : nth_error cl k = Some c -> in_classes c = true -> In a (mc_attrs c) ->
      nth_error cl (ma_cls a) = Some t -> is_link a t = true -> of_second (MEdge k (ma_cls a), r_link R cl k c a t)
  | S_outside k c a t : nth_error cl k = Some c -> In a (mc_attrs c) ->
      nth_error cl (ma_cls a) = Some t -> in_classes t = false -> is_match t = false ->
      of_second (MNode (ma_cls a), r_class R cl (ma_cls a) t)
  | S_inh k c j t : nth_error cl k = Some c -> in_classes c = true -> In j (mc_inh c) ->
      nth_error cl j = Some t -> of_second (MEdge k j, r_inh R k c j t).

  Lemma in_second s : In s second_part -> of_second s.
  Proof.
    unfold ExportMeta.second_part. intro H. apply in_flat_map in H as [[k c] [Hin H]]. apply In_indexed in Hin. cbn [fst snd] in H.
    destruct (in_classes c) eqn:Hi; [|contradiction]. apply in_app_or in H as [H|H].
    - apply in_flat_map in H as [a [Ha H]]. unfold attr_stmts in H.
      destruct (nth_error cl (ma_cls a)) as [t|] eqn:Et; [|contradiction]. apply in_app_or in H as [H|H].
      + destruct (is_link a t) eqn:El; [|contradiction]. destruct H as [<-|[]]. apply S_link; assumption.
      + destruct (in_classes t) eqn:It; [contradiction|]. unfold class_stmt in H.
        destruct (is_match t) eqn:Mt; [contradiction|]. destruct H as [<-|[]]. apply (S_outside k c a t); assumption.
    - unfold inh_stmts in H. apply in_flat_map in H as [j [Hj H]].
      destruct (nth_error cl j) as [t|] eqn:Et; [|contradiction]. destruct H as [<-|[]]. apply S_inh; assumption.
  Qed.

  Lemma in_stmts s : In s stmts -> In s first_part \/ s = (MOther, nl ++ nl) \/ of_second s.
  Proof.
    unfold mm_stmts. intro H. apply in_app_or in H as [H|[<-|H]]; [left; exact H | right; left; reflexivity|].
    right. right. apply in_second, H.
  Qed.

  Theorem mm_node_once k c : nth_error cl k = Some c -> has_node c = true ->
    count_occ Nat.eq_dec (mnode_ids stmts) k = 1.
  Proof.
    intros Hn Hh. unfold mm_stmts. rewrite !mnode_ids_app, !count_occ_app.
    assert (H1 : count_occ Nat.eq_dec (mnode_ids first_part) k = 1).
    { assert (Hnd : NoDup (mnode_ids first_part)).
      { rewrite first_ids. apply NoDup_map_filter. unfold indexed. rewrite map_fst_combine_seq. apply seq_NoDup. }
      pose proof (proj1 (NoDup_count_occ Nat.eq_dec _) Hnd k) as Hle.
      assert (Hin : In k (mnode_ids first_part)) by (apply in_mnode_ids; eexists; apply in_first; eauto).
      apply (count_occ_In Nat.eq_dec) in Hin. lia. }
    assert (H2 : count_occ Nat.eq_dec (mnode_ids second_part) k = 0).
    { apply count_occ_not_In. intro Hin. apply in_mnode_ids in Hin as [t Hin]. apply in_second in Hin.
      inversion Hin as [| k' c' a t' _ _ Ht Hi _ |]; subst. rewrite Hn in Ht. injection Ht as <-.
      unfold has_node in Hh. rewrite Hi in Hh. discriminate. }
    rewrite H1, H2. reflexivity.
  Qed.

  Theorem mm_node_only k : In k (mnode_ids stmts) ->
    exists c, nth_error cl k = Some c /\ is_match c = false /\ (has_node c = true \/ in_classes c = false).
  Proof.
    intro H. apply in_mnode_ids in H as [t H]. apply in_stmts in H as [H|[H|H]]; [|discriminate|].
    - apply in_first in H as [k' [c [Hn [Hh [= <- _]]]]]. exists c. split; [exact Hn|]. split; [|left; exact Hh].
      unfold has_node in Hh. apply andb_true_iff in Hh as [_ Hm]. apply negb_true_iff, Hm.
    - inversion H; subst. eauto.
  Qed.

  (* the text of a tagged statement is the renderer's text for that class *)
  Theorem mm_node_text k t : In (MNode k, t) stmts -> exists c, nth_error cl k = Some c /\ t = r_class R cl k c.
  Proof.
    intro H. apply in_stmts in H as [H|[H|H]]; [|discriminate|].
    - apply in_first in H as [k' [c [Hn [_ [= <- ->]]]]]. eauto.
    - inversion H; subst. eauto.
  Qed.

  Lemma wf_at k c : wf_mm cl = true -> nth_error cl k = Some c -> in_classes c = true ->
    (forall a t, In a (mc_attrs c) -> nth_error cl (ma_cls a) = Some t -> is_link a t = true -> has_node c = true /\ has_node t = true)
    /\ (forall j t, In j (mc_inh c) -> nth_error cl j = Some t -> has_node c = true /\ has_node t = true).
  Proof.
    intros Hwf Hn Hi. unfold wf_mm in Hwf. rewrite forallb_forall in Hwf.
    specialize (Hwf (k, c) (proj2 (In_indexed cl k c) Hn)). cbn [snd] in Hwf. rewrite Hi in Hwf.
    apply andb_true_iff in Hwf as [Ha Hj]. rewrite forallb_forall in Ha, Hj. split.
    - intros a t Hin Ht Hl. specialize (Ha a Hin). rewrite Ht, Hl in Ha. apply andb_true_iff in Ha. exact Ha.
    - intros j t Hin Ht. specialize (Hj j Hin). rewrite Ht in Hj. apply andb_true_iff in Hj. exact Hj.
  Qed.

  Theorem mm_edges_declared : wf_mm cl = true -> forall a b, In (a, b) (medges stmts) ->
    In a (mnode_ids stmts) /\ In b (mnode_ids stmts).
  Proof.
    intros Hwf a b H.
    assert (Hdecl : forall k c, nth_error cl k = Some c -> has_node c = true -> In k (mnode_ids stmts)).
    { intros k c Hn Hh. apply in_mnode_ids. eexists. unfold mm_stmts. apply in_or_app. left. apply in_first. eauto. }
    apply in_medges in H as [t H]. apply in_stmts in H as [H|[H|H]]; [|discriminate|].
    - apply in_first in H as [k [c [_ [_ H]]]]. discriminate.
    - inversion H as [k c at0 t0 Hn Hi Hat Ht Hl | | k c j t0 Hn Hi Hj Ht]; subst.
      + destruct (proj1 (wf_at a c Hwf Hn Hi) at0 t0 Hat Ht Hl). eauto.
      + destruct (proj2 (wf_at a c Hwf Hn Hi) b t0 Hj Ht). eauto.
  Qed.
End MetaProofs.

Lemma pu_doc_shape cl lt rows :
  mm_pu_doc cl lt rows = pu_start ++ (pu_header_rest lt ++ flat_map snd (mm_stmts cl pu_renderer) ++ pu_legend rows) ++ pu_end.
Proof. unfold mm_pu_doc, mm_doc, pu_header, pu_trailer. repeat rewrite <- app_assoc. reflexivity. Qed.

Definition noat (u : list N) : bool := forallb (fun c => negb (N.eqb c 64)) u.
Definition nonl (u : list N) : bool := forallb (fun c => negb (N.eqb c 10)) u.

Lemma noat_app u v : noat (u ++ v) = noat u && noat v.
Proof. apply forallb_app. Qed.
Lemma nonl_app u v : nonl (u ++ v) = nonl u && nonl v.
Proof. apply forallb_app. Qed.

Lemma at_noat u : noat u = true -> forall b, at_lines b u = 0.
Proof.
  induction u as [|c u IH]; intros H b; [reflexivity|].
  cbn [noat forallb] in H. apply andb_true_iff in H as [Hc Hu]. apply negb_true_iff in Hc.
  cbn [at_lines]. rewrite Hc, andb_false_r. cbn. apply IH, Hu.
Qed.

Lemma at_app u : forall b v, at_lines b (u ++ v) = at_lines b u + at_lines (eol b u) v.
Proof.
  induction u as [|c u IH]; intros b v; [reflexivity|].
  cbn [app at_lines eol]. rewrite IH. lia.
Qed.

Lemma eol_app u : forall b v, eol b (u ++ v) = eol (eol b u) v.
Proof. induction u as [|c u IH]; intros b v; [reflexivity|]. cbn [app eol]. apply IH. Qed.

Lemma at_nonl u : nonl u = true -> forall v, at_lines false (u ++ v) = at_lines false v.
Proof.
  induction u as [|c u IH]; intros H v; [reflexivity|].
  cbn [nonl forallb] in H. apply andb_true_iff in H as [Hc Hu]. apply negb_true_iff in Hc.
  cbn [app at_lines]. rewrite Hc. cbn. apply IH, Hu.
Qed.

Lemma plain_noat u : forallb plain_char u = true -> noat u = true.
Proof. apply forallb_impl. intros c Hc. rewrite (plain_not 64 eq_refl c Hc). reflexivity. Qed.
Lemma plain_nonl u : forallb plain_char u = true -> nonl u = true.
Proof. apply forallb_impl. intros c Hc. rewrite (plain_not 10 eq_refl c Hc). reflexivity. Qed.
Lemma word_noat u : forallb word_char u = true -> noat u = true.
Proof. intro H. apply plain_noat. eapply forallb_impl; [apply word_plain | exact H]. Qed.
Lemma word_nonl u : forallb word_char u = true -> nonl u = true.
Proof. intro H. apply plain_nonl. eapply forallb_impl; [apply word_plain | exact H]. Qed.

Lemma noat_flat_map {X : Type} (f : X -> list N) (l : list X) :
  (forall x, In x l -> noat (f x) = true) -> noat (flat_map f l) = true.
Proof.
  induction l as [|x l IH]; intro H; [reflexivity|].
  cbn [flat_map]. rewrite noat_app, (H x (or_introl eq_refl)). apply IH. intros y Hy. apply H. right. exact Hy.
Qed.

Lemma chain_nonl_all chain : chain_nonl chain = true -> forall s, nonl (apply_chain chain s) = true.
Proof.
  intros Hs s. rewrite apply_chain_flat. induction s as [|x s IH]; [reflexivity|].
  cbn [flat_map]. rewrite nonl_app, IH, andb_true_r. apply (esc1_all chain nonl [10%N] Hs).
  intros y Hy. cbn. rewrite (notin_eqb y 10%N _ Hy) by (left; reflexivity). reflexivity.
Qed.

Lemma escape_chain_nonl : chain_nonl escape_chain = true.
Proof. vm_compute. reflexivity. Qed.

Lemma dot_escape_nonl s : nonl (dot_escape s) = true.
Proof. apply chain_nonl_all, escape_chain_nonl. Qed.

(* Whole lines none of which starts with '@': what may stand between two lines without being counted. *)
Definition quiet (u : list N) : Prop := forall v, at_lines true (u ++ v) = at_lines true v.

Lemma quiet_app u v : quiet u -> quiet v -> quiet (u ++ v).
Proof. intros Hu Hv w. rewrite <- app_assoc, Hu. apply Hv. Qed.

Lemma quiet_flat_map {X : Type} (f : X -> list N) (l : list X) : (forall x, In x l -> quiet (f x)) -> quiet (flat_map f l).
Proof.
  induction l as [|x l IH]; intro H; [intro v; reflexivity|].
  cbn [flat_map]. apply quiet_app; [apply H; left; reflexivity | apply IH; intros y Hy; apply H; right; exact Hy].
Qed.

(* complete lines without any '@'; shown of a text piece by piece, from its last newline backwards *)
Definition lines (u : list N) : Prop := noat u = true /\ forall b, eol b u = true.

Lemma lines_nl : lines nl.
Proof. split; [reflexivity | intro b; reflexivity]. Qed.

Lemma lines_cons a v : noat a = true -> lines v -> lines (a ++ v).
Proof. intros Ha [Hv Ev]. split; [rewrite noat_app, Ha; exact Hv | intro b; rewrite eol_app; apply Ev]. Qed.

Lemma lines_quiet u : lines u -> quiet u.
Proof. intros [Hu Eu] v. rewrite at_app, (at_noat _ Hu), Eu. reflexivity. Qed.

Lemma quiet_line u v : noat u = true -> quiet v -> quiet (u ++ nl ++ v).
Proof.
  intros Hu Hv. rewrite app_assoc. apply quiet_app; [|exact Hv]. apply lines_quiet, lines_cons, lines_nl. exact Hu.
Qed.

Lemma noat_cat u v : noat u = true -> noat v = true -> noat (u ++ v) = true.
Proof. intros Hu Hv. rewrite noat_app, Hu. exact Hv. Qed.

Section Count.
  Variable cl : list mcls.
  Hypothesis Hn : names_ok cl = true.

  Lemma names_of c : In c cl ->
    forallb word_char (mc_name c) = true /\ forallb word_char (mc_fqn c) = true
    /\ forall a, In a (mc_attrs c) -> forallb word_char (ma_name a) = true.
  Proof.
    intro Hc. unfold names_ok in Hn. rewrite forallb_forall in Hn. specialize (Hn c Hc).
    apply andb_true_iff in Hn as [H12 H3]. apply andb_true_iff in H12 as [H1 H2].
    rewrite forallb_forall in H3. auto.
  Qed.

  Lemma fqn_noat c : In c cl -> noat (mc_fqn c) = true.
  Proof. intro Hc. apply word_noat, (names_of c Hc). Qed.

  Lemma attr_type_noat a : noat (attr_type cl a) = true.
  Proof.
    assert (H : noat (cls_name cl (ma_cls a)) = true).
    { unfold cls_name. destruct (nth_error cl (ma_cls a)) as [t|] eqn:E; [|reflexivity].
      apply word_noat, (names_of t (nth_error_In cl _ E)). }
    unfold attr_type. destruct (mult_list (ma_mult a)); [|exact H]. repeat apply noat_cat; try reflexivity. exact H.
  Qed.

  Lemma pu_attr_line_noat c a : In c cl -> In a (mc_attrs c) -> noat (pu_attr_line cl a) = true.
  Proof.
    intros Hc Ha. unfold pu_attr_line. destruct (plain_attr cl a); [|reflexivity].
    repeat apply noat_cat; try reflexivity.
    - apply word_noat, (names_of c Hc), Ha.
    - destruct (mult_required (ma_mult a)); repeat apply noat_cat; try reflexivity; apply attr_type_noat.
  Qed.

  Lemma pu_class_lines k c : In c cl -> lines (pu_class cl k c).
  Proof.
    intro Hc. unfold pu_class. repeat apply lines_cons; try apply lines_nl; try reflexivity.
    - apply fqn_noat, Hc.
    - destruct (mc_typ c); reflexivity.
    - destruct (mc_typ c); try reflexivity. apply noat_flat_map. intros a Ha. apply (pu_attr_line_noat c a Hc Ha).
  Qed.

  Lemma pu_link_lines k c a t : In c cl -> In a (mc_attrs c) -> In t cl -> lines (pu_link cl k c a t).
  Proof.
    intros Hc Ha Ht. unfold pu_link. repeat apply lines_cons; try apply lines_nl; try reflexivity.
    - apply fqn_noat, Hc.
    - destruct (ma_cont a); reflexivity.
    - destruct (ma_mult a); reflexivity.
    - apply fqn_noat, Ht.
    - apply word_noat, (names_of c Hc), Ha.
  Qed.

  Lemma pu_inh_lines k c j t : In c cl -> In t cl -> lines (pu_inh k c j t).
  Proof.
    intros Hc Ht. unfold pu_inh. repeat apply lines_cons; try apply lines_nl; try reflexivity; apply fqn_noat; assumption.
  Qed.

  Lemma stmt_lines s : In s (mm_stmts cl pu_renderer) -> lines (snd s).
  Proof.
    intro H. apply in_stmts in H as [H|[->|H]].
    - apply in_first in H as [k [c [Hc [_ ->]]]]. apply pu_class_lines, (nth_error_In cl k Hc).
    - apply (lines_cons nl nl eq_refl lines_nl).
    - destruct H as [k c a t Hc _ Ha Ht _ | k c a t _ _ Ht _ _ | k c j t Hc _ _ Ht]; cbn [snd r_link r_class r_inh pu_renderer].
      + apply pu_link_lines; eauto using nth_error_In.
      + apply pu_class_lines, (nth_error_In cl _ Ht).
      + apply pu_inh_lines; eauto using nth_error_In.
  Qed.
End Count.

(* a legend row starts with a space; the rule text it quotes may hold '@' but no newline *)
Lemma quiet_row r : forallb word_char (fst r) = true ->
  quiet (codes "  | " ++ fst r ++ codes " | " ++ dot_escape (snd r) ++ codes " |" ++ nl).
Proof.
  intros Hr v. rewrite <- !app_assoc. change (codes "  | ") with [32; 32; 124; 32]%N. cbn [app at_lines].
  rewrite andb_false_r. cbn [N.eqb Pos.eqb Nat.add].
  rewrite (at_nonl _ (word_nonl _ Hr)), (at_nonl (codes " | ") eq_refl), (at_nonl _ (dot_escape_nonl _)), (at_nonl (codes " |") eq_refl).
  reflexivity.
Qed.

Theorem pu_at_lines cl lt rows : names_ok cl = true -> rows_ok rows = true -> linetype_ok lt = true ->
  at_lines true (mm_pu_doc cl lt rows) = 2.
Proof.
  intros Hn Hr Hl. rewrite pu_doc_shape, at_app.
  change (at_lines true pu_start) with 1. change (eol true pu_start) with true.
  assert (Hq : quiet (pu_header_rest lt ++ flat_map snd (mm_stmts cl pu_renderer) ++ pu_legend rows)); [|rewrite Hq; reflexivity].
  apply quiet_app; [|apply quiet_app].
  - apply lines_quiet. unfold pu_header_rest. apply lines_cons; [reflexivity|]. apply (lines_cons nl). reflexivity.
    apply lines_cons; [|exact lines_nl].
    destruct lt as [l|]; [|reflexivity]. apply noat_cat; [reflexivity | apply (plain_noat _ Hl)].
  - apply quiet_flat_map. intros s Hs. apply lines_quiet, (stmt_lines cl Hn s Hs).
  - unfold pu_legend. destruct rows as [|r rows]; [intro v; reflexivity|].
    apply (quiet_line [] _ eq_refl). do 3 (apply quiet_line; [reflexivity|]). apply quiet_app.
    + apply quiet_flat_map. intros r0 Hr0. apply quiet_row. unfold rows_ok in Hr. rewrite forallb_forall in Hr. apply Hr, Hr0.
    + apply quiet_line; [reflexivity|]. apply lines_quiet, lines_nl.
Qed.
