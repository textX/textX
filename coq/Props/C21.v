(* C21 - autokwd matches keyword-like literals only on word boundaries.

   The keyword-likeness test and the construction of the `<literal>\b` regex are translated from
   textx/lang.py (Gen/SrcKw.v); [kw_like] / [kw_match] (Model/Kw.v) transcribe the two regexes
   over an arbitrary classification of word characters and digits.  The parse-level statement
   relates the two parser models textX builds for one grammar (autokwd off / on), as dumped by
   tools/pegdump.py, for EVERY pair of tables, text, oracles, fuel and memoization setting. *)
From TxV Require Import Core.Base Model.PegSyntax Model.Peg Model.Build Model.KwDefs Gen.SrcKw Model.Kw
     Proofs.PegCongr Proofs.PegInv Proofs.KwProofs Proofs.KwInv Proofs.KwBuild Proofs.KwModel Proofs.KwModel2 Proofs.KwWitness Proofs.KwStatements.

(* (0) The facts of the current source are the ones the model transcribes. *)
Theorem C21_source_is_modelled :
  src_kw_pattern = modelled_kw_pattern /\ src_kw_prefix = [] /\ src_kw_suffix = modelled_kw_suffix /\
  src_kw_guard_is_autokwd = true /\ src_kw_full_span = true /\
  src_kw_icase = IcMM /\ src_str_icase = IcMM /\ src_re_icase = IcMM.
Proof. repeat split; reflexivity. Qed.
Print Assumptions C21_source_is_modelled.

(* (1) Detection: with autokwd a literal becomes the regex <literal>\b exactly when it fully matches
   [^\d\W]\w*, i.e. it is non-empty, starts with a word character that is not a digit and
   consists of word characters only; otherwise it stays the StrMatch it is without autokwd. *)
Theorem C21_kw_detect : forall wordc digitc icase t,
  compile_lit wordc digitc true icase t =
    (if kw_like wordc digitc t then TRegex (t ++ [92;98]%N) icase t else TStr t icase) /\
  (kw_like wordc digitc t = true <->
   exists c r, t = c :: r /\ digitc c = false /\ wordc c = true /\ forallb wordc r = true).
Proof.
  exact (fun wordc digitc icase t =>
           conj (compile_lit_kw wordc digitc icase t eq_refl eq_refl) (kw_like_spec wordc digitc t)).
Qed.
Print Assumptions C21_kw_detect.

(* (2) A keyword-like literal never matches when the next character is a word character; in fact it
   matches exactly where the literal matches and the next character is not a word character.
   ([word_ok]: with ignore_case, \w must not depend on case.) *)
Theorem C21_boundary : forall wordc digitc lower icase t input p,
  word_ok wordc lower icase -> kw_like wordc digitc t = true ->
  (word_at wordc input (p + length t) = true -> kw_match wordc lower icase t input p = None) /\
  kw_match wordc lower icase t input p =
    (if (lit_prefix lower icase t (skipn p input) && negb (word_at wordc input (p + length t)))%bool
     then Some (length t) else None).
Proof.
  exact (fun wordc digitc lower icase t input p Hw Hk =>
           conj (kw_boundary wordc digitc lower icase t input p Hw Hk)
                (kw_match_char wordc digitc lower icase t input p Hw Hk)).
Qed.
Print Assumptions C21_boundary.

(* (2') The same at parse level, as an invariant of parse trees.  First the general form: if every
   terminal that a node can produce satisfies a predicate [pt] on (node id, position, length), then
   every terminal of every accepted parse does - for every table, text, oracle, fuel, memoization. *)
Theorem C21_terminal_invariant : forall pt g input orc memo,
  (forall nid nd psq s r s',
      get_node g nid = Some nd -> term_parse input orc nid (n_kind nd) psq s = Ok r s' ->
      res_okb pt r = true) ->
  forall cfg fuel r, run g cfg orc memo fuel input = Parsed r ->
  forall nid p len, In (nid, p, len) (res_terminals r) -> pt nid p len = true.
Proof.
  exact (fun pt g input orc memo Ht cfg fuel r Hrun =>
           res_okb_In pt r (run_ok pt g input orc memo Ht cfg fuel r Hrun)).
Qed.
Print Assumptions C21_terminal_invariant.

(* ... and the instance: [kwt] designates keyword-regex nodes (node id -> literal, ignore_case flag) whose
   oracle is <literal>\b of a keyword-like literal; then in every accepted parse no terminal of a
   designated node is immediately followed by a word character of the text. *)
Theorem C21_boundary_parse : forall wordc digitc lower kwt g cfg orc memo fuel input r,
  (forall a b, lower a = lower b -> wordc a = wordc b) ->
  kw_oracle_spec wordc digitc lower kwt g input orc ->
  run g cfg orc memo fuel input = Parsed r ->
  forall nid p len, In (nid, p, len) (res_terminals r) -> kwt nid <> None ->
                    word_at wordc input (p + len) = false.
Proof.
  intros wordc digitc lower kwt g cfg orc memo fuel input r Hwl Hspec Hrun nid p len Hin Hk.
  pose proof (res_okb_In _ r (run_ok _ g input orc memo (kw_term_ok wordc digitc lower kwt g input orc Hwl Hspec)
                                     cfg fuel r Hrun) nid p len Hin) as Hp.
  unfold kw_pt in Hp. destruct (kwt nid); [apply negb_true_iff, Hp | congruence].
Qed.
Print Assumptions C21_boundary_parse.

Example C21_boundary_parse_nonvacuous :
  kw_oracle_spec ascii_word ascii_digit ascii_lower kwt_in g_in_kw in_in1 (orc_of tbl_in1_kw) /\
  exists r, run g_in_kw cfg_default (orc_of tbl_in1_kw) false 50 in_in1 = Parsed r /\
            In (4, 0, 2) (res_terminals r) /\ word_at ascii_word in_in1 (0 + 2) = false.
Proof.
  split.
  - intros nid t ic H. unfold kwt_in in H. destruct (Nat.eqb_spec nid 4) as [->|]; [|discriminate].
    injection H as <- <-. eexists. exists 0. split; [reflexivity|]. split; [reflexivity|]. split; [reflexivity|].
    apply (expected_row_sound _ in_in1); [|vm_compute; reflexivity].
    intros p Hp. unfold kw_match. rewrite lit_prefix_beyond; [reflexivity | discriminate | exact Hp].
  - eexists. split; [vm_compute; reflexivity|]. split; [vm_compute; auto | reflexivity].
Qed.
Print Assumptions C21_boundary_parse_nonvacuous.

(* (3) Literals that do not look like identifiers compile to the same terminal with and without
   autokwd ... *)
Theorem C21_other_literals_identical : forall wordc digitc icase t,
  kw_like wordc digitc t = false ->
  compile_lit wordc digitc true icase t = compile_lit wordc digitc false icase t.
Proof. exact (fun wordc digitc icase t => compile_lit_other wordc digitc icase t eq_refl eq_refl). Qed.
Print Assumptions C21_other_literals_identical.

(* ... and two tables whose non-terminal nodes are identical and whose terminals answer alike
   (a keyword regex answering like the StrMatch it replaces) parse alike: same acceptance, same
   tree up to the Terminal.suppress flag of the replaced StrMatches, same error position. *)
Theorem C21_related_tables_parse_alike : forall g g' cfg orc orc' memo fuel input,
  tables_rel g g' input orc orc' ->
  run g' cfg orc' memo fuel input = foutcome (kw_supf g g') (run g cfg orc memo fuel input).
Proof. exact autokwd_sim. Qed.
Print Assumptions C21_related_tables_parse_alike.

(* (4) Same model: g = the table built without autokwd, g' = with autokwd.  If the tables differ only
   in keyword-like StrMatches of g being RegExMatches in g' whose oracle is <literal>\b
   ([kw_tables_spec], decided per case by [kw_case_ok]) and at no position of the text a
   keyword-like literal of the grammar is immediately followed by a word character, then the
   autokwd parse and the plain parse give the same outcome. *)
Theorem C21_same_model : forall wordc digitc lower g g' cfg orc orc' memo fuel input,
  (forall a b, lower a = lower b -> wordc a = wordc b) ->
  kw_tables_spec wordc digitc lower g g' input orc orc' ->
  no_glued_keyword wordc digitc lower g input ->
  run g' cfg orc' memo fuel input = foutcome (kw_supf g g') (run g cfg orc memo fuel input).
Proof. exact autokwd_same_model. Qed.
Print Assumptions C21_same_model.

(* (4'') The same for the constructed model (Model/Build.v on the dumped metamodel table [mm], which is the
   same for both settings - checked per case on the two mmdumps): if moreover the replaced StrMatches are
   case-sensitive ones (no ignore_case: with it the value of a keyword is the grammar's spelling without and the
   input's spelling with autokwd - the known finding) and rule names / separators agree in the two tables, then
   an input accepted without autokwd is accepted with it and model construction yields the IDENTICAL object
   graph: classes, attributes, values, positions.  (use_regexp_group=False.) *)
Theorem C21_same_model_objects : forall wordc digitc lower g g' cfg orc orc' memo fuel input mm grp grp' auto r,
  (forall a b, lower a = lower b -> wordc a = wordc b) ->
  kw_tables_spec wordc digitc lower g g' input orc orc' ->
  no_glued_keyword wordc digitc lower g input ->
  replaced_are_exact g g' -> meta_same g g' ->
  run g cfg orc memo fuel input = Parsed r ->
  run g' cfg orc' memo fuel input = Parsed (fr (kw_supf g g') r) /\
  build g' mm input grp' auto false (fr (kw_supf g g') r) = build g mm input grp auto false r.
Proof.
  intros wordc digitc lower g g' cfg orc orc' memo fuel input mm grp grp' auto r Hwl Hspec Hglue Hex Hmeta Hrun.
  destruct (autokwd_objects_gen wordc digitc lower (fun c => c) g g' cfg orc orc' memo fuel input mm grp grp' auto false r
              Hwl Hspec Hglue Hmeta) as [H1 H2]; [| discriminate | exact Hrun |].
  - intros nid nd nd' t oid o' En En' Ek Ek'. left. exact (Hex nid nd nd' t oid o' En En' Ek Ek').
  - split; [exact H1 | exact (vbrel_id_eq _ _ H2)].
Qed.
Print Assumptions C21_same_model_objects.

(* (4''') The general form: any use_regexp_group, any ignore_case.  The two object graphs are related by [vrel lower]:
   same classes, attributes, positions, list shapes, errors; a string value is identical unless it is (built from)
   the text of a terminal of a REPLACED keyword literal, where it is the grammar's spelling without autokwd and the
   input's spelling with it - equal up to letter case.  This is the exact extent of the known finding
   icase-keyword-spelling: the per-terminal hypothesis of the underlying simulation uses the up-to-case clause only
   for replaced literals (every other terminal has the identical text in both worlds).
   [kw_no_group]: the keyword regex has no group; [grp_related]: group oracles of regexes present in both tables agree. *)
Theorem C21_model_objects_related : forall wordc digitc lower g g' cfg orc orc' memo fuel input mm grp grp' auto ug r,
  (forall a b, lower a = lower b -> wordc a = wordc b) ->
  kw_tables_spec wordc digitc lower g g' input orc orc' ->
  no_glued_keyword wordc digitc lower g input ->
  meta_same g g' -> kw_rules_not_base g g' ->
  (ug = true -> kw_no_group mm g g' /\ grp_related g g' grp grp') ->
  run g cfg orc memo fuel input = Parsed r ->
  run g' cfg orc' memo fuel input = Parsed (fr (kw_supf g g') r) /\
  vbrel lower (build g mm input grp auto ug r) (build g' mm input grp' auto ug (fr (kw_supf g g') r)).
Proof.
  intros wordc digitc lower g g' cfg orc orc' memo fuel input mm grp grp' auto ug r Hwl Hspec Hglue Hmeta Hnb.
  apply (autokwd_objects_gen wordc digitc lower lower); try assumption.
  intros nid nd nd' t oid o' En En' Ek Ek'. right. split; [exact (Hnb nid nd nd' t oid o' En En' Ek Ek') | trivial].
Qed.
Print Assumptions C21_model_objects_related.

Example C21_model_objects_related_nonvacuous :
  kw_case_ok ascii_word ascii_digit ascii_lower in_kwv tbl_kwv tbl_kwv g_kwv_plain g_kwv_kw = true /\
  no_glue_ok ascii_word ascii_digit ascii_lower in_kwv g_kwv_plain = true /\
  exists r v v',
    run g_kwv_plain cfg_default (orc_of tbl_kwv) false 50 in_kwv = Parsed r /\
    build g_kwv_plain mm_kwv in_kwv no_grp true true r = BOk v /\
    build g_kwv_kw mm_kwv in_kwv no_grp true true (fr (kw_supf g_kwv_plain g_kwv_kw) r) = BOk v' /\
    vrel ascii_lower v v' /\ v' <> v /\
    v = VObj [77;111;100;101;108]%N 0 5
             [([107]%N, VConv [75;119]%N (VTerm []%N [102;111;111]%N)); ([110]%N, VTerm [73;68]%N [120]%N)] /\
    v' = VObj [77;111;100;101;108]%N 0 5
             [([107]%N, VConv [75;119]%N (VTerm []%N [70;79;79]%N)); ([110]%N, VTerm [73;68]%N [120]%N)].
Proof.
  split; [vm_compute; reflexivity|]. split; [vm_compute; reflexivity|].
  eexists. eexists. eexists. split; [vm_compute; reflexivity|]. split; [vm_compute; reflexivity|].
  split; [vm_compute; reflexivity|]. split.
  - cbn. repeat split; try reflexivity; first [left; reflexivity | right; split; reflexivity].
  - split; [discriminate|]. split; reflexivity.
Qed.
Print Assumptions C21_model_objects_related_nonvacuous.

(* identical object graphs, any use_regexp_group, when the literals match exactly (identity case folding, i.e.
   tables built without ignore_case) *)
Theorem C21_same_model_objects_grp : forall wordc digitc g g' cfg orc orc' memo fuel input mm grp grp' auto ug r,
  kw_tables_spec wordc digitc (fun c => c) g g' input orc orc' ->
  no_glued_keyword wordc digitc (fun c => c) g input ->
  meta_same g g' -> kw_rules_not_base g g' ->
  (ug = true -> kw_no_group mm g g' /\ grp_related g g' grp grp') ->
  run g cfg orc memo fuel input = Parsed r ->
  run g' cfg orc' memo fuel input = Parsed (fr (kw_supf g g') r) /\
  build g' mm input grp' auto ug (fr (kw_supf g g') r) = build g mm input grp auto ug r.
Proof.
  intros wordc digitc g g' cfg orc orc' memo fuel input mm grp grp' auto ug r Hspec Hglue Hmeta Hnb Hug Hrun.
  destruct (C21_model_objects_related wordc digitc (fun c => c) g g' cfg orc orc' memo fuel input mm grp grp' auto ug r
              (fun a b H => f_equal wordc H) Hspec Hglue Hmeta Hnb Hug Hrun) as [H1 H2].
  split; [exact H1 | exact (vbrel_id_eq _ _ H2)].
Qed.
Print Assumptions C21_same_model_objects_grp.

Example C21_same_model_objects_nonvacuous :
  kw_case_ok ascii_word ascii_digit ascii_lower in_in1 tbl_in1_plain tbl_in1_kw g_in_plain g_in_kw = true /\
  no_glue_ok ascii_word ascii_digit ascii_lower in_in1 g_in_plain = true /\
  replaced_are_exact g_in_plain g_in_kw /\
  exists r v,
    run g_in_plain cfg_default (orc_of tbl_in1_plain) false 50 in_in1 = Parsed r /\
    build g_in_plain mm_in in_in1 no_grp true false r = BOk v /\
    build g_in_kw mm_in in_in1 no_grp true false (fr (kw_supf g_in_plain g_in_kw) r) = BOk v /\
    v = VObj [77;111;100;101;108]%N 0 5 [([120]%N, VTerm [73;68]%N [120]%N); ([121]%N, VDefault [73;68]%N)].
Proof.
  split; [vm_compute; reflexivity|]. split; [vm_compute; reflexivity|]. split.
  - intros nid nd nd' t oid o' Hn Hn' Hk Hk'.
    do 10 (destruct nid as [|nid]; [vm_compute in Hn, Hn'; injection Hn as <-; injection Hn' as <-;
                                     cbn in Hk, Hk'; try discriminate; injection Hk as _ <-; reflexivity|]).
    vm_compute in Hn. destruct nid; discriminate.
  - eexists. eexists. split; [vm_compute; reflexivity|]. split; [vm_compute; reflexivity|]. split; vm_compute; reflexivity.
Qed.
Print Assumptions C21_same_model_objects_nonvacuous.

(* (4') The decidable instance checks the harness evaluates per case are sound: when [kw_case_ok]
   (the two dumped tables are related as above and the oracle rows Python computed for the keyword
   regexes / ignore_case StrMatches are the rows kw_match / str_match predict) and [no_glue_ok] say
   [true], the two parses coincide. *)
Theorem C21_check_sound : forall wordc digitc lower input tbl tbl' g g' cfg memo fuel,
  (forall a b, lower a = lower b -> wordc a = wordc b) ->
  kw_case_ok wordc digitc lower input tbl tbl' g g' = true ->
  no_glue_ok wordc digitc lower input g = true ->
  run g' cfg (orc_of tbl') memo fuel input
  = foutcome (kw_supf g g') (run g cfg (orc_of tbl) memo fuel input).
Proof. exact kw_case_sound. Qed.
Print Assumptions C21_check_sound.

(* non-vacuity *)
Example C21_kw_nonvacuous :
  kw_like ascii_word ascii_digit [105;102]%N = true /\            (* if   *)
  kw_like ascii_word ascii_digit [95;97;49]%N = true /\           (* _a1  *)
  kw_like ascii_word ascii_digit [49;97]%N = false /\             (* 1a   *)
  kw_like ascii_word ascii_digit [97;45;98]%N = false /\          (* a-b  *)
  kw_like ascii_word ascii_digit [43]%N = false /\                (* +    *)
  kw_like ascii_word ascii_digit []%N = false /\
  kw_match ascii_word ascii_lower false [105;102]%N [105;102;32;120]%N 0 = Some 2 /\   (* "if x" *)
  kw_match ascii_word ascii_lower false [105;102]%N [105;102;120]%N 0 = None /\        (* "ifx"  *)
  kw_match ascii_word ascii_lower false [105;102]%N [105;102]%N 0 = Some 2 /\          (* "if"   *)
  kw_match ascii_word ascii_lower false [105;102]%N [105;102;40]%N 0 = Some 2.         (* "if("  *)
Proof. vm_compute. repeat split. Qed.
Print Assumptions C21_kw_nonvacuous.

(* `Model: ('in' x=ID | y=ID) ';';` : on "in x;" the hypotheses of (4) hold and the parse is accepted;
   on "inx;" (glued keyword) both settings accept but the models differ, so the hypothesis of (4)
   cannot be dropped. *)
Example C21_same_model_nonvacuous :
  kw_case_ok ascii_word ascii_digit ascii_lower in_in1 tbl_in1_plain tbl_in1_kw g_in_plain g_in_kw = true /\
  no_glue_ok ascii_word ascii_digit ascii_lower in_in1 g_in_plain = true /\
  accepted (run g_in_plain cfg_default (orc_of tbl_in1_plain) false 50 in_in1) = true /\
  run g_in_kw cfg_default (orc_of tbl_in1_kw) false 50 in_in1
  = foutcome (kw_supf g_in_plain g_in_kw) (run g_in_plain cfg_default (orc_of tbl_in1_plain) false 50 in_in1).
Proof. vm_compute. repeat split; reflexivity. Qed.
Print Assumptions C21_same_model_nonvacuous.

Example C21_glued_keyword_changes_model :
  accepted (run g_in_plain cfg_default (orc_of tbl_in2_plain) false 50 in_in2) = true /\
  accepted (run g_in_kw cfg_default (orc_of tbl_in2_kw) false 50 in_in2) = true /\
  run g_in_kw cfg_default (orc_of tbl_in2_kw) false 50 in_in2
  <> foutcome (kw_supf g_in_plain g_in_kw) (run g_in_plain cfg_default (orc_of tbl_in2_plain) false 50 in_in2) /\
  lit_prefix ascii_lower false [105;110]%N in_in2 = true /\ word_at ascii_word in_in2 2 = true.
Proof. vm_compute. repeat split; try reflexivity. discriminate. Qed.
Print Assumptions C21_glued_keyword_changes_model.
