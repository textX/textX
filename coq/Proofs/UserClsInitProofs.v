(* The user objects of the load machine: every object a load allocates is pending until its
   __init__ is called, at most once, and exactly once in a load that finishes; the class stores
   pending objects only, so a failing load leaves none of its objects behind. *)
From TxV Require Import Core.Base Model.UserCls Proofs.UserClsProofs.
Require Import Permutation.

Section Objects.
  Variable rep res : list (list N).
  Notation move := (move rep res).
  Notation run := (run rep res).

  (* objects that still wait for their __init__ *)
  Definition fpend (f : frame) : list nat := f_ostack f ++ f_inst f.
  Definition cpend (c : ctx) : list nat := phase_cur (c_phase c) ++ flat_map fpend (c_frames c).
  Definition pend (cs : list ctx) : list nat := flat_map cpend cs.
  (* objects whose __init__ has been called, newest first *)
  Definition inited (l : list event) : list nat :=
    flat_map (fun e => match e_kind e with KInit _ o => [o] | _ => [] end) l.
  Definition allp (cs : list ctx) (ini : list nat) : list nat := pend cs ++ ini.

  (* the pending objects of a model are among those its parser has allocated (and would discard) *)
  Definition frame_ok (f : frame) : Prop := incl (fpend f) (f_alloc f).
  (* every object a running load has allocated is pending or has been initialised *)
  Definition ctx_ok (ini : list nat) (c : ctx) : Prop :=
    Forall frame_ok (c_frames c) /\ incl (c_objs c) (cpend c ++ ini).

  (* the class stores pending objects only; pending and initialised objects (ini) are pairwise
     distinct and below the id counter *)
  Definition pinv' (k : cls) (cs : list ctx) (ini : list nat) (n : nat) : Prop :=
    incl (k_store k) (pend cs) /\
    NoDup (allp cs ini) /\ Forall (fun x => x < n) (allp cs ini) /\
    Forall (ctx_ok ini) cs.
  Definition pinv (s : state) : Prop := pinv' (s_cls s) (s_ctxs s) (inited (s_log s)) (s_next s).

  Lemma cpend_owns c x : Forall frame_ok (c_frames c) -> In x (cpend c) -> owns c x.
  Proof.
    intros F Hx. apply in_app_iff in Hx as [Hx|Hx]; [left; exact Hx | right].
    induction F as [|f fs Hf _ IH]; [destruct Hx|]. cbn [flat_map] in *. rewrite in_app_iff in *.
    destruct Hx as [Hx|Hx]; [left; apply Hf, Hx | right; apply IH, Hx].
  Qed.

  Lemma pend_owned cs ini x : Forall (ctx_ok ini) cs -> In x (pend cs) -> owned cs x.
  Proof.
    intros C Hx. apply in_flat_map in Hx as [c [Hc Hx]]. exists c. split; [exact Hc|].
    rewrite Forall_forall in C. apply cpend_owns; [apply (C c Hc) | exact Hx].
  Qed.

  Lemma ctx_ok_mono ini ini' cs : incl ini ini' -> Forall (ctx_ok ini) cs -> Forall (ctx_ok ini') cs.
  Proof.
    intros Hi. apply Forall_impl. intros c [F O]. split; [exact F|].
    intros x Hx. apply O, in_app_iff in Hx. apply in_app_iff. destruct Hx; [left | right; apply Hi]; assumption.
  Qed.

  Lemma incl_head {A} (a a' b : list A) : incl a a' -> incl (a ++ b) (a' ++ b).
  Proof. intro H. exact (incl_app_app H (incl_refl b)). Qed.

  (* How a move may change the head context: *)
  Lemma pinv_next k cs ini n n' : n <= n' -> pinv' k cs ini n -> pinv' k cs ini n'.
  Proof.
    intros Hn (A & ND & B & C). repeat (split; [assumption|]). split; [|exact C].
    exact (Forall_impl _ (fun x Hx => Nat.lt_le_trans _ _ _ Hx Hn) B).
  Qed.

  (* its pending objects are rearranged at most *)
  Lemma pinv_same k k' c c' rest ini n :
    pinv' k (c :: rest) ini n ->
    Permutation (cpend c') (cpend c) -> c_objs c' = c_objs c ->
    (Forall frame_ok (c_frames c) -> Forall frame_ok (c_frames c')) ->
    incl (k_store k') (k_store k) ->
    pinv' k' (c' :: rest) ini n.
  Proof.
    intros (A & ND & B & C) P Eo Hf Hst. inversion C as [|? ? [F O] Cr]; subst.
    apply Permutation_sym in P. pose proof (fun x => Permutation_in x P) as Pi.
    assert (Pa : Permutation (allp (c :: rest) ini) (allp (c' :: rest) ini))
      by exact (Permutation_app_tail _ (Permutation_app_tail _ P)).
    split; [|split; [|split]].
    - exact (incl_tran (incl_tran Hst A) (incl_head _ _ _ Pi)).
    - exact (Permutation_NoDup Pa ND).
    - exact (Permutation_Forall Pa B).
    - constructor; [split; [exact (Hf F)|] | exact Cr].
      rewrite Eo. exact (incl_tran O (incl_head _ _ _ Pi)).
  Qed.

  (* it allocates the next id *)
  Lemma pinv_alloc k c c' rest ini n :
    pinv' k (c :: rest) ini n ->
    Permutation (cpend c') (n :: cpend c) -> c_objs c' = c_objs c ++ [n] ->
    (Forall frame_ok (c_frames c) -> Forall frame_ok (c_frames c')) ->
    pinv' (cls_alloc n k) (c' :: rest) ini (S n).
  Proof.
    intros (A & ND & B & C) P Eo Hf. inversion C as [|? ? [F O] Cr]; subst.
    apply Permutation_sym in P. pose proof (fun x => Permutation_in x P) as Pi.
    assert (Pa : Permutation (n :: allp (c :: rest) ini) (allp (c' :: rest) ini))
      by exact (Permutation_app_tail _ (Permutation_app_tail _ P)).
    assert (Hn : forall l, incl [n] (cpend c' ++ l)).
    { intros l x [<-|[]]. apply in_or_app. left. apply Pi. left. reflexivity. }
    assert (Ho : incl (cpend c) (cpend c')) by exact (incl_tran (incl_tl n (incl_refl _)) Pi).
    split; [|split; [|split]].
    - exact (incl_app (incl_tran A (incl_head _ _ _ Ho)) (Hn _)).
    - apply (Permutation_NoDup Pa). constructor; [|exact ND].
      intro Hin. rewrite Forall_forall in B. exact (Nat.lt_irrefl _ (B n Hin)).
    - apply (Permutation_Forall Pa). constructor; [apply Nat.lt_succ_diag_r|].
      exact (Forall_impl _ (fun x Hx => Nat.lt_lt_succ_r _ _ Hx) B).
    - constructor; [split; [exact (Hf F)|] | exact Cr]. rewrite Eo.
      exact (incl_app (incl_tran O (incl_head _ _ _ Ho)) (Hn _)).
  Qed.

  (* its next object is initialised *)
  Lemma pinv_init k c c' rest ini n x :
    pinv' k (c :: rest) ini n ->
    cpend c = x :: cpend c' -> c_objs c' = c_objs c -> c_frames c' = c_frames c ->
    pinv' (cls_pop x k) (c' :: rest) (x :: ini) n.
  Proof.
    intros (A & ND & B & C) P Eo Ef. inversion C as [|? ? [F O] Cr]; subst.
    assert (Pa : Permutation (allp (c :: rest) ini) (allp (c' :: rest) (x :: ini))).
    { unfold allp, pend. cbn [flat_map]. rewrite P. apply Permutation_middle. }
    split; [|split; [|split]].
    - intros y Hy. apply in_remove_id in Hy as [Hy Hne].
      apply A in Hy. unfold pend in Hy. cbn [flat_map] in Hy. rewrite P in Hy.
      destruct Hy as [Hy|Hy]; [congruence | exact Hy].
    - exact (Permutation_NoDup Pa ND).
    - exact (Permutation_Forall Pa B).
    - constructor.
      + split; [rewrite Ef; exact F|]. rewrite Eo. rewrite P in O.
        exact (fun y Hy => Permutation_in y (Permutation_middle _ _ _) (O y Hy)).
      + apply (ctx_ok_mono ini); [apply incl_tl, incl_refl | exact Cr].
  Qed.

  (* it goes, and the class keeps none of its pending objects *)
  Lemma pinv_drop k k' c rest ini n :
    pinv' k (c :: rest) ini n ->
    (forall x, In x (k_store k') -> In x (k_store k) /\ ~ In x (cpend c)) ->
    pinv' k' rest ini n.
  Proof.
    intros (A & ND & B & C) Hst. unfold pinv', allp, pend in *. cbn [flat_map] in *. rewrite <- app_assoc in ND, B.
    inversion C; subst. split; [|split; [|split]].
    - intros x Hx. apply Hst in Hx as [Hx Hn]. apply A, in_app_iff in Hx. tauto.
    - exact (NoDup_app_r _ _ ND).
    - apply Forall_app in B. apply B.
    - assumption.
  Qed.

  Lemma fpend_complete f : Permutation (fpend (complete_frame f)) (fpend f).
  Proof.
    unfold complete_frame, fpend. destruct (f_ostack f) as [|y st] eqn:E; [rewrite E; reflexivity|]. cbn [f_ostack f_inst app].
    rewrite app_assoc. symmetry. apply Permutation_cons_append.
  Qed.

  Lemma on_last_fpend_perm g fs news :
    (forall f, Permutation (fpend (g f)) (news ++ fpend f)) -> fs <> [] ->
    Permutation (flat_map fpend (on_last g fs)) (news ++ flat_map fpend fs).
  Proof.
    intros Hg Hne. destruct fs as [|f pre _] using rev_ind; [contradiction|].
    rewrite on_last_app, !flat_map_app. cbn [flat_map]. rewrite Hg, !app_nil_r.
    rewrite !app_assoc. apply Permutation_app_tail, Permutation_app_comm.
  Qed.

  Lemma move_pinv a b : move a b -> pinv a -> pinv b.
  Proof.
    intros M H. unfold pinv in *.
    destruct M;
      cbn [s_cls s_ctxs s_log s_next set_ctxs UserCls.fail_ctx]; try rewrite E in H.
    - destruct H as (A & ND & B & C). repeat (split; [assumption|]).
      constructor; [|exact C]. split; [constructor | intros x []].
    - apply (pinv_drop _ _ _ _ _ _ H).
      intros x Hx. apply in_remove_ids in Hx as [Hx Hcur].
      apply (abort_store res) in Hx as [Hx Hal]. split; [exact Hx|]. intro Hp.
      destruct H as (_ & _ & _ & C). inversion C as [|? ? [F _] _]; subst.
      destruct (cpend_owns c x F Hp); contradiction.
    - apply (pinv_next _ _ _ (s_next s)); [lia|]. apply (pinv_same _ _ _ _ _ _ _ H); [|reflexivity| |].
      + unfold cpend. cbn [c_phase c_frames]. rewrite Eph, flat_map_app. cbn [flat_map new_frame fpend f_ostack f_inst app].
        rewrite app_nil_r. apply Permutation_refl.
      + intro F. apply Forall_app. split; [exact F|]. constructor; [intros x []|constructor].
      + rewrite store_replace. apply incl_refl.
    - apply (pinv_next _ _ _ (s_next s)); [lia | exact H].
    - apply (pinv_alloc _ _ _ _ _ _ H); [|reflexivity|].
      + unfold cpend. cbn [c_phase c_frames]. rewrite Eph.
        apply (on_last_fpend_perm _ _ [s_next s]); [intro; apply Permutation_refl|].
        intro Efs. rewrite Efs in El. discriminate El.
      + apply on_last_Forall. intros f0 Hf x Hx. cbn [alloc_frame fpend f_alloc f_ostack f_inst app] in *.
        apply in_app_iff. destruct Hx as [Hx|Hx]; [right; left; exact Hx | left; apply Hf, Hx].
    - apply (pinv_same _ _ _ _ _ _ _ H); [|reflexivity| |apply incl_refl].
      + unfold cpend. cbn [c_phase c_frames]. rewrite Eph. apply Permutation_app_head.
        destruct (c_frames c) as [|f0 fs0] eqn:Efs; [apply Permutation_refl|]. rewrite <- Efs.
        apply (on_last_fpend_perm _ _ []); [exact fpend_complete | congruence].
      + apply on_last_Forall. intros f0 Hf x Hx. apply (Permutation_in _ (fpend_complete f0)) in Hx.
        unfold complete_frame. destruct (f_ostack f0); apply Hf, Hx.
    - apply (pinv_same _ _ _ _ _ _ _ H); [|reflexivity|exact (fun F => F)|apply incl_refl].
      unfold cpend. cbn [c_phase c_frames]. rewrite Eph. apply Permutation_refl.
    - apply (pinv_same _ _ _ _ _ _ _ H); [|reflexivity| |].
      + unfold cpend. cbn [c_phase c_frames]. rewrite Eph, Efr. cbn [phase_cur flat_map app]. unfold fpend at 2.
        rewrite Eos. apply Permutation_refl.
      + rewrite Efr. intro F. inversion F; assumption.
      + destruct (f_replaced f); [rewrite store_restore|]; apply incl_refl.
    - apply (pinv_init _ _ _ _ _ _ _ H); [|reflexivity|reflexivity].
      unfold cpend. cbn [c_phase c_frames]. rewrite Eph. reflexivity.
    - apply (pinv_same _ _ _ _ _ _ _ H); [|reflexivity|exact (fun F => F)|apply incl_refl].
      unfold cpend. cbn [c_phase c_frames phase_cur]. rewrite Eph. apply Permutation_refl.
    - apply (pinv_drop _ _ _ _ _ _ H).
      intros x Hx. split; [exact Hx|]. unfold cpend. rewrite Eph, Efr. intros [].
  Qed.

  Lemma reach_pinv d0 ops : pinv (run (init d0) ops).
  Proof.
    apply (run_moves rep res pinv move_pinv). unfold pinv, pinv', init, allp. cbn.
    repeat split; try constructor. intros x [].
  Qed.

  (* no object is initialised twice, in any history; an initialised object is not pending *)
  Theorem init_at_most_once d0 ops :
    let s := run (init d0) ops in
    NoDup (inited (s_log s)) /\ (forall x, In x (inited (s_log s)) -> ~ In x (pend (s_ctxs s))).
  Proof.
    intro s. destruct (reach_pinv d0 ops) as (_ & ND & _). fold s in ND. split.
    - apply NoDup_app_r in ND. exact ND.
    - intros x Hi Hp. exact (NoDup_app_disjoint _ _ x ND Hp Hi).
  Qed.

  (* when a load can finish (its models are ended, nothing is pending), every user object it has
     allocated has been initialised - by init_at_most_once exactly once *)
  Theorem all_initialised_at_finish d0 ops c rest :
    let s := run (init d0) ops in
    s_ctxs s = c :: rest -> c_frames c = [] -> (c_phase c = Ending [] \/ c_phase c = Processing) ->
    forall x, In x (c_objs c) -> In x (inited (s_log s)).
  Proof.
    intros s E Efr Hph x Hx. destruct (reach_pinv d0 ops) as (_ & _ & _ & C). fold s in C. rewrite E in C.
    inversion C as [|? ? [_ O] _]; subst. apply O in Hx.
    unfold cpend in Hx. rewrite Efr in Hx. destruct Hph as [Ep|Ep]; rewrite Ep in Hx; exact Hx.
  Qed.

  (* A load that is unwound (an exception at any of its code points) leaves none of its objects in
     the class: what the class stores afterwards is pending in the remaining loads, an object of
     the unwound load was pending in it or is initialised, and these lists are disjoint. *)
  Lemma unwound_load_leaves_nothing s c rest :
    pinv s -> s_ctxs s = c :: rest ->
    forall x, In x (c_objs c) -> ~ In x (k_store (s_cls (fail_ctx res s c rest))).
  Proof.
    intros H E x Hx Hs.
    pose proof (move_pinv _ _ (m_unwind rep res s c rest E) H) as (A' & _).
    apply A' in Hs. cbn [fail_ctx s_ctxs] in Hs.
    destruct H as (_ & ND & _ & C). rewrite E in ND, C. inversion C as [|? ? [_ O] _]; subst.
    unfold allp, pend in ND. cbn [flat_map] in ND. apply O, in_app_iff in Hx as [Hx|Hx].
    - rewrite <- app_assoc in ND. exact (NoDup_app_disjoint _ _ x ND Hx (in_or_app _ _ _ (or_introl Hs))).
    - exact (NoDup_app_disjoint _ _ x ND (in_or_app _ _ _ (or_intror Hs)) Hx).
  Qed.

  (* C15, for the references textX itself stores: when the running load raises (at any point of
     any history), none of the user objects it has allocated keeps an entry in _tx_obj_attrs and
     none of its models stays in a repository; the load is gone. *)
  Theorem failed_load_leaves_nothing d0 ops c rest :
    s_ctxs (run (init d0) ops) = c :: rest ->
    let s' := step rep res (run (init d0) ops) Fail in
    (forall x, In x (c_objs c) -> ~ In x (k_store (s_cls s'))) /\
    (forall m, In m (c_mids c) -> ~ In m (s_repo s')) /\
    s_ctxs s' = rest.
  Proof.
    intros E s'. unfold s', step. rewrite E.
    split; [exact (unwound_load_leaves_nothing _ _ _ (reach_pinv d0 ops) E)|]. split; [|reflexivity].
    intros m Hm Hr. apply in_remove_ids in Hr as [_ Hn]. contradiction.
  Qed.
End Objects.

Section Class.
  Variable rep res : list (list N).
  Hypothesis rep_nodup : NoDup rep.
  Hypothesis rep_in_res : forall a, In a rep -> In a res.
  Variable d0 : list N -> slot.
  Notation run := (run rep res).

  (* while loads are running the count is exactly the number of parsers that replaced and have
     not restored, and every stored object belongs to a model still under construction *)
  Theorem counted_during_any_history ops :
    let s := run (init d0) ops in
    k_count (s_cls s) = nrep (s_ctxs s) /\ (forall x, In x (k_store (s_cls s)) -> owned (s_ctxs s) x).
  Proof.
    intro s. destruct (reach_inv rep res rep_nodup rep_in_res d0 ops) as [Hc _].
    destruct (reach_pinv rep res d0 ops) as (A & _ & _ & C).
    split; [exact Hc|]. intros x Hx. apply (pend_owned _ _ _ C), A, Hx.
  Qed.

  (* no load in progress: the class is exactly as before *)
  Theorem restored_after_any_history ops :
    s_ctxs (run (init d0) ops) = [] -> cls_same d0 (s_cls (run (init d0) ops)).
  Proof.
    intro E. destruct (reach_inv rep res rep_nodup rep_in_res d0 ops) as [Hc [M0 _]].
    destruct (reach_pinv rep res d0 ops) as (A & _). rewrite E in *. cbn [nrep] in Hc.
    split; [exact Hc|]. split; [|split; intro a; apply (M0 Hc a)].
    destruct (k_store _) as [|x st]; [reflexivity | destruct (A x (or_introl eq_refl))].
  Qed.
End Class.
