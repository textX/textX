From TxV Require Import Core.Base Model.RrelSyntax.

(* well-formed trees: what the constructors of rrel.py can build *)
Fixpoint wf_elem (e : elem) : Prop :=
  match e with
  | EParent _ => True
  | ENav _ c f => match f with Some _ => c = false | None => True end
  | EDots _ => False                      (* dots occur only at the head of a path *)
  | EBr s => wf_seq s
  | EStar s => wf_seq s
  end
with wf_tail (p : path) : Prop :=
  match p with
  | P1 e => wf_elem e
  | PCons e p' => wf_elem e /\ wf_tail p'
  end
with wf_seq (s : seq) : Prop :=
  match s with
  | S1 p => (match p with
             | P1 (EDots _) => True
             | PCons (EDots _) p' => wf_tail p'
             | _ => wf_tail p
             end)
  | SCons p s' => (match p with
                   | P1 (EDots _) => True
                   | PCons (EDots _) p' => wf_tail p'
                   | _ => wf_tail p
                   end) /\ wf_seq s'
  end.

Definition wf_path (p : path) : Prop :=
  match p with
  | P1 (EDots _) => True
  | PCons (EDots _) p' => wf_tail p'
  | _ => wf_tail p
  end.

Definition follow_x (ts : list tok) : Prop :=
  match ts with [] => True | TDots 1 :: _ => True | TComma :: _ => True | TRP :: _ => True | _ => False end.
Definition follow_path (ts : list tok) : Prop :=
  match ts with [] => True | TComma :: _ => True | TRP :: _ => True | _ => False end.
Definition follow_seq (ts : list tok) : Prop :=
  match ts with [] => True | TRP :: _ => True | _ => False end.

Lemma follow_path_x ts : follow_path ts -> follow_x ts.
Proof. destruct ts as [|[] ?]; simpl; tauto. Qed.
Lemma follow_seq_path ts : follow_seq ts -> follow_path ts.
Proof. destruct ts as [|[] ?]; simpl; tauto. Qed.

(* The matches of the parser functions on the next tokens, by name: the one-token lookaheads of the
   loops and of the closing parenthesis, the optional head of a path, the argument of parent(..).
   With one level of each function written over them, a proof cases on what the lookahead found
   and not on the token list. *)
Definition eat (is_t : tok -> bool) (ts : list tok) : option (list tok) :=
  match ts with t :: ts' => if is_t t then Some ts' else None | [] => None end.
Definition is_comma (t : tok) : bool := match t with TComma => true | _ => false end.
Definition is_dot1 (t : tok) : bool := match t with TDots 1 => true | _ => false end.
Definition is_star (t : tok) : bool := match t with TStar => true | _ => false end.
Definition is_rp (t : tok) : bool := match t with TRP => true | _ => false end.
Definition path_head (ts : list tok) : option (elem * list tok) :=
  match ts with TCaret :: ts' => Some (caret_elem, ts') | TDots n :: ts' => Some (EDots n, ts') | _ => None end.
Definition parent_arg (ts : list tok) : option (list N * list tok) :=
  match ts with TLP :: TId t :: TRP :: r => Some (t, r) | _ => None end.

Lemma p_seq_S f ts : p_seq (S f) ts =
  match p_path f ts with
  | Some (p, r) => match eat is_comma r with
                   | Some ts' => match p_seq f ts' with Some (s, r') => Some (SCons p s, r') | None => None end
                   | None => Some (S1 p, r)
                   end
  | None => None
  end.
Proof. cbn [p_seq]. destruct (p_path f ts) as [[p [|[] r]]|]; reflexivity. Qed.

Lemma p_path_S f ts : p_path (S f) ts =
  match path_head ts with
  | Some (h, ts') => match p_elems f ts' with Some (p, r) => Some (PCons h p, r) | None => Some (P1 h, ts') end
  | None => p_elems f ts
  end.
Proof.
  cbn [p_path]. destruct ts as [|[] ts']; cbn [path_head]; try reflexivity;
    destruct (p_elems f _) as [[p r]|]; reflexivity.
Qed.

Lemma p_elems_S f ts : p_elems (S f) ts =
  match p_x f ts with
  | Some (e, r) => match eat is_dot1 r with
                   | Some ts' => match p_elems f ts' with Some (p, r') => Some (PCons e p, r') | None => None end
                   | None => Some (P1 e, r)
                   end
  | None => None
  end.
Proof. cbn [p_elems]. destruct (p_x f ts) as [[e [|[| |[|[|n]]| | | | | | |] r]]|]; reflexivity. Qed.

Lemma p_x_S f ts : p_x (S f) ts =
  match p_pe f ts with
  | Some (e, r) => match eat is_star r with Some r' => Some (star_of e, r') | None => Some (e, r) end
  | None => None
  end.
Proof. cbn [p_x]. destruct (p_pe f ts) as [[e [|[] r]]|]; reflexivity. Qed.

Lemma p_pe_S f ts : p_pe (S f) ts =
  match ts with
  | TId k :: ts' => match parent_arg ts' with
                    | Some (t, r) => if str_eqb k kw_parent then Some (EParent t, r) else Some (ENav k true None, ts')
                    | None => Some (ENav k true None, ts')
                    end
  | TLP :: ts' => match p_seq f ts' with
                  | Some (s, r) => match eat is_rp r with Some r' => Some (EBr s, r') | None => None end
                  | None => None
                  end
  | TTilde :: TId n :: ts' => Some (ENav n false None, ts')
  | TStr fx _ :: TTilde :: TId n :: ts' => Some (ENav n false (Some fx), ts')
  | _ => None
  end.
Proof.
  destruct ts as [|[] ts']; try reflexivity.
  - destruct ts' as [|[] ts1]; try reflexivity. destruct ts1 as [|[] ts2]; try reflexivity.
    destruct ts2 as [|[] ts3]; reflexivity.
  - cbn [p_pe]. destruct (p_seq f ts') as [[s [|[] r]]|]; reflexivity.
Qed.

Opaque p_seq p_path p_elems p_x p_pe.

Lemma eat_forallb (P is_t : tok -> bool) ts ts' : eat is_t ts = Some ts' -> forallb P ts = true -> forallb P ts' = true.
Proof.
  destruct ts as [|t ts]; [discriminate|]. cbn [eat forallb]. destruct (is_t t); [|discriminate].
  intros [= <-] H. apply andb_true_iff in H. apply H.
Qed.

Lemma parent_arg_inv ts t r : parent_arg ts = Some (t, r) -> ts = TLP :: TId t :: TRP :: r.
Proof.
  destruct ts as [|[] ts1]; try discriminate. destruct ts1 as [|[] ts2]; try discriminate.
  destruct ts2 as [|[] ts3]; try discriminate. intros [= <- <-]. reflexivity.
Qed.

(* what may follow an element, a path, a sequence is not taken for more of it *)
Lemma follow_x_no_star ts : follow_x ts -> eat is_star ts = None.
Proof. destruct ts as [|[] ?]; try reflexivity; simpl; tauto. Qed.
Lemma follow_x_no_arg ts : follow_x ts -> parent_arg ts = None.
Proof. destruct ts as [|[] ?]; try reflexivity; simpl; tauto. Qed.
Lemma follow_path_no_dot ts : follow_path ts -> eat is_dot1 ts = None.
Proof. destruct ts as [|[] ?]; try reflexivity; simpl; tauto. Qed.
Lemma follow_seq_no_comma ts : follow_seq ts -> eat is_comma ts = None.
Proof. destruct ts as [|[] ?]; try reflexivity; simpl; tauto. Qed.

(* on the empty input and on closing tokens no element starts *)
Lemma p_x_none f ts : follow_path ts -> p_x f ts = None.
Proof.
  intro H. destruct f as [|f]; [reflexivity|]. rewrite p_x_S.
  destruct f as [|f]; [reflexivity|]. rewrite p_pe_S.
  destruct ts as [|[] ?]; simpl in H; try tauto; reflexivity.
Qed.

Lemma p_elems_none f ts : follow_path ts -> p_elems f ts = None.
Proof.
  intro H. destruct f as [|f]; [reflexivity|]. rewrite p_elems_S, p_x_none by assumption. reflexivity.
Qed.

(* a printed element does not start like the head of a path *)
Lemma path_head_elem e ts : wf_elem e -> path_head (t_elem e ++ ts) = None.
Proof. destruct e as [t | n c [fx|] | n | s | s]; try reflexivity; [|contradiction]. destruct c; reflexivity. Qed.

Lemma path_head_tail p ts : wf_tail p -> path_head (t_path_tail p ++ ts) = None.
Proof.
  destruct p as [e|e p']; cbn [t_path_tail wf_tail]; [apply path_head_elem|].
  intros [He _]. rewrite <- app_assoc. apply path_head_elem, He.
Qed.

(* fuel: a token uses at most three levels (p_elems, p_x, p_pe); the constants count the levels above *)
Definition PE (e : elem) : Prop := forall fuel rest,
  wf_elem e -> follow_x rest -> 3 * length (t_elem e) + 2 <= fuel ->
  p_x fuel (t_elem e ++ rest) = Some (e, rest).
Definition PT (p : path) : Prop := forall fuel rest,
  wf_tail p -> follow_path rest -> 3 * length (t_path_tail p) + 3 <= fuel ->
  p_elems fuel (t_path_tail p ++ rest) = Some (p, rest).
Definition PP (p : path) : Prop :=
  PT p /\
  (forall fuel rest, wf_path p -> follow_path rest -> 3 * length (t_path p) + 4 <= fuel ->
     p_path fuel (t_path p ++ rest) = Some (p, rest)).
Definition PS (s : seq) : Prop := forall fuel rest,
  wf_seq s -> follow_seq rest -> 3 * length (t_seq s) + 5 <= fuel ->
  p_seq fuel (t_seq s ++ rest) = Some (s, rest).

Lemma t_seq_S1 p : t_seq (S1 p) = t_path p.
Proof. destruct p as [[]|[] ?]; reflexivity. Qed.
Lemma t_seq_SCons p s : t_seq (SCons p s) = t_path p ++ TComma :: t_seq s.
Proof. destruct p as [[]|[] ?]; reflexivity. Qed.
Lemma wf_seq_S1 p : wf_seq (S1 p) = wf_path p.
Proof. destruct p as [[]|[] ?]; reflexivity. Qed.
Lemma wf_seq_SCons p s : wf_seq (SCons p s) = (wf_path p /\ wf_seq s).
Proof. destruct p as [[]|[] ?]; reflexivity. Qed.

Lemma follow_x_not_star rest : follow_x rest -> forall r, rest <> TStar :: r.
Proof. intros H r E. subst. exact H. Qed.

(* p_x on an element that p_pe parses and that is not followed by '*' *)
Lemma p_x_of_pe f ts e rest : p_pe f ts = Some (e, rest) -> follow_x rest -> p_x (S f) ts = Some (e, rest).
Proof. intros H Hf. rewrite p_x_S, H, follow_x_no_star by exact Hf. reflexivity. Qed.

Lemma elem_case e : (forall s, e = EBr s -> PS s) -> (forall s, e = EStar s -> PS s) -> PE e.
Proof.
  intros HBr HStar fuel rest Hwf Hfol Hfuel.
  destruct fuel as [|[|f]]; [lia | lia |].
  destruct e as [t | n c fx | n | s | s]; cbn [t_elem wf_elem] in *.
  - (* parent *)
    apply p_x_of_pe; [|assumption]. rewrite p_pe_S. cbn [app parent_arg]. rewrite str_eqb_refl. reflexivity.
  - (* navigation; a consumed name followed by a follow token is a navigation, whatever the name *)
    apply p_x_of_pe; [|assumption]. rewrite p_pe_S.
    destruct fx as [fx|]; [subst c; reflexivity|]. destruct c; [|reflexivity].
    cbn [app]. rewrite follow_x_no_arg by assumption. reflexivity.
  - contradiction.
  - (* brackets *)
    apply p_x_of_pe; [|assumption]. rewrite p_pe_S. cbn [app]. rewrite <- app_assoc.
    rewrite (HBr s eq_refl f ([TRP] ++ rest) Hwf I); [reflexivity|].
    cbn [length] in Hfuel. rewrite app_length in Hfuel. cbn [length] in Hfuel. lia.
  - (* star *)
    rewrite p_x_S, p_pe_S. cbn [app]. rewrite <- app_assoc.
    rewrite (HStar s eq_refl f ([TRP; TStar] ++ rest) Hwf I); [reflexivity|].
    cbn [length] in Hfuel. rewrite app_length in Hfuel. cbn [length] in Hfuel. lia.
Qed.

(* a path from its elements: the head is dots, or there is no head *)
Lemma path_case p : PT p -> (forall e p', p = PCons e p' -> PT p') -> PP p.
Proof.
  intros Htail Hsub. split; [exact Htail|]. intros fuel rest Hwf Hfol Hfuel.
  destruct fuel as [|f]; [lia|]. rewrite p_path_S.
  destruct p as [[]|[] p']; cbn [t_path] in Hfuel |- *;
    try (rewrite path_head_tail by exact Hwf; apply Htail; [exact Hwf | exact Hfol | lia]).
  - (* only dots *)
    cbn [t_path_tail t_elem app path_head]. rewrite p_elems_none by assumption. reflexivity.
  - (* a dots head *)
    cbn [wf_path app path_head length] in *. rewrite (Hsub _ _ eq_refl f rest Hwf Hfol) by lia. reflexivity.
Qed.

Theorem roundtrip_all : (forall e, PE e) /\ (forall p, PP p) /\ (forall s, PS s).
Proof.
  apply rrel_mutind.
  - intro t. apply elem_case; intros; discriminate.
  - intros n c f. apply elem_case; intros; discriminate.
  - intro n. apply elem_case; intros; discriminate.
  - intros s IH. apply elem_case; intros s' E; inversion E; subst; assumption.
  - intros s IH. apply elem_case; intros s' E; inversion E; subst; assumption.
  - (* P1 e *)
    intros e IHe. apply path_case; [|intros; discriminate].
    intros fuel rest Hwf Hfol Hfuel. cbn [t_path_tail wf_tail] in *.
    destruct fuel as [|f]; [lia|]. rewrite p_elems_S.
    rewrite (IHe f rest Hwf (follow_path_x _ Hfol)), follow_path_no_dot by (assumption || lia). reflexivity.
  - (* PCons e p *)
    intros e IHe p [IHp _]. apply path_case; [|intros e0 p0 E; inversion E; subst; exact IHp].
    intros fuel rest [Hwe Hwp] Hfol Hfuel. cbn [t_path_tail] in *.
    rewrite app_length in Hfuel. cbn [length] in Hfuel.
    destruct fuel as [|f]; [lia|]. rewrite p_elems_S, <- app_assoc. cbn [app].
    rewrite (IHe f (TDots 1 :: t_path_tail p ++ rest) Hwe I) by lia. cbn [eat is_dot1].
    rewrite (IHp f rest Hwp Hfol) by lia. reflexivity.
  - (* S1 p *)
    intros p [_ IHp] fuel rest Hwf Hfol Hfuel.
    rewrite t_seq_S1 in *. rewrite wf_seq_S1 in Hwf.
    destruct fuel as [|f]; [lia|]. rewrite p_seq_S.
    rewrite (IHp f rest Hwf (follow_seq_path _ Hfol)), follow_seq_no_comma by (assumption || lia). reflexivity.
  - (* SCons p s *)
    intros p [_ IHp] s IHs fuel rest Hwf Hfol Hfuel.
    rewrite t_seq_SCons in *. rewrite wf_seq_SCons in Hwf. destruct Hwf as [Hwp Hws].
    rewrite app_length in Hfuel. cbn [length] in Hfuel.
    destruct fuel as [|f]; [lia|]. rewrite p_seq_S, <- app_assoc. cbn [app].
    rewrite (IHp f (TComma :: t_seq s ++ rest) Hwp I) by lia. cbn [eat is_comma].
    rewrite (IHs f rest Hws Hfol) by lia. reflexivity.
Qed.

(* the flags prefix of an expression; a printed sequence does not start with one *)
Definition split_flags (ts : list tok) : list N * list tok :=
  match ts with TFlags f :: ts' => (f, ts') | _ => ([], ts) end.

Lemma p_expr_split fuel ts : p_expr fuel ts =
  match p_seq fuel (snd (split_flags ts)) with
  | Some (s, []) => Some {| eseq := s; eflags := fst (split_flags ts) |}
  | _ => None
  end.
Proof. destruct ts as [|[] ?]; reflexivity. Qed.

Lemma no_flags_elem e ts : split_flags (t_elem e ++ ts) = ([], t_elem e ++ ts).
Proof. destruct e as [t | n c [fx|] | n | s | s]; try reflexivity. destruct c; reflexivity. Qed.
Lemma no_flags_tail p ts : split_flags (t_path_tail p ++ ts) = ([], t_path_tail p ++ ts).
Proof. destruct p; cbn [t_path_tail]; [|rewrite <- app_assoc]; apply no_flags_elem. Qed.
Lemma no_flags_path p ts : split_flags (t_path p ++ ts) = ([], t_path p ++ ts).
Proof. destruct p as [e|[] p']; try apply no_flags_tail. reflexivity. Qed.
Lemma no_flags_seq s : split_flags (t_seq s) = ([], t_seq s).
Proof.
  destruct s; [rewrite t_seq_S1, <- (app_nil_r (t_path p)) | rewrite t_seq_SCons]; apply no_flags_path.
Qed.

Definition wf_expr (e : expr) : Prop := wf_seq (eseq e).

Theorem parse_toks_print : forall e, wf_expr e -> parse_toks (t_expr e) = Some e.
Proof.
  intros [s fl] Hwf. unfold parse_toks, t_expr, wf_expr in *. cbn [eseq eflags] in *.
  destruct roundtrip_all as [_ [_ HS]]. rewrite p_expr_split.
  assert (Hs : forall fuel, 3 * length (t_seq s) + 5 <= fuel -> p_seq fuel (t_seq s) = Some (s, [])).
  { intros fuel Hfuel. rewrite <- (app_nil_r (t_seq s)). apply HS; [exact Hwf | exact I | exact Hfuel]. }
  destruct fl as [|c fl].
  - rewrite no_flags_seq. cbn [fst snd]. rewrite Hs by lia. reflexivity.
  - cbn [split_flags fst snd length]. rewrite Hs by lia. reflexivity.
Qed.
