(* C02 — the assignment nodes of a Peg.v parse result of a rule body form an `emits` trace of that body. *)
From Coq Require Import Permutation.
From TxV Require Import Core.Base Model.MultBase Gen.SrcMult Model.Mult Proofs.MultProofs Proofs.MultFlowProofs Proofs.MultSepProofs.
From TxV Require Model.Build.
From TxV Require Import Model.PegSyntax Model.Peg Model.MultPeg Proofs.PegProofs.

Lemma flatten_list l : flatten (RList l) = concat (map flatten l).
Proof.
  induction l as [|x l IH]; [reflexivity|].
  change (flatten (RList (x :: l))) with (flatten x ++ flatten (RList l)). rewrite IH. reflexivity.
Qed.

Definition all_truthy (l : list res) : Prop := Forall (fun r => Peg.truthy r = true) l.

Lemma head_not_none l : all_truthy l -> head_is_none (RList l) = false.
Proof. intros H. destruct l as [|x l]; [reflexivity|]. inversion H; subst. destruct x; try reflexivity. discriminate. Qed.

(* results of non-terminal bodies are None or a list *)
Definition listy (r : res) : Prop := r = RNone \/ exists l, r = RList l.

(* `post` on the result of a non-terminal body: the result with a leading None dropped, wrapped into the node's
   NonTerminal when the node is a rule's root and the result is truthy *)
Lemma post_listy nid nd rb : listy rb ->
  exists r1, r1 = (if (n_suppress nd || head_is_none rb)%bool then RNone else rb) /\ listy r1 /\
    post nid nd rb = if (n_root nd && Peg.truthy r1)%bool then RTree (NT nid (flatten r1)) else r1.
Proof.
  intro Hl. eexists. split; [reflexivity|]. unfold post.
  set (r1 := if (n_suppress nd || head_is_none rb)%bool then RNone else rb).
  assert (Hl1 : listy r1) by (unfold r1; destruct (n_suppress nd || head_is_none rb)%bool; [left; reflexivity | exact Hl]).
  split; [exact Hl1|]. replace (is_ptnode r1) with false by (destruct Hl1 as [-> | [l ->]]; reflexivity).
  rewrite andb_true_r. reflexivity.
Qed.

Section Link.
Variable g : grammar.
Variable mm : list Build.ninfo.
Variable attr_id : list N -> nat.
Variable conv : tree -> sval.
Variable input : list N.
Variable orc : nat -> nat -> option nat.

Notation rnodes := (res_nodes g mm attr_id conv).
Notation evs := (map (node_ev src_sep_mode)).
Notation prs := (parse g input orc false).

Lemma rnodes_list l : rnodes (RList l) = concat (map rnodes l).
Proof.
  unfold res_nodes. rewrite flatten_list. induction l as [|x l IH]; [reflexivity|].
  cbn [map concat]. rewrite flat_map_app, IH. reflexivity.
Qed.

Lemma rnodes_snoc acc r : rnodes (RList (acc ++ [r])) = rnodes (RList acc) ++ rnodes r.
Proof. rewrite !rnodes_list, map_app, concat_app. cbn [map concat]. rewrite app_nil_r. reflexivity. Qed.

Lemma rnodes_single r : rnodes (RList [r]) = rnodes r.
Proof. rewrite rnodes_list. cbn [map concat]. apply app_nil_r. Qed.

Lemma listy_falsy r : listy r -> Peg.truthy r = false -> rnodes r = [].
Proof.
  intros [-> | [l ->]] H; [reflexivity|]. destruct l; [reflexivity | discriminate].
Qed.

(* child level (result of parse on a sub-expression) and body level (result of _parse before post) *)
Definition cgood (x : Mult.body) (r : res) : Prop :=
  emits x (evs (rnodes r)) /\ (Peg.truthy r = false -> emits x []).
Definition bgood (b : Mult.body) (r : res) : Prop :=
  listy r /\ emits b (evs (rnodes r)) /\ (head_is_none r = true -> emits b []).

(* shape of loop results (any recursive parser) *)
Section Shape.
Variable rec : nat -> bool -> st -> out.

Lemma seq_loop_shape psq kids : forall acc s r s',
  seq_loop rec psq kids acc s = Ok r s' -> exists acc', r = RList acc'.
Proof.
  induction kids as [|c kids IH]; intros acc s r s' H; cbn [seq_loop] in H.
  - inversion H. eauto.
  - destruct (rec c psq s) as [r1 s1|s1|w]; try discriminate. eapply IH, H.
Qed.

Lemma rep_loop_shape e sep plus : forall k first acc s r s',
  rep_loop rec e sep plus k first acc s = Ok r s' -> exists acc', r = RList acc'.
Proof.
  induction k as [|k IH]; intros first acc s r s' H; [discriminate|]. rewrite rep_loop_S in H.
  assert (E : forall acc1 s1, rep_elem rec e sep plus k first (pos s) acc1 s1 = Ok r s' -> exists acc', r = RList acc').
  { intros acc1 s1 H1. unfold rep_elem in H1. destruct (rec e false s1) as [r0 s2|s2|w]; try discriminate.
    - destruct (Peg.truthy r0); [eapply IH, H1 | inversion H1; eauto].
    - destruct (plus && first)%bool; [discriminate | inversion H1; eauto]. }
  destruct sep as [sp|].
  - destruct first; [apply (E _ _ H)|].
    destruct (rec sp false s) as [sr s1|s1|w]; try discriminate.
    + apply (E _ _ H).
    + destruct (plus && false)%bool; [discriminate | inversion H; eauto].
  - apply (E _ _ H).
Qed.

Lemma body_shape k nd s r s' : body rec k nd s = Ok r s' -> listy r.
Proof.
  unfold body. intro H. destruct (n_kind nd); try discriminate.
  - destruct (seq_loop rec true (n_kids nd) [] (enter_ws nd s)) as [r1 s1|s1|w] eqn:E; try discriminate.
    destruct (seq_loop_shape _ _ _ _ _ _ E) as [acc' ->].
    destruct acc'; inversion H; [left; reflexivity | right; eauto].
  - destruct (choice_loop rec (pos s) (n_kids nd) (enter_ws nd s)) as [r1 s1|s1|w]; try discriminate.
    destruct (is_none r1); [discriminate | inversion H; right; eauto].
  - destruct (n_kids nd) as [|e ?]; [discriminate|].
    destruct (rec e false s) as [r1 s1|s1|w]; try discriminate; inversion H; [right; eauto | left; reflexivity].
  - destruct (n_kids nd) as [|e ?]; [discriminate|].
    destruct (rep_loop rec e (n_sep nd) false k true [] (enter_eol nd s)) as [r1 s1|s1|w] eqn:E; try discriminate.
    destruct (rep_loop_shape _ _ _ _ _ _ _ _ _ E) as [acc' ->]. inversion H. right; eauto.
  - destruct (n_kids nd) as [|e ?]; [discriminate|].
    destruct (rep_loop rec e (n_sep nd) true k true [] (enter_eol nd s)) as [r1 s1|s1|w] eqn:E; try discriminate.
    destruct (rep_loop_shape _ _ _ _ _ _ _ _ _ E) as [acc' ->]. inversion H. right; eauto.
  - destruct (n_kids nd) as [|e ?]; [discriminate|].
    destruct (ug_loop rec (n_sep nd) _ _ true RNone [] (enter_eol nd s)) as [mt acc s1|w]; try discriminate.
    destruct mt; [|discriminate]. inversion H. destruct acc; [left; reflexivity | right; eauto].
  - destruct (seq_loop rec false (n_kids nd) [] s) as [r1 s1|s1|w]; try discriminate. inversion H. left; reflexivity.
  - destruct (seq_loop rec false (n_kids nd) [] s) as [r1 s1|s1|w]; try discriminate. inversion H. left; reflexivity.
  - inversion H. left; reflexivity.
Qed.
End Shape.

(* one step of parse, memoization off *)
Lemma prs_S f nid psq s :
  prs (S f) nid psq s =
  match get_node g nid with
  | None => Abort 1
  | Some nd =>
    if is_match_kind (n_kind nd) then
      match match_pre g input (prs f) f s with
      | Ok _ s1 =>
        match term_parse input orc nid (n_kind nd) psq s1 with
        | Ok r s2 => Ok (if n_suppress nd then RNone else r) s2
        | o => o
        end
      | o => o
      end
    else
      match body (prs f) f nd s with
      | Ok r s1 => Ok (post nid nd r) s1
      | Fail s1 => Fail (set_pos (pos s) s1)
      | Abort w => Abort w
      end
  end.
Proof. reflexivity. Qed.

Lemma prs_nonmatch f nid psq s nd r s' :
  get_node g nid = Some nd -> is_match_kind (n_kind nd) = false ->
  prs (S f) nid psq s = Ok r s' ->
  exists rb s1, body (prs f) f nd s = Ok rb s1 /\ r = post nid nd rb.
Proof.
  intros Hn Hk H. rewrite prs_S, Hn, Hk in H.
  destruct (body (prs f) f nd s) as [rb s1|s1|w]; try discriminate. inversion H. eauto.
Qed.

Lemma leaf_parse nid : leafb g mm nid = true -> forall fuel psq s r s', prs fuel nid psq s = Ok r s' ->
  rnodes r = [] /\ (Peg.truthy r = true -> exists t, r = RTree t).
Proof.
  unfold leafb. intros Hl fuel psq s r s' H. destruct fuel as [|f]; [discriminate|].
  destruct (get_node g nid) as [nd|] eqn:Hn; [|discriminate].
  destruct (is_match_kind (n_kind nd)) eqn:Hm.
  - rewrite prs_S, Hn, Hm in H.
    destruct (match_pre g input (prs f) f s) as [r0 s1|s1|w]; try discriminate.
    unfold term_parse in H.
    destruct (n_kind nd) as [| | | | | | | | | |t oid|o]; try discriminate.
    + destruct (Nat.eqb (length input) (pos s1)); [|discriminate]. inversion H.
      destruct (n_suppress nd); split; try reflexivity; try discriminate; eauto.
    + match type of H with context [if ?c then _ else _] => destruct c end; [|discriminate].
      inversion H. destruct (n_suppress nd); split; try reflexivity; try discriminate; eauto.
    + destruct (orc o (pos s1)) as [len|]; [|discriminate].
      destruct (Nat.eqb len 0); inversion H; destruct (n_suppress nd); split; try reflexivity; try discriminate; eauto.
  - destruct (prs_nonmatch _ _ _ _ _ _ _ Hn Hm H) as [rb [s1 [Hb ->]]].
    pose proof (body_shape _ _ _ _ _ _ Hb) as Hs. cbn [orb] in Hl.
    unfold post.
    set (r1 := if (n_suppress nd || head_is_none rb)%bool then RNone else rb).
    assert (Hs1 : listy r1) by (unfold r1; destruct (n_suppress nd || head_is_none rb)%bool; [left; reflexivity | exact Hs]).
    destruct (is_pred_kind (n_kind nd)) eqn:Hp.
    + (* predicates return None *)
      assert (rb = RNone).
      { unfold body in Hb. destruct (n_kind nd); try discriminate.
        - destruct (seq_loop (prs f) false (n_kids nd) [] s); try discriminate. inversion Hb. reflexivity.
        - destruct (seq_loop (prs f) false (n_kids nd) [] s); try discriminate. inversion Hb. reflexivity.
        - inversion Hb. reflexivity. }
      subst rb. unfold r1. rewrite orb_false_r. destruct (n_suppress nd); cbn; rewrite andb_false_r; split; try reflexivity; discriminate.
    + cbn [orb] in Hl. apply andb_true_iff in Hl as [Hroot Hrule]. rewrite Hroot. cbn [andb].
      destruct (Peg.truthy r1) eqn:Ht.
      * assert (Hnp : is_ptnode r1 = false) by (destruct Hs1 as [-> | [l ->]]; reflexivity).
        rewrite Hnp. cbn [negb andb]. split; [|eauto].
        unfold res_nodes. cbn [flatten flat_map tree_nodes]. unfold is_rule, MultPeg.info in Hrule. unfold MultPeg.info.
        destruct (nth nid mm Build.IOther); try discriminate. reflexivity.
      * cbn [andb]. split; [apply listy_falsy; assumption | rewrite Ht; discriminate].
Qed.

(* loops, given the specification of the children *)
Section Loops.
Variable rec : nat -> bool -> st -> out.

(* rec behaves on node k as the body x *)
Definition kid_ok (x : Mult.body) (k : nat) : Prop :=
  forall psq s r s', rec k psq s = Ok r s' -> cgood x r.

Fixpoint kids_ok (l : list Mult.body) (kids : list nat) : Prop :=
  match l, kids with
  | [], [] => True
  | x :: l', k :: kids' => kid_ok x k /\ kids_ok l' kids'
  | _, _ => False
  end.

Lemma seq_loop_spec psq : forall l kids, kids_ok l kids -> forall acc s r s',
  all_truthy acc -> seq_loop rec psq kids acc s = Ok r s' ->
  exists acc' ns, r = RList acc' /\ all_truthy acc' /\ rnodes (RList acc') = rnodes (RList acc) ++ ns
                  /\ emits (BSeq l) (evs ns).
Proof.
  induction l as [|x l IH]; intros [|k kids] Hk acc s r s' Ha H; cbn [kids_ok] in Hk; try contradiction.
  - cbn [seq_loop] in H. inversion H. exists acc, []. rewrite app_nil_r. repeat split; auto.
  - destruct Hk as [Hx Hl]. cbn [seq_loop] in H.
    destruct (rec k psq s) as [r1 s1|s1|w] eqn:E; try discriminate.
    destruct (Hx _ _ _ _ E) as [G1 G2].
    destruct (Peg.truthy r1) eqn:Ht.
    + destruct (IH kids Hl _ _ _ _ (proj2 (Forall_app _ _ _) (conj Ha (Forall_cons _ Ht (Forall_nil _)))) H)
        as [acc' [ns [-> [Ha' [Hn He]]]]].
      exists acc', (rnodes r1 ++ ns). repeat split; auto.
      * rewrite Hn, rnodes_snoc, app_assoc. reflexivity.
      * rewrite map_app. apply emits_BSeq_cons; assumption.
    + destruct (IH kids Hl _ _ _ _ Ha H) as [acc' [ns [-> [Ha' [Hn He]]]]].
      exists acc', ns. repeat split; auto.
      apply (emits_BSeq_cons x l []); auto.
Qed.

Lemma choice_loop_spec c_pos : forall l kids, kids_ok l kids -> forall s r s',
  choice_loop rec c_pos kids s = Ok r s' ->
  is_none r = true \/ exists x, In x l /\ cgood x r.
Proof.
  induction l as [|x l IH]; intros [|k kids] Hk s r s' H; cbn [kids_ok] in Hk; try contradiction.
  - cbn [choice_loop] in H. inversion H. left; reflexivity.
  - destruct Hk as [Hx Hl]. cbn [choice_loop] in H.
    destruct (rec k false s) as [r1 s1|s1|w] eqn:E; try discriminate.
    + destruct (is_none r1) eqn:En.
      * destruct (IH kids Hl _ _ _ H) as [K | [y [Hy K]]]; [left; exact K | right; exists y; split; [right; exact Hy | exact K]].
      * inversion H; subst. right. exists x. split; [left; reflexivity | eapply Hx, E].
    + destruct (IH kids Hl _ _ _ H) as [K | [y [Hy K]]]; [left; exact K | right; exists y; split; [right; exact Hy | exact K]].
Qed.

Lemma rep_loop_spec x e sep plus :
  kid_ok x e ->
  (forall sp, sep = Some sp -> forall psq s r s', rec sp psq s = Ok r s' -> rnodes r = []) ->
  forall k first acc s r s',
  all_truthy acc -> rep_loop rec e sep plus k first acc s = Ok r s' ->
  exists acc' ts, r = RList acc' /\ all_truthy acc' /\ rnodes (RList acc') = rnodes (RList acc) ++ concat ts
                  /\ Forall (fun t => emits x (evs t)) ts /\ ((plus && first)%bool = true -> ts <> []).
Proof.
  intros Hx Hsep. induction k as [|k IH]; intros first acc s r s' Ha H; [discriminate|]. rewrite rep_loop_S in H.
  assert (E : forall acc1 s1, all_truthy acc1 -> rnodes (RList acc1) = rnodes (RList acc) ->
             rep_elem rec e sep plus k first (pos s) acc1 s1 = Ok r s' ->
             exists acc' ts, r = RList acc' /\ all_truthy acc' /\ rnodes (RList acc') = rnodes (RList acc) ++ concat ts
                  /\ Forall (fun t => emits x (evs t)) ts /\ ((plus && first)%bool = true -> ts <> [])).
  { intros acc1 s1 Ha1 Hn1 H1. unfold rep_elem in H1. destruct (rec e false s1) as [r0 s2|s2|w] eqn:Er; try discriminate.
    - destruct (Hx _ _ _ _ Er) as [G1 G2]. destruct (Peg.truthy r0) eqn:Ht.
      + destruct (IH _ _ _ _ _ (proj2 (Forall_app _ _ _) (conj Ha1 (Forall_cons _ Ht (Forall_nil _)))) H1)
          as [acc' [ts [-> [Ha' [Hn [Hf _]]]]]].
        exists acc', (rnodes r0 :: ts). refine (conj eq_refl (conj Ha' (conj _ (conj _ _)))).
        * rewrite Hn, rnodes_snoc, Hn1. cbn [concat]. rewrite app_assoc. reflexivity.
        * constructor; assumption.
        * intros _. discriminate.
      + inversion H1; subst. exists acc1, [[]]. refine (conj eq_refl (conj Ha1 (conj _ (conj _ _)))).
        * cbn [concat]. rewrite !app_nil_r. exact Hn1.
        * constructor; [apply G2; reflexivity | constructor].
        * intros _. discriminate.
    - destruct (plus && first)%bool; [discriminate|]. inversion H1; subst.
      exists acc1, []. refine (conj eq_refl (conj Ha1 (conj _ (conj _ _)))).
      + cbn [concat]. rewrite app_nil_r. exact Hn1.
      + constructor.
      + discriminate. }
  destruct sep as [sp|].
  - destruct first; [apply (E _ _ Ha eq_refl H)|].
    destruct (rec sp false s) as [sr s1|s1|w] eqn:Es; try discriminate.
    + apply (E _ _) in H; [exact H | |].
      * destruct (Peg.truthy sr) eqn:Ht; [|exact Ha]. apply Forall_app. split; [exact Ha | constructor; [exact Ht | constructor]].
      * destruct (Peg.truthy sr); [|reflexivity]. rewrite rnodes_snoc, (Hsep sp eq_refl _ _ _ _ Es). apply app_nil_r.
    + rewrite andb_false_r in H. inversion H; subst. exists acc, []. refine (conj eq_refl (conj Ha (conj _ (conj _ _)))).
      * cbn [concat]. rewrite app_nil_r. reflexivity.
      * constructor.
      * rewrite andb_false_r. discriminate.
  - apply (E _ _ Ha eq_refl H).
Qed.
End Loops.

(* the link, as an induction hypothesis *)
Definition link_stmt (b : Mult.body) : Prop :=
  forall top nid, den g mm attr_id top b nid = true ->
  forall fuel psq s r s', prs fuel nid psq s = Ok r s' ->
  if top return Prop then emits b (evs (top_nodes g mm attr_id conv r)) else cgood b r.

Lemma link_kid f x e : link_stmt x -> den g mm attr_id false x e = true -> kid_ok (prs f) x e.
Proof. intros H Hd psq s r s' Hp. exact (H false e Hd f psq s r s' Hp). Qed.

Lemma each_kids_ok f l : Forall link_stmt l -> forall kids,
  (fix each (l : list Mult.body) (kids : list nat) : bool :=
     match l, kids with
     | [], [] => true
     | x :: l', k :: kids' => den g mm attr_id false x k && each l' kids'
     | _, _ => false
     end) l kids = true -> kids_ok (prs f) l kids.
Proof.
  induction 1 as [|x l Hx Hl IH]; intros [|k kids] H; try discriminate; cbn [kids_ok]; [exact I|].
  apply andb_true_iff in H as [H1 H2]. split; [apply link_kid; assumption | apply IH, H2].
Qed.

Lemma sep_leaf nd : sep_okb g nd = true -> forall sp, n_sep nd = Some sp ->
  forall f psq s r s', prs f sp psq s = Ok r s' -> rnodes r = [].
Proof.
  unfold sep_okb. intros H sp E f psq s r s' Hp. rewrite E in H.
  assert (Hl : leafb g mm sp = true).
  { unfold leafb. destruct (get_node g sp) as [sn|]; [|discriminate]. rewrite H. reflexivity. }
  exact (proj1 (leaf_parse sp Hl _ _ _ _ _ Hp)).
Qed.

Lemma post_inner nid nd b rb :
  n_root nd = false -> n_suppress nd = false -> bgood b rb -> cgood b (post nid nd rb).
Proof.
  intros Hr Hs [Hl [H1 H3]]. unfold post. rewrite Hr, Hs. cbn [orb andb].
  destruct (head_is_none rb) eqn:Eh.
  - split; [cbn; apply H3; reflexivity | intros _; apply H3; reflexivity].
  - split; [exact H1|]. intro Ht. rewrite (listy_falsy _ Hl Ht) in H1. exact H1.
Qed.

Lemma post_top nid nd b rb :
  n_root nd = true -> n_suppress nd = false -> bgood b rb ->
  emits b (evs (top_nodes g mm attr_id conv (post nid nd rb))).
Proof.
  intros Hr Hs [Hl [H1 H3]]. destruct (post_listy nid nd rb Hl) as [r1 [Er [Hl1 ->]]]. rewrite Hr, Hs in *. cbn [orb andb] in *.
  assert (G1 : emits b (evs (rnodes r1))).
  { rewrite Er. destruct (head_is_none rb); [apply H3; reflexivity | exact H1]. }
  destruct (Peg.truthy r1) eqn:Ht.
  - cbn [top_nodes]. exact G1.
  - rewrite (listy_falsy _ Hl1 Ht) in G1. destruct Hl1 as [-> | [l ->]]; exact G1.
Qed.

Lemma asg_parse nid nd a op :
  get_node g nid = Some nd -> asgb g mm attr_id nid nd a op = true ->
  forall fuel psq s r s', prs fuel nid psq s = Ok r s' -> cgood (BAsg a op) r.
Proof.
  intros Hn Ha fuel psq s r s' H. split; [|intros _; right; reflexivity].
  destruct fuel as [|f]; [discriminate|].
  unfold asgb in Ha. repeat (apply andb_true_iff in Ha; destruct Ha as [Ha ?]).
  rename H0 into Hsep, H1 into Hkids, H2 into Hinfo, H3 into Hsup. rename Ha into Hroot.
  apply negb_true_iff in Hsup.
  unfold MultPeg.info in Hinfo. destruct (nth nid mm Build.IOther) as [name o| | |] eqn:Ei; try discriminate.
  apply andb_true_iff in Hinfo as [Hid Hop]. apply Nat.eqb_eq in Hid.
  destruct (asg_op o (n_kind nd)) as [op'|] eqn:Eo; [|discriminate].
  assert (op' = op) by (destruct op, op'; try discriminate; reflexivity). subst op'.
  assert (Hm : is_match_kind (n_kind nd) = false) by (destruct o, (n_kind nd); try discriminate; reflexivity).
  destruct (prs_nonmatch _ _ _ _ _ _ _ Hn Hm H) as [rb [s1 [Hb ->]]].
  pose proof (body_shape _ _ _ _ _ _ Hb) as Hl.
  destruct (post_listy nid nd rb Hl) as [r1 [Er1 [Hl1 ->]]]. rewrite Hroot, Hsup in *. cbn [orb andb] in *.
  destruct (Peg.truthy r1) eqn:Ht.
  2:{ rewrite (listy_falsy _ Hl1 Ht). right. reflexivity. }
  unfold res_nodes. cbn [flatten flat_map tree_nodes]. unfold MultPeg.info. rewrite Ei, Hn, Eo. cbn [app map].
  left. eexists. split; [reflexivity|]. split; [cbn; exact Hid|]. split; [reflexivity|].
  unfold ev_ok. cbn [node_ev ev_op ev_vals n_op Mult.n_kids].
  destruct op; try exact I; try reflexivity.
  (* `=`: the Sequence around a truthy leaf result has exactly that one child *)
  destruct (n_kids nd) as [|rhs [|? ?]] eqn:Ek; try discriminate.
  assert (Hk : n_kind nd = KSeq) by (destruct o, (n_kind nd); try discriminate; reflexivity).
  unfold body in Hb. rewrite Hk, Ek in Hb. cbn [seq_loop] in Hb.
  destruct (prs f rhs true (enter_ws nd s)) as [rr s2|s2|w] eqn:Er; try discriminate.
  destruct (leaf_parse rhs Hkids _ _ _ _ _ Er) as [_ Hleaf].
  destruct (Peg.truthy rr) eqn:Etr.
  - destruct (Hleaf eq_refl) as [t ->]. cbn [app] in Hb. inversion Hb; subst rb.
    rewrite Er1. cbn [head_is_none flatten map app]. eexists. reflexivity.
  - cbn in Hb. inversion Hb; subst rb. rewrite Er1 in Ht. cbn in Ht. discriminate.
Qed.

Section UG.
Variable rec : nat -> bool -> st -> out.
Variable bod : nat -> Mult.body.

Lemma ug_try_spec sf c_loc : forall todo mt s,
  (forall e, In e todo -> kid_ok rec (bod e) e) ->
  match ug_try rec sf c_loc todo mt s with
  | UGHit e r s2 => In e todo /\ Peg.truthy r = true /\ cgood (bod e) r
  | UGNone mt' s2 => mt' = true -> mt = true /\ Forall (fun e => emits (bod e) []) todo
  | UGAbort _ => True
  end.
Proof.
  induction todo as [|e todo IH]; intros mt s Hk; cbn [ug_try]; [intros H; split; [exact H | constructor]|].
  assert (Hk' : forall e0, In e0 todo -> kid_ok rec (bod e0) e0) by (intros e0 H0; apply Hk; right; exact H0).
  destruct (rec e false s) as [r s1|s1|w] eqn:E; [| |exact I].
  - destruct (Hk e (or_introl eq_refl) _ _ _ _ E) as [G1 G2].
    destruct (Peg.truthy r) eqn:Ht.
    + destruct sf.
      * specialize (IH false (set_pos c_loc s1) Hk').
        destruct (ug_try rec true c_loc todo false (set_pos c_loc s1)) as [e1 r1 s2|mt' s2|w]; [| |exact I].
        -- destruct IH as [I1 I2]. split; [right; exact I1 | exact I2].
        -- intro Hm. destruct (IH Hm) as [Hf _]. discriminate.
      * split; [left; reflexivity | split; [exact Ht | split; [exact G1 | intro Hf; rewrite Ht in Hf; discriminate]]].
    + specialize (IH mt s1 Hk').
      destruct (ug_try rec sf c_loc todo mt s1) as [e1 r1 s2|mt' s2|w]; [| |exact I].
      * destruct IH as [I1 I2]. split; [right; exact I1 | exact I2].
      * intro Hm. destruct (IH Hm) as [Hmt Hf]. split; [exact Hmt | constructor; [apply G2; reflexivity | exact Hf]].
  - specialize (IH false (set_pos c_loc s1) Hk').
    destruct (ug_try rec sf c_loc todo false (set_pos c_loc s1)) as [e1 r1 s2|mt' s2|w]; [| |exact I].
    + destruct IH as [I1 I2]. split; [right; exact I1 | exact I2].
    + intro Hm. destruct (IH Hm) as [Hf _]. discriminate.
Qed.

Lemma remove_first_perm e : forall todo, In e todo -> Permutation todo (e :: remove_first e todo).
Proof.
  induction todo as [|y todo IH]; intros H; [destruct H|]. cbn [remove_first].
  destruct (Nat.eqb e y) eqn:E.
  - apply Nat.eqb_eq in E. subst y. apply Permutation_refl.
  - destruct H as [->|H]; [rewrite Nat.eqb_refl in E; discriminate|].
    eapply Permutation_trans; [apply perm_skip, IH, H | apply perm_swap].
Qed.

Lemma ug_loop_spec sep :
  (forall sp, sep = Some sp -> forall psq s r s', rec sp psq s = Ok r s' -> rnodes r = []) ->
  forall n todo first sr acc s acc' s',
  (forall e, In e todo -> kid_ok rec (bod e) e) -> rnodes sr = [] -> all_truthy acc ->
  ug_loop rec sep n todo first sr acc s = UGDone true acc' s' ->
  all_truthy acc' /\
  exists (hs : list (nat * list anode)) (rest : list nat),
    Permutation todo (map fst hs ++ rest)
    /\ Forall (fun h => emits (bod (fst h)) (evs (snd h))) hs
    /\ Forall (fun e => emits (bod e) []) rest
    /\ rnodes (RList acc') = rnodes (RList acc) ++ concat (map snd hs).
Proof.
  intros Hsep. induction n as [|n IH]; intros todo first sr acc s acc' s' Hk Hsr Ha H.
  - destruct todo; cbn [ug_loop] in H; [|discriminate]. inversion H; subst.
    split; [exact Ha|]. exists [], []. cbn. rewrite app_nil_r. repeat split; constructor.
  - destruct todo as [|e0 todo0] eqn:Et.
    { cbn [ug_loop] in H. inversion H; subst. split; [exact Ha|]. exists [], []. cbn. rewrite app_nil_r. repeat split; constructor. }
    rewrite ug_loop_S in H. rewrite <- Et in *. clear Et.
    assert (C : forall sf sr1 s1, rnodes sr1 = [] ->
              ug_cont rec sep n todo acc (pos s) sf sr1 s1 = UGDone true acc' s' ->
              all_truthy acc' /\
              exists hs rest, Permutation todo (map fst hs ++ rest)
                /\ Forall (fun h => emits (bod (fst h)) (evs (snd h))) hs
                /\ Forall (fun e => emits (bod e) []) rest
                /\ rnodes (RList acc') = rnodes (RList acc) ++ concat (map snd hs)).
    { intros sf sr1 s1 Hsr1 H1. unfold ug_cont in H1. pose proof (ug_try_spec sf (pos s1) todo true s1 Hk) as T.
      destruct (ug_try rec sf (pos s1) todo true s1) as [e r s2|mt s2|w]; [| |discriminate].
      - destruct T as [Hin [Ht [G1 G2]]].
        assert (Ha2 : all_truthy ((if Peg.truthy sr1 then acc ++ [sr1] else acc) ++ [r])).
        { apply Forall_app. split; [|constructor; [exact Ht | constructor]].
          destruct (Peg.truthy sr1) eqn:Es; [|exact Ha]. apply Forall_app. split; [exact Ha | constructor; [exact Es | constructor]]. }
        assert (Hk2 : forall e1, In e1 (remove_first e todo) -> kid_ok rec (bod e1) e1)
          by (intros e1 H2; apply Hk; eapply remove_first_In; exact H2).
        destruct (IH _ _ _ _ _ _ _ Hk2 Hsr1 Ha2 H1) as [Ha' [hs [rest [P [F1 [F2 Hn]]]]]].
        split; [exact Ha'|]. exists ((e, rnodes r) :: hs), rest. cbn [map fst snd concat app].
        split; [eapply Permutation_trans; [apply remove_first_perm, Hin | apply perm_skip, P]|].
        split; [constructor; [exact G1 | exact F1]|]. split; [exact F2|].
        rewrite Hn, rnodes_snoc. rewrite app_assoc. f_equal. f_equal.
        destruct (Peg.truthy sr1); [|reflexivity]. rewrite rnodes_snoc, Hsr1. apply app_nil_r.
      - inversion H1; subst. destruct (T eq_refl) as [_ F].
        split; [exact Ha|]. exists [], todo. cbn [map concat app]. rewrite app_nil_r.
        repeat split; [apply Permutation_refl | constructor | exact F]. }
    destruct sep as [sp|].
    + destruct first; [apply (C false sr s Hsr H)|].
      destruct (rec sp false s) as [sr1 s1|s1|w] eqn:Es; [| |discriminate].
      * apply (C false sr1 s1 (Hsep sp eq_refl _ _ _ _ Es) H).
      * apply (C true sr _ Hsr H).
    + apply (C false sr s Hsr H).
Qed.
End UG.

(* the body that goes with a group member *)
Lemma bod_kid_ok rec : forall l kids, kids_ok rec l kids ->
  forall e, In e kids -> kid_ok rec (bod_of kids l e) e.
Proof.
  induction l as [|x l IH]; intros [|k kids] Hk e Hin; cbn [kids_ok] in Hk; try contradiction.
  destruct Hk as [Hx Hl]. cbn [bod_of]. destruct (Nat.eqb e k) eqn:E.
  - apply Nat.eqb_eq in E. subst k. exact Hx.
  - destruct Hin as [->|Hin]; [rewrite Nat.eqb_refl in E; discriminate | apply IH; assumption].
Qed.

Lemma map_bod rec : forall l kids, kids_ok rec l kids -> nodupb kids = true -> map (bod_of kids l) kids = l.
Proof.
  induction l as [|x l IH]; intros [|k kids] Hk Hn; cbn [kids_ok] in Hk; try contradiction; [reflexivity|].
  destruct Hk as [_ Hl]. cbn [nodupb] in Hn. apply andb_true_iff in Hn as [Hnk Hn]. apply negb_true_iff in Hnk.
  cbn [map]. f_equal; [cbn [bod_of]; rewrite Nat.eqb_refl; reflexivity|].
  transitivity (map (bod_of kids l) kids); [|apply IH; assumption].
  apply map_ext_in. intros e He. cbn [bod_of]. destruct (Nat.eqb e k) eqn:E; [|reflexivity].
  apply Nat.eqb_eq in E. subst e. exfalso.
  assert (existsb (Nat.eqb k) kids = true) by (apply existsb_exists; exists k; split; [exact He | apply Nat.eqb_refl]).
  congruence.
Qed.

Lemma concat_nils {A B} (l : list B) : concat (map (fun _ => @nil A) l) = [].
Proof. induction l; [reflexivity | exact IHl]. Qed.

Lemma kind_eqb_eq k1 k2 : kind_eqb k1 k2 = true -> k1 = k2.
Proof. destruct k1, k2; try discriminate; reflexivity. Qed.

Lemma finish (top : bool) nid nd b f psq s r s' :
  get_node g nid = Some nd ->
  (negb (n_suppress nd) && (if top then n_root nd && is_rule mm nid else negb (n_root nd)))%bool = true ->
  is_match_kind (n_kind nd) = false ->
  (forall rb s1, body (prs f) f nd s = Ok rb s1 -> bgood b rb) ->
  prs (S f) nid psq s = Ok r s' ->
  if top return Prop then emits b (evs (top_nodes g mm attr_id conv r)) else cgood b r.
Proof.
  intros Hn Hf Hm Hb Hp. destruct (prs_nonmatch _ _ _ _ _ _ _ Hn Hm Hp) as [rb [s1 [Eb ->]]].
  apply andb_true_iff in Hf as [Hs Hf]. apply negb_true_iff in Hs. specialize (Hb _ _ Eb).
  destruct top.
  - apply andb_true_iff in Hf as [Hr _]. apply post_top; assumption.
  - apply negb_true_iff in Hf. apply post_inner; assumption.
Qed.

(* `*` and `+`: the iterations are traces of the operand; `+` has at least one *)
Lemma rep_bgood (plus : bool) x nd e f s0 r1 s2 :
  link_stmt x -> den g mm attr_id false x e = true -> sep_okb g nd = true ->
  rep_loop (prs f) e (n_sep nd) plus f true [] s0 = Ok r1 s2 ->
  bgood (if plus then BPlus x else BStar x) r1.
Proof.
  intros IH He Hsp E.
  destruct (rep_loop_spec (prs f) x e (n_sep nd) plus (link_kid f x e IH He) (fun sp E0 q s1 r0 s1' H0 => sep_leaf nd Hsp sp E0 f q s1 r0 s1' H0)
                          _ _ _ _ _ _ (Forall_nil _) E) as [acc' [ts [-> [Ha [Hnn [Hf' Hne]]]]]].
  rewrite (rnodes_list []) in Hnn. cbn [map concat app] in Hnn.
  split; [right; eauto|]. split; [|rewrite (head_not_none _ Ha); discriminate].
  rewrite Hnn. destruct plus; cbn [emits]; exists (map evs ts).
  - split; [|split; [apply concat_map | apply Forall_map; exact Hf']].
    intro Hnil. apply map_eq_nil in Hnil. exact (Hne eq_refl Hnil).
  - split; [apply concat_map | apply Forall_map; exact Hf'].
Qed.

Theorem link b : link_stmt b.
Proof.
  induction b as [|a op|l IH|l IH|x IH|x IH|x IH|l IH] using body_ind'; intros top nid Hd fuel psq s r s' Hp;
    (destruct fuel as [|f]; [discriminate|]); cbn [den] in Hd;
    destruct (get_node g nid) as [nd|] eqn:Hn; try discriminate.
  - (* BTok *)
    apply andb_true_iff in Hd as [Ht Hl]. destruct top; [discriminate|].
    destruct (leaf_parse nid Hl _ _ _ _ _ Hp) as [L1 L2]. split.
    + rewrite L1. reflexivity.
    + intros _. reflexivity.
  - (* BAsg *)
    apply andb_true_iff in Hd as [Ht Ha]. destruct top; [discriminate|].
    eapply asg_parse; eassumption.
  - (* BSeq *)
    apply andb_true_iff in Hd as [Hd He]. apply andb_true_iff in Hd as [Hf Hk]. apply kind_eqb_eq in Hk.
    pose proof (each_kids_ok f l IH _ He) as Hko.
    eapply finish; try eassumption; [rewrite Hk; reflexivity|].
    intros rb s1 Eb. unfold body in Eb. rewrite Hk in Eb.
    destruct (seq_loop (prs f) true (n_kids nd) [] (enter_ws nd s)) as [r1 s2|s2|w] eqn:E; try discriminate.
    destruct (seq_loop_spec (prs f) true l (n_kids nd) Hko [] _ _ _ (Forall_nil _) E) as [acc' [ns [-> [Ha [Hnn He']]]]].
    rewrite (rnodes_list []) in Hnn. cbn [map concat app] in Hnn.
    assert (G : emits (BSeq l) (evs (rnodes (RList acc')))) by (rewrite Hnn; exact He').
    destruct acc' as [|a0 acc'']; inversion Eb; subst rb.
    + split; [left; reflexivity|]. split; [exact G | discriminate].
    + split; [right; eauto|]. split; [exact G|]. rewrite (head_not_none _ Ha). discriminate.
  - (* BAlt *)
    apply andb_true_iff in Hd as [Hd He]. apply andb_true_iff in Hd as [Hf Hk]. apply kind_eqb_eq in Hk.
    pose proof (each_kids_ok f l IH _ He) as Hko.
    eapply finish; try eassumption; [rewrite Hk; reflexivity|].
    intros rb s1 Eb. unfold body in Eb. rewrite Hk in Eb.
    destruct (choice_loop (prs f) (pos s) (n_kids nd) (enter_ws nd s)) as [r1 s2|s2|w] eqn:E; try discriminate.
    destruct (is_none r1) eqn:En; [discriminate|]. inversion Eb; subst rb.
    destruct (choice_loop_spec (prs f) (pos s) l (n_kids nd) Hko _ _ _ E) as [K | [y [Hy [G1 G2]]]]; [congruence|].
    split; [right; eauto|]. split.
    + rewrite rnodes_single. apply emits_BAlt. exists y. split; assumption.
    + destruct r1; try discriminate.
  - (* BOpt *)
    apply andb_true_iff in Hd as [Hd He]. apply andb_true_iff in Hd as [Hf Hk]. apply kind_eqb_eq in Hk.
    destruct (n_kids nd) as [|e [|? ?]] eqn:Ek; try discriminate.
    eapply finish; try eassumption; [rewrite Hk; reflexivity|].
    intros rb s1 Eb. unfold body in Eb. rewrite Hk, Ek in Eb.
    destruct (prs f e false s) as [r1 s2|s2|w] eqn:E; try discriminate; inversion Eb; subst rb.
    + destruct (link_kid f x e IH He _ _ _ _ E) as [G1 G2].
      split; [right; eauto|]. split.
      * rewrite rnodes_single. right. exact G1.
      * intros _. left. reflexivity.
    + split; [left; reflexivity|]. split; [left; reflexivity | discriminate].
  - (* BStar *)
    apply andb_true_iff in Hd as [Hd He]. apply andb_true_iff in Hd as [Hd Hsp]. apply andb_true_iff in Hd as [Hf Hk].
    apply kind_eqb_eq in Hk. destruct (n_kids nd) as [|e [|? ?]] eqn:Ek; try discriminate.
    eapply finish; try eassumption; [rewrite Hk; reflexivity|].
    intros rb s1 Eb. unfold body in Eb. rewrite Hk, Ek in Eb.
    destruct (rep_loop (prs f) e (n_sep nd) false f true [] (enter_eol nd s)) as [r1 s2|s2|w] eqn:E; try discriminate.
    inversion Eb; subst rb. exact (rep_bgood false x nd e f _ _ _ IH He Hsp E).
  - (* BPlus *)
    apply andb_true_iff in Hd as [Hd He]. apply andb_true_iff in Hd as [Hd Hsp]. apply andb_true_iff in Hd as [Hf Hk].
    apply kind_eqb_eq in Hk. destruct (n_kids nd) as [|e [|? ?]] eqn:Ek; try discriminate.
    eapply finish; try eassumption; [rewrite Hk; reflexivity|].
    intros rb s1 Eb. unfold body in Eb. rewrite Hk, Ek in Eb.
    destruct (rep_loop (prs f) e (n_sep nd) true f true [] (enter_eol nd s)) as [r1 s2|s2|w] eqn:E; try discriminate.
    inversion Eb; subst rb. exact (rep_bgood true x nd e f _ _ _ IH He Hsp E).
  - (* BUnord *)
    apply andb_true_iff in Hd as [Hd He]. apply andb_true_iff in Hd as [Hd Hnd]. apply andb_true_iff in Hd as [Hd Hsp].
    apply andb_true_iff in Hd as [Hf Hk]. apply kind_eqb_eq in Hk.
    pose proof (each_kids_ok f l IH _ He) as Hko.
    eapply finish; try eassumption; [rewrite Hk; reflexivity|].
    intros rb s1 Eb. unfold body in Eb. rewrite Hk in Eb.
    destruct (n_kids nd) as [|k0 kids0] eqn:Ek; [discriminate|]. rewrite <- Ek in *.
    destruct (ug_loop (prs f) (n_sep nd) (S (length (n_kids nd))) (n_kids nd) true RNone [] (enter_eol nd s)) as [mt acc s2|w] eqn:E;
      [|discriminate].
    destruct mt; [|discriminate].
    set (bod := bod_of (n_kids nd) l).
    destruct (ug_loop_spec (prs f) bod (n_sep nd) (fun sp E0 q s0 r0 s0' H0 => sep_leaf nd Hsp sp E0 f q s0 r0 s0' H0)
                           _ _ _ _ _ _ _ _ (bod_kid_ok (prs f) l (n_kids nd) Hko) (eq_refl : rnodes RNone = []) (Forall_nil _) E)
      as [Ha [hs [rest [P [F1 [F2 Hnn]]]]]].
    rewrite (rnodes_list []) in Hnn. cbn [map concat app] in Hnn.
    assert (G : emits (BUnord l) (evs (rnodes (RList acc)))).
    { apply emits_BUnord.
      set (ts' := map (fun h => evs (snd h)) hs ++ map (fun _ => @nil ev) rest).
      assert (F : Forall2 (fun y t => emits y t) (map bod (map fst hs ++ rest)) ts').
      { unfold ts'. rewrite map_app. apply Forall2_app.
        - clear - F1. induction F1 as [|h hs' Hh _ IHh]; cbn [map]; constructor; assumption.
        - clear - F2. induction F2 as [|e0 rest' He0 _ IHr]; cbn [map]; constructor; assumption. }
      assert (PL : Permutation (map bod (map fst hs ++ rest)) l).
      { rewrite <- (map_bod (prs f) l (n_kids nd) Hko Hnd). apply Permutation_map, Permutation_sym, P. }
      destruct (Permutation_Forall2 PL F) as [ts [Pts Fts]].
      exists ts, ts'. split; [apply Permutation_sym, Pts|]. split; [|exact Fts].
      rewrite Hnn. unfold ts'. rewrite concat_app, concat_nils, app_nil_r, concat_map, map_map. reflexivity. }
    destruct acc as [|a0 acc0]; inversion Eb; subst rb.
    + split; [left; reflexivity|]. split; [exact G | discriminate].
    + split; [right; eauto|]. split; [exact G|]. rewrite (head_not_none _ Ha). discriminate.
Qed.

(* the nodes read off a parse result are well-formed: separator children only below a repetition with a separator *)
Lemma tree_nodes_wf t : forallb node_wf (tree_nodes g mm attr_id conv t) = true.
Proof.
  destruct t as [n p len sup|nid kids]; [reflexivity|]. cbn [tree_nodes].
  destruct (MultPeg.info mm nid) as [a o| | |]; try reflexivity.
  destruct (get_node g nid) as [nd|]; [|reflexivity].
  destruct (asg_op o (n_kind nd)) as [op|]; [|reflexivity].
  cbn [forallb]. rewrite andb_true_r. unfold node_wf. cbn [n_op n_has_sep Mult.n_kids].
  assert (K : forall ks, has_sep nd = false \/ is_list_op op = false ->
                         forallb (fun c => negb (c_sep c)) (map (child_of g conv nd op) ks) = true).
  { intros ks Hs. induction ks as [|k ks IHk]; [reflexivity|]. cbn [map forallb]. rewrite IHk, andb_true_r.
    unfold child_of. cbn [c_sep]. destruct Hs as [Hs|Hs].
    - unfold has_sep in Hs. destruct (n_sep nd); [discriminate|]. rewrite andb_false_r. reflexivity.
    - rewrite Hs. reflexivity. }
  destruct op; cbn [is_list_op andb].
  - apply K. right. reflexivity.
  - apply K. right. reflexivity.
  - destruct (has_sep nd) eqn:Hs; [reflexivity | apply K; left; reflexivity].
  - destruct (has_sep nd) eqn:Hs; [reflexivity | apply K; left; reflexivity].
Qed.

Lemma top_nodes_wf r : forallb node_wf (top_nodes g mm attr_id conv r) = true.
Proof.
  destruct r as [|t|l]; try reflexivity. destruct t as [|nid kids]; [reflexivity|]. cbn [top_nodes].
  induction kids as [|k kids IH]; [reflexivity|]. cbn [flat_map]. rewrite forallb_app, tree_nodes_wf, IH. reflexivity.
Qed.

(* The assignment nodes below the NonTerminal that the interpreter builds for a rule are a trace of the rule's body. *)
Theorem peg_result_is_trace b nid fuel psq s r s' :
  den g mm attr_id true b nid = true ->
  prs fuel nid psq s = Ok r s' ->
  emits b (evs (top_nodes g mm attr_id conv r)).
Proof. intros Hd Hp. exact (link b true nid Hd fuel psq s r s' Hp). Qed.

(* ... and therefore the builder stores exactly the values the elements matched, in order *)
Theorem parsed_values_in_order b nid fuel psq s r s' a d :
  den g mm attr_id true b nid = true -> grammar_ok b = true ->
  prs fuel nid psq s = Ok r s' -> Mult.truthy d = false ->
  let ns := top_nodes g mm attr_id conv r in
  Mult.build a (init_val (infer b a) d) (evs ns)
  = Mult.Ok (if is_list (infer b a) then AList (node_values a ns)
             else AScalar (match node_values a ns with [] => d | v :: _ => v end))
  /\ (is_list (infer b a) = false -> length (node_values a ns) <= 1).
Proof.
  intros Hd Hg Hp Ht ns. apply MultSepProofs.values_in_order_nodes; try assumption.
  - apply top_nodes_wf.
  - eapply peg_result_is_trace; eassumption.
Qed.

End Link.
