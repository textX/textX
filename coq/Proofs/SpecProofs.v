(* Lemmas relating Model/Peg.v (the Arpeggio interpreter as driven by textX) to Model/Spec.v (the
   reference PEG semantics). *)
From TxV Require Import Core.Base Model.PegSyntax Model.Peg Model.Spec.
From TxV Require Proofs.PegProofs.
Require Import Lia.

Definition accepts (o : outcome) : bool := match o with Parsed _ => true | _ => false end.
Definition saccepts (r : sres) : bool := match r with SOk _ _ => true | _ => false end.
Definition c_default : config := mkConfig true [9;10;13;32]%N.

(* grammars outside the class, on which interpreter and reference semantics differ (Props/C01.v) *)
(* M: ('a'- | 'b') 'c';   on "ac"  (dumped by tools/pegdump.py) *)
Definition g_sup_alt : grammar := (mkGrammar [mkNode KSeq [1;6] None false [77;111;100;101;108]%N true false None None;
  mkNode KSeq [2;5] None false [77]%N true false None None;
  mkNode KChoice [3;4] None false []%N false false None None;
  mkNode (KStr [97]%N None) [] None false []%N false true None None;
  mkNode (KStr [98]%N None) [] None false []%N false false None None;
  mkNode (KStr [99]%N None) [] None false []%N false false None None;
  mkNode KEOF [] None false [69;79;70]%N false false None None] 0 None).

(* M: x=INT ('a'? | 'b') y=INT;   on "1 2" *)
Definition g_opt_alt : grammar := (mkGrammar [mkNode KSeq [1;9] None false [77;111;100;101;108]%N true false None None;
  mkNode KSeq [2;4;8] None false [77]%N true false None None;
  mkNode KSeq [3] None false [95;95;97;115;103;110;95;112;108;97;105;110]%N true false None None;
  mkNode (KRegex 0) [] None false [73;78;84]%N true false None None;
  mkNode KChoice [5;7] None false []%N false false None None;
  mkNode KOpt [6] None false []%N false false None None;
  mkNode (KStr [97]%N None) [] None false []%N false false None None;
  mkNode (KStr [98]%N None) [] None false []%N false false None None;
  mkNode KSeq [3] None false [95;95;97;115;103;110;95;112;108;97;105;110]%N true false None None;
  mkNode KEOF [] None false [69;79;70]%N false false None None] 0 None).
Definition t_opt_alt := [((0,0),1);((0,2),1)].

Lemma flatten_list l : flatten (RList l) = flat_map flatten l.
Proof. induction l as [|x l IH]; [reflexivity|]. cbn [flat_map]. rewrite <- IH. reflexivity. Qed.

Lemma flatten_app l r : flatten (RList (l ++ [r])) = flatten (RList l) ++ flatten r.
Proof. rewrite !flatten_list. rewrite flat_map_app. cbn [flat_map]. rewrite app_nil_r. reflexivity. Qed.

Lemma erase_all_app a b : erase_all (a ++ b) = erase_all a ++ erase_all b.
Proof. unfold erase_all. apply flat_map_app. Qed.

Lemma erase_SNT n kids : erase (SNT n kids) = [NT n (erase_all kids)].
Proof.
  cbn [erase]. unfold erase_all.
  assert (E : (fix go (l : list stree) : list tree :=
                 match l with [] => [] | x :: l' => erase x ++ go l' end) kids = flat_map erase kids).
  { induction kids as [|x l IH]; [reflexivity|]. cbn [flat_map]. rewrite <- IH. reflexivity. }
  rewrite E. reflexivity.
Qed.

(* every tree of the result is truthy (no empty NonTerminal) *)
Definition clean (r : res) : Prop := Forall (fun t => truthy (RTree t) = true) (flatten r).

Lemma clean_falsy r : clean r -> truthy r = false -> flatten r = [].
Proof.
  intros Hc Ht. destruct r as [|t|l]; [reflexivity| |].
  - unfold clean in Hc. cbn [flatten] in Hc. inversion Hc; subst. congruence.
  - destruct l; [reflexivity | discriminate].
Qed.

Lemma clean_truthy r : clean r -> flatten r <> [] -> truthy r = true.
Proof.
  intros Hc Hne. destruct (truthy r) eqn:E; [reflexivity|]. exfalso. apply Hne. apply clean_falsy; assumption.
Qed.

(* the interpreter's list of child results and the reference side's list of subtrees denote the same trees *)
Definition accrel (acc : list res) (sacc : list stree) : Prop :=
  erase_all sacc = flatten (RList acc) /\ clean (RList acc) /\ Forall (fun r => truthy r = true) acc.

Lemma accrel_nil : accrel [] [].
Proof. split; [reflexivity|]. split; constructor. Qed.

(* the loops append a child result only if it is truthy; a falsy clean result has no trees *)
Lemma flatten_snoc acc r : clean r -> flatten (RList (if truthy r then acc ++ [r] else acc)) = flatten (RList acc) ++ flatten r.
Proof.
  intro Hc. destruct (truthy r) eqn:Et; [apply flatten_app|]. rewrite (clean_falsy _ Hc Et), app_nil_r. reflexivity.
Qed.

Lemma accrel_snoc acc sacc r ts : accrel acc sacc -> erase_all ts = flatten r -> clean r ->
  accrel (if truthy r then acc ++ [r] else acc) (sacc ++ ts).
Proof.
  intros [He [Hcl Htr]] Ee Hcr. split; [|split].
  - rewrite erase_all_app, He, Ee, flatten_snoc by exact Hcr. reflexivity.
  - unfold clean. rewrite flatten_snoc by exact Hcr. apply Forall_app. split; assumption.
  - destruct (truthy r) eqn:Et; [|exact Htr]. apply Forall_app. split; [exact Htr|]. constructor; [exact Et | constructor].
Qed.

Definition cpos_id (m : list (nat * nat)) : Prop := Forall (fun kv => fst kv = snd kv) m.

Lemma cpos_id_lookup m p q : cpos_id m -> lookup p m = Some q -> q = p.
Proof.
  induction m as [|[k v] m IH]; intros H L; [discriminate|].
  inversion H as [|? ? Hkv Hm]; subst. cbn [lookup] in L. cbn in Hkv. subst v.
  destruct (Nat.eqb p k) eqn:E.
  - apply Nat.eqb_eq in E. inversion L; subst. reflexivity.
  - apply IH; assumption.
Qed.

Lemma cpos_id_upd m p : cpos_id m -> cpos_id (upd p p m).
Proof.
  induction m as [|[k v] m IH]; intro H; cbn [upd].
  - constructor; [reflexivity | constructor].
  - inversion H as [|? ? Hkv Hm]; subst. destruct (Nat.eqb p k).
    + constructor; [reflexivity | exact Hm].
    + constructor; [exact Hkv | apply IH; exact Hm].
Qed.

Section Refine1.
Variable g : grammar.
Variable input : list N.
Variable orc : nat -> nat -> option nat.
Variable x : sctx.
(* the invariant of comment_positions is a parameter: identity entries without a Comment rule, the comment
   closure with one; [dx]: the reference semantics may run with dx more units of fuel *)
Variable CP : list (nat * nat) -> Prop.
Variable dx : nat.
Hypothesis HCPid : forall m, CP m -> cpos_id m.
Hypothesis HCPupd : forall m p, CP m -> CP (upd p p m).
(* ctx_enter_id takes it along through [destruct x] *)
Hypothesis Hx_cmt : x_incmt x = false.
Hypothesis Hcm : g_comments g = None.
Hypothesis Horc : orc_pos orc.

Record inv (s : st) : Prop := mkInv {
  inv_ws : ws s = eff_ws x; inv_skip : skipws s = x_skip x; inv_cmt : in_cmt s = false;
  inv_cpos : CP (cpos s); inv_eol : eolterm s = x_eol x; inv_real : real_ws s = x_ws x }.

Lemma inv_set_pos p s : inv s -> inv (set_pos p s).
Proof. intros [H1 H2 H3 H4 H5 H6]. constructor; assumption. Qed.

Definition valid (nid : nat) : Prop := nid < length (g_nodes g).

Definition sim (rec : nat -> bool -> st -> out) (srec : nat -> bool -> sctx -> nat -> sres) : Prop :=
  forall nid psq s, inv s -> valid nid ->
    match rec nid psq s with
    | Ok r s' => exists ts, srec nid psq x (pos s) = SOk ts (pos s') /\ erase_all ts = flatten r /\ clean r /\
                            inv s' /\ pos s <= pos s' /\
                            (forall k, prodb g k nid = true -> flatten r <> [] /\ pos s < pos s')
    | Fail s' => srec nid psq x (pos s) = SFail /\ inv s'
    | Abort _ => True
    end.

Lemma skip_ws_from_ge w l p : p <= skip_ws_from w l p.
Proof.
  revert p; induction l as [|c l IH]; intro p; cbn [skip_ws_from]; [lia|].
  destruct (existsb (N.eqb c) w); [|lia]. specialize (IH (S p)). lia.
Qed.

(* Match.parse up to _parse: whitespace skipping only (no comment model) *)
Lemma match_pre_sim rec k s :
  inv s ->
  exists s1, match_pre g input rec k s = Ok RNone s1 /\ inv s1 /\
             pos s1 = (if x_skip x then sws input x (pos s) else pos s) /\ pos s <= pos s1.
Proof.
  intros [H1 H2 H3 H4 H5 H6]. unfold match_pre, maybe_skip_ws. rewrite H2.
  destruct (x_skip x) eqn:Esk.
  - unfold do_skip_ws. cbn [skipws set_pos cpos pos in_cmt ws].
    set (p1 := skip_ws_from (ws s) (skipn (pos s) input) (pos s)).
    assert (Ep1 : p1 = sws input x (pos s)) by (unfold sws; rewrite <- H1; reflexivity).
    assert (Hge : pos s <= p1) by apply skip_ws_from_ge.
    rewrite H2. destruct (lookup p1 (cpos s)) as [q|] eqn:EL.
    + apply (cpos_id_lookup _ _ _ (HCPid _ H4)) in EL. subst q.
      eexists. split; [reflexivity|]. split; [constructor; cbn; try assumption; congruence|]. cbn [pos set_pos]. split; [exact Ep1 | exact Hge].
    + rewrite H3. unfold parse_comments. rewrite Hcm.
      eexists. split; [reflexivity|]. split.
      * constructor; cbn; try assumption; try congruence. apply HCPupd. exact H4.
      * cbn [pos set_pos set_cpos set_in_cmt]. split; [exact Ep1 | exact Hge].
  - rewrite H2. rewrite H3. unfold parse_comments. rewrite Hcm.
    eexists. split; [reflexivity|]. split.
    + constructor; cbn; try assumption; try congruence. apply HCPupd. exact H4.
    + cbn. split; [reflexivity | lia].
Qed.

Lemma seq_sim rec srec psq kids :
  sim rec srec -> Forall valid kids ->
  forall acc sacc s, inv s -> accrel acc sacc ->
  match seq_loop rec psq kids acc s with
  | Ok r s' => exists acc' ts, r = RList acc' /\ sseq srec psq x kids sacc (pos s) = SOk ts (pos s') /\
       accrel acc' ts /\ inv s' /\ pos s <= pos s' /\
       (exists rest, flatten (RList acc') = flatten (RList acc) ++ rest) /\
       (forall k, existsb (prodb g k) kids = true -> flatten (RList acc') <> [] /\ pos s < pos s')
  | Fail s' => sseq srec psq x kids sacc (pos s) = SFail /\ inv s'
  | Abort _ => True
  end.
Proof.
  intros Hsim. induction kids as [|c kids IH]; intros Hval acc sacc s Hinv Ha.
  - cbn [seq_loop sseq]. exists acc, sacc.
    split; [reflexivity|]. split; [reflexivity|]. split; [exact Ha|]. split; [exact Hinv|]. split; [lia|]. split.
    + exists []. rewrite app_nil_r. reflexivity.
    + intros k Hk. cbn in Hk. discriminate.
  - inversion Hval as [|? ? Hc Hval']; subst. cbn [seq_loop sseq].
    pose proof (Hsim c psq s Hinv Hc) as HS.
    destruct (rec c psq s) as [r s1|s1|w] eqn:E.
    + destruct HS as [ts1 [Es [Ee [Hcr [Hinv1 [Hle Hprod]]]]]]. rewrite Es.
      pose proof (flatten_snoc acc r Hcr) as Hfl.
      specialize (IH Hval' _ (sacc ++ ts1) s1 Hinv1 (accrel_snoc acc sacc r ts1 Ha Ee Hcr)).
      destruct (seq_loop rec psq kids (if truthy r then acc ++ [r] else acc) s1) as [r' s'|s'|w'] eqn:E'.
      * destruct IH as [acc' [ts [Er [Es' [Ha' [Hinv' [Hle' [[rest Hrest] Hprod']]]]]]]].
        exists acc', ts.
        split; [exact Er|]. split; [exact Es'|]. split; [exact Ha'|]. split; [exact Hinv'|]. split; [lia|]. split.
        -- exists (flatten r ++ rest). rewrite Hrest, Hfl, app_assoc. reflexivity.
        -- intros k Hk. cbn [existsb] in Hk. apply orb_true_iff in Hk as [Hp|Hp].
           ++ destruct (Hprod _ Hp) as [Hne Hlt]. split; [|lia]. rewrite Hrest, Hfl. intro X.
              apply app_eq_nil in X as [X _]. apply app_eq_nil in X as [_ X]. contradiction.
           ++ destruct (Hprod' _ Hp) as [Hne Hlt]. split; [exact Hne | lia].
      * exact IH.
      * exact I.
    + destruct HS as [Es Hinv1]. rewrite Es. split; [reflexivity | exact Hinv1].
    + exact I.
Qed.

Lemma choice_sim rec srec c_pos kids :
  sim rec srec -> Forall valid kids -> (forall c, In c kids -> exists k, prodb g k c = true) ->
  forall s, inv s -> pos s = c_pos ->
  match choice_loop rec c_pos kids s with
  | Ok r s' => (is_none r = false /\ exists ts, schoice srec x kids c_pos = SOk ts (pos s') /\ erase_all ts = flatten r /\
                clean r /\ inv s' /\ c_pos < pos s' /\ flatten r <> [])
               \/ (is_none r = true /\ schoice srec x kids c_pos = SFail /\ inv s')
  | Fail _ => False
  | Abort _ => True
  end.
Proof.
  intros Hsim. induction kids as [|c kids IH]; intros Hval Hprod s Hinv Hpos.
  - cbn [choice_loop schoice]. right. split; [reflexivity|]. split; [reflexivity | exact Hinv].
  - inversion Hval as [|? ? Hc Hval']; subst. cbn [choice_loop schoice].
    pose proof (Hsim c false s Hinv Hc) as HS.
    destruct (rec c false s) as [r s1|s1|w] eqn:E.
    + destruct HS as [ts1 [Es [Ee [Hcr [Hinv1 [Hle Hp]]]]]].
      destruct (Hprod c (or_introl eq_refl)) as [k Hk]. destruct (Hp k Hk) as [Hne Hlt].
      assert (Hnn : is_none r = false) by (destruct r; [exfalso; apply Hne; reflexivity | reflexivity | reflexivity]).
      rewrite Hnn. left. split; [exact Hnn|]. exists ts1. rewrite Es.
      split; [reflexivity|]. split; [exact Ee|]. split; [exact Hcr|]. split; [exact Hinv1|]. split; [lia | exact Hne].
    + destruct HS as [Es Hinv1]. rewrite Es.
      apply IH; [exact Hval' | intros c' Hc'; apply Hprod; right; exact Hc' | apply inv_set_pos; exact Hinv1 | reflexivity].
    + exact I.
Qed.

(* the reference side of PegProofs.rep_elem: one iteration after the (optional) separator *)
Definition srep_elem (srec : nat -> bool -> sctx -> nat -> sres) e sep plus k first (acc : list stree) p
           (sts : list stree) p1 : sres :=
  match srec e false x p1 with
  | SOk ts p2 => if Nat.ltb p p2 then srep true srec e sep plus x k false (acc ++ sts ++ ts) p2
                 else if (plus && first)%bool then SOk (acc ++ sts ++ ts) p2
                 else if (plus && first)%bool then SFail else SOk acc p
  | SFail => if (plus && first)%bool then SFail else SOk (acc ++ sts) p
  | SOut => SOut
  end.
Lemma srep_S srec e sep plus k first acc p :
  srep true srec e sep plus x (S k) first acc p =
  match sep with
  | Some sp =>
    if first then srep_elem srec e sep plus k first acc p [] p
    else match srec sp false x p with
         | SOk sts p1 => srep_elem srec e sep plus k first acc p sts p1
         | SFail => if (plus && first)%bool then SFail else SOk acc p
         | SOut => SOut
         end
  | None => srep_elem srec e sep plus k first acc p [] p
  end.
Proof.
  cbn [srep]. unfold srep_elem. rewrite app_nil_r.
  destruct sep as [sp|]; [destruct first|]; try reflexivity.
Qed.

(* repetitions, with or without separator; the reference side is the trailing-separator variant *)
Definition rep_post (plus first : bool) (acc : list res) (sacc : list stree) (s : st) (r : res) (s' : st)
           (ts : list stree) : Prop :=
  exists acc', r = RList acc' /\ accrel acc' ts /\ inv s' /\ pos s <= pos s' /\
    (exists rest, flatten (RList acc') = flatten (RList acc) ++ rest) /\
    (first = true -> (acc' = acc /\ ts = sacc) \/ flatten (RList acc') <> []) /\
    ((plus && first)%bool = true -> flatten (RList acc') <> [] /\ pos s < pos s').

Lemma rep_sim rec srec e sep plus :
  sim rec srec -> valid e -> (exists k, prodb g k e = true) -> (forall sp, sep = Some sp -> valid sp) ->
  forall k first acc sacc s, inv s -> accrel acc sacc ->
  match rep_loop rec e sep plus k first acc s with
  | Ok r s' => exists ts, srep true srec e sep plus x (k + dx) first sacc (pos s) = SOk ts (pos s') /\
                          rep_post plus first acc sacc s r s' ts
  | Fail s' => srep true srec e sep plus x (k + dx) first sacc (pos s) = SFail /\ inv s'
  | Abort _ => True
  end.
Proof.
  intros Hsim He [ke Hke] Hsepv. induction k as [|k IH]; intros first acc sacc s Hinv Ha; [exact I|].
  (* the element step, for any accumulated prefix *)
  assert (Helem : forall acc1 sts s1,
            inv s1 -> pos s <= pos s1 -> accrel acc1 (sacc ++ sts) ->
            (exists rest, flatten (RList acc1) = flatten (RList acc) ++ rest) ->
            (first = true -> acc1 = acc /\ sts = []) ->
            match PegProofs.rep_elem rec e sep plus k first (pos s) acc1 s1 with
            | Ok r s' => exists ts, srep_elem srec e sep plus (k + dx) first sacc (pos s) sts (pos s1) = SOk ts (pos s') /\
                                    rep_post plus first acc sacc s r s' ts
            | Fail s' => srep_elem srec e sep plus (k + dx) first sacc (pos s) sts (pos s1) = SFail /\ inv s'
            | Abort _ => True
            end).
  { intros acc1 sts s1 Hinv1 Hle1 Ha1 [rest1 Hrest1] Hfirst.
    unfold PegProofs.rep_elem, srep_elem.
    pose proof (Hsim e false s1 Hinv1 He) as HS.
    destruct (rec e false s1) as [r s2|s2|w] eqn:E.
    - destruct HS as [ts1 [Es [Ee [Hcr [Hinv2 [Hle Hp]]]]]]. destruct (Hp ke Hke) as [Hne Hlt].
      pose proof (accrel_snoc acc1 (sacc ++ sts) r ts1 Ha1 Ee Hcr) as Ha2.
      rewrite (clean_truthy _ Hcr Hne), <- app_assoc in Ha2. rewrite (clean_truthy _ Hcr Hne), Es.
      assert (Hltb : Nat.ltb (pos s) (pos s2) = true) by (apply Nat.ltb_lt; lia). rewrite Hltb.
      specialize (IH false (acc1 ++ [r]) (sacc ++ sts ++ ts1) s2 Hinv2 Ha2).
      destruct (rep_loop rec e sep plus k false (acc1 ++ [r]) s2) as [r' s'|s'|w'] eqn:E'.
      + destruct IH as [ts [Es' [acc' [Er [Ha' [Hinv' [Hle' [[rest Hrest] _]]]]]]]].
        assert (Hne' : flatten (RList acc') <> []).
        { rewrite Hrest, flatten_app. intro X. apply app_eq_nil in X as [X _]. apply app_eq_nil in X as [_ X]. contradiction. }
        exists ts. split; [exact Es'|]. exists acc'.
        split; [exact Er|]. split; [exact Ha'|]. split; [exact Hinv'|]. split; [lia|]. split.
        * exists (rest1 ++ flatten r ++ rest). rewrite Hrest, flatten_app, Hrest1. rewrite <- !app_assoc. reflexivity.
        * split; [intros _; right; exact Hne'|]. intros _. split; [exact Hne' | lia].
      + destruct IH as [Es' Hinv']. split; [exact Es' | exact Hinv'].
      + exact I.
    - destruct HS as [Es Hinv2]. rewrite Es.
      destruct (plus && first)%bool eqn:Epf.
      + split; [reflexivity | apply inv_set_pos; exact Hinv2].
      + exists (sacc ++ sts). split; [reflexivity|]. exists acc1. cbn [pos set_pos].
        split; [reflexivity|]. split; [exact Ha1|]. split; [apply inv_set_pos; exact Hinv2|].
        split; [lia|]. split; [exists rest1; exact Hrest1|]. split.
        * intros Hf. destruct (Hfirst Hf) as [-> ->]. left. split; [reflexivity | apply app_nil_r].
        * intro X. rewrite Epf in X. discriminate.
    - exact I. }
  change (S k + dx) with (S (k + dx)). rewrite PegProofs.rep_loop_S, srep_S.
  assert (Hself : exists rest, flatten (RList acc) = flatten (RList acc) ++ rest) by (exists []; rewrite app_nil_r; reflexivity).
  assert (Ha0 : accrel acc (sacc ++ [])) by (rewrite app_nil_r; exact Ha).
  destruct sep as [sp|].
  - destruct first.
    + apply (Helem acc [] s Hinv (le_n _) Ha0 Hself). intros _. split; reflexivity.
    + pose proof (Hsim sp false s Hinv (Hsepv sp eq_refl)) as HS.
      destruct (rec sp false s) as [sr s1|s1|w] eqn:E.
      * destruct HS as [sts [Es [Ee [Hcr [Hinv1 [Hle _]]]]]]. rewrite Es.
        apply (Helem _ sts s1 Hinv1 Hle (accrel_snoc acc sacc sr sts Ha Ee Hcr)).
        -- exists (flatten sr). apply flatten_snoc. exact Hcr.
        -- intro X; discriminate.
      * destruct HS as [Es Hinv1]. rewrite Es. rewrite andb_false_r.
        exists sacc. split; [reflexivity|]. exists acc. cbn [pos set_pos].
        split; [reflexivity|]. split; [exact Ha|]. split; [apply inv_set_pos; exact Hinv1|].
        split; [lia|]. split; [exact Hself|]. split; [intro X; discriminate|].
        intro X. rewrite andb_false_r in X. discriminate.
      * exact I.
  - apply (Helem acc [] s Hinv (le_n _) Ha0 Hself). intros _. split; reflexivity.
Qed.

Lemma inv_reg_fail p s : inv s -> inv (reg_fail p s).
Proof.
  intros [H1 H2 H3 H4 H5 H6]. unfold reg_fail. destruct (nm s) as [q|].
  - rewrite H3. destruct (Nat.ltb q p); constructor; cbn; assumption.
  - constructor; cbn; assumption.
Qed.

Lemma term_sim nid k psq s1 :
  inv s1 -> is_match_kind k = true -> (forall t o, k = KStr t o -> t <> []) ->
  match term_parse input orc nid k psq s1 with
  | Ok r s2 => exists ts, term_match input orc nid k psq (pos s1) = SOk ts (pos s2) /\ erase_all ts = flatten r /\
                          clean r /\ inv s2 /\ pos s1 <= pos s2 /\ (k <> KEOF -> flatten r <> [] /\ pos s1 < pos s2)
  | Fail s2 => term_match input orc nid k psq (pos s1) = SFail /\ inv s2
  | Abort _ => True
  end.
Proof.
  intros Hinv Hk Hne. destruct k as [| | | | | | | | | |t o|o]; try discriminate.
  - (* KEOF *) cbn [term_parse term_match]. destruct (Nat.eqb (length input) (pos s1)).
    + eexists. split; [reflexivity|]. split; [reflexivity|]. split; [constructor; [reflexivity|constructor]|].
      split; [exact Hinv|]. split; [lia|]. intro X; congruence.
    + split; [reflexivity | apply inv_reg_fail; exact Hinv].
  - (* KStr *)
    assert (Hlen : 0 < length t) by (specialize (Hne t o eq_refl); destruct t; [congruence | cbn; lia]).
    cbn [term_parse term_match].
    destruct o as [o|].
    + destruct (orc o (pos s1)) as [n|].
      * eexists. split; [reflexivity|]. split; [reflexivity|]. split; [constructor; [reflexivity|constructor]|].
        split; [apply inv_set_pos; exact Hinv|]. cbn [pos set_pos]. split; [lia|]. intros _. split; [discriminate | lia].
      * split; [reflexivity | apply inv_reg_fail; exact Hinv].
    + destruct (is_prefix t (skipn (pos s1) input)).
      * eexists. split; [reflexivity|]. split; [reflexivity|]. split; [constructor; [reflexivity|constructor]|].
        split; [apply inv_set_pos; exact Hinv|]. cbn [pos set_pos]. split; [lia|]. intros _. split; [discriminate | lia].
      * split; [reflexivity | apply inv_reg_fail; exact Hinv].
  - (* KRegex *) cbn [term_parse term_match]. destruct (orc o (pos s1)) as [n|] eqn:Eo.
    + pose proof (Horc _ _ _ Eo) as Hn. assert (En : Nat.eqb n 0 = false) by (apply Nat.eqb_neq; lia). rewrite En.
      eexists. split; [reflexivity|]. split; [reflexivity|]. split; [constructor; [reflexivity|constructor]|].
      split; [apply inv_set_pos; exact Hinv|]. cbn [pos set_pos]. split; [lia|]. intros _. split; [discriminate | lia].
    + split; [reflexivity | apply inv_reg_fail; exact Hinv].
Qed.

Lemma prodb_0 nid : prodb g 0 nid = false.
Proof.
  unfold prodb. cbn [prod_tbl]. revert nid. induction (g_nodes g) as [|a l IH]; intro nid; destruct nid; cbn; auto.
Qed.

Lemma prodb_S k nid nd : get_node g nid = Some nd -> prodb g (S k) nid = prod_nd (prodb g k) nd.
Proof.
  intro H. unfold prodb at 1. cbn [prod_tbl]. cbv zeta. unfold get_node in H. rewrite (nth_error_nth _ _ _ (map_nth_error _ _ _ H)). reflexivity.
Qed.

(* a node is productive only if it is not suppressed and its own clause of [prod_nd] says so *)
Lemma prodb_node k nid nd : get_node g nid = Some nd -> prodb g k nid = true ->
  n_suppress nd = false /\ exists j, prod_nd (prodb g j) nd = true.
Proof.
  intros En H. destruct k as [|k]; [rewrite prodb_0 in H; discriminate|]. rewrite (prodb_S k nid nd En) in H.
  split; [|exists k; exact H]. unfold prod_nd in H. destruct (n_suppress nd); [discriminate | reflexivity].
Qed.

Lemma ctx_enter_id nd : n_ws nd = None -> n_skipws nd = None -> ctx_enter nd x = x.
Proof. intros H1 H2. unfold ctx_enter. rewrite H1, H2. destruct x; reflexivity. Qed.
Lemma ctx_eol_id nd : n_eolterm nd = false -> ctx_eol nd x = x.
Proof. intro H. unfold ctx_eol. rewrite H. reflexivity. Qed.

End Refine1.

Definition opt_is_none {A} (o : option A) : o = None <-> opt_none o = true.
Proof. destruct o; cbn; split; congruence. Qed.

Lemma head_not_none_of_truthy acc : Forall (fun r => truthy r = true) acc -> head_is_none (RList acc) = false.
Proof. intro H. destruct acc as [|a l]; [reflexivity|]. inversion H; subst. destruct a; [discriminate | reflexivity | reflexivity]. Qed.

Section Ug.
Variable g : grammar.
Variable x : sctx.
Variable CP : list (nat * nat) -> Prop.
Variable pf : nat.
Variables (rec : nat -> bool -> st -> out) (srec : nat -> bool -> sctx -> nat -> sres).
Hypothesis Hsim : sim g x CP rec srec.

Notation okm := (fun todo => Forall (valid g) todo /\ forall c, In c todo -> prodb g pf c = true).

(* one round: the first remaining member that matches *)
Lemma ug_try_sim : forall todo mt s, inv x CP s -> okm todo ->
  match ug_try rec false (pos s) todo mt s with
  | UGHit e r s2 => exists ts, sug_pick srec x todo (pos s) = Some (Some (e, ts, pos s2)) /\ erase_all ts = flatten r /\
                               clean r /\ truthy r = true /\ flatten r <> [] /\ inv x CP s2 /\ pos s < pos s2 /\ In e todo
  | UGNone mt' s2 => sug_pick srec x todo (pos s) = Some None /\ inv x CP s2 /\ pos s2 = pos s /\
                     (todo <> [] -> mt' = false /\ sug_rest srec x todo (pos s) = SFail) /\ (todo = [] -> mt' = mt)
  | UGAbort _ => True
  end.
Proof.
  induction todo as [|c todo IH]; intros mt s Hinv [Hv Hp]; cbn [ug_try sug_pick sug_rest].
  - split; [reflexivity|]. split; [exact Hinv|]. split; [reflexivity|]. split; [intro X; congruence | reflexivity].
  - inversion Hv as [|? ? Hc Hv']; subst.
    pose proof (Hsim c false s Hinv Hc) as HS.
    destruct (rec c false s) as [r s1|s1|w] eqn:E.
    + destruct HS as [ts [Es [Ee [Hcl [Hinv1 [Hle Hpr]]]]]]. destruct (Hpr pf (Hp c (or_introl eq_refl))) as [Hne Hlt].
      rewrite (clean_truthy _ Hcl Hne). rewrite Es.
      assert (Hb : Nat.ltb (pos s) (pos s1) = true) by (apply Nat.ltb_lt; exact Hlt). rewrite Hb.
      exists ts. split; [reflexivity|]. split; [exact Ee|]. split; [exact Hcl|]. split; [apply clean_truthy; assumption|].
      split; [exact Hne|]. split; [exact Hinv1|]. split; [exact Hlt | left; reflexivity].
    + destruct HS as [Es Hinv1]. rewrite Es.
      assert (Hinv2 : inv x CP (set_pos (pos s) s1)) by (apply inv_set_pos; exact Hinv1).
      specialize (IH false (set_pos (pos s) s1) Hinv2 (conj Hv' (fun c' Hc' => Hp c' (or_intror Hc')))).
      cbn [pos set_pos] in IH.
      destruct (ug_try rec false (pos s) todo false (set_pos (pos s) s1)) as [e r s2|mt' s2|w].
      * destruct IH as [ts [A [B [C [D [E0 [F [G H]]]]]]]]. exists ts. rewrite A.
        split; [reflexivity|]. repeat (split; [assumption|]). right. exact H.
      * destruct IH as [A [B [C [D1 D2]]]]. rewrite A. split; [reflexivity|]. split; [exact B|]. split; [exact C|].
        split; [|intro X; discriminate]. intros _. split; [|reflexivity].
        destruct todo as [|c2 todo']; [apply D2; reflexivity | apply D1; discriminate].
      * exact I.
    + exact I.
Qed.

Lemma ug_loop_sim : forall n todo first acc sacc s,
  inv x CP s -> okm todo -> length todo < n -> accrel acc sacc ->
  match ug_loop rec None n todo first RNone acc s with
  | UGDone mt acc' s' =>
    if mt then exists ts, sug srec None x n todo first sacc (pos s) = SOk ts (pos s') /\ accrel acc' ts /\
                          inv x CP s' /\ pos s <= pos s' /\
                          (todo <> [] -> flatten (RList acc') <> []) /\ (todo = [] -> acc' = acc)
    else sug srec None x n todo first sacc (pos s) = SFail /\ inv x CP s'
  | UGOAbort _ => True
  end.
Proof.
  induction n as [|n IH]; intros todo first acc sacc s Hinv Hok Hlen Ha; [lia|].
  destruct todo as [|t0 todo'] eqn:Et.
  - cbn [ug_loop sug]. exists sacc. split; [reflexivity|]. split; [exact Ha|].
    split; [exact Hinv|]. split; [lia|]. split; [intro X; congruence | reflexivity].
  - rewrite <- Et in *. assert (Hne : todo <> []) by (rewrite Et; discriminate).
    assert (E1 : ug_loop rec None (S n) todo first RNone acc s =
                 match ug_try rec false (pos s) todo true s with
                 | UGHit e r s2 => ug_loop rec None n (remove_first e todo) false RNone (acc ++ [r]) s2
                 | UGNone mt s2 => UGDone mt acc (set_pos (pos s) s2)
                 | UGAbort w => UGOAbort w
                 end) by (rewrite Et; reflexivity).
    assert (E2 : sug srec None x (S n) todo first sacc (pos s) =
                 match sug_pick srec x todo (pos s) with
                 | None => SOut
                 | Some None => match sug_rest srec x todo (pos s) with SOk _ _ => SOk sacc (pos s) | r => r end
                 | Some (Some (e, ts, p2)) => sug srec None x n (remove_first e todo) false (sacc ++ [] ++ ts) p2
                 end) by (rewrite Et; reflexivity).
    rewrite E1, E2. clear E1 E2.
    pose proof (ug_try_sim todo true s Hinv Hok) as HT.
    destruct (ug_try rec false (pos s) todo true s) as [e r s2|mt' s2|w].
    + destruct HT as [ts [A [B [C [D [E0 [F [G H]]]]]]]]. rewrite A. cbn [app].
      destruct Hok as [Hv Hp].
      assert (Hok' : okm (remove_first e todo)).
      { split; [apply Forall_forall; intros y Hy; rewrite Forall_forall in Hv; apply Hv; apply (PegProofs.remove_first_In _ _ _ Hy)
               | intros y Hy; apply Hp; apply (PegProofs.remove_first_In _ _ _ Hy)]. }
      pose proof (PegProofs.remove_first_length e todo H) as Hl.
      pose proof (accrel_snoc acc sacc r ts Ha B C) as Ha'. rewrite D in Ha'.
      specialize (IH (remove_first e todo) false (acc ++ [r]) (sacc ++ ts) s2 F Hok' ltac:(lia) Ha').
      destruct (ug_loop rec None n (remove_first e todo) false RNone (acc ++ [r]) s2) as [mt acc' s'|w]; [|exact I].
      destruct mt.
      * destruct IH as [ts' [A' [B' [F' [G' [H1 H2]]]]]]. exists ts'.
        split; [exact A'|]. split; [exact B'|]. split; [exact F'|]. split; [lia|].
        split; [|intro X; contradiction]. intros _.
        destruct (remove_first e todo) as [|z zs] eqn:Er.
        -- rewrite (H2 eq_refl). rewrite flatten_app. intro X. apply app_eq_nil in X as [_ X]. contradiction.
        -- apply H1. discriminate.
      * exact IH.
    + destruct HT as [A [B [C [D1 _]]]]. destruct (D1 Hne) as [-> Er]. rewrite A, Er.
      split; [reflexivity | apply inv_set_pos; exact B].
    + exact I.
Qed.
End Ug.

Lemma strip_eol_idem w : strip_eol (strip_eol w) = strip_eol w.
Proof.
  unfold strip_eol. induction w as [|c w IH]; [reflexivity|]. cbn [filter].
  destruct (negb (N.eqb c 10 || N.eqb c 13)) eqn:E; [|exact IH]. cbn [filter]. rewrite E, IH. reflexivity.
Qed.

(* contexts that occur: not inside comment parsing; inside an eolterm repetition only when the table has no
   rule-level ws modifier at all *)
Definition okx (g : grammar) (x : sctx) : Prop := x_incmt x = false /\ (x_eol x = true -> nows g = true).

Lemma okx_enter g nd x : okx g x -> okx g (ctx_enter nd x).
Proof. intros [A B]. split; assumption. Qed.

Lemma enter_ws_pos nd s : pos (enter_ws nd s) = pos s.
Proof. unfold enter_ws. destruct (n_ws nd), (n_skipws nd); reflexivity. Qed.
Lemma leave_ws_pos nd s s1 : pos (leave_ws nd s s1) = pos s1.
Proof. unfold leave_ws. destruct (n_ws nd), (n_skipws nd); reflexivity. Qed.
Lemma enter_eol_pos nd s : pos (enter_eol nd s) = pos s.
Proof. unfold enter_eol. destruct (n_eolterm nd); reflexivity. Qed.
Lemma leave_eol_pos nd s s1 : pos (leave_eol nd s s1) = pos s1.
Proof. unfold leave_eol. destruct (n_eolterm nd); reflexivity. Qed.

Lemma enter_ws_inv x CP nd s : inv x CP s -> (n_ws nd = None \/ x_eol x = false) -> inv (ctx_enter nd x) CP (enter_ws nd s).
Proof.
  destruct x as [xw xs xe xi]. intros [H1 H2 H3 H4 H5 H6] Hc.
  unfold enter_ws, ctx_enter, set_ws, set_skipws, eff_ws in *. cbn [x_ws x_skip x_eol x_incmt] in *.
  destruct (n_ws nd) as [w|] eqn:Ew.
  - destruct Hc as [X|X]; [discriminate|]. rewrite X in *. cbv iota in *.
    destruct (n_skipws nd); constructor; cbn [ws skipws in_cmt cpos eolterm real_ws x_ws x_skip x_eol eff_ws];
      try rewrite H5; try assumption; reflexivity.
  - destruct (n_skipws nd); constructor; cbn [ws skipws in_cmt cpos eolterm real_ws x_ws x_skip x_eol eff_ws]; try assumption; reflexivity.
Qed.

Lemma leave_ws_inv x CP nd s s1 :
  inv x CP s -> (n_ws nd = None \/ x_eol x = false) -> inv (ctx_enter nd x) CP s1 -> inv x CP (leave_ws nd s s1).
Proof.
  destruct x as [xw xs xe xi]. intros [H1 H2 H3 H4 H5 H6] Hc [G1 G2 G3 G4 G5 G6]. unfold leave_ws, set_ws, set_skipws.
  unfold ctx_enter, eff_ws in *. cbn [x_ws x_skip x_eol x_incmt] in *.
  destruct (n_ws nd) as [w|] eqn:Ew.
  - destruct Hc as [X|X]; [discriminate|]. rewrite X in *. cbv iota in *.
    destruct (n_skipws nd); constructor; cbn [ws skipws in_cmt cpos eolterm real_ws x_ws x_skip x_eol eff_ws];
      try rewrite G5; try assumption; try reflexivity.
  - destruct (n_skipws nd); constructor; cbn [ws skipws in_cmt cpos eolterm real_ws x_ws x_skip x_eol eff_ws]; try assumption; reflexivity.
Qed.

Lemma enter_eol_inv x CP nd s : inv x CP s -> inv (ctx_eol nd x) CP (enter_eol nd s).
Proof.
  destruct x as [xw xs xe xi]. intros [H1 H2 H3 H4 H5 H6]. unfold enter_eol, ctx_eol.
  destruct (n_eolterm nd); [|constructor; assumption].
  unfold set_eolterm, eff_ws in *. cbn [x_ws x_skip x_eol x_incmt] in *.
  constructor; cbn [ws skipws in_cmt cpos eolterm real_ws x_ws x_skip x_eol eff_ws]; try assumption; try reflexivity.
  rewrite H1. destruct xe; [apply strip_eol_idem | reflexivity].
Qed.

Lemma leave_eol_inv x CP nd s s1 : inv x CP s -> inv (ctx_eol nd x) CP s1 -> inv x CP (leave_eol nd s s1).
Proof.
  destruct x as [xw xs xe xi]. intros [H1 H2 H3 H4 H5 H6] [G1 G2 G3 G4 G5 G6]. unfold leave_eol. unfold ctx_eol in *.
  destruct (n_eolterm nd); [|constructor; assumption].
  unfold set_eolterm, eff_ws in *. cbn [x_ws x_skip x_eol x_incmt] in *. rewrite H5.
  constructor; cbn [ws skipws in_cmt cpos eolterm real_ws x_ws x_skip x_eol eff_ws]; try assumption; try reflexivity.
  destruct xe; [rewrite G1; apply strip_eol_idem | exact G6].
Qed.

(* the statement of the refinement theorems against one run of the reference semantics *)
Definition refines_q (o : outcome) (rq : sres) : Prop :=
  match o with
  | Parsed r => exists tsq p, rq = SOk tsq p /\ erase_all tsq = flatten r
  | SyntaxErr _ => rq = SFail
  | Aborted _ => True
  end.

Section Refine2.
Variable g : grammar.
Variable input : list N.
Variable orc : nat -> nat -> option nat.
Hypothesis Horc : orc_pos orc.
(* parameters of the simulation: the invariant of comment_positions, the extra fuel of the reference side, the
   contexts that occur, and what Match.parse does before the terminal itself (whitespace / comments) *)
Variable CP : list (nat * nat) -> Prop.
Variable dx : nat.
Variable OKX : sctx -> Prop.
Hypothesis HOK_enter : forall nd x, In nd (g_nodes g) -> OKX x -> OKX (ctx_enter nd x).
Hypothesis HOK_eol : forall nd x, In nd (g_nodes g) -> OKX x -> OKX (ctx_eol nd x).
Hypothesis HOK_ws : forall nd x, In nd (g_nodes g) -> OKX x -> n_ws nd = None \/ x_eol x = false.
Hypothesis Hpre : forall f x s, OKX x -> inv x CP s ->
  match match_pre g input (parse g input orc false f) f s with
  | Ok r s1 => inv x CP s1 /\ skip g input (seval g input orc true (f + dx)) (f + dx) x (pos s) = Some (pos s1) /\ pos s <= pos s1
  | Fail _ => False
  | Abort _ => True
  end.

Definition sim_all (rec : nat -> bool -> st -> out) (srec : nat -> bool -> sctx -> nat -> sres) : Prop :=
  forall x, OKX x -> sim g x CP rec srec.

(* what body_sim concludes *)
Definition body_post (x : sctx) (nd : node) (s : st) (r : res) (s' : st) (ts : list stree) : Prop :=
  erase_all ts = flatten r /\ clean r /\ inv x CP s' /\ pos s <= pos s' /\ is_ptnode r = false /\
  (head_is_none r = true -> flatten r = []) /\
  (live_root nd = true -> flatten r = [] ->
     truthy (if head_is_none r then RNone else r) = false /\ ts = [] /\ (n_kind nd = KOpt \/ n_kind nd = KStar)) /\
  (forall k, prod_nd (prodb g k) nd = true -> flatten r <> [] /\ pos s < pos s').

Lemma body_post_none x nd s s' :
  inv x CP s' -> pos s <= pos s' -> live_root nd = false -> (forall k, prod_nd (prodb g k) nd = false) ->
  body_post x nd s RNone s' [].
Proof.
  intros Hi Hl Hr Hp. unfold body_post.
  split; [reflexivity|]. split; [constructor|]. split; [exact Hi|]. split; [exact Hl|]. split; [reflexivity|].
  split; [intro X; discriminate|]. split; [intro X; rewrite Hr in X; discriminate|].
  intros k X. rewrite Hp in X. discriminate.
Qed.

(* ZeroOrMore / OneOrMore: the repetition inside its eolterm bracket *)
Lemma rep_body_sim rec srec k nd (plus : bool) e x s :
  sim_all rec srec -> OKX x -> In nd (g_nodes g) -> inv x CP s ->
  n_kind nd = (if plus then KPlus else KStar) -> valid g e -> (exists j, prodb g j e = true) ->
  (forall sp, n_sep nd = Some sp -> valid g sp) ->
  match rep_loop rec e (n_sep nd) plus k true [] (enter_eol nd s) with
  | Ok r s1 => exists ts, srep true srec e (n_sep nd) plus (ctx_eol nd x) (k + dx) true [] (pos s) = SOk ts (pos (leave_eol nd s s1)) /\
                          body_post x nd s r (leave_eol nd s s1) ts
  | Fail s1 => srep true srec e (n_sep nd) plus (ctx_eol nd x) (k + dx) true [] (pos s) = SFail /\ inv x CP (leave_eol nd s s1)
  | Abort _ => True
  end.
Proof.
  intros Hall Hokx Hnd Hinv Ek He Hpe Hsepv.
  pose proof (rep_sim g (ctx_eol nd x) CP dx rec srec e (n_sep nd) plus (Hall _ (HOK_eol nd x Hnd Hokx)) He Hpe Hsepv
                k true [] [] (enter_eol nd s) (enter_eol_inv x CP nd s Hinv) accrel_nil) as HS.
  rewrite enter_eol_pos in HS.
  destruct (rep_loop rec e (n_sep nd) plus k true [] (enter_eol nd s)) as [r s1|s1|w]; [| |exact I].
  2:{ destruct HS as [Es Hinv1]. split; [exact Es | apply leave_eol_inv; assumption]. }
  destruct HS as [ts [Es [acc' [Er [[Ee [Hcl Htr]] [Hinv1 [Hle [_ [Hdich Hpf]]]]]]]]]. subst r.
  rewrite enter_eol_pos in Hle, Hpf.
  exists ts. rewrite leave_eol_pos. split; [exact Es|]. unfold body_post. rewrite leave_eol_pos.
  split; [exact Ee|]. split; [exact Hcl|]. split; [apply leave_eol_inv; assumption|]. split; [exact Hle|]. split; [reflexivity|].
  rewrite (head_not_none_of_truthy _ Htr). split; [discriminate|].
  destruct plus.
  - (* at least one iteration: something was produced and consumed *)
    destruct (Hpf eq_refl) as [Hne Hlt]. split; [intros _ X; contradiction|]. intros _ _. split; assumption.
  - split.
    + intros _ X. destruct (Hdich eq_refl) as [[-> ->]|Y]; [|contradiction].
      split; [reflexivity|]. split; [reflexivity | right; exact Ek].
    + intros j Hj. unfold prod_nd in Hj. rewrite Ek, andb_false_r in Hj. discriminate.
Qed.

Lemma body_sim rec srec k nd pf x s :
  sim_all rec srec -> OKX x -> node_ok g (prodb g pf) nd = true -> In nd (g_nodes g) ->
  inv x CP s -> is_match_kind (n_kind nd) = false ->
  match body rec k nd s with
  | Ok r s' => exists ts, sbody true srec (k + dx) nd x (pos s) = SOk ts (pos s') /\ body_post x nd s r s' ts
  | Fail s' => sbody true srec (k + dx) nd x (pos s) = SFail /\ inv x CP s'
  | Abort _ => True
  end.
Proof.
  intros Hall Hokx Hok Hnd Hinv Hnm. unfold node_ok in Hok.
  pose proof (Hall x Hokx) as Hsim.
  pose proof (HOK_ws nd x Hnd Hokx) as Hwsc.
  assert (Hpr : forall c, prodb g pf c = true -> exists j, prodb g j c = true) by (intros c Hc; exists pf; exact Hc).
  apply andb_true_iff in Hok as [Hok Hkind]. apply andb_true_iff in Hok as [Hok Hkids].
  apply andb_true_iff in Hok as [Hok Hmods]. apply andb_true_iff in Hok as [Hsepok Heol].
  assert (Hval : Forall (valid g) (n_kids nd)).
  { apply Forall_forall. intros c Hc. rewrite forallb_forall in Hkids. specialize (Hkids c Hc). apply Nat.ltb_lt in Hkids. exact Hkids. }
  unfold body, sbody.
  destruct (n_kind nd) eqn:Ek; try discriminate.
  - (* KSeq *)
    set (x' := ctx_enter nd x). set (s0 := enter_ws nd s).
    assert (Hinv0 : inv x' CP s0) by (apply enter_ws_inv; assumption).
    assert (Hp0 : pos s0 = pos s) by apply enter_ws_pos.
    pose proof (seq_sim g x' CP rec srec true (n_kids nd) (Hall x' (HOK_enter nd x Hnd Hokx)) Hval [] [] s0 Hinv0 accrel_nil) as HS.
    rewrite Hp0 in HS.
    destruct (seq_loop rec true (n_kids nd) [] s0) as [r s1|s1|w] eqn:E.
    + destruct HS as [acc' [ts [Er [Es [[Ee [Hcl Htr]] [Hinv1 [Hle [_ Hprod]]]]]]]]. subst r.
      assert (Hinvl : inv x CP (leave_ws nd s s1)) by (apply leave_ws_inv; assumption).
      assert (Hpost : forall r0, flatten r0 = flatten (RList acc') -> clean r0 -> is_ptnode r0 = false ->
                                 head_is_none r0 = false -> body_post x nd s r0 (leave_ws nd s s1) ts).
      { intros r0 Hf Hc0 Hpt Hh. unfold body_post. rewrite Hf, leave_ws_pos.
        split; [exact Ee|]. split; [exact Hc0|]. split; [exact Hinvl|]. split; [exact Hle|]. split; [exact Hpt|].
        split; [rewrite Hh; discriminate|]. split.
        - intros Hr X. exfalso. rewrite Hr in Hkind.
          assert (Y : prod_nd (prodb g pf) nd = true) by exact Hkind.
          unfold prod_nd in Y. rewrite Ek in Y. apply andb_true_iff in Y as [_ Y].
          destruct (Hprod _ Y) as [Z _]. contradiction.
        - intros j Hj. unfold prod_nd in Hj. rewrite Ek in Hj. apply andb_true_iff in Hj as [_ Hj]. apply (Hprod j Hj). }
      destruct acc' as [|a l].
      * exists ts. rewrite leave_ws_pos. split; [exact Es|]. apply Hpost; try reflexivity. constructor.
      * exists ts. rewrite leave_ws_pos. split; [exact Es|]. apply Hpost; try reflexivity; try exact Hcl.
        apply head_not_none_of_truthy. exact Htr.
    + destruct HS as [Es Hinv1]. split; [exact Es|]. apply leave_ws_inv; [exact Hinv | exact Hwsc | apply inv_set_pos; exact Hinv1].
    + exact I.
  - (* KChoice *)
    set (x' := ctx_enter nd x). set (s0 := enter_ws nd s).
    assert (Hinv0 : inv x' CP s0) by (apply enter_ws_inv; assumption).
    assert (Hp0 : pos s0 = pos s) by apply enter_ws_pos.
    apply andb_true_iff in Hkind as [Hall' Hne].
    assert (Hprodk : forall c, In c (n_kids nd) -> exists j, prodb g j c = true).
    { intros c Hc. apply Hpr. rewrite forallb_forall in Hall'. apply Hall'. exact Hc. }
    pose proof (choice_sim g x' CP rec srec (pos s) (n_kids nd) (Hall x' (HOK_enter nd x Hnd Hokx)) Hval Hprodk s0 Hinv0 Hp0) as HS.
    destruct (choice_loop rec (pos s) (n_kids nd) s0) as [r s1|s1|w] eqn:E.
    + destruct HS as [[Hnn [ts [Es [Ee [Hcl [Hinv1 [Hlt Hne']]]]]]] | [Hn [Es Hinv1]]].
      * rewrite Hnn. exists ts. rewrite leave_ws_pos. split; [exact Es|]. unfold body_post.
        assert (Hf : flatten (RList [r]) = flatten r) by (rewrite flatten_list; cbn; apply app_nil_r).
        rewrite Hf, leave_ws_pos.
        split; [exact Ee|]. split; [unfold clean; rewrite Hf; exact Hcl|].
        split; [apply leave_ws_inv; assumption|]. split; [lia|].
        split; [reflexivity|].
        assert (Hh : head_is_none (RList [r]) = false) by (destruct r; [discriminate | reflexivity | reflexivity]).
        split; [rewrite Hh; discriminate|]. split; [intros _ X; contradiction|]. intros _ _. split; [exact Hne' | exact Hlt].
      * rewrite Hn. unfold nm_raise. split; [exact Es|]. apply inv_reg_fail. apply leave_ws_inv; assumption.
    + destruct HS.
    + exact I.
  - (* KOpt *)
    destruct (n_kids nd) as [|e rest] eqn:Ekids; [discriminate Hkind|].
    inversion Hval as [|? ? He _]; subst.
    pose proof (Hsim e false s Hinv He) as HS.
    destruct (rec e false s) as [r s1|s1|w] eqn:E.
    + destruct HS as [ts [Es [Ee [Hcl [Hinv1 [Hle Hp]]]]]]. rewrite Es. exists ts. split; [reflexivity|].
      assert (Hf : flatten (RList [r]) = flatten r) by (rewrite flatten_list; cbn; apply app_nil_r).
      unfold body_post. rewrite Hf.
      split; [exact Ee|]. split; [unfold clean; rewrite Hf; exact Hcl|]. split; [exact Hinv1|]. split; [exact Hle|].
      split; [reflexivity|]. split.
      * intro Hh. destruct r; [reflexivity | discriminate | discriminate].
      * split.
        -- intros Hr X. exfalso. rewrite Hr in Hkind. destruct (Hpr e Hkind) as [j Hj]. destruct (Hp j Hj) as [Y _]. contradiction.
        -- intros j Hj. unfold prod_nd in Hj. rewrite Ek in Hj. rewrite andb_false_r in Hj. discriminate.
    + destruct HS as [Es Hinv1]. rewrite Es. exists []. split; [reflexivity|]. unfold body_post. cbn [pos set_pos flatten].
      split; [reflexivity|]. split; [constructor|]. split; [apply inv_set_pos; exact Hinv1|]. split; [lia|].
      split; [reflexivity|]. split; [reflexivity|]. split.
      * intros _ _. split; [reflexivity|]. split; [reflexivity | left; exact Ek].
      * intros j Hj. unfold prod_nd in Hj. rewrite Ek in Hj. rewrite andb_false_r in Hj. discriminate.
    + exact I.
  - (* KStar *)
    destruct (n_kids nd) as [|e rest] eqn:Ekids; [discriminate Hkind|].
    inversion Hval as [|? ? He _]; subst.
    assert (Hsepv : forall sp, n_sep nd = Some sp -> valid g sp).
    { intros sp E. unfold sep_ok in Hsepok. rewrite E, Ek in Hsepok. apply Nat.ltb_lt in Hsepok. exact Hsepok. }
    pose proof (rep_body_sim rec srec k nd false e x s Hall Hokx Hnd Hinv Ek He (Hpr e Hkind) Hsepv) as HS.
    destruct (rep_loop rec e (n_sep nd) false k true [] (enter_eol nd s)); exact HS.
  - (* KPlus *)
    destruct (n_kids nd) as [|e rest] eqn:Ekids; [discriminate Hkind|].
    inversion Hval as [|? ? He _]; subst.
    assert (Hsepv : forall sp, n_sep nd = Some sp -> valid g sp).
    { intros sp E. unfold sep_ok in Hsepok. rewrite E, Ek in Hsepok. apply Nat.ltb_lt in Hsepok. exact Hsepok. }
    pose proof (rep_body_sim rec srec k nd true e x s Hall Hokx Hnd Hinv Ek He (Hpr e Hkind) Hsepv) as HS.
    destruct (rep_loop rec e (n_sep nd) true k true [] (enter_eol nd s)); exact HS.
  - (* KAnd *)
    apply negb_true_iff in Hkind.
    assert (Hnp : forall j, prod_nd (prodb g j) nd = false) by (intro j; unfold prod_nd; rewrite Ek; apply andb_false_r).
    pose proof (seq_sim g x CP rec srec false (n_kids nd) Hsim Hval [] [] s Hinv accrel_nil) as HS.
    destruct (seq_loop rec false (n_kids nd) [] s) as [r s1|s1|w] eqn:E.
    + destruct HS as [acc' [ts [_ [Es [_ [Hinv1 _]]]]]]. rewrite Es. exists []. split; [reflexivity|].
      apply body_post_none; [apply inv_set_pos; exact Hinv1 | cbn; lia | exact Hkind | exact Hnp].
    + destruct HS as [Es Hinv1]. rewrite Es. split; [reflexivity | apply inv_set_pos; exact Hinv1].
    + exact I.
  - (* KNot *)
    apply negb_true_iff in Hkind.
    assert (Hnp : forall j, prod_nd (prodb g j) nd = false) by (intro j; unfold prod_nd; rewrite Ek; apply andb_false_r).
    pose proof (seq_sim g x CP rec srec false (n_kids nd) Hsim Hval [] [] s Hinv accrel_nil) as HS.
    destruct (seq_loop rec false (n_kids nd) [] s) as [r s1|s1|w] eqn:E.
    + destruct HS as [acc' [ts [_ [Es [_ [Hinv1 _]]]]]]. rewrite Es. unfold nm_raise.
      split; [reflexivity|]. apply inv_reg_fail. apply inv_set_pos. exact Hinv1.
    + destruct HS as [Es Hinv1]. rewrite Es. exists []. split; [reflexivity|].
      apply body_post_none; [apply inv_set_pos; exact Hinv1 | cbn; lia | exact Hkind | exact Hnp].
    + exact I.
  - (* KEmpty *)
    apply negb_true_iff in Hkind.
    assert (Hnp : forall j, prod_nd (prodb g j) nd = false) by (intro j; unfold prod_nd; rewrite Ek; apply andb_false_r).
    exists []. split; [reflexivity|]. apply body_post_none; [exact Hinv | lia | exact Hkind | exact Hnp].
Qed.

(* an unordered group, inside its eolterm bracket like a repetition *)
Lemma body_sim_u rec srec k nd pf x s :
  sim_all rec srec -> OKX x -> In nd (g_nodes g) -> ug_ok g (prodb g pf) nd = true -> inv x CP s ->
  match body rec k nd s with
  | Ok r s' => exists ts, sbody true srec (k + dx) nd x (pos s) = SOk ts (pos s') /\ body_post x nd s r s' ts
  | Fail s' => sbody true srec (k + dx) nd x (pos s) = SFail /\ inv x CP s'
  | Abort _ => True
  end.
Proof.
  intros Hall Hokx Hnd Hok Hinv. unfold ug_ok in Hok. destruct (n_kind nd) eqn:Ek; try discriminate.
  apply andb_true_iff in Hok as [Hok Hpr]. apply andb_true_iff in Hok as [Hok Hne]. apply andb_true_iff in Hok as [Hok Hkids].
  apply andb_true_iff in Hok as [Hok _]. apply andb_true_iff in Hok as [Hok _]. apply andb_true_iff in Hok as [Hsep _].
  destruct (n_sep nd) eqn:Es0; [discriminate|].
  assert (Hokm : Forall (valid g) (n_kids nd) /\ forall c, In c (n_kids nd) -> prodb g pf c = true).
  { split; [apply Forall_forall; intros c Hc; rewrite forallb_forall in Hkids; specialize (Hkids c Hc); apply Nat.ltb_lt in Hkids; exact Hkids
           | rewrite forallb_forall in Hpr; exact Hpr]. }
  unfold body, sbody. rewrite Ek, Es0.
  destruct (n_kids nd) as [|k0 rest] eqn:Ekids; [discriminate|]. rewrite <- Ekids in *.
  pose proof (ug_loop_sim g (ctx_eol nd x) CP pf rec srec (Hall (ctx_eol nd x) (HOK_eol nd x Hnd Hokx))
                (S (length (n_kids nd))) (n_kids nd) true [] [] (enter_eol nd s) (enter_eol_inv x CP nd s Hinv) Hokm
                (Nat.lt_succ_diag_r _) accrel_nil) as HU.
  rewrite enter_eol_pos in HU.
  destruct (ug_loop rec None (S (length (n_kids nd))) (n_kids nd) true RNone [] (enter_eol nd s)) as [mt acc' s'|w]; [|exact I].
  destruct mt.
  - destruct HU as [ts [A [[B [C D]] [E0 [F [G _]]]]]].
    assert (Hnn : flatten (RList acc') <> []) by (apply G; rewrite Ekids; discriminate).
    destruct acc' as [|a l]; [exfalso; apply Hnn; reflexivity|].
    exists ts. rewrite leave_eol_pos. split; [exact A|]. unfold body_post. rewrite leave_eol_pos.
    split; [exact B|]. split; [exact C|]. split; [apply leave_eol_inv; assumption|]. split; [exact F|]. split; [reflexivity|].
    rewrite (head_not_none_of_truthy _ D).
    split; [discriminate|]. split; [intros _ X; contradiction|].
    intros j Hj. unfold prod_nd in Hj. rewrite Ek in Hj. rewrite andb_false_r in Hj. discriminate.
  - destruct HU as [A B]. unfold nm_raise. split; [exact A|].
    apply inv_reg_fail. apply inv_set_pos. apply leave_eol_inv; assumption.
Qed.

Variable pf : nat.
Hypothesis Hwf : forall nid nd, get_node g nid = Some nd -> node_ok_u g (prodb g pf) nd = true.

Lemma parse_sim : forall f, sim_all (parse g input orc false f) (seval g input orc true (f + dx)).
Proof.
  induction f as [|f IH]; intros x Hokx nid psq s Hinv Hv.
  - cbn. exact I.
  - change (S f + dx) with (S (f + dx)). cbn [parse seval].
    destruct (get_node g nid) as [nd|] eqn:En.
    2:{ exfalso. unfold get_node in En. apply nth_error_None in En. unfold valid in Hv. lia. }
    pose proof (Hwf _ _ En) as Hoku. unfold node_ok_u in Hoku.
    pose proof (fun k => prodb_node g k nid nd En) as Hpn.
    destruct (is_match_kind (n_kind nd)) eqn:Em.
    + (* terminals *)
      pose proof (Hpre f x s Hokx Hinv) as HP.
      destruct (match_pre g input (parse g input orc false f) f s) as [r0 s1|s1|w0] eqn:Emp; [|destruct HP|exact I].
      destruct HP as [Hinv1 [Esk Hle1]]. rewrite Esk.
      assert (Hne : forall t o, n_kind nd = KStr t o -> t <> []).
      { intros t o E. unfold node_ok, ug_ok in Hoku. rewrite E, orb_false_r in Hoku.
        apply andb_true_iff in Hoku as [_ Hkind]. destruct t; discriminate. }
      pose proof (term_sim input orc x CP Horc nid (n_kind nd) psq s1 Hinv1 Em Hne) as HT.
      destruct (term_parse input orc nid (n_kind nd) psq s1) as [r s2|s2|w] eqn:Et.
      * destruct HT as [ts [Es [Ee [Hcl [Hinv2 [Hle2 Hp]]]]]]. rewrite Es.
        destruct (n_suppress nd) eqn:Hsup.
        -- exists [SSup ts]. split; [reflexivity|]. split; [reflexivity|]. split; [constructor|]. split; [exact Hinv2|]. split; [lia|].
           intros k Hk. destruct (Hpn k Hk) as [X _]. discriminate.
        -- exists ts. split; [reflexivity|]. split; [exact Ee|]. split; [exact Hcl|]. split; [exact Hinv2|]. split; [lia|].
           intros k Hk. destruct (Hpn k Hk) as [_ [j Hj]].
           assert (Hke : n_kind nd <> KEOF) by (intro X; unfold prod_nd in Hj; rewrite X, andb_false_r in Hj; discriminate).
           destruct (Hp Hke) as [A B]. split; [exact A | lia].
      * destruct HT as [Es Hinv2]. rewrite Es. split; [reflexivity | exact Hinv2].
      * exact I.
    + (* non-terminals; memoization is off *)
      cbv iota.
      assert (Hnd : In nd (g_nodes g)) by (unfold get_node in En; apply nth_error_In in En; exact En).
      assert (HB : match body (parse g input orc false f) f nd s with
                   | Ok r s' => exists ts, sbody true (seval g input orc true (f + dx)) (f + dx) nd x (pos s) = SOk ts (pos s') /\ body_post x nd s r s' ts
                   | Fail s' => sbody true (seval g input orc true (f + dx)) (f + dx) nd x (pos s) = SFail /\ inv x CP s'
                   | Abort _ => True
                   end).
      { destruct (node_ok g (prodb g pf) nd) eqn:Hok.
        - apply (body_sim _ _ f nd pf x s IH Hokx Hok Hnd Hinv Em).
        - apply (body_sim_u _ _ f nd pf x s IH Hokx Hnd Hoku Hinv). }
      destruct (body (parse g input orc false f) f nd s) as [r s1|s1|w] eqn:Eb.
      * destruct HB as [ts [Es [Ee [Hcl [Hinv1 [Hle [Hpt [Hhead [Hroot Hprod]]]]]]]]]. rewrite Es.
        unfold post, wrap.
        destruct (n_suppress nd) eqn:Hsup.
        { (* suppressed: nothing is contributed *)
          cbn [orb]. replace (n_root nd && truthy RNone && negb (is_ptnode RNone))%bool with false
            by (cbn; rewrite andb_false_r; reflexivity).
          exists [SSup ts]. split; [reflexivity|]. split; [reflexivity|]. split; [constructor|]. split; [exact Hinv1|].
          split; [exact Hle|]. intros k Hk. destruct (Hpn k Hk) as [X _]. discriminate. }
        cbn [orb].
        set (r1 := if head_is_none r then RNone else r).
        assert (Hf1 : flatten r1 = flatten r).
        { subst r1. destruct (head_is_none r) eqn:Eh; [|reflexivity]. rewrite (Hhead eq_refl). reflexivity. }
        assert (Hcl1 : clean r1) by (unfold clean; rewrite Hf1; exact Hcl).
        assert (Hpt1 : is_ptnode r1 = false) by (subst r1; destruct (head_is_none r); [reflexivity | exact Hpt]).
        assert (Hprod1 : forall k, prodb g k nid = true -> flatten r <> [] /\ pos s < pos s1).
        { intros k Hk. destruct (Hpn k Hk) as [_ [j Hj]]. exact (Hprod j Hj). }
        destruct (n_root nd) eqn:Er.
        -- assert (Hlive : live_root nd = true) by (unfold live_root; rewrite Er, Hsup; reflexivity).
           destruct (flatten r) as [|t0 l0] eqn:Efl.
           ++ destruct (Hroot Hlive eq_refl) as [Htf [Hts Hk]]. fold r1 in Htf. rewrite Htf. cbn [andb]. subst ts.
              exists []. split.
              ** destruct Hk as [-> | ->]; reflexivity.
              ** split; [rewrite Hf1; reflexivity|]. split; [exact Hcl1|]. split; [exact Hinv1|]. split; [exact Hle|].
                 intros k Hk'. destruct (Hprod1 k Hk') as [A _]. exfalso. apply A. reflexivity.
           ++ assert (Hne : flatten r1 <> []) by (rewrite Hf1; discriminate).
              rewrite (clean_truthy _ Hcl1 Hne), Hpt1. cbn [andb negb].
              assert (Hts : ts <> []) by (intro X; subst ts; cbn in Ee; discriminate).
              exists [SNT nid ts]. split.
              ** destruct ts as [|a b]; [congruence|]. destruct (n_kind nd); reflexivity.
              ** split; [unfold erase_all; cbn [flat_map]; rewrite erase_SNT, app_nil_r, Ee, Hf1; reflexivity|].
                 split; [unfold clean; cbn [flatten]; constructor; [|constructor]; cbn; rewrite Hf1; reflexivity|].
                 split; [exact Hinv1|]. split; [exact Hle|].
                 intros k Hk'. destruct (Hprod1 k Hk') as [_ B]. split; [discriminate | exact B].
        -- cbn [andb]. exists ts. split; [reflexivity|]. split; [rewrite Hf1; exact Ee|]. split; [exact Hcl1|].
           split; [exact Hinv1|]. split; [exact Hle|]. rewrite Hf1. exact Hprod1.
      * destruct HB as [Es Hinv1]. rewrite Es. split; [reflexivity | apply inv_set_pos; exact Hinv1].
      * exact I.
Qed.

(* what the simulation says about a whole run, against the trailing-separator variant *)
Lemma run_sim c fuel :
  OKX (init_ctx c) -> inv (init_ctx c) CP (init_st c) -> g_top g < length (g_nodes g) ->
  refines_q (run g c orc false fuel input) (spec_run_q g c orc (fuel + dx) input).
Proof.
  intros Hok Hinv Htop.
  pose proof (parse_sim fuel (init_ctx c) Hok (g_top g) false (init_st c) Hinv Htop) as HS.
  unfold run, spec_run_q, refines_q. cbn [pos init_st] in HS.
  destruct (parse g input orc false fuel (g_top g) false (init_st c)) as [r s'|s'|w].
  - destruct HS as [ts [Es [Ee _]]]. exists ts, (pos s'). split; assumption.
  - destruct HS as [Es _]. exact Es.
  - exact I.
Qed.

End Refine2.

(* the instance without a Comment rule: identity entries in comment_positions, no extra fuel *)
Lemma okx_eol_g g : eol_ws_ok g = true -> forall nd x, In nd (g_nodes g) -> okx g x -> okx g (ctx_eol nd x).
Proof.
  intros He nd x Hnd [A B]. unfold ctx_eol. destruct (n_eolterm nd) eqn:E; [|split; assumption].
  split; [exact A|]. intros _. unfold eol_ws_ok in He.
  apply orb_true_iff in He as [X|X]; [|exact X]. rewrite forallb_forall in X. specialize (X nd Hnd). rewrite E in X. discriminate.
Qed.

Lemma okx_ws_g g : forall nd x, In nd (g_nodes g) -> okx g x -> n_ws nd = None \/ x_eol x = false.
Proof.
  intros nd x Hnd [_ Hx]. destruct (x_eol x) eqn:Ee; [left | right; reflexivity].
  pose proof (Hx eq_refl) as Hn. unfold nows in Hn. rewrite forallb_forall in Hn. specialize (Hn nd Hnd).
  destruct (n_ws nd); [discriminate | reflexivity].
Qed.

Lemma pre_nocmt g input orc : g_comments g = None -> forall f x s, okx g x -> inv x cpos_id s ->
  match match_pre g input (parse g input orc false f) f s with
  | Ok r s1 => inv x cpos_id s1 /\ skip g input (seval g input orc true (f + 0)) (f + 0) x (pos s) = Some (pos s1) /\ pos s <= pos s1
  | Fail _ => False
  | Abort _ => True
  end.
Proof.
  intros Hcm f x s [Hx_cmt _] Hinv.
  destruct (match_pre_sim g input x cpos_id (fun m H => H) cpos_id_upd Hcm (parse g input orc false f) f s Hinv) as [s1 [Emp [Hinv1 [Hp1 Hle1]]]].
  rewrite Emp. split; [exact Hinv1|]. split; [|exact Hle1].
  unfold skip. rewrite Hx_cmt, Hcm, Hp1. destruct (x_skip x); reflexivity.
Qed.

Lemma nodes_forallb (P : node -> bool) g :
  forallb P (g_nodes g) = true -> forall nid nd, get_node g nid = Some nd -> P nd = true.
Proof.
  intros Hall nid nd En. rewrite forallb_forall in Hall. unfold get_node in En. apply nth_error_In in En. exact (Hall nd En).
Qed.

Lemma node_ids_forallb (P : nat -> bool) g :
  forallb P (seq 0 (length (g_nodes g))) = true -> forall nid nd, get_node g nid = Some nd -> P nid = true.
Proof.
  intros Hall nid nd En. rewrite forallb_forall in Hall. apply Hall, in_seq.
  assert (X : nth_error (g_nodes g) nid <> None) by (unfold get_node in En; congruence). apply nth_error_Some in X. lia.
Qed.

Lemma wfgu_parts g pf :
  wfgu g pf = true ->
  (forall nid nd, get_node g nid = Some nd -> node_ok_u g (prodb g pf) nd = true) /\
  g_comments g = None /\ g_top g < length (g_nodes g) /\ eol_ws_ok g = true.
Proof.
  unfold wfgu. cbv zeta. intro H. apply andb_true_iff in H as [H He]. apply andb_true_iff in H as [H Htop]. apply andb_true_iff in H as [Hall Hc].
  split; [|split; [|split]].
  - apply nodes_forallb. exact Hall.
  - destruct (g_comments g); [discriminate | reflexivity].
  - apply Nat.ltb_lt. exact Htop.
  - exact He.
Qed.

Lemma wfg_parts g pf :
  wfg g pf = true ->
  (forall nid nd, get_node g nid = Some nd -> node_ok g (prodb g pf) nd = true) /\
  g_comments g = None /\ g_top g < length (g_nodes g).
Proof.
  unfold wfg. cbv zeta. intro H. apply andb_true_iff in H as [H _]. apply andb_true_iff in H as [H Htop]. apply andb_true_iff in H as [Hall Hc].
  split; [|split].
  - apply nodes_forallb. exact Hall.
  - destruct (g_comments g); [discriminate | reflexivity].
  - apply Nat.ltb_lt. exact Htop.
Qed.

(* the class with unordered groups contains the class without *)
Lemma wfg_wfgu g pf : wfg g pf = true -> wfgu g pf = true.
Proof.
  unfold wfg, wfgu. cbv zeta. intro H.
  apply andb_true_iff in H as [H He]. apply andb_true_iff in H as [H Htop]. apply andb_true_iff in H as [Hall Hc].
  rewrite He, Htop, Hc, !andb_true_r. rewrite forallb_forall in Hall |- *.
  intros nd Hnd. unfold node_ok_u. rewrite (Hall nd Hnd). reflexivity.
Qed.

(* Inside the class, whenever the interpreter terminates within the fuel, it accepts exactly when
   the reference semantics accept, with the same parse tree. *)
Theorem refinement_q g pf c orc fuel input :
  wfgu g pf = true -> orc_pos orc -> refines_q (run g c orc false fuel input) (spec_run_q g c orc fuel input).
Proof.
  intros Hwf Horc. destruct (wfgu_parts g pf Hwf) as [Hnodes [Hcm [Htop Heol]]].
  rewrite <- (Nat.add_0_r fuel) at 2.
  apply (run_sim g input orc Horc cpos_id 0 (okx g) (fun nd x _ H => okx_enter g nd x H) (okx_eol_g g Heol) (okx_ws_g g)
           (pre_nocmt g input orc Hcm) pf Hnodes).
  - split; [reflexivity | intro X; discriminate].
  - constructor; cbn; try reflexivity. constructor.
  - exact Htop.
Qed.

(* a grammar in the class: Model: 'a' (x=ID | 'b')* ;  (dumped by tools/pegdump.py) *)
Definition g_items : grammar := (mkGrammar [mkNode KSeq [1;15] None false [77;111;100;101;108]%N true false None None;
  mkNode KSeq [2;3] None false [77;111;100;101;108]%N true false None None;
  mkNode (KStr [97]%N None) [] None false []%N false false None None;
  mkNode KStar [4] None false []%N false false None None;
  mkNode KPlus [5] None false [95;95;97;115;103;110;95;111;110;101;111;114;109;111;114;101]%N true false None None;
  mkNode KChoice [6;14] None false [73;116;101;109]%N true false None None;
  mkNode KSeq [7;9] None false []%N false false None None;
  mkNode KSeq [8] None false [95;95;97;115;103;110;95;112;108;97;105;110]%N true false None None;
  mkNode (KRegex 0) [] None false [73;68]%N true false None None;
  mkNode KOpt [10] None false []%N false false None None;
  mkNode KSeq [11;12] None false []%N false false None None;
  mkNode (KStr [61]%N None) [] None false []%N false false None None;
  mkNode KSeq [13] None false [95;95;97;115;103;110;95;112;108;97;105;110]%N true false None None;
  mkNode (KRegex 1) [] None false [73;78;84]%N true false None None;
  mkNode (KStr [98]%N None) [] None false []%N false false None None;
  mkNode KEOF [] None false [69;79;70]%N false false None None] 0 None).
Definition in_items : list N := [97;32;120;61;49;32;98;32;121]%N.      (* "a x=1 b y" *)
Definition t_items := [((0,0),1);((0,2),1);((0,6),1);((0,8),1);((1,4),1)].

Definition spec_tree (r : sres) : list tree := match r with SOk ts _ => erase_all ts | _ => [] end.
Definition run_tree (o : outcome) : list tree := match o with Parsed r => flatten r | _ => [] end.

(* Model: a=A b=B?; A: x=ID?; B: 'b';   on ""  -- a rule that matches the empty string *)
Definition g_nullable : grammar := (mkGrammar [mkNode KSeq [1;9] None false [77;111;100;101;108]%N true false None None;
  mkNode KSeq [2;6] None false [77;111;100;101;108]%N true false None None;
  mkNode KSeq [3] None false [95;95;97;115;103;110;95;112;108;97;105;110]%N true false None None;
  mkNode KOpt [4] None false [65]%N true false None None;
  mkNode KSeq [5] None false [95;95;97;115;103;110;95;112;108;97;105;110]%N true false None None;
  mkNode (KRegex 0) [] None false [73;68]%N true false None None;
  mkNode KOpt [7] None false []%N false false None None;
  mkNode KSeq [8] None false [95;95;97;115;103;110;95;112;108;97;105;110]%N true false None None;
  mkNode (KStr [98]%N None) [] None false [66]%N true false None None;
  mkNode KEOF [] None false [69;79;70]%N false false None None] 0 None).
(* Model: a=A ',' b=B; A: xs+=X[',']; X: 'x'; B: 'b';   on "x,b"  -- trailing separator *)
Definition g_trailsep : grammar := (mkGrammar [mkNode KSeq [1;10] None false [77;111;100;101;108]%N true false None None;
  mkNode KSeq [2;7;8] None false [77;111;100;101;108]%N true false None None;
  mkNode KSeq [3] None false [95;95;97;115;103;110;95;112;108;97;105;110]%N true false None None;
  mkNode KSeq [4] None false [65]%N true false None None;
  mkNode KPlus [5] (Some 6) false [95;95;97;115;103;110;95;111;110;101;111;114;109;111;114;101]%N true false None None;
  mkNode (KStr [120]%N None) [] None false [88]%N true false None None;
  mkNode (KStr [44]%N None) [] None false [115;101;112]%N false false None None;
  mkNode (KStr [44]%N None) [] None false []%N false false None None;
  mkNode KSeq [9] None false [95;95;97;115;103;110;95;112;108;97;105;110]%N true false None None;
  mkNode (KStr [98]%N None) [] None false [66]%N true false None None;
  mkNode KEOF [] None false [69;79;70]%N false false None None] 0 None).
(* Model: x=/a*/ 'b';   on "b"  -- a regex match of length 0 (the oracle reports Some 0) *)
Definition g_emptyrx : grammar := (mkGrammar [mkNode KSeq [1;5] None false [77;111;100;101;108]%N true false None None;
  mkNode KSeq [2;4] None false [77;111;100;101;108]%N true false None None;
  mkNode KSeq [3] None false [95;95;97;115;103;110;95;112;108;97;105;110]%N true false None None;
  mkNode (KRegex 0) [] None false []%N false false None None;
  mkNode (KStr [98]%N None) [] None false []%N false false None None;
  mkNode KEOF [] None false [69;79;70]%N false false None None] 0 None).
Definition t_emptyrx := [((0,0),0);((0,1),0)].
(* Model: ('a'-)* 'b';   on "aab"  -- a repetition whose element produces no node *)
Definition g_repsup : grammar := (mkGrammar [mkNode KSeq [1;5] None false [77;111;100;101;108]%N true false None None;
  mkNode KSeq [2;4] None false [77;111;100;101;108]%N true false None None;
  mkNode KStar [3] None false []%N false false None None;
  mkNode (KStr [97]%N None) [] None false []%N false true None None;
  mkNode (KStr [98]%N None) [] None false []%N false false None None;
  mkNode KEOF [] None false [69;79;70]%N false false None None] 0 None).
