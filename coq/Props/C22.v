(* C22 - whitespace and comments between tokens do not change the model.

   Interpreter-level statements about Model/Peg.v (the Arpeggio interpreter as driven by textX),
   for EVERY grammar table, input, oracle and fuel.  input = a ++ b, mutated input = a ++ ins ++ b.

   Full statement aimed at (DESIGN.md):  lex_wf g -> accepted s -> inserting active-set whitespace
   or Comment text into a skipped gap leaves acceptance and the model unchanged up to positions.
   Proved here:
   * whitespace insertion, both directions (acceptance, rejection and abort are preserved and the parse
     tree is the shifted one), memoization off (textX's default), for the class [ins_wf g cfg ins] and
     under the per-case decidable shifted-oracle hypothesis [shift_okb] (C22_invariant_partial); with
     memoization on for the intersection with C19's class ctx_constant, which admits unordered groups and a
     single-terminal Comment rule (C22_invariant_memo_partial);
   * Comment-text insertion (C22_comment_invariant_partial) for grammars whose Comment rule is a single
     regex terminal and that never change the whitespace mode ([cmt_wf]), memoization off, for runs that
     do not run out of fuel (the mutated run needs one more turn of the comment loop); by fuel monotonicity
     (C19's Proofs/PegFuel.v) each run may have its own sufficient fuel (the *_any_fuel_partial forms);
   all hypotheses are decidable and evaluated by ./check C22 on every generated case.
   * whole-run form of "only the active set is skipped" for grammars without Comment rule (any rule
     modifiers, memoization off): an accepted input is tiled from 0 to its end by characters of the
     grammar's whitespace sets and matches of the grammar's terminals (C22_accepted_is_tiled).
   NOT proved: Comment insertion for Comment rules with several alternatives / sub-rules and with
   memoization on; whitespace insertion with memoization on outside ctx_constant.  Outside cmt_wf's
   mode-constancy the statement is false (C22_refuted_comment_modes). *)
From TxV Require Import Core.Base Model.PegSyntax Model.Peg Proofs.PegProofs Proofs.PegMemo Proofs.PegFuel.
From TxV Require Import Model.PegWsDefs
     Proofs.PegWs Proofs.PegWsSim Proofs.PegCmtSim Proofs.PegGap Proofs.PegWsWit.
From TxV Require Import Model.Build Model.BuildShiftDefs Proofs.BuildShift Proofs.BuildShiftWit.

(* skip absorption: from related positions (equal left of the insertion point, anywhere inside the
   inserted text at it, shifted right of it) skipping ends at corresponding positions *)
Theorem C22_absorb : forall w a ins b p p',
  subset_ws ins w = true -> Rp a ins b p p' ->
  skip_ws_from w (skipn p' (a ++ ins ++ b)) p' =
  phi (length a) (length ins) (skip_ws_from w (skipn p (a ++ b)) p).
Proof. exact skip_absorb_eq. Qed.
Print Assumptions C22_absorb.

(* invariance: outcomes equal up to the position shift *)
Theorem C22_invariant_partial : forall g cfg orc orc' fuel a ins b,
  ins_wf g cfg ins = true ->
  shift_okb g (a ++ b) orc (a ++ ins ++ b) orc' (length a) (length ins) = true ->
  outcome_shifted (length a) (length ins)
                  (run g cfg orc false fuel (a ++ b)) (run g cfg orc' false fuel (a ++ ins ++ b)).
Proof. exact ws_insert_invariant. Qed.
Print Assumptions C22_invariant_partial.

Theorem C22_accepted_stays_accepted : forall g cfg orc orc' fuel a ins b r,
  ins_wf g cfg ins = true ->
  shift_okb g (a ++ b) orc (a ++ ins ++ b) orc' (length a) (length ins) = true ->
  run g cfg orc false fuel (a ++ b) = Parsed r ->
  run g cfg orc' false fuel (a ++ ins ++ b) = Parsed (shift_res (length a) (length ins) r).
Proof. exact ws_insert_accepts. Qed.
Print Assumptions C22_accepted_stays_accepted.

Example C22_invariant_nonvacuous :
  ins_wf g_plain c_default [32;9]%N = true /\
  shift_okb g_plain ([97;32] ++ [98])%N no_orc ([97;32] ++ [32;9] ++ [98])%N no_orc 2 2 = true /\
  accepts (run g_plain c_default no_orc false 50 ([97;32] ++ [98])%N) = true /\
  accepts (run g_plain c_default no_orc false 50 ([97;32] ++ [32;9] ++ [98])%N) = true.
Proof. vm_compute. repeat split. Qed.
Print Assumptions C22_invariant_nonvacuous.

(* noskipws / ws: only characters of the active set are skipped (grammars without Comment rule) *)
Theorem C22_only_active_set : forall g input rec kf x,
  g_comments g = None -> cpos_id (cpos x) ->
  exists x1, match_pre g input rec kf x = Ok RNone x1 /\ cpos_id (cpos x1) /\
             pos x <= pos x1 /\
             (skipws x = false -> pos x1 = pos x) /\
             forallb (inw (ws x)) (firstn (pos x1 - pos x) (skipn (pos x) input)) = true.
Proof. exact only_active_set. Qed.
Print Assumptions C22_only_active_set.

(* the class cannot be dropped: a rule that switches skipping off (reached through a predicate) *)
Theorem C22_refuted_mixed_modes : exists g cfg orc fuel a ins b,
  ins_wf g cfg ins = false /\
  accepts (run g cfg orc false fuel (a ++ b)) = true /\
  run g cfg orc false fuel (a ++ ins ++ b) = SyntaxErr 0.
Proof. exists g_mixed, c_default, no_orc, 50, [97;32]%N, [32]%N, [98]%N. vm_compute. repeat split. Qed.
Print Assumptions C22_refuted_mixed_modes.

(* the oracle hypothesis cannot be dropped: insertion into an empty gap re-tokenises ("1.5x" / "1.5 x") *)
Theorem C22_refuted_adjacency : exists g cfg orc orc' fuel a ins b,
  ins_wf g cfg ins = true /\
  shift_okb g (a ++ b) orc (a ++ ins ++ b) orc' (length a) (length ins) = false /\
  exists r r', run g cfg orc false fuel (a ++ b) = Parsed r /\
               run g cfg orc' false fuel (a ++ ins ++ b) = Parsed r' /\
               r' <> shift_res (length a) (length ins) r.
Proof.
  exists g_adj, c_default, adj_orc, adj_orc', 50, [49;46;53]%N, [32]%N, [120]%N.
  split; [vm_compute; reflexivity|]. split; [vm_compute; reflexivity|].
  eexists. eexists. split; [vm_compute; reflexivity|]. split; [vm_compute; reflexivity|].
  vm_compute. discriminate.
Qed.
Print Assumptions C22_refuted_adjacency.

(* memoization on: composition with C19's memo_safe on the intersection class *)
Theorem C22_invariant_memo_partial : forall g cfg orc orc' fuel a ins b,
  ctx_constant g = true -> c_skipws cfg = true -> subset_ws ins (c_ws cfg) = true ->
  shift_okb g (a ++ b) orc (a ++ ins ++ b) orc' (length a) (length ins) = true ->
  PegMemo.not_aborted (run g cfg orc false fuel (a ++ b)) ->
  outcome_shifted (length a) (length ins)
                  (run g cfg orc true fuel (a ++ b)) (run g cfg orc' true fuel (a ++ ins ++ b)).
Proof.
  intros g cfg orc orc' fuel a ins b Hc Hs Hw Hok Hna.
  pose proof (C22_invariant_partial g cfg orc orc' fuel a ins b (ctx_constant_ins_wf g cfg ins Hc Hs Hw) Hok) as H.
  (* the mutated run does not abort either: its outcome is the shifted one *)
  assert (Hna' : PegMemo.not_aborted (run g cfg orc' false fuel (a ++ ins ++ b))).
  { destruct (run g cfg orc false fuel (a ++ b)), (run g cfg orc' false fuel (a ++ ins ++ b)); simpl in *; auto. }
  rewrite (memo_safe g (a ++ b) orc Hc cfg fuel Hna), (memo_safe g (a ++ ins ++ b) orc' Hc cfg fuel Hna').
  exact H.
Qed.
Print Assumptions C22_invariant_memo_partial.

Example C22_invariant_memo_nonvacuous :
  ctx_constant g_plain = true /\ c_skipws c_default = true /\ subset_ws [32;9]%N (c_ws c_default) = true /\
  shift_okb g_plain ([97;32] ++ [98])%N no_orc ([97;32] ++ [32;9] ++ [98])%N no_orc 2 2 = true /\
  PegWsDefs.accepts (run g_plain c_default no_orc true 50 ([97;32] ++ [32;9] ++ [98])%N) = true.
Proof. vm_compute. repeat split. Qed.
Print Assumptions C22_invariant_memo_nonvacuous.

(* Comment text: inserted text = whitespace w1, a text c that the Comment regex matches exactly at its
   place in the mutated input and that does not start with whitespace, whitespace w2 *)
Theorem C22_comment_invariant_partial : forall g cfg orc orc' fuel a w1 c w2 b,
  cmt_wf g cfg = true ->
  cmt_ins_okb g cfg orc' a w1 c w2 = true ->
  shift_okb g (a ++ b) orc (a ++ (w1 ++ c ++ w2) ++ b) orc' (length a) (length (w1 ++ c ++ w2)) = true ->
  PegWsDefs.not_aborted (run g cfg orc false fuel (a ++ b)) ->
  PegWsDefs.not_aborted (run g cfg orc' false fuel (a ++ (w1 ++ c ++ w2) ++ b)) ->
  outcome_shifted (length a) (length (w1 ++ c ++ w2))
                  (run g cfg orc false fuel (a ++ b)) (run g cfg orc' false fuel (a ++ (w1 ++ c ++ w2) ++ b)).
Proof. exact comment_insert_invariant. Qed.
Print Assumptions C22_comment_invariant_partial.

Example C22_comment_invariant_nonvacuous :
  cmt_wf g_cmt1 c_default = true /\
  cmt_ins_okb g_cmt1 c_default cmt1_orc' [97]%N [32]%N [47;47;32;105]%N [10]%N = true /\
  shift_okb g_cmt1 ([97] ++ [32;98])%N cmt1_orc ([97] ++ ([32] ++ [47;47;32;105] ++ [10]) ++ [32;98])%N cmt1_orc' 1 6 = true /\
  PegWsDefs.accepts (run g_cmt1 c_default cmt1_orc false 50 ([97] ++ [32;98])%N) = true /\
  PegWsDefs.accepts (run g_cmt1 c_default cmt1_orc' false 50 ([97] ++ ([32] ++ [47;47;32;105] ++ [10]) ++ [32;98])%N) = true.
Proof. vm_compute. repeat split. Qed.
Print Assumptions C22_comment_invariant_nonvacuous.

(* the mode-constancy condition of cmt_wf cannot be dropped (comment_positions ignores the mode) *)
Theorem C22_refuted_comment_modes : exists g cfg orc orc' fuel a w1 c w2 b,
  cmt_wf g cfg = false /\
  cmt_ins_okb g cfg orc' a w1 c w2 = true /\
  PegWsDefs.accepts (run g cfg orc false fuel (a ++ b)) = true /\
  run g cfg orc' false fuel (a ++ (w1 ++ c ++ w2) ++ b) = SyntaxErr 12.
Proof.
  exists g_cmt2, c_default, cmt2_orc, cmt2_orc', 60, [97;32;120;32;121]%N, (@nil N), [47;42;32;105;32;42;47]%N, (@nil N),
         [10;32;102;111;111]%N. vm_compute. repeat split.
Qed.
Print Assumptions C22_refuted_comment_modes.

(* whole-run "only the active set is skipped" (no Comment rule): [covered g cfg input orc p q] = the text
   from p to q is a concatenation of characters of all_ws g cfg (the configured set and the rule-level sets)
   and of matches of terminal nodes of g (tmatch = Some len at that place) *)
Theorem C22_accepted_is_tiled : forall g cfg orc fuel input r,
  g_comments g = None -> top_eof g = true ->
  run g cfg orc false fuel input = Parsed r ->
  covered g cfg input orc 0 (length input).
Proof.
  intros g cfg orc fuel input r Hnc Ht E. unfold run in E.
  pose proof (parse_cov g cfg input orc Hnc 0 fuel (g_top g) false (init_st cfg)
                        (conj (GI_init g cfg) (cov_nil g cfg input orc 0))) as H.
  destruct (parse g input orc false fuel (g_top g) false (init_st cfg)) as [r1 x1|x1|w] eqn:EP; try discriminate.
  rewrite <- (parse_top_end g input orc fuel _ _ _ Ht EP). apply H.
Qed.
Print Assumptions C22_accepted_is_tiled.

(* every successful sub-parse moves only over such text (the invariant behind the theorem) *)
Theorem C22_parse_moves_over_tiles : forall g cfg input orc, g_comments g = None ->
  forall fuel nid psq x p0 r x1,
    GI g cfg x -> covered g cfg input orc p0 (pos x) ->
    parse g input orc false fuel nid psq x = Ok r x1 ->
    GI g cfg x1 /\ covered g cfg input orc p0 (pos x1).
Proof.
  intros g cfg input orc Hnc fuel nid psq x p0 r x1 HI Hc E.
  pose proof (parse_cov g cfg input orc Hnc p0 fuel nid psq x (conj HI Hc)) as H. rewrite E in H. apply H.
Qed.
Print Assumptions C22_parse_moves_over_tiles.

Example C22_tiled_nonvacuous :
  g_comments g_plain = None /\ top_eof g_plain = true /\
  PegWsDefs.accepts (run g_plain c_default no_orc false 50 [97;32;32;98;10;98]%N) = true /\
  all_ws g_plain c_default = c_ws c_default.
Proof. vm_compute. repeat split. Qed.
Print Assumptions C22_tiled_nonvacuous.

(* each run with its own sufficient fuel (fuel monotonicity, Proofs/PegFuel.v) *)
Theorem C22_comment_invariant_any_fuel_partial : forall g cfg orc orc' f f' a w1 c w2 b,
  cmt_wf g cfg = true ->
  cmt_ins_okb g cfg orc' a w1 c w2 = true ->
  shift_okb g (a ++ b) orc (a ++ (w1 ++ c ++ w2) ++ b) orc' (length a) (length (w1 ++ c ++ w2)) = true ->
  PegWsDefs.not_aborted (run g cfg orc false f (a ++ b)) ->
  PegWsDefs.not_aborted (run g cfg orc' false f' (a ++ (w1 ++ c ++ w2) ++ b)) ->
  outcome_shifted (length a) (length (w1 ++ c ++ w2))
                  (run g cfg orc false f (a ++ b)) (run g cfg orc' false f' (a ++ (w1 ++ c ++ w2) ++ b)).
Proof.
  intros g cfg orc orc' f f' a w1 c w2 b Hwf Hins Hok Hna Hna'.
  destruct (common_fuel g cfg orc orc' f f' _ _ Hna Hna') as [E1 E2]. rewrite <- E1, <- E2.
  apply C22_comment_invariant_partial; try assumption; [rewrite E1 | rewrite E2]; assumption.
Qed.
Print Assumptions C22_comment_invariant_any_fuel_partial.

Theorem C22_invariant_any_fuel_partial : forall g cfg orc orc' f f' a ins b,
  ins_wf g cfg ins = true ->
  shift_okb g (a ++ b) orc (a ++ ins ++ b) orc' (length a) (length ins) = true ->
  PegWsDefs.not_aborted (run g cfg orc false f (a ++ b)) ->
  PegWsDefs.not_aborted (run g cfg orc' false f' (a ++ ins ++ b)) ->
  outcome_shifted (length a) (length ins)
                  (run g cfg orc false f (a ++ b)) (run g cfg orc' false f' (a ++ ins ++ b)).
Proof.
  intros g cfg orc orc' f f' a ins b Hwf Hok Hna Hna'.
  destruct (common_fuel g cfg orc orc' f f' _ _ Hna Hna') as [E1 E2]. rewrite <- E1, <- E2.
  apply C22_invariant_partial; assumption.
Qed.
Print Assumptions C22_invariant_any_fuel_partial.

Example C22_any_fuel_nonvacuous :
  PegWsDefs.not_aborted (run g_cmt1 c_default cmt1_orc false 20 ([97] ++ [32;98])%N) /\
  PegWsDefs.not_aborted (run g_cmt1 c_default cmt1_orc' false 50 ([97] ++ ([32] ++ [47;47;32;105] ++ [10]) ++ [32;98])%N).
Proof. vm_compute. split; exact I. Qed.
Print Assumptions C22_any_fuel_nonvacuous.

(* The MODEL (object graph).
   Model/Build.v (C01/C06: parse tree -> object graph over the dumped metamodel table) commutes with the
   position shift: on a tree in which no terminal lies across the insertion point, no zero-length terminal
   sits exactly at it and (for an insertion at position 0) no NonTerminal is empty ([fits], decidable,
   evaluated per case; derived from grammar + oracle for interior insertions, C22_fits_of_run below), building the shifted tree on the mutated
   input gives the same outcome (same error, or the same object graph) with _tx_position moved by phi,
   _tx_position_end by phie, and classes, attribute names, values (incl. the text every base-type
   conversion is applied to), defaults and containment unchanged.  use_regexp_group = False. *)
Theorem C22_build_commutes : forall g mm a ins b grp grp' auto r,
  fits_res (length a) r = true ->
  build g mm (a ++ ins ++ b) grp' auto false (shift_res (length a) (length ins) r) =
  map_bres (shift_val (length a) (length ins)) (build g mm (a ++ b) grp auto false r).
Proof. exact build_sht. Qed.
Print Assumptions C22_build_commutes.

Theorem C22_model_unchanged_partial : forall g mm cfg orc orc' grp grp' auto fuel a ins b r,
  ins_wf g cfg ins = true ->
  shift_okb g (a ++ b) orc (a ++ ins ++ b) orc' (length a) (length ins) = true ->
  run g cfg orc false fuel (a ++ b) = Parsed r ->
  fits_res (length a) r = true ->
  exists r', run g cfg orc' false fuel (a ++ ins ++ b) = Parsed r' /\
             models_shifted (length a) (length ins)
               (build g mm (a ++ b) grp auto false r) (build g mm (a ++ ins ++ b) grp' auto false r').
Proof.
  intros g mm cfg orc orc' grp grp' auto fuel a ins b r Hw Hs E Hf.
  apply model_of_shifted_outcome; [|exact Hf]. rewrite <- E. apply C22_invariant_partial; assumption.
Qed.
Print Assumptions C22_model_unchanged_partial.

Theorem C22_comment_model_unchanged_partial : forall g mm cfg orc orc' grp grp' auto fuel a w1 c w2 b r,
  cmt_wf g cfg = true ->
  cmt_ins_okb g cfg orc' a w1 c w2 = true ->
  shift_okb g (a ++ b) orc (a ++ (w1 ++ c ++ w2) ++ b) orc' (length a) (length (w1 ++ c ++ w2)) = true ->
  run g cfg orc false fuel (a ++ b) = Parsed r ->
  PegWsDefs.not_aborted (run g cfg orc' false fuel (a ++ (w1 ++ c ++ w2) ++ b)) ->
  fits_res (length a) r = true ->
  exists r', run g cfg orc' false fuel (a ++ (w1 ++ c ++ w2) ++ b) = Parsed r' /\
             models_shifted (length a) (length (w1 ++ c ++ w2))
               (build g mm (a ++ b) grp auto false r) (build g mm (a ++ (w1 ++ c ++ w2) ++ b) grp' auto false r').
Proof.
  intros g mm cfg orc orc' grp grp' auto fuel a w1 c w2 b r Hw Hi Hs E Hna Hf.
  apply model_of_shifted_outcome; [|exact Hf]. rewrite <- E.
  apply C22_comment_invariant_partial; try assumption. rewrite E. exact I.
Qed.
Print Assumptions C22_comment_model_unchanged_partial.

(* "unchanged apart from source positions": with the two position fields erased the models are equal *)
Theorem C22_models_equal_apart_from_positions : forall k n m m',
  models_shifted k n m m' -> map_bres erase_val m' = map_bres erase_val m.
Proof.
  unfold models_shifted. intros k n m m' H. subst m'.
  destruct m as [v|e]; [exact (f_equal BOk (erase_shift k n v)) | reflexivity].
Qed.
Print Assumptions C22_models_equal_apart_from_positions.

Example C22_model_unchanged_nonvacuous :
  ins_wf g_obj c_obj [10;32]%N = true /\
  shift_okb g_obj ([109;32;97;32;49;32] ++ [98;32;50])%N (orc_of tbl_obj)
            ([109;32;97;32;49;32] ++ [10;32] ++ [98;32;50])%N (orc_of tbl_obj') 6 2 = true /\
  exists r, run g_obj c_obj (orc_of tbl_obj) false 60 ([109;32;97;32;49;32] ++ [98;32;50])%N = Parsed r /\
            fits_res 6 r = true /\
            is_obj (build g_obj mm_obj ([109;32;97;32;49;32] ++ [98;32;50])%N no_grp true false r) = true.
Proof.
  split; [vm_compute; reflexivity|]. split; [vm_compute; reflexivity|].
  eexists. split; [vm_compute; reflexivity|]. split; vm_compute; reflexivity.
Qed.
Print Assumptions C22_model_unchanged_nonvacuous.

(* The tree condition from grammar + oracle.
   With the terminal invariant of the whole interpreter (Proofs/PegInv.v, C20/C21): under shift_okb no
   terminal of an accepted parse lies across the insertion point; with no StrMatch '' in the table the only
   zero-length terminals are EOF terminals (at the end of the input); so for an insertion strictly inside the
   input (a, b non-empty) every accepted parse satisfies [fits_res], with or without memoization. *)
Theorem C22_fits_of_run : forall g a ins b orc orc',
  shift_okb g (a ++ b) orc (a ++ ins ++ b) orc' (length a) (length ins) = true ->
  no_empty_lit g = true -> b <> [] ->
  forall cfg memo fuel r, a <> [] -> run g cfg orc memo fuel (a ++ b) = Parsed r -> fits_res (length a) r = true.
Proof. exact fits_of_run. Qed.
Print Assumptions C22_fits_of_run.

(* the model is unchanged: hypotheses on the grammar table, the configuration and the oracle only *)
Theorem C22_model_unchanged : forall g mm cfg orc orc' grp grp' auto fuel a ins b r,
  ins_wf g cfg ins = true ->
  shift_okb g (a ++ b) orc (a ++ ins ++ b) orc' (length a) (length ins) = true ->
  no_empty_lit g = true -> a <> [] -> b <> [] ->
  run g cfg orc false fuel (a ++ b) = Parsed r ->
  exists r', run g cfg orc' false fuel (a ++ ins ++ b) = Parsed r' /\
             models_shifted (length a) (length ins)
               (build g mm (a ++ b) grp auto false r) (build g mm (a ++ ins ++ b) grp' auto false r').
Proof.
  intros g mm cfg orc orc' grp grp' auto fuel a ins b r Hw Hs Hl Ha Hb E.
  apply (C22_model_unchanged_partial g mm cfg orc orc' grp grp' auto fuel a ins b r Hw Hs E).
  exact (C22_fits_of_run g a ins b orc orc' Hs Hl Hb cfg false fuel r Ha E).
Qed.
Print Assumptions C22_model_unchanged.

Theorem C22_comment_model_unchanged : forall g mm cfg orc orc' grp grp' auto fuel a w1 c w2 b r,
  cmt_wf g cfg = true ->
  cmt_ins_okb g cfg orc' a w1 c w2 = true ->
  shift_okb g (a ++ b) orc (a ++ (w1 ++ c ++ w2) ++ b) orc' (length a) (length (w1 ++ c ++ w2)) = true ->
  no_empty_lit g = true -> a <> [] -> b <> [] ->
  run g cfg orc false fuel (a ++ b) = Parsed r ->
  PegWsDefs.not_aborted (run g cfg orc' false fuel (a ++ (w1 ++ c ++ w2) ++ b)) ->
  exists r', run g cfg orc' false fuel (a ++ (w1 ++ c ++ w2) ++ b) = Parsed r' /\
             models_shifted (length a) (length (w1 ++ c ++ w2))
               (build g mm (a ++ b) grp auto false r) (build g mm (a ++ (w1 ++ c ++ w2) ++ b) grp' auto false r').
Proof.
  intros g mm cfg orc orc' grp grp' auto fuel a w1 c w2 b r Hw Hi Hs Hl Ha Hb E Hna.
  apply (C22_comment_model_unchanged_partial g mm cfg orc orc' grp grp' auto fuel a w1 c w2 b r Hw Hi Hs E Hna).
  exact (C22_fits_of_run g a (w1 ++ c ++ w2) b orc orc' Hs Hl Hb cfg false fuel r Ha E).
Qed.
Print Assumptions C22_comment_model_unchanged.

Example C22_model_unchanged_table_nonvacuous :
  no_empty_lit g_obj = true /\ ([109;32;97;32;49;32]%N <> []) /\ ([98;32;50]%N <> []) /\
  PegWsDefs.accepts (run g_obj c_obj (orc_of tbl_obj) false 60 ([109;32;97;32;49;32] ++ [98;32;50])%N) = true.
Proof. split; [vm_compute; reflexivity|]. split; [discriminate|]. split; [discriminate | vm_compute; reflexivity]. Qed.
Print Assumptions C22_model_unchanged_table_nonvacuous.
