(* C02 — the full object builder (Model/Build.v) stores, for every attribute, exactly the matched values. *)
From Coq Require Import Lia.
From TxV Require Import Core.Base Model.PegSyntax Model.Peg Model.Build Proofs.BuildProofs Proofs.BuildObjProofs Model.MultBuild.
From TxV Require Model.MultBase Gen.SrcMult Model.Mult Model.MultPeg Proofs.MultProofs Proofs.MultFlowProofs.

Lemma get_set_same a v l : get_val a (set_val a v l) = Some v.
Proof.
  induction l as [|[k w] l IH]; cbn [set_val get_val]; [rewrite str_eqb_refl; reflexivity|].
  destruct (str_eqb a k) eqn:E; cbn [get_val]; rewrite E; [reflexivity | exact IH].
Qed.

Lemma get_set_other a a' v l : str_eqb a a' = false -> get_val a' (set_val a v l) = get_val a' l.
Proof.
  intro Hne. induction l as [|[k w] l IH]; cbn [set_val get_val].
  - destruct (str_eqb a' a) eqn:E; [|reflexivity]. apply str_eqb_eq in E. subst a'. rewrite str_eqb_refl in Hne. discriminate.
  - destruct (str_eqb a k) eqn:E; cbn [get_val].
    + apply str_eqb_eq in E. subst k. destruct (str_eqb a' a) eqn:E2; [|reflexivity].
      apply str_eqb_eq in E2. subst a'. rewrite str_eqb_refl in Hne. discriminate.
    + destruct (str_eqb a' k); [reflexivity | exact IH].
Qed.

Lemma find_attr_name a l ma : find_attr a l = Some ma -> a_name ma = a.
Proof.
  induction l as [|x l IH]; cbn [find_attr]; [discriminate|].
  destruct (str_eqb a (a_name x)) eqn:E; [|exact IH]. intro H. inversion H; subst. apply str_eqb_eq in E. auto.
Qed.

(* Trees whose value does not involve the object under construction: for any recursive call, the two abstract-rule
   loops inherit this from the children. *)
Section Indep.
Variable rec : tree -> option cur -> bres (value * option cur).

Definition indep_of (t : tree) : Prop :=
  forall top v top', rec t top = BOk (v, top') -> top' = top /\ forall top2, rec t top2 = BOk (v, top2).

Lemma first_nonmatch_indep kind_of l :
  Forall indep_of l ->
  forall top, (first_nonmatch rec kind_of l top = None -> forall top2, first_nonmatch rec kind_of l top2 = None)
  /\ (forall v top', first_nonmatch rec kind_of l top = Some (BOk (v, top')) ->
      top' = top /\ forall top2, first_nonmatch rec kind_of l top2 = Some (BOk (v, top2))).
Proof.
  induction 1 as [|x l Hx Hl IH]; intro top; cbn [first_nonmatch]; [split; [auto | discriminate]|].
  destruct x as [n p len s|xn ks]; [apply IH|].
  destruct (kind_of xn) as [[|]|]; [| apply IH | split; discriminate].
  split; [discriminate|]. intros v top' H. injection H as H. destruct (Hx _ _ _ H) as [E K].
  split; [exact E | intro top2; rewrite (K top2); reflexivity].
Qed.

Lemma first_nt_indep has_cls l :
  Forall indep_of l ->
  forall top, (first_nt rec has_cls l top = None -> forall top2, first_nt rec has_cls l top2 = None)
  /\ (forall v top', first_nt rec has_cls l top = Some (BOk (v, top')) ->
      top' = top /\ forall top2, first_nt rec has_cls l top2 = Some (BOk (v, top2))).
Proof.
  induction 1 as [|x l Hx Hl IH]; intro top; cbn [first_nt]; [split; [auto | discriminate]|].
  destruct x as [n p len s|xn ks]; [apply IH|].
  split; [discriminate|]. intros v top' H. destruct (has_cls xn); [|discriminate]. injection H as H.
  destruct (Hx _ _ _ H) as [E K]. split; [exact E | intro top2; rewrite (K top2); reflexivity].
Qed.

(* the list loop on such children appends their values, in order, and touches nothing else *)
Definition val_of (t : tree) : value := match rec t None with BOk (v, _) => v | BErr _ => VNone end.

Definition wrapc (refcls : option (list N)) (k : tree) (v : value) : value :=
  match refcls with Some cl => VRef v (tpos k) cl | None => v end.

Lemma lst_loop_indep is_sep a refcls : forall ks c l top',
  Forall indep_of ks -> get_val a (c_vals c) = Some (VList l) ->
  lst_loop rec is_sep a refcls ks (Some c) = BOk top' ->
  exists c', top' = Some c' /\ c_meta c' = c_meta c
    /\ get_val a (c_vals c') = Some (VList (l ++ map (fun t => wrapc refcls t (val_of t)) (filter (fun t => negb (is_sep t)) ks)))
    /\ forall a', str_eqb a a' = false -> get_val a' (c_vals c') = get_val a' (c_vals c).
Proof.
  induction ks as [|k ks IH]; intros c l top' Hp Hg H; cbn [lst_loop] in H.
  - inversion H; subst. exists c. cbn [filter map]. rewrite app_nil_r. auto.
  - inversion Hp as [|? ? Pk Pks]; subst. cbn [filter].
    destruct (is_sep k) eqn:Es; cbn [negb]; [apply (IH _ _ _ Pks Hg H)|].
    destruct (rec k (Some c)) as [[v top1]|e] eqn:E; [|discriminate].
    destruct (Pk _ _ _ E) as [-> Hv]. cbn zeta in H. rewrite Hg in H.
    fold (wrapc refcls k v) in H.
    assert (Hg2 : get_val a (c_vals (cur_set a (VList (l ++ [wrapc refcls k v])) c)) = Some (VList (l ++ [wrapc refcls k v])))
      by apply get_set_same.
    destruct (IH _ _ _ Pks Hg2 H) as [c' [-> [Hm [Hv' Ho]]]].
    exists c'. split; [reflexivity|]. split; [exact Hm|]. split.
    + rewrite Hv'. cbn [map]. rewrite <- app_assoc. unfold val_of at 2. rewrite (Hv None). reflexivity.
    + intros a' Hne. rewrite (Ho a' Hne). apply get_set_other, Hne.
Qed.

(* a semantic error of the list loop is the error of one of the children *)
Lemma lst_loop_err is_sep a refcls : forall ks c,
  lst_loop rec is_sep a refcls ks (Some c) = BErr ESem ->
  exists k c', In k ks /\ rec k (Some c') = BErr ESem.
Proof.
  induction ks as [|k ks IH]; intros c H; cbn [lst_loop] in H; [discriminate|].
  destruct (is_sep k).
  - destruct (IH _ H) as [k1 [c' [Hin He]]]. exists k1, c'. split; [right; exact Hin | exact He].
  - destruct (rec k (Some c)) as [[v top1]|er] eqn:E.
    + cbn zeta in H. destruct top1 as [c1|]; [|discriminate].
      destruct (get_val a (c_vals c1)) as [[]|]; try discriminate;
        (destruct (IH _ H) as [k1 [c' [Hin He]]]; exists k1, c'; split; [right; exact Hin | exact He]).
    + inversion H; subst er. exists k, c. split; [left; reflexivity | exact E].
Qed.
End Indep.

Section Proj.
Variable g : grammar.
Variable mm : list ninfo.
Variable input : list N.
Variable grp : nat -> nat -> option (nat * nat).
Variable auto use_grp : bool.
Variable attr_id : list N -> nat.
Variable conv : tree -> Mult.sval.
Notation pn := (pnode g mm input grp auto use_grp).
Notation pure := (asg_placed mm false).
Notation tn := (MultPeg.tree_nodes g mm attr_id conv).
Notation evs := (map (Mult.node_ev SrcMult.src_sep_mode)).
Notation tv := (tvals g mm input grp auto use_grp).
Notation kv := (kid_vals g mm input grp auto use_grp).
Notation indep := (indep_of pn).

Definition not_asg (t : tree) : bool :=
  match t with NT nid _ => match info mm nid with IAsgn _ _ => false | _ => true end | T _ _ _ _ => true end.

Lemma placed_indep : forall t under, asg_placed mm under t = true -> not_asg t = true -> indep t.
Proof.
  induction t as [n p l s | n kids IH] using PegProofs.tree_ind2; intros under Hp Hna top v top' H.
  - cbn [pnode] in H |- *. destruct (term_value g mm input grp use_grp n p l) as [v0|e]; inversion H; subst.
    split; [reflexivity | intro top2; reflexivity].
  - cbn [asg_placed] in Hp. cbn [not_asg] in Hna. cbn [pnode] in H |- *. unfold info in *.
    destruct (nth n mm IOther) as [a op|k cls attrs|r gr|] eqn:Ei; try discriminate.
    destruct k.
    + destruct (each_loop pn kids _) as [[c1|]|e]; try discriminate.
      destruct (name_ok (c_vals c1)); [|discriminate]. destruct (many_ok (c_meta c1) (c_vals c1)); inversion H; subst.
      split; [reflexivity | intro top2; reflexivity].
    + assert (HF : Forall indep kids).
      { clear H. induction IH as [|x l Hx Hl IHl]; [constructor|]. cbn [forallb] in Hp. apply andb_true_iff in Hp as [P1 P2].
        constructor; [|apply IHl, P2]. apply (Hx false P1).
        destruct x as [|xn xk]; [reflexivity|]. cbn [asg_placed] in P1. cbn [not_asg]. unfold info.
        destruct (nth xn mm IOther); try reflexivity. discriminate. }
      destruct kids as [|k rest]; [discriminate|]. destruct rest as [|k2 rest].
      * inversion HF as [|? ? Hk _]; subst. apply (Hk _ _ _ H).
      * destruct (first_nonmatch_indep pn (nonmatch_class mm) (k :: k2 :: rest) HF top) as [N1 N2].
        destruct (first_nonmatch pn (nonmatch_class mm) (k :: k2 :: rest) top) as [r0|] eqn:E0.
        -- subst r0. destruct (N2 _ _ eq_refl) as [E K]. split; [exact E | intro top2; rewrite (K top2); reflexivity].
        -- destruct (first_nt_indep pn (has_class mm) (k :: k2 :: rest) HF top) as [M1 M2].
           destruct (first_nt pn (has_class mm) (k :: k2 :: rest) top) as [r1|] eqn:E1.
           ++ subst r1. destruct (M2 _ _ eq_refl) as [E K]. split; [exact E|]. intro top2.
              rewrite (N1 eq_refl top2), (K top2). reflexivity.
           ++ inversion H; subst. split; [reflexivity|]. intro top2. rewrite (N1 eq_refl top2), (M1 eq_refl top2). reflexivity.
    + destruct (pmatch g input (NT n kids)); inversion H; subst. split; [reflexivity | intro top2; reflexivity].
Qed.

Lemma pure_not_asg t : pure t = true -> not_asg t = true.
Proof.
  destruct t as [|n kids]; [reflexivity|]. cbn [asg_placed not_asg]. unfold info.
  destruct (nth n mm IOther); try reflexivity. discriminate.
Qed.

Lemma pure_indep t : pure t = true -> indep t.
Proof. intro H. exact (placed_indep t false H (pure_not_asg t H)). Qed.

Lemma pures_indep ks : forallb pure ks = true -> Forall indep ks.
Proof. rewrite forallb_forall, Forall_forall. intros H t Ht. apply pure_indep, H, Ht. Qed.

Lemma pure_vof t top v top' : pure t = true -> pn t top = BOk (v, top') -> top' = top /\ vof g mm input grp auto use_grp t = v.
Proof.
  intros Hp H. destruct (pure_indep t Hp _ _ _ H) as [E K]. split; [exact E|]. unfold vof. rewrite (K None). reflexivity.
Qed.

Hypothesis Htab : asg_table_okb g mm = true.

Lemma asg_table nid a o : info mm nid = IAsgn a o ->
  exists nd op, get_node g nid = Some nd /\ MultPeg.asg_op o (n_kind nd) = Some op.
Proof.
  intro Hi. unfold asg_table_okb in Htab. rewrite forallb_forall in Htab.
  assert (Hlt : nid < length mm).
  { destruct (Nat.lt_ge_cases nid (length mm)) as [L|L]; [exact L|].
    unfold info in Hi. rewrite nth_overflow in Hi by exact L. discriminate. }
  specialize (Htab nid (proj2 (in_seq _ _ _) (conj (Nat.le_0_l _) Hlt))). rewrite Hi in Htab.
  destruct (get_node g nid) as [nd|]; [|discriminate].
  destruct (MultPeg.asg_op o (n_kind nd)) as [op|] eqn:E; [|discriminate]. eauto.
Qed.

Definition op_fits (o : aop) (op : MultBase.asgop) : Prop :=
  match o, op with
  | OpPlain, MultBase.OpPlain | OpOptional, MultBase.OpBool | OpList, MultBase.OpStar | OpList, MultBase.OpPlus => True
  | _, _ => False
  end.

Lemma asg_op_fits o k op : MultPeg.asg_op o k = Some op -> op_fits o op.
Proof. destruct o, k; cbn; intro H; inversion H; exact I. Qed.

Definition wgt (a : nat) (l : list tree) : nat := Mult.weight a (evs (flat_map tn l)).

(* the single event of an assignment child, and what it weighs *)
Lemma asg_kid_event nid ks a o :
  info mm nid = IAsgn a o ->
  exists op vals, op_fits o op /\ evs (tn (NT nid ks)) = [Mult.Ev (attr_id a) op vals]
    /\ wgt (attr_id a) [NT nid ks] = match op with MultBase.OpPlain | MultBase.OpBool => 1 | _ => 2 end.
Proof.
  intro Hi. destruct (asg_table _ _ _ Hi) as [nd [op [Hn Ho]]].
  exists op. eexists. split; [eapply asg_op_fits, Ho|].
  unfold wgt. cbn [flat_map MultPeg.tree_nodes]. unfold MultPeg.info. unfold info in Hi. rewrite Hi, Hn, Ho.
  split; [reflexivity|]. unfold Mult.weight, Mult.ev_weight. cbn. rewrite Nat.eqb_refl. destruct op; reflexivity.
Qed.

Lemma nonasg_kid_event k : (forall nid ks a o, k = NT nid ks -> info mm nid <> IAsgn a o) -> tn k = [].
Proof.
  intro H. destruct k as [|nid ks]; [reflexivity|]. cbn [MultPeg.tree_nodes]. unfold MultPeg.info.
  destruct (nth nid mm IOther) as [a o| | |] eqn:E; try reflexivity. exfalso. eapply (H nid ks a o eq_refl). exact E.
Qed.

Lemma wgt_app a l1 l2 : wgt a (l1 ++ l2) = wgt a l1 + wgt a l2.
Proof. unfold wgt. rewrite flat_map_app, map_app. apply MultFlowProofs.weight_app. Qed.

Lemma wgt_cons a k l : wgt a (k :: l) = wgt a [k] + wgt a l.
Proof. apply (wgt_app a [k] l). Qed.

(* the values the builder collects for an attribute never outnumber the weight of its events *)
Lemma kv_weight ma k : Mult.cap2 (length (kv ma k)) <= wgt (attr_id (a_name ma)) [k].
Proof.
  destruct k as [|nid ks]; [apply Nat.le_0_l|]. cbn [kid_vals].
  destruct (info mm nid) as [a o| | |] eqn:Ei; try apply Nat.le_0_l.
  destruct (str_eqb (a_name ma) a) eqn:E; [|apply Nat.le_0_l]. apply str_eqb_eq in E. subst a.
  destruct (asg_kid_event nid ks (a_name ma) o Ei) as [op [vals [Hfit [_ ->]]]].
  destruct o, op; try contradiction; try apply MultProofs.cap2_le2; [|apply le_n].
  destruct ks; [apply Nat.le_0_l | apply le_n].
Qed.

Lemma tv_weight ma l : Mult.cap2 (length (tv ma l)) <= Mult.cap2 (wgt (attr_id (a_name ma)) l).
Proof.
  induction l as [|k l IH]; [apply le_n|]. rewrite wgt_cons. cbn [tvals flat_map]. fold (tv ma l). rewrite app_length.
  apply MultProofs.cap2_add_mono; [apply kv_weight | etransitivity; [exact IH | apply MultProofs.cap2_le]].
Qed.

(* weight 0 for the attribute's number: nothing was matched for the attribute *)
Lemma wgt0_tvals ma l : wgt (attr_id (a_name ma)) l = 0 -> tv ma l = [].
Proof.
  intro H. pose proof (tv_weight ma l) as K. rewrite H in K. destruct (tv ma l); [reflexivity | inversion K].
Qed.

Variable attrs : list attr.
Variable kids : list tree.
Hypothesis Hscalar : forall ma, find_attr (a_name ma) attrs = Some ma -> is_many (a_mult ma) = false ->
  wgt (attr_id (a_name ma)) kids <= 1.
Hypothesis Hmany : forall ma, find_attr (a_name ma) attrs = Some ma -> is_many (a_mult ma) = true ->
  forall e, In e (evs (flat_map tn kids)) -> Mult.ev_attr e = attr_id (a_name ma) -> Mult.ev_op e <> MultBase.OpBool.

Notation expv := (expected_val auto).

Definition inv (pre : list tree) (c : cur) : Prop :=
  c_meta c = attrs /\
  forall ma, find_attr (a_name ma) attrs = Some ma -> get_val (a_name ma) (c_vals c) = Some (expv ma (tv ma pre)).

Lemma init_falsy ma : is_many (a_mult ma) = false -> val_truthy (init_attr auto ma) = false.
Proof.
  unfold init_attr. destruct (a_mult ma); try discriminate; intros _;
    (destruct (is_base_type (a_cls ma)); [destruct auto; [reflexivity | destruct (a_bool ma); reflexivity] | reflexivity]).
Qed.

Lemma init_not_list ma : is_many (a_mult ma) = false -> is_vlist (init_attr auto ma) = false.
Proof.
  unfold init_attr. destruct (a_mult ma); try discriminate; intros _;
    (destruct (is_base_type (a_cls ma)); [destruct auto; [reflexivity | destruct (a_bool ma); reflexivity] | reflexivity]).
Qed.

Lemma tv_snoc ma pre k : tv ma (pre ++ [k]) = tv ma pre ++ kv ma k.
Proof. unfold tvals. rewrite flat_map_app. cbn [flat_map]. rewrite app_nil_r. reflexivity. Qed.

(* facts about an assignment child, shared by the success and the error analysis *)
Lemma asg_kid_facts pre nid ks suf a o c ma :
  kids = pre ++ NT nid ks :: suf -> inv pre c -> info mm nid = IAsgn a o -> find_attr a attrs = Some ma ->
  a_name ma = a /\ find_attr (a_name ma) attrs = Some ma /\
  get_val a (c_vals c) = Some (expv ma (tv ma pre)) /\
  exists op vals, op_fits o op /\
    (is_many (a_mult ma) = true -> op <> MultBase.OpBool) /\
    (is_many (a_mult ma) = false -> tv ma pre = [] /\ (op = MultBase.OpPlain \/ op = MultBase.OpBool)) /\
    In (Mult.Ev (attr_id a) op vals) (evs (flat_map tn kids)).
Proof.
  intros Hk [Hm Hv] Ei Ef.
  pose proof (find_attr_name _ _ _ Ef) as Hn. assert (Hma : find_attr (a_name ma) attrs = Some ma) by (rewrite Hn; exact Ef).
  split; [exact Hn|]. split; [exact Hma|]. split; [rewrite <- Hn; apply Hv, Hma|].
  destruct (asg_kid_event nid ks a o Ei) as [op [vals [Hfit [Hev Hwk]]]]. exists op, vals. split; [exact Hfit|].
  assert (Hw : wgt (attr_id a) kids = wgt (attr_id a) pre + wgt (attr_id a) [NT nid ks] + wgt (attr_id a) suf)
    by (rewrite Hk, wgt_app, wgt_cons; lia).
  assert (Hin : In (Mult.Ev (attr_id a) op vals) (evs (flat_map tn kids))).
  { rewrite Hk, flat_map_app, map_app. apply in_or_app. right. cbn [flat_map]. rewrite map_app, Hev. left. reflexivity. }
  split; [|split; [|exact Hin]].
  - intros Emany Eb. subst op. apply (Hmany ma Hma Emany _ Hin); [cbn; rewrite Hn; reflexivity | reflexivity].
  - intro Emany. pose proof (Hscalar ma Hma Emany) as Hle. rewrite Hn in Hle. split.
    + apply wgt0_tvals. rewrite Hn. destruct op; lia.
    + destruct op; try lia; auto.
Qed.

Lemma step pre k suf c v top1 :
  kids = pre ++ k :: suf -> inv pre c -> asg_placed mm true k = true ->
  pn k (Some c) = BOk (v, top1) ->
  exists c1, top1 = Some c1 /\ inv (pre ++ [k]) c1.
Proof.
  intros Hk Hi Hok H. pose proof Hi as [Hm Hv].
  assert (Hpure_case : not_asg k = true -> exists c1, top1 = Some c1 /\ inv (pre ++ [k]) c1).
  { (* such a child leaves the object untouched *)
    intro Hp. destruct (placed_indep k true Hok Hp _ _ _ H) as [-> _]. exists c. split; [reflexivity|]. split; [exact Hm|].
    intros ma Hma. rewrite tv_snoc.
    assert (E : kv ma k = []).
    { destruct k as [|nid ks]; [reflexivity|]. cbn [kid_vals]. cbn [not_asg] in Hp.
      destruct (info mm nid) as [a o|kk cls at'|r gr|]; try reflexivity. discriminate. }
    rewrite E, app_nil_r. apply Hv, Hma. }
  destruct k as [n p len s|nid ks]; [apply Hpure_case; reflexivity|].
  destruct (info mm nid) as [a o|kk cls at'|r gr|] eqn:Ei;
    try (apply Hpure_case; cbn [not_asg]; rewrite Ei; reflexivity).
  (* an assignment node: its children do not touch the object *)
  assert (Hks : forallb pure ks = true).
  { cbn [asg_placed] in Hok. unfold info in Ei. rewrite Ei in Hok. exact Hok. }
  rewrite pnode_NT, Ei in H. apply asgn_step_inv in H as [-> [c0 [ma [Ec [Ef Hop]]]]]. injection Ec as <-. rewrite Hm in Ef.
  destruct (asg_kid_facts pre nid ks suf a o c ma Hk Hi Ei Ef) as [Hn [Hma [Hcur [op [vals [Hfit [Hnb [Hsc Hin]]]]]]]].
  (* how the other attributes and the assigned one look afterwards *)
  assert (Fin : forall c1 fv, c_meta c1 = attrs -> get_val a (c_vals c1) = Some fv ->
                 (forall a', str_eqb a a' = false -> get_val a' (c_vals c1) = get_val a' (c_vals c)) ->
                 fv = expv ma (tv ma pre ++ kv ma (NT nid ks)) -> inv (pre ++ [NT nid ks]) c1).
  { intros c1 fv Hm1 Hg1 Ho1 Hfv. split; [exact Hm1|]. intros ma2 Hma2. rewrite tv_snoc.
    destruct (str_eqb a (a_name ma2)) eqn:E2.
    - apply str_eqb_eq in E2. assert (ma2 = ma) by (rewrite <- E2, Ef in Hma2; inversion Hma2; reflexivity). subst ma2.
      rewrite Hn, Hg1, Hfv. reflexivity.
    - rewrite (Ho1 _ E2), (Hv _ Hma2). f_equal. f_equal.
      cbn [kid_vals]. rewrite Ei. replace (str_eqb (a_name ma2) a) with false; [rewrite app_nil_r; reflexivity|].
      symmetry. apply str_eqb_neq. intro Eq. rewrite Eq, str_eqb_refl in E2. discriminate. }
  assert (Fset : forall fv, fv = expv ma (tv ma pre ++ kv ma (NT nid ks)) ->
                 exists c1, Some (cur_set a fv c) = Some c1 /\ inv (pre ++ [NT nid ks]) c1).
  { intros fv Hfv. eexists. split; [reflexivity|].
    eapply Fin; [exact Hm | apply get_set_same | intros a' Hne; apply get_set_other, Hne | exact Hfv]. }
  cbn [kid_vals] in Fin, Fset. rewrite Ei, Hn, str_eqb_refl in Fin, Fset. unfold expected_val in *.
  destruct o; [| | |destruct Hop].
  - (* = : appended to the list of everything matched so far, or the only assignment matched for the attribute *)
    destruct Hop as (av & k0 & rest & v0 & c1 & Eg & -> & E0 & ->).
    cbn [forallb] in Hks. apply andb_true_iff in Hks as [P0 _].
    destruct (pure_vof _ _ _ _ P0 E0) as [Ec <-]. injection Ec as ->.
    rewrite Hcur in Eg. injection Eg as <-. apply Fset. unfold wrap, is_link.
    destruct (is_many (a_mult ma)) eqn:Emany; [reflexivity|]. destruct (Hsc eq_refl) as [-> _].
    pose proof (init_not_list ma Emany) as Hnl. destruct (init_attr auto ma); try reflexivity. discriminate Hnl.
  - (* ?= : only on a single-valued attribute, and then the only assignment matched for it *)
    subst top1. apply Fset. destruct (is_many (a_mult ma)) eqn:Emany.
    + destruct (Hnb eq_refl). destruct op; try contradiction. reflexivity.
    + destruct (Hsc eq_refl) as [-> _]. reflexivity.
  - (* *= += : only on a list attribute; the loop appends the children's values *)
    destruct (is_many (a_mult ma)) eqn:Emany; [|destruct (Hsc eq_refl) as [_ [-> | ->]]; contradiction].
    destruct (lst_loop_indep pn _ a _ ks c _ _ (pures_indep ks Hks) Hcur Hop) as [c' [-> [Hm' [Hg' Ho']]]].
    exists c'. split; [reflexivity|].
    eapply Fin; [rewrite Hm'; exact Hm | exact Hg' | exact Ho'|]. f_equal. f_equal.
    apply map_ext. intro t. unfold wrapc, wrap, is_link. destruct (a_ref ma && negb (a_cont ma))%bool; reflexivity.
Qed.

(* the loop over the children of the rule's NonTerminal *)
Lemma each_inv : forall suf pre c c1,
  kids = pre ++ suf -> inv pre c -> forallb (asg_placed mm true) suf = true ->
  each_loop pn suf (Some c) = BOk (Some c1) -> inv kids c1.
Proof.
  induction suf as [|k suf IH]; intros pre c c1 Hk Hi Hok H; cbn [each_loop] in H.
  - inversion H; subst c1. rewrite Hk, app_nil_r. exact Hi.
  - cbn [forallb] in Hok. apply andb_true_iff in Hok as [Ok1 Ok2].
    destruct (pn k (Some c)) as [[v top1]|e] eqn:E; [|discriminate].
    destruct (step pre k suf c v top1 Hk Hi Ok1 E) as [c2 [-> Hi2]].
    apply (IH (pre ++ [k]) c2 c1); [rewrite <- app_assoc; exact Hk | exact Hi2 | exact Ok2 | exact H].
Qed.

(* a semantic error while the children of the rule's NonTerminal are processed comes from converting a child
   (a nested object), never from the multiple-assignment guard of this object's own assignments *)
Lemma step_err pre k suf c :
  kids = pre ++ k :: suf -> inv pre c ->
  pn k (Some c) = BErr ESem ->
  not_asg k = true \/ exists nid ks a o k0 c', k = NT nid ks /\ info mm nid = IAsgn a o /\ In k0 ks /\ pn k0 (Some c') = BErr ESem.
Proof.
  intros Hk Hi H. pose proof Hi as [Hm Hv].
  destruct k as [n p len s|nid ks]; [left; reflexivity|].
  destruct (info mm nid) as [a o|kk cls at'|r gr|] eqn:Ei; try (left; cbn [not_asg]; rewrite Ei; reflexivity).
  right. rewrite pnode_NT, Ei in H. unfold asgn_step, plain_step in H.
  destruct (find_attr a (c_meta c)) as [ma|] eqn:Ef; [|discriminate]. rewrite Hm in Ef.
  destruct (asg_kid_facts pre nid ks suf a o c ma Hk Hi Ei Ef) as [Hn [Hma [Hcur [op [vals [Hfit [Hnb [Hsc Hin]]]]]]]].
  destruct o; try discriminate.
  - (* = : the guard does not fire *)
    rewrite Hcur in H.
    assert (Hguard : (val_truthy (expv ma (tv ma pre)) && negb (is_vlist (expv ma (tv ma pre))))%bool = false).
    { unfold expected_val. destruct (is_many (a_mult ma)) eqn:Emany; [cbn; apply andb_false_r|].
      destruct (Hsc eq_refl) as [Hpre _]. rewrite Hpre, (init_falsy ma Emany). reflexivity. }
    rewrite Hguard in H.
    destruct ks as [|k0 ks']; [discriminate|].
    destruct (pn k0 (Some c)) as [[v0 top0]|er] eqn:E0.
    + cbn zeta in H. destruct top0; [|discriminate]. destruct (expv ma (tv ma pre)); discriminate.
    + inversion H; subst er. exists nid, (k0 :: ks'), a, OpPlain, k0, c.
      split; [reflexivity|]. split; [exact Ei|]. split; [left; reflexivity | exact E0].
  - (* *= += *)
    destruct (lst_loop pn (is_sep_of g nid) a _ ks (Some c)) as [t1|er] eqn:El; [discriminate|].
    inversion H; subst er. destruct (lst_loop_err pn _ _ _ _ _ El) as [k0 [c' [Hin' He]]].
    exists nid, ks, a, OpList, k0, c'. split; [reflexivity|]. split; [exact Ei|]. split; assumption.
Qed.

Lemma each_err : forall suf pre c,
  kids = pre ++ suf -> inv pre c -> forallb (asg_placed mm true) suf = true ->
  each_loop pn suf (Some c) = BErr ESem ->
  exists k c', In k suf /\ pn k (Some c') = BErr ESem /\
    (not_asg k = true \/ exists nid ks a o k0 c'', k = NT nid ks /\ info mm nid = IAsgn a o /\ In k0 ks /\ pn k0 (Some c'') = BErr ESem).
Proof.
  induction suf as [|k suf IH]; intros pre c Hk Hi Hok H; cbn [each_loop] in H; [discriminate|].
  cbn [forallb] in Hok. apply andb_true_iff in Hok as [Ok1 Ok2].
  destruct (pn k (Some c)) as [[v top1]|er] eqn:E.
  - destruct (step pre k suf c v top1 Hk Hi Ok1 E) as [c2 [-> Hi2]].
    destruct (IH (pre ++ [k]) c2 (eq_trans Hk (app_assoc pre [k] suf)) Hi2 Ok2 H) as [k1 [c' [Hin R]]].
    exists k1, c'. split; [right; exact Hin | exact R].
  - inversion H; subst er. exists k, c. split; [left; reflexivity|]. split; [exact E|].
    exact (step_err pre k suf c Hk Hi E).
Qed.

Hypothesis Hnames : forall ma, find_attr (a_name ma) attrs = Some ma ->
  get_val (a_name ma) (init_attrs auto attrs) = Some (init_attr auto ma).

Lemma inv_init cls p e : inv [] (mkCur cls attrs p e (init_attrs auto attrs)).
Proof.
  split; [reflexivity|]. intros ma Hma. cbn [c_vals tvals flat_map]. rewrite (Hnames ma Hma).
  unfold expected_val. destruct (is_many (a_mult ma)) eqn:E; [|reflexivity].
  unfold init_attr. destruct (a_mult ma); try discriminate; reflexivity.
Qed.

(* the object built for a common-rule node holds, for every attribute, exactly the matched values *)
Theorem object_values n cls top cls' p e vals top' :
  info mm n = IRule RCommon cls attrs ->
  forallb (asg_placed mm true) kids = true ->
  pn (NT n kids) top = BOk (VObj cls' p e vals, top') ->
  forall ma, find_attr (a_name ma) attrs = Some ma ->
    get_val (a_name ma) vals = Some (expv ma (tv ma kids)).
Proof.
  intros Hi Hok H ma Hma. destruct (common_node_object _ _ _ _ _ _ _ _ _ _ _ _ _ Hi H) as [_ [c1 [E Ev]]].
  injection Ev as _ _ _ ->.
  destruct (each_inv kids [] _ c1 eq_refl (inv_init _ _ _) Hok E) as [_ Hv]. apply Hv, Hma.
Qed.

(* If building the object fails with a semantic error, the error was raised while a child was converted (a nested
   object's own error) or by the name check - never by 'Multiple assignments' on this object's attributes. *)
Theorem object_no_mult_assign n cls top :
  info mm n = IRule RCommon cls attrs ->
  forallb (asg_placed mm true) kids = true ->
  pn (NT n kids) top = BErr ESem ->
  (exists k c', In k kids /\ pn k (Some c') = BErr ESem /\
     (not_asg k = true \/ exists nid ks a o k0 c'', k = NT nid ks /\ info mm nid = IAsgn a o /\ In k0 ks /\ pn k0 (Some c'') = BErr ESem))
  \/ (exists c1, each_loop pn kids (Some (mkCur cls attrs (tpos (NT n kids)) (tend (NT n kids)) (init_attrs auto attrs))) = BOk (Some c1)
                 /\ name_ok (c_vals c1) = false).
Proof.
  intros Hi Hok H. rewrite pnode_NT, Hi in H. unfold common_step in H.
  destruct (each_loop pn kids _) as [[c1|]|er] eqn:E; try discriminate.
  - right. exists c1. split; [reflexivity|]. destruct (name_ok (c_vals c1)); [|reflexivity].
    destruct (many_ok (c_meta c1) (c_vals c1)); discriminate.
  - left. inversion H; subst er. exact (each_err kids [] _ eq_refl (inv_init _ _ _) Hok E).
Qed.

End Proj.
