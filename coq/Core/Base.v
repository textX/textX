(* Shared basics: characters are code points (N), strings are lists of them; and the facts about lists
   (membership by a boolean equality, NoDup, filter, Forall2, flat_map, skipn, list_max) that several properties use. *)
From Coq Require Export List NArith ZArith Bool Arith Lia.
Export ListNotations.
Notation char := N (only parsing).
Notation str := (list N) (only parsing).

Definition str_eqb (a b : list N) : bool :=
  (fix go (a b : list N) : bool :=
     match a, b with
     | [], [] => true
     | x :: a', y :: b' => N.eqb x y && go a' b'
     | _, _ => false
     end) a b.

Lemma str_eqb_eq a b : str_eqb a b = true <-> a = b.
Proof.
  revert b; induction a as [|x a IH]; intros [|y b]; simpl; split; intro H;
    try reflexivity; try discriminate.
  - apply andb_true_iff in H as [H1 H2]. apply N.eqb_eq in H1. apply IH in H2. congruence.
  - inversion H; subst. apply andb_true_iff; split; [apply N.eqb_refl | apply IH; reflexivity].
Qed.

Lemma str_eqb_refl a : str_eqb a a = true.
Proof. apply str_eqb_eq; reflexivity. Qed.

Lemma str_eqb_neq a b : str_eqb a b = false <-> a <> b.
Proof.
  split; intro H.
  - intro E. apply str_eqb_eq in E. congruence.
  - destruct (str_eqb a b) eqn:E; [apply str_eqb_eq in E; contradiction | reflexivity].
Qed.

Definition mem_str (x : list N) (l : list (list N)) : bool := existsb (str_eqb x) l.

Lemma mem_str_In x l : mem_str x l = true <-> In x l.
Proof.
  unfold mem_str. rewrite existsb_exists. split.
  - intros [y [Hy E]]. apply str_eqb_eq in E. subst; assumption.
  - intro H. exists x. split; [assumption | apply str_eqb_refl].
Qed.

Fixpoint is_prefix (p s : list N) : bool :=
  match p, s with
  | [], _ => true
  | x :: p', y :: s' => N.eqb x y && is_prefix p' s'
  | _ :: _, [] => false
  end.

Lemma is_prefix_app p s : is_prefix p (p ++ s) = true.
Proof. induction p as [|x p IH]; simpl; [reflexivity|]. rewrite N.eqb_refl, IH. reflexivity. Qed.

Lemma is_prefix_spec p s : is_prefix p s = true <-> exists r, s = p ++ r.
Proof.
  revert s; induction p as [|x p IH]; intros s; simpl.
  - split; [intros _; exists s; reflexivity | reflexivity].
  - destruct s as [|y s]; [split; [discriminate | intros [r H]; discriminate]|].
    rewrite andb_true_iff, N.eqb_eq, IH. split.
    + intros [-> [r ->]]. exists r. reflexivity.
    + intros [r H]. inversion H; subst. split; [reflexivity | exists r; reflexivity].
Qed.

Lemma mem_str_false x l : mem_str x l = false <-> ~ In x l.
Proof. rewrite <- mem_str_In. symmetry. apply not_true_iff_false. Qed.

Lemma is_prefix_len t : forall l, is_prefix t l = true -> length t <= length l.
Proof.
  induction t as [|x t IH]; intros l E; cbn in *; [lia|].
  destruct l as [|y l]; [discriminate|]. apply andb_true_iff in E as [_ E]. cbn. specialize (IH l E). lia.
Qed.

Lemma existsb_eqb_In {A} (eqb : A -> A -> bool) (Heq : forall a b, eqb a b = true <-> a = b) x l :
  existsb (eqb x) l = true <-> In x l.
Proof.
  rewrite existsb_exists. split.
  - intros [y [Hy E]]. apply Heq in E. subst. exact Hy.
  - intro H. exists x. split; [exact H | apply Heq; reflexivity].
Qed.

Lemma existsb_eqb_false {A} (eqb : A -> A -> bool) (Heq : forall a b, eqb a b = true <-> a = b) x l :
  existsb (eqb x) l = false <-> ~ In x l.
Proof. rewrite <- (existsb_eqb_In eqb Heq). symmetry. apply not_true_iff_false. Qed.

Lemma existsb_nat_In x l : existsb (Nat.eqb x) l = true <-> In x l.
Proof. exact (existsb_eqb_In Nat.eqb Nat.eqb_eq x l). Qed.

Lemma existsb_nat_false x l : existsb (Nat.eqb x) l = false <-> ~ In x l.
Proof. exact (existsb_eqb_false Nat.eqb Nat.eqb_eq x l). Qed.

Lemma existsb_N_In x l : existsb (N.eqb x) l = true <-> In x l.
Proof. exact (existsb_eqb_In N.eqb N.eqb_eq x l). Qed.

Lemma existsb_N_false x l : existsb (N.eqb x) l = false <-> ~ In x l.
Proof. exact (existsb_eqb_false N.eqb N.eqb_eq x l). Qed.

Lemma existsb_none {A} (f : A -> bool) l : (forall x, In x l -> f x = false) -> existsb f l = false.
Proof.
  induction l as [|x l IH]; intro H; cbn [existsb]; [reflexivity|].
  rewrite (H x (or_introl eq_refl)). apply IH. intros y Hy. apply H. right. exact Hy.
Qed.

Lemma forallb_ext {A} (f g : A -> bool) l : (forall x, f x = g x) -> forallb f l = forallb g l.
Proof. intros H. induction l as [|x l IH]; [reflexivity|]. cbn. rewrite H, IH. reflexivity. Qed.

Lemma list_ind2 {A} (P : list A -> Prop) :
  P [] -> (forall x l, P l -> P (tl l) -> P (x :: l)) -> forall l, P l.
Proof.
  intros H0 Hs l. enough (P l /\ P (tl l)) by tauto.
  induction l as [|x l [IH1 IH2]]; [split; exact H0 | split; [apply Hs; assumption | exact IH1]].
Qed.

Lemma NoDup_app_iff {A} (a b : list A) :
  NoDup (a ++ b) <-> NoDup a /\ NoDup b /\ (forall x, In x a -> In x b -> False).
Proof.
  induction a as [|y a IH]; simpl.
  - split; [intro H; repeat split; [constructor | assumption | intros x []] | intros [_ [H _]]; assumption].
  - rewrite !NoDup_cons_iff, IH, in_app_iff. split.
    + intros [Hy [Ha [Hb Hd]]]. repeat split; auto.
      intros x [<-|Hx] Hxb; [auto | eapply Hd; eauto].
    + intros [[Hy Ha] [Hb Hd]]. repeat split; auto.
      * intros [Hin|Hin]; [auto | exact (Hd y (or_introl eq_refl) Hin)].
      * intros x Hx. apply Hd. right. exact Hx.
Qed.

Lemma NoDup_app_l {A} (a b : list A) : NoDup (a ++ b) -> NoDup a.
Proof. intro H. apply NoDup_app_iff in H. apply H. Qed.

Lemma NoDup_app_r {A} (a b : list A) : NoDup (a ++ b) -> NoDup b.
Proof. intro H. apply NoDup_app_iff in H. apply H. Qed.

Lemma NoDup_app_disjoint {A} (a b : list A) x : NoDup (a ++ b) -> In x a -> ~ In x b.
Proof. intro H. apply NoDup_app_iff in H. exact (proj2 (proj2 H) x). Qed.

Lemma NoDup_snoc {A} (l : list A) x : NoDup l -> ~ In x l -> NoDup (l ++ [x]).
Proof. intros Hnd Hni. apply (NoDup_Add (Add_app x l [])). rewrite app_nil_r. split; assumption. Qed.

Lemma NoDup_map_filter {A B} (g : A -> B) (f : A -> bool) l : NoDup (map g l) -> NoDup (map g (filter f l)).
Proof.
  induction l as [|a t IH]; cbn; [auto|]. intro H. inversion H as [|? ? Hni Hnd]; subst. destruct (f a); cbn; [|auto].
  constructor; [|auto]. intro Hin. apply Hni. apply in_map_iff in Hin as [x [Hx Hin]]. apply filter_In in Hin as [Hin _].
  apply in_map_iff. exists x. auto.
Qed.

Lemma filter_all {A} (f : A -> bool) l : (forall x, In x l -> f x = true) -> filter f l = l.
Proof.
  induction l as [|x l IH]; intro H; cbn [filter]; [reflexivity|].
  rewrite (H x (or_introl eq_refl)). f_equal. apply IH. intros y Hy. apply H. right. exact Hy.
Qed.

Lemma filter_nil {A} (f : A -> bool) l : filter f l = [] <-> forall x, In x l -> f x = false.
Proof.
  induction l as [|y l IH]; cbn [filter]; [split; [intros _ x [] | reflexivity]|]. split.
  - destruct (f y) eqn:E; [discriminate|]. intros H x [<-|Hx]; [exact E | exact (proj1 IH H x Hx)].
  - intro H. rewrite (H y (or_introl eq_refl)). apply IH. intros x Hx. apply H. right. exact Hx.
Qed.

Lemma filter_len {A} (f : A -> bool) l : length (filter f l) <= length l.
Proof. induction l as [|x l IH]; cbn [filter length]; [lia|]. destruct (f x); cbn [length]; lia. Qed.

Lemma filter_len_le {A} (f g : A -> bool) l :
  (forall x, In x l -> g x = true -> f x = true) -> length (filter g l) <= length (filter f l).
Proof.
  induction l as [|x l IH]; intro H; cbn [filter]; [lia|].
  assert (IH' : length (filter g l) <= length (filter f l)) by (apply IH; intros y Hy; apply H; right; exact Hy).
  destruct (g x) eqn:Eg.
  - rewrite (H x (or_introl eq_refl) Eg). cbn [length]. lia.
  - destruct (f x); cbn [length]; lia.
Qed.

Lemma filter_len_lt {A} (f g : A -> bool) l x0 :
  (forall x, In x l -> g x = true -> f x = true) -> In x0 l -> f x0 = true -> g x0 = false ->
  length (filter g l) < length (filter f l).
Proof.
  intros H Hin Hf Hg. apply in_split in Hin as (l1 & l2 & ->).
  rewrite !filter_app, !app_length. cbn [filter]. rewrite Hf, Hg. cbn [length].
  assert (H1 : length (filter g l1) <= length (filter f l1))
    by (apply filter_len_le; intros x Hx; apply H, in_or_app; left; exact Hx).
  assert (H2 : length (filter g l2) <= length (filter f l2))
    by (apply filter_len_le; intros x Hx; apply H, in_or_app; right; right; exact Hx).
  lia.
Qed.

Lemma Forall2_length {A B} (R : A -> B -> Prop) l1 l2 : Forall2 R l1 l2 -> length l1 = length l2.
Proof. induction 1; cbn [length]; congruence. Qed.

Lemma Forall2_impl_in {A B} (R S : A -> B -> Prop) l l' :
  Forall2 R l l' -> (forall a b, In a l -> R a b -> S a b) -> Forall2 S l l'.
Proof.
  induction 1 as [|a b l l' Hab _ IH]; intro H; constructor.
  - apply H; [left; reflexivity | exact Hab].
  - apply IH. intros a' b' Hin. apply H. right. exact Hin.
Qed.

Lemma Forall2_eq_map {A B} (f : A -> B) l l' : Forall2 (fun x y => y = f x) l l' -> l' = map f l.
Proof. induction 1 as [|x y l l' -> _ ->]; reflexivity. Qed.

Lemma map_flat_map {A B C} (f : B -> C) (g : A -> list B) l :
  map f (flat_map g l) = flat_map (fun x => map f (g x)) l.
Proof. induction l as [|a l IH]; simpl; [reflexivity|]. rewrite map_app, IH. reflexivity. Qed.

Lemma filter_flat_map {A B} (p : B -> bool) (f : A -> list B) l :
  filter p (flat_map f l) = flat_map (fun x => filter p (f x)) l.
Proof. induction l as [|a l IH]; simpl; [reflexivity|]. rewrite filter_app, IH. reflexivity. Qed.

Lemma filter_map_comm {A B} (p : B -> bool) (f : A -> B) l :
  map f (filter (fun x => p (f x)) l) = filter p (map f l).
Proof. induction l as [|a l IH]; simpl; [reflexivity|]. destruct (p (f a)); simpl; rewrite IH; reflexivity. Qed.

Lemma flat_map_flat_map {A B C} (f : B -> list C) (g : A -> list B) l :
  flat_map f (flat_map g l) = flat_map (fun x => flat_map f (g x)) l.
Proof. induction l as [|a l IH]; simpl; [reflexivity|]. rewrite flat_map_app, IH. reflexivity. Qed.

Lemma flat_map_ext_in {A B} (f g : A -> list B) l :
  (forall x, In x l -> f x = g x) -> flat_map f l = flat_map g l.
Proof.
  induction l as [|x l IH]; intros H; [reflexivity|]. cbn [flat_map].
  rewrite (H x (or_introl eq_refl)), IH; [reflexivity|]. intros y Hy. apply H. right. exact Hy.
Qed.

Lemma flat_map_nil {A B} (f : A -> list B) l : (forall x, In x l -> f x = []) -> flat_map f l = [].
Proof.
  induction l as [|x l IH]; intros H; cbn; [reflexivity|].
  rewrite (H x (or_introl eq_refl)), IH; [reflexivity|]. intros y Hy. apply H. right. exact Hy.
Qed.

Lemma skipn_hd {A} (q : nat) : forall l : list A,
  skipn q l = match nth_error l q with Some c => c :: skipn (S q) l | None => [] end.
Proof.
  induction q as [|q IH]; intros l; destruct l as [|x l]; try reflexivity. cbn [skipn nth_error]. apply IH.
Qed.

Lemma nth_error_skipn {A} (l : list A) p i : nth_error (skipn p l) i = nth_error l (p + i).
Proof.
  revert l; induction p as [|p IH]; intros l; [reflexivity|].
  destruct l as [|x l]; [destruct i; reflexivity|]. cbn [skipn plus nth_error]. apply IH.
Qed.

Lemma list_max_ub n l : In n l -> n <= list_max l.
Proof. intro H. pose proof (proj1 (list_max_le l (list_max l)) (le_n _)) as F. rewrite Forall_forall in F. apply F, H. Qed.

Lemma list_max_in l : l <> [] -> In (list_max l) l.
Proof.
  induction l as [|x [|y l] IH]; [congruence | intros _; left; symmetry; apply Nat.max_0_r | intros _].
  change (list_max (x :: y :: l)) with (Nat.max x (list_max (y :: l))).
  destruct (Nat.max_dec x (list_max (y :: l))) as [E|E]; rewrite E; [left; reflexivity | right; apply IH; discriminate].
Qed.

Lemma list_sum_ge n l : In n l -> n <= list_sum l.
Proof.
  induction l as [|x l IH]; [intros []|]. intros [<- | H]; cbn [list_sum fold_right]; [lia|].
  apply IH in H. unfold list_sum in H. lia.
Qed.

Lemma skipn_app_le {A} (l1 l2 : list A) p : p <= length l1 -> skipn p (l1 ++ l2) = skipn p l1 ++ l2.
Proof. intro H. rewrite skipn_app. replace (p - length l1) with 0 by lia. reflexivity. Qed.

Lemma skipn_app_ge {A} (l1 l2 : list A) p : length l1 <= p -> skipn p (l1 ++ l2) = skipn (p - length l1) l2.
Proof. intro H. rewrite skipn_app. rewrite (skipn_all2 l1) by lia. reflexivity. Qed.

Lemma forallb_skipn {A} (f : A -> bool) l j : forallb f l = true -> forallb f (skipn j l) = true.
Proof. revert j; induction l as [|x l IH]; intros [|j]; simpl; auto. intro H. apply andb_true_iff in H as [_ H]. auto. Qed.
