(* C32 — scope provider selection follows the documented precedence. *)
From TxV Require Import Core.Base Model.ScopeDefs Gen.SrcScope Model.RrelSyntax Proofs.RrelSyntaxProofs Model.Scope Proofs.ScopeProofs.

(* For every set of registered keys, every rule/attribute name and with or without a
   grammar RREL, the provider selected by the (translated) selection statement is the
   documented one. *)
Theorem C32_precedence : forall regs cls attr has_rrel,
  select regs cls attr has_rrel = spec regs cls attr has_rrel.
Proof. exact select_spec. Qed.
Print Assumptions C32_precedence.

Theorem C32_grammar_rrel_wins : forall regs cls attr, select regs cls attr true = FromGrammar.
Proof. intros regs cls attr. rewrite select_spec. reflexivity. Qed.
Print Assumptions C32_grammar_rrel_wins.

(* A whole resolution pass over any sequence of references (rule, attribute, has a grammar RREL): each one
   gets the provider documented for its own rule and attribute - the selection made for one reference has
   no influence on a later one (no memo by attribute name, by rule, ...). *)
Theorem C32_per_reference : forall regs refs,
  select_pass regs refs [] = map (fun r => spec regs (fst (fst r)) (snd (fst r)) (snd r)) refs.
Proof. intros regs refs. exact (select_pass_spec regs refs []). Qed.
Print Assumptions C32_per_reference.

(* Several register_scope_providers calls on one meta-model: the selection depends only on the latest
   registration - keys of earlier calls that the latest call omits are not in force (after {'R.a': p1} then
   {'*.*': p2} a reference R.a goes to p2; after {} the default provider is used).  Rests on the translated fact
   that the method replaces the meta-model's dict (`self.scope_providers = sp`). *)
Theorem C32_latest_registration : forall history last cls attr has_rrel,
  select (active_keys (history ++ [last]) []) cls attr has_rrel = spec last cls attr has_rrel.
Proof. intros history last cls attr has_rrel. rewrite active_keys_latest. apply select_spec. Qed.
Print Assumptions C32_latest_registration.

Theorem C32_latest_registration_pass : forall history last refs,
  select_pass (active_keys (history ++ [last]) []) refs [] = map (fun r => spec last (fst (fst r)) (snd (fst r)) (snd r)) refs.
Proof. intros history last refs. rewrite active_keys_latest. apply select_pass_spec. Qed.
Print Assumptions C32_latest_registration_pass.

(* A registered RREL string denotes the provider built from the parsed expression (the parser of
   Model/RrelSyntax.v, property C12), i.e. the provider the same expression yields when written in the grammar. *)
Theorem C32_rrel_string : forall t e,
  RrelSyntax.parse t = Some e -> registered_provider (RString t) = grammar_provider e.
Proof. exact registered_string_like_grammar. Qed.
Print Assumptions C32_rrel_string.

(* ... in particular every string that lexes to the tokens of a well-formed expression (C12 round trip) *)
Theorem C32_rrel_string_printed : forall t e,
  wf_expr e -> lex (S (length t)) t = Some (t_expr e) -> registered_provider (RString t) = grammar_provider e.
Proof.
  intros t e Hwf Hlex. apply registered_string_like_grammar. unfold RrelSyntax.parse. rewrite Hlex.
  apply parse_toks_print. exact Hwf.
Qed.
Print Assumptions C32_rrel_string_printed.

Example C32_nonvacuous :
  select [[42;46;42]; [65;46;42]]%N [65]%N [98]%N false = Registered [65;46;42]%N.
Proof. exact select_example. Qed.
Print Assumptions C32_nonvacuous.

(* two rules referring through the same attribute name: the key of the first does not leak to the second *)
Example C32_nonvacuous_pass :
  select_pass [[65;46;98]]%N [([65]%N, [98]%N, false); ([66]%N, [98]%N, false)] [] = [Registered [65;46;98]%N; Default].
Proof. vm_compute. reflexivity. Qed.
Print Assumptions C32_nonvacuous_pass.

(* a specific key registered first, then only '*.*': the specific key is gone; then {}: the default provider *)
Example C32_nonvacuous_history :
  select (active_keys [[[65;46;98]]; [[42;46;42]]]%N []) [65]%N [98]%N false = Registered [42;46;42]%N /\
  select (active_keys [[[65;46;98]]; []]%N []) [65]%N [98]%N false = Default.
Proof. vm_compute. split; reflexivity. Qed.
Print Assumptions C32_nonvacuous_history.
