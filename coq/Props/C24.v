(* C24 - the self-hosted textX grammar (textx.tx) agrees with the grammar compiler (lang.py).

   Full statement: for every text, the parser built from textx/textx.tx accepts it iff the grammar
   compiler's parser (textx/lang.py textx_model) does.  Both parsers are dumped per run into
   Gen/SrcLangPeg.v / Gen/SrcTxPeg.v and interpreted by the Arpeggio model Model/Peg.v; regular
   expressions are oracles shared by pattern text.

   What is proved here:
   - C24_check_sound / C24_rel_sound: the boolean checker Model/PegEquiv.v is sound against the
     interpreter model for EVERY pair of grammar tables, input, oracle, parser configuration and fuel
     (memoization off, which is how both parsers are built - checked in C24_diffs);
   - C24_diffs: on the current source every differing pair is an accepted one;
   - C24_textx_modulo_accepted: hence the two live parser models accept the same texts (and report the
     same error position) PROVIDED the accepted pairs are semantically related - which is false for
     the FINDING pairs (known findings) and unproved for the NOTATION pairs (see Model/PegEquiv.v,
     covered by the differential correspondence of tools/props/c24.py).  The unconditional
     statement for the textX pair is therefore NOT proved (it is false: 4 known findings). *)
From TxV Require Import Core.Base Model.PegSyntax Model.Peg Gen.SrcLangPeg Gen.SrcTxPeg
  Proofs.PegProofs Proofs.PegMemo Model.PegEquiv Proofs.PegEquivProofs Proofs.PegEquivAccProofs
  Proofs.PegEquivTextxProofs.

(* Soundness of the checker: no differing pair => same acceptance and same syntax-error position, for
   all inputs, configurations, all oracles satisfying the explicit hypothesis that the regular expressions
   listed in [ne] never match the empty string (ne = [] : no hypothesis), and all fuels for which neither
   run runs out of fuel. *)
Theorem C24_check_sound : forall ne seeds g1 g2,
  peg_equiv_diffs ne seeds g1 g2 = [] ->
  forall input orc cfg f1 f2, orc_nonempty ne orc ->
  run g1 cfg orc false f1 input <> Aborted 0 -> run g2 cfg orc false f2 input <> Aborted 0 ->
  accepts (run g1 cfg orc false f1 input) = accepts (run g2 cfg orc false f2 input)
  /\ (forall p, run g1 cfg orc false f1 input = SyntaxErr p <-> run g2 cfg orc false f2 input = SyntaxErr p).
Proof.
  intros ne seeds g1 g2 H input orc cfg f1 f2 Hne A1 A2. pose proof (diffs_sound ne seeds g1 g2 H input orc Hne cfg f1 f2) as O.
  destruct O as [O|[O|O]]; [contradiction | contradiction |].
  destruct (run g1 cfg orc false f1 input), (run g2 cfg orc false f2 input); try contradiction.
  - split; [reflexivity | intro p; split; discriminate].
  - subst. split; [reflexivity | intro q; split; intro E; exact E].
  - split; [reflexivity | intro p; split; discriminate].
Qed.
Print Assumptions C24_check_sound.

(* Memoization on: for grammars in the class of C19's theorem (Proofs/PegMemo.v, ctx_constant) the same holds
   for the memoized interpreter.  The two textX tables are NOT in that class (they have a comment model):
   C24_textx_memo_class below records it, so memoization=True stays uncovered for the textX pair. *)
Theorem C24_check_sound_memo : forall ne seeds g1 g2,
  PegProofs.ctx_constant g1 = true -> PegProofs.ctx_constant g2 = true ->
  peg_equiv_diffs ne seeds g1 g2 = [] ->
  forall input orc cfg f1 f2, orc_nonempty ne orc ->
  PegMemo.not_aborted (run g1 cfg orc false f1 input) -> PegMemo.not_aborted (run g2 cfg orc false f2 input) ->
  accepts (run g1 cfg orc true f1 input) = accepts (run g2 cfg orc true f2 input)
  /\ (forall p, run g1 cfg orc true f1 input = SyntaxErr p <-> run g2 cfg orc true f2 input = SyntaxErr p).
Proof.
  intros ne seeds g1 g2 C1 C2 H input orc cfg f1 f2 Hne N1 N2.
  rewrite (memo_safe g1 input orc C1 cfg f1 N1), (memo_safe g2 input orc C2 cfg f2 N2).
  apply (C24_check_sound ne seeds g1 g2 H input orc cfg f1 f2 Hne).
  - intro E. rewrite E in N1. exact N1.
  - intro E. rewrite E in N2. exact N2.
Qed.
Print Assumptions C24_check_sound_memo.

Example C24_textx_memo_class :
  PegProofs.ctx_constant lang_grammar = false /\ PegProofs.ctx_constant tx_grammar = false.
Proof. vm_compute. split; reflexivity. Qed.
Print Assumptions C24_textx_memo_class.

(* Relative form, for ANY set R of node pairs: pairs that fail the local check may instead be assumed
   semantically related (sem_ok: related interpreter outcomes for all fuels, flags and states). *)
Theorem C24_rel_sound : forall g1 g2 ne R input orc,
  orc_nonempty ne orc ->
  frame_ok g1 g2 R = true ->
  (forall p, In p R -> local_ok g1 g2 ne false [] R p = true \/ sem_ok g1 g2 ne input orc p) ->
  forall cfg f1 f2, outcome_rel (run g1 cfg orc false f1 input) (run g2 cfg orc false f2 input).
Proof. exact rel_sound. Qed.
Print Assumptions C24_rel_sound.

(* Per-run obligation on the two LIVE parser models dumped from the source under test:
   every differing pair of parsing expressions is one of the committed accepted differences
   (known findings / undecidable notation differences); the dumps share one oracle numbering,
   labels are unambiguous, neither parser memoizes, same parser configuration. *)
Theorem C24_diffs :
  incl_b (diff_labels lang_labels tx_labels
            (peg_equiv_diffs textx_ne (seeds_of lang_labels tx_labels textx_seeds) lang_grammar tx_grammar))
         textx_accepted_diffs = true
  /\ lang_oracles = tx_oracles
  /\ nodup_b lang_labels = true /\ nodup_b tx_labels = true
  /\ length lang_labels = length (g_nodes lang_grammar) /\ length tx_labels = length (g_nodes tx_grammar)
  /\ lang_memoization = false /\ tx_memoization = false
  /\ lang_config = tx_config.
Proof.
  split; [|vm_compute; repeat split].
  rewrite incl_diff_labels.
  exact (diffs_gen_forall textx_ne false [] _ lang_grammar tx_grammar textx_R accepted_pair textx_R_unfold
           (proj1 textx_pairs) (proj2 textx_pairs)).
Qed.
Print Assumptions C24_diffs.

(* The textX instance, modulo the accepted pairs, under the oracle hypothesis that `\w+` never matches empty
   (checked by the harness on every oracle table it builds). *)
Theorem C24_textx_modulo_accepted : forall input orc,
  orc_nonempty textx_ne orc ->
  (forall p, In p textx_R -> accepted_pair p = true -> sem_ok lang_grammar tx_grammar textx_ne input orc p) ->
  forall cfg f1 f2,
  outcome_rel (run lang_grammar cfg orc false f1 input) (run tx_grammar cfg orc false f2 input).
Proof.
  intros input orc Hne H cfg f1 f2. destruct textx_pairs as [F A].
  apply (rel_sound lang_grammar tx_grammar textx_ne textx_R input orc Hne F).
  intros p HIn. rewrite forallb_forall in A. specialize (A p HIn). apply orb_true_iff in A as [A|A].
  - left. exact A.
  - right. apply H; assumption.
Qed.
Print Assumptions C24_textx_modulo_accepted.

(* Non-vacuity: a grammar and its textX-style wrapped form pass the check (and are run on an accepted and
   a rejected input); changing one terminal is reported and does change acceptance. *)
Example C24_nonvacuous_equal :
  peg_equiv_diffs [] [] g_plain g_wrapped = [] /\
  accepts (run g_plain cfg0 no_orc false 50 [97; 32; 120; 120]%N) = true /\
  accepts (run g_wrapped cfg0 no_orc false 50 [97; 32; 120; 120]%N) = true /\
  accepts (run g_plain cfg0 no_orc false 50 [97; 121]%N) = false /\
  accepts (run g_wrapped cfg0 no_orc false 50 [97; 121]%N) = false.
Proof. vm_compute. repeat split. Qed.
Print Assumptions C24_nonvacuous_equal.

Example C24_nonvacuous_different :
  peg_equiv_diffs [] [] g_plain g_other <> [] /\
  accepts (run g_plain cfg0 no_orc false 50 [97; 121]%N) = false /\
  accepts (run g_other cfg0 no_orc false 50 [97; 121]%N) = true.
Proof. vm_compute. repeat split. discriminate. Qed.
Print Assumptions C24_nonvacuous_different.

(* `'[' 'x' (',' 'x')* ']'` vs `'[' 'x'+[','] ']'` and `'x' (',' 'x')*` vs `'x'+[',']` pass the check *)
Example C24_nonvacuous_separator :
  peg_equiv_diffs [] [] g_sep1 g_sep2 = [] /\ peg_equiv_diffs [] [] g_sep3 g_sep4 = [] /\
  accepts (run g_sep1 cfg0 no_orc false 60 [91; 120; 44; 32; 120; 93]%N) = true /\
  accepts (run g_sep2 cfg0 no_orc false 60 [91; 120; 44; 32; 120; 93]%N) = true /\
  accepts (run g_sep1 cfg0 no_orc false 60 [91; 120; 44; 93]%N) = false /\
  accepts (run g_sep2 cfg0 no_orc false 60 [91; 120; 44; 93]%N) = false /\
  accepts (run g_sep3 cfg0 no_orc false 60 [120; 44; 120; 44; 120]%N) = true /\
  accepts (run g_sep4 cfg0 no_orc false 60 [120; 44; 120; 44; 120]%N) = true.
Proof. vm_compute. repeat split. Qed.
Print Assumptions C24_nonvacuous_separator.

Example C24_nonvacuous_swapped :
  peg_equiv_diffs [] [] g_wrapped g_plain = [] /\ peg_equiv_diffs [] [] g_other g_plain <> [].
Proof. vm_compute. split; [reflexivity | discriminate]. Qed.
Print Assumptions C24_nonvacuous_swapped.

Example C24_nonvacuous_memo :
  PegProofs.ctx_constant g_sep1 = true /\ PegProofs.ctx_constant g_sep2 = true /\
  accepts (run g_sep1 cfg0 no_orc true 60 [91; 120; 44; 32; 120; 93]%N) = true /\
  accepts (run g_sep2 cfg0 no_orc true 60 [91; 120; 44; 32; 120; 93]%N) = true.
Proof. vm_compute. repeat split. Qed.
Print Assumptions C24_nonvacuous_memo.

(* the traversal of the textX pair covers 160+ pairs of parsing expressions, 13 of them accepted differences *)
Example C24_textx_pairs :
  frame_ok lang_grammar tx_grammar textx_R = true /\
  forallb (fun p => local_ok lang_grammar tx_grammar textx_ne false [] textx_R p || accepted_pair p) textx_R = true /\
  140 <= length textx_R /\ length (filter accepted_pair textx_R) <= 13.
Proof.
  split; [exact (proj1 textx_pairs)|]. split; [exact (proj2 textx_pairs)|].
  rewrite textx_R_eq. vm_compute. split; repeat constructor.
Qed.
Print Assumptions C24_textx_pairs.

(* ACCEPTANCE ONLY (the property's statement)
   The weak mode of the checker also sees through differences that only change the failure bookkeeping
   (parser.nm): an ordered choice of two regex matches against one regex match, under the explicit oracle
   hypothesis orc_alts (the single regex matches like the first alternative where that matches, else like
   the second) and non-emptiness.  The simulation relates states up to nm; the conclusion is equal
   acceptance (error positions are covered by C24_check_sound above, in strong mode).  Parser
   configurations with skipws on (the rule relies on the comment-position cache). *)
Theorem C24_check_sound_acc : forall ne alts seeds g1 g2,
  peg_equiv_diffs_acc ne alts seeds g1 g2 = [] ->
  forall input orc, orc_nonempty ne orc -> orc_alts alts orc ->
  forall cfg f1 f2, c_skipws cfg = true ->
  run g1 cfg orc false f1 input <> Aborted 0 -> run g2 cfg orc false f2 input <> Aborted 0 ->
  accepts (run g1 cfg orc false f1 input) = accepts (run g2 cfg orc false f2 input).
Proof.
  intros ne alts seeds g1 g2 H input orc Hne Halt cfg f1 f2 SK A1 A2. destruct (diffs_gen_nil _ _ _ _ _ _ H) as [F A].
  assert (O : outcome_acc (run g1 cfg orc false f1 input) (run g2 cfg orc false f2 input)).
  { apply (rel_sound_acc g1 g2 ne alts (reach_all g1 g2 seeds) input orc Hne Halt F); [|exact SK].
    intros p HIn. left. apply A. exact HIn. }
  destruct O as [O|[O|O]]; [contradiction | contradiction |].
  destruct (run g1 cfg orc false f1 input), (run g2 cfg orc false f2 input); try contradiction; reflexivity.
Qed.
Print Assumptions C24_check_sound_acc.

Theorem C24_rel_sound_acc : forall g1 g2 ne alts R input orc,
  orc_nonempty ne orc -> orc_alts alts orc ->
  frame_ok g1 g2 R = true ->
  (forall p, In p R -> local_ok g1 g2 ne true alts R p = true \/ sem_okW g1 g2 ne input orc p) ->
  forall cfg f1 f2, c_skipws cfg = true ->
  outcome_acc (run g1 cfg orc false f1 input) (run g2 cfg orc false f2 input).
Proof. exact rel_sound_acc. Qed.
Print Assumptions C24_rel_sound_acc.

(* per run: in weak mode the differing pairs of the two live models are within the 10 accepted ones
   (8 behind the four known findings, rrel_sequence, rrel_path.0) *)
Theorem C24_diffs_acc :
  incl_b (diff_labels lang_labels tx_labels
            (peg_equiv_diffs_acc textx_ne textx_alts (seeds_of lang_labels tx_labels textx_seeds) lang_grammar tx_grammar))
         textx_accepted_diffs_acc = true
  /\ length textx_accepted_diffs_acc = 10 /\ c_skipws lang_config = true
  /\ length textx_alts = length textx_alt_patterns.
Proof.
  split; [|vm_compute; repeat split].
  rewrite incl_diff_labels.
  exact (diffs_gen_forall textx_ne true textx_alts _ lang_grammar tx_grammar textx_R accepted_pair_acc textx_R_unfold
           (proj1 textx_pairs_acc) (proj2 textx_pairs_acc)).
Qed.
Print Assumptions C24_diffs_acc.

(* the two live parser models accept the same texts, for every oracle satisfying the two checked hypotheses,
   PROVIDED the 10 accepted pairs are related (false for the 8 finding pairs, open for the 2 RREL notation pairs) *)
Theorem C24_textx_accepts_modulo_accepted : forall input orc,
  orc_nonempty textx_ne orc -> orc_alts textx_alts orc ->
  (forall p, In p textx_R -> accepted_pair_acc p = true -> sem_okW lang_grammar tx_grammar textx_ne input orc p) ->
  forall f1 f2,
  run lang_grammar lang_config orc false f1 input <> Aborted 0 ->
  run tx_grammar tx_config orc false f2 input <> Aborted 0 ->
  accepts (run lang_grammar lang_config orc false f1 input) = accepts (run tx_grammar tx_config orc false f2 input).
Proof.
  intros input orc Hne Halt H f1 f2 A1 A2. destruct textx_pairs_acc as (F & A).
  assert (CE : tx_config = lang_config) by (vm_compute; reflexivity). rewrite CE in *.
  assert (SK : c_skipws lang_config = true) by (vm_compute; reflexivity).
  assert (O : outcome_acc (run lang_grammar lang_config orc false f1 input) (run tx_grammar lang_config orc false f2 input)).
  { apply (rel_sound_acc lang_grammar tx_grammar textx_ne textx_alts textx_R input orc Hne Halt F); [|exact SK].
    intros p HIn. rewrite forallb_forall in A. specialize (A p HIn). apply orb_true_iff in A as [A|A].
    - left. exact A.
    - right. apply H; assumption. }
  destruct O as [O|[O|O]]; [contradiction | contradiction |].
  destruct (run lang_grammar lang_config orc false f1 input), (run tx_grammar lang_config orc false f2 input);
    try contradiction; reflexivity.
Qed.
Print Assumptions C24_textx_accepts_modulo_accepted.

(* non-vacuity of the two oracle hypotheses and of the weak rule; the strong mode refuses the same pair *)
Example C24_nonvacuous_alts :
  orc_nonempty [0; 1] orc_ex /\ orc_alts [(0, 1, 2)] orc_ex /\
  peg_equiv_diffs_acc [0; 1] [(0, 1, 2)] [] g_c1 g_c2 = [] /\
  peg_equiv_diffs [0; 1] [] g_c1 g_c2 <> [] /\
  accepts (run g_c1 cfg0 orc_ex false 30 [98]%N) = true /\ accepts (run g_c2 cfg0 orc_ex false 30 [98]%N) = true /\
  accepts (run g_c1 cfg0 orc_ex false 30 [98; 98]%N) = false /\ accepts (run g_c2 cfg0 orc_ex false 30 [98; 98]%N) = false.
Proof.
  split; [|split].
  - intros o p _ H. unfold orc_ex in H. destruct o; [discriminate|]. destruct (Nat.eqb p 0); discriminate.
  - intros o1 o2 o3 p [H|[]]. inversion H; subst. reflexivity.
  - vm_compute. repeat split. discriminate.
Qed.
Print Assumptions C24_nonvacuous_alts.

(* why `(x sep)* x` vs `x+[sep]` (the two RREL pairs) stays an accepted pair: the two forms differ AS NODES
   (on "x," the first fails, the second succeeds having consumed "x"), although the grammars around them agree *)
Example C24_tail_form_differs :
  peg_equiv_diffs_acc [] [] [] g_t1 g_t2 <> [] /\
  is_fail (parse g_t1 [120; 44]%N no_orc false 40 1 false (init_st cfg0)) = true /\
  ok_pos (parse g_t2 [120; 44]%N no_orc false 40 1 false (init_st cfg0)) = Some 1 /\
  accepts (run g_t1 cfg0 no_orc false 40 [120; 44]%N) = false /\ accepts (run g_t2 cfg0 no_orc false 40 [120; 44]%N) = false /\
  accepts (run g_t1 cfg0 no_orc false 40 [120; 44; 120]%N) = true /\ accepts (run g_t2 cfg0 no_orc false 40 [120; 44; 120]%N) = true.
Proof. vm_compute. repeat split. discriminate. Qed.
Print Assumptions C24_tail_form_differs.

(* the mirrored rule: one regex against a choice of two regexes of the second grammar, one of them wrapped *)
Example C24_nonvacuous_alts_r :
  peg_equiv_diffs_acc [0; 1] [(0, 1, 2)] [] g_c2 g_c3 = [] /\
  peg_equiv_diffs [0; 1] [] g_c2 g_c3 <> [] /\
  accepts (run g_c2 cfg0 orc_ex false 30 [98]%N) = true /\ accepts (run g_c3 cfg0 orc_ex false 30 [98]%N) = true /\
  accepts (run g_c2 cfg0 orc_ex false 30 [98; 98]%N) = false /\ accepts (run g_c3 cfg0 orc_ex false 30 [98; 98]%N) = false.
Proof. vm_compute. repeat split. discriminate. Qed.
Print Assumptions C24_nonvacuous_alts_r.
