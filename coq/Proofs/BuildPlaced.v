(* asg_placed (assignment nodes sit directly under common-rule nodes) derived from a decidable condition
   on the TABLE and the metamodel info, for tables in the class of the C01 refinement theorem: proved on the
   reference semantics (either variant) and transported by SpecSepProofs.refinement. *)
From TxV Require Import Core.Base Model.PegSyntax Model.Peg Model.Spec Model.Build
     Proofs.BuildProofs Proofs.BuildObjProofs Proofs.SpecProofs Proofs.SpecSepProofs Proofs.SpecWf.
Require Import Lia.

Definition is_asgn_id (mm : list ninfo) (nid : nat) : bool :=
  match nth nid mm IOther with IAsgn _ _ => true | _ => false end.
Definition commonb (mm : list ninfo) (nid : nat) : bool :=
  match nth nid mm IOther with IRule RCommon _ _ => true | _ => false end.

(* [noasg g mm k nid]: no assignment node is a root in the frontier of nid (the roots reached from nid through
   non-root nodes, nid included) *)
Fixpoint noasg (g : grammar) (mm : list ninfo) (k : nat) (nid : nat) : bool :=
  match k with
  | 0 => false
  | S k' =>
    match get_node g nid with
    | None => true
    | Some nd =>
      if n_root nd then negb (is_asgn_id mm nid)
      else forallb (noasg g mm k') (n_kids nd) && match n_sep nd with Some sp => noasg g mm k' sp | None => true end
    end
  end.

(* the table condition: below a root that is not a common rule (match / abstract rules, assignment nodes, the
   top node) no assignment node is reachable without crossing another root *)
Definition table_asg_ok (g : grammar) (mm : list ninfo) (k : nat) : bool :=
  forallb (fun i => match get_node g i with
                    | Some nd => negb (n_root nd) || commonb mm i ||
                                 (forallb (noasg g mm k) (n_kids nd) && match n_sep nd with Some sp => noasg g mm k sp | None => true end)
                    | None => true
                    end) (seq 0 (length (g_nodes g))).

Lemma noasg_mono g mm : forall k nid, noasg g mm k nid = true -> noasg g mm (S k) nid = true.
Proof.
  induction k as [|k IH]; intros nid H; [discriminate|].
  cbn [noasg] in H. change (noasg g mm (S (S k)) nid) with
    (match get_node g nid with
     | None => true
     | Some nd => if n_root nd then negb (is_asgn_id mm nid)
                  else forallb (noasg g mm (S k)) (n_kids nd) && match n_sep nd with Some sp => noasg g mm (S k) sp | None => true end
     end).
  destruct (get_node g nid) as [nd|]; [|reflexivity]. destruct (n_root nd); [exact H|].
  apply andb_true_iff in H as [A B]. apply andb_true_iff. split.
  - rewrite forallb_forall in *. intros c Hc. apply IH. apply A. exact Hc.
  - destruct (n_sep nd); [apply IH; exact B | reflexivity].
Qed.

(* the children of a NonTerminal are placed; the node is not an assignment node *)
Definition okt (mm : list ninfo) (t : tree) : Prop :=
  match t with T _ _ _ _ => True | NT q kids => forallb (asg_placed mm (commonb mm q)) kids = true end.
Definition nasg (mm : list ninfo) (t : tree) : Prop :=
  match t with T _ _ _ _ => True | NT q _ => is_asgn_id mm q = false end.

Lemma asg_placed_of mm u t : okt mm t -> (u = false -> nasg mm t) -> asg_placed mm u t = true.
Proof.
  destruct t as [|q kids]; [reflexivity|]. cbn [okt nasg asg_placed]. unfold commonb, is_asgn_id.
  intros Ho Hn. destruct (nth q mm IOther) as [a op|rk cls attrs|r0 gr|]; try exact Ho.
  - destruct u; [exact Ho | specialize (Hn eq_refl); discriminate].
  - destruct rk; exact Ho.
Qed.

Lemma term_match_terminal input orc nid k psq p ts p' :
  term_match input orc nid k psq p = SOk ts p' -> exists a b c d, ts = [ST a b c d].
Proof.
  destruct k as [| | | | | | | | | |t [o|]|o]; try discriminate; cbn [term_match];
    [destruct (Nat.eqb (length input) p) | destruct (orc o p) | destruct (is_prefix t (skipn p input)) | destruct (orc o p)];
    intro X; try discriminate X; injection X as <- _; eexists _, _, _, _; reflexivity.
Qed.

Lemma wrap_root nid nd ts : n_suppress nd = false -> n_root nd = true ->
  wrap nid nd ts = [] \/ wrap nid nd ts = [SNT nid ts].
Proof. unfold wrap. intros -> ->. destruct (n_kind nd); try (right; reflexivity); destruct ts; auto. Qed.

Section Placed.
Variable g : grammar.
Variable input : list N.
Variable orc : nat -> nat -> option nat.
Variable tq : bool.
Variable mm : list ninfo.
Variable pf : nat.
Variable K : nat.
Hypothesis Hwf : forall nid nd, get_node g nid = Some nd -> node_ok g (prodb g pf) nd = true.
Hypothesis Htab : table_asg_ok g mm K = true.

Notation sparser := (nat -> bool -> sctx -> nat -> sres) (only parsing).

Section Loops.
Variable pt : tree -> Prop.
Variable C : nat -> Prop.
Variable rec : sparser.
Hypothesis Hrec : forall c, C c -> forall psq x p ts p', rec c psq x p = SOk ts p' -> Forall pt (erase_all ts).

Lemma sseq_pr psq x kids : (forall c, In c kids -> C c) ->
  forall acc p ts p', Forall pt (erase_all acc) -> sseq rec psq x kids acc p = SOk ts p' -> Forall pt (erase_all ts).
Proof.
  induction kids as [|c kids IH]; intros HC acc p ts p' Ha H; cbn [sseq] in H.
  - inversion H; subst. exact Ha.
  - destruct (rec c psq x p) as [ts1 p1| |] eqn:E; try discriminate.
    apply (IH (fun c' Hc' => HC c' (or_intror Hc')) (acc ++ ts1) p1 ts p'); [|exact H].
    rewrite erase_all_app. apply Forall_app. split; [exact Ha | apply (Hrec c (HC c (or_introl eq_refl)) _ _ _ _ _ E)].
Qed.

Lemma schoice_pr x kids : (forall c, In c kids -> C c) ->
  forall p ts p', schoice rec x kids p = SOk ts p' -> Forall pt (erase_all ts).
Proof.
  induction kids as [|c kids IH]; intros HC p ts p' H; cbn [schoice] in H; [discriminate|].
  destruct (rec c false x p) as [ts1 p1| |] eqn:E; try discriminate.
  - inversion H; subst. apply (Hrec c (HC c (or_introl eq_refl)) _ _ _ _ _ E).
  - apply (IH (fun c' Hc' => HC c' (or_intror Hc')) p ts p' H).
Qed.

Lemma srep_pr e sep plus x : C e -> (forall sp, sep = Some sp -> C sp) ->
  forall k first acc p ts p', Forall pt (erase_all acc) -> srep tq rec e sep plus x k first acc p = SOk ts p' -> Forall pt (erase_all ts).
Proof.
  intros He Hs. induction k as [|k IH]; intros first acc p ts p' Ha H; [discriminate|].
  cbn [srep] in H.
  assert (Hel : forall sts p1, Forall pt (erase_all sts) ->
            match rec e false x p1 with
            | SOk ts0 p2 => if Nat.ltb p p2 then srep tq rec e sep plus x k false (acc ++ sts ++ ts0) p2
                            else if (plus && first)%bool then SOk (acc ++ sts ++ ts0) p2
                            else if (plus && first)%bool then SFail else SOk acc p
            | SFail => if (plus && first)%bool then SFail else SOk (if tq then acc ++ sts else acc) p
            | SOut => SOut
            end = SOk ts p' -> Forall pt (erase_all ts)).
  { intros sts p1 Hst X. destruct (rec e false x p1) as [ts0 p2| |] eqn:E; try discriminate.
    - pose proof (Hrec e He _ _ _ _ _ E) as H0.
      assert (Hall : Forall pt (erase_all (acc ++ sts ++ ts0))).
      { rewrite !erase_all_app. apply Forall_app. split; [exact Ha|]. apply Forall_app. split; assumption. }
      destruct (Nat.ltb p p2); [apply (IH _ _ _ _ _ Hall X)|].
      destruct (plus && first)%bool; inversion X; subst; [exact Hall | exact Ha].
    - destruct (plus && first)%bool; [discriminate|]. inversion X; subst.
      destruct tq; [rewrite erase_all_app; apply Forall_app; split; assumption | exact Ha]. }
  destruct sep as [sp|].
  - destruct first; [apply (Hel [] p (Forall_nil _) H)|].
    destruct (rec sp false x p) as [sts p1| |] eqn:E; try discriminate.
    + apply (Hel sts p1 (Hrec sp (Hs sp eq_refl) _ _ _ _ _ E) H).
    + destruct (plus && false)%bool; [discriminate|]. inversion H; subst. exact Ha.
  - apply (Hel [] p (Forall_nil _) H).
Qed.

(* the body of a node of the class: what it contributes is made of what its children / separator contribute *)
Lemma sbody_pr k nd x p ts p' : node_ok g (prodb g pf) nd = true ->
  (forall c, In c (n_kids nd) -> C c) -> (forall sp, n_sep nd = Some sp -> C sp) ->
  sbody tq rec k nd x p = SOk ts p' -> Forall pt (erase_all ts).
Proof.
  intros Hok HC Hs H. unfold node_ok in Hok. apply andb_true_iff in Hok as [_ Hkind]. unfold sbody in H.
  destruct (n_kind nd) eqn:Ek; try discriminate.
  - apply (sseq_pr true _ _ HC [] p ts p' (Forall_nil _) H).
  - apply (schoice_pr _ _ HC p ts p' H).
  - destruct (n_kids nd) as [|e rest]; [discriminate|].
    destruct (rec e false x p) as [ts1 p1| |] eqn:E; try discriminate; inversion H; subst.
    + apply (Hrec e (HC e (or_introl eq_refl)) _ _ _ _ _ E).
    + constructor.
  - destruct (n_kids nd) as [|e rest]; [discriminate|].
    apply (srep_pr e (n_sep nd) false _ (HC e (or_introl eq_refl)) Hs k true [] p ts p' (Forall_nil _) H).
  - destruct (n_kids nd) as [|e rest]; [discriminate|].
    apply (srep_pr e (n_sep nd) true _ (HC e (or_introl eq_refl)) Hs k true [] p ts p' (Forall_nil _) H).
  - destruct (sseq rec false x (n_kids nd) [] p); try discriminate. inversion H; subst. constructor.
  - destruct (sseq rec false x (n_kids nd) [] p); try discriminate; inversion H; subst; constructor.
  - inversion H; subst. constructor.
Qed.
End Loops.

(* both at once: every tree contributed has placed children, and none is an assignment node when the
   frontier of nid holds none *)
Lemma seval_placed : forall f nid psq x p ts p',
  seval g input orc tq f nid psq x p = SOk ts p' ->
  Forall (okt mm) (erase_all ts) /\ (forall k, noasg g mm k nid = true -> Forall (nasg mm) (erase_all ts)).
Proof.
  induction f as [|f IH]; intros nid psq x p ts p' H; [discriminate|].
  cbn [seval] in H. destruct (get_node g nid) as [nd|] eqn:En; [|discriminate].
  destruct (is_match_kind (n_kind nd)) eqn:Em.
  - destruct (skip g input (seval g input orc tq f) f x p) as [p1|]; [|discriminate].
    destruct (term_match input orc nid (n_kind nd) psq p1) as [ts0 p2| |] eqn:EM; try discriminate.
    apply term_match_terminal in EM as (a & b & c & d & ->).
    inversion H; subst. destruct (n_suppress nd); split; repeat constructor.
  - pose proof (Hwf _ _ En) as Hok.
    destruct (sbody tq (seval g input orc tq f) f nd x p) as [ts0 p2| |] eqn:EB; try discriminate.
    inversion H; subst. clear H.
    assert (Hokt : Forall (okt mm) (erase_all ts0)).
    { apply (sbody_pr (okt mm) (fun _ => True) (seval g input orc tq f) (fun c _ psq0 x0 p0 ts1 p1 E => proj1 (IH c psq0 x0 p0 ts1 p1 E))
               f nd x p ts0 p' Hok (fun _ _ => I) (fun _ _ => I) EB). }
    assert (Hnas : forall k, forallb (noasg g mm k) (n_kids nd) = true ->
                             match n_sep nd with Some sp => noasg g mm k sp | None => true end = true ->
                             Forall (nasg mm) (erase_all ts0)).
    { intros k Hk Hsp.
      apply (sbody_pr (nasg mm) (fun c => noasg g mm k c = true) (seval g input orc tq f)
               (fun c Hc psq0 x0 p0 ts1 p1 E => proj2 (IH c psq0 x0 p0 ts1 p1 E) k Hc) f nd x p ts0 p' Hok).
      - intros c Hc. rewrite forallb_forall in Hk. apply Hk. exact Hc.
      - intros sp Es. rewrite Es in Hsp. exact Hsp.
      - exact EB. }
    destruct (n_suppress nd) eqn:Es; [unfold wrap; rewrite Es; split; [constructor | intros; constructor]|].
    destruct (n_root nd) eqn:Er.
    + (* a root: one node around the contribution *)
      destruct (wrap_root nid nd ts0 Es Er) as [-> | ->]; [split; [constructor | intros; constructor]|].
      unfold erase_all. cbn [flat_map]. rewrite erase_SNT, app_nil_r. split.
      * constructor; [|constructor]. cbn [okt]. apply forallb_forall. intros t Ht.
        apply asg_placed_of; [rewrite Forall_forall in Hokt; exact (Hokt t Ht)|].
        (* nid is not a common rule: the table condition applies *)
        intro Hc. pose proof (node_ids_forallb _ g Htab nid nd En) as Hi. cbv beta in Hi.
        rewrite En, Er, Hc in Hi. cbn [negb orb] in Hi.
        apply andb_true_iff in Hi as [A B].
        pose proof (Hnas K A B) as HN. rewrite Forall_forall in HN. exact (HN t Ht).
      * intros k Hk. constructor; [|constructor]. cbn [nasg]. destruct k as [|k]; [discriminate|].
        cbn [noasg] in Hk. rewrite En, Er in Hk. apply negb_true_iff in Hk. exact Hk.
    + unfold wrap. rewrite Es, Er.
      split; [exact Hokt|]. intros k Hk. destruct k as [|k]; [discriminate|].
      cbn [noasg] in Hk. rewrite En, Er in Hk. apply andb_true_iff in Hk as [A B]. apply (Hnas k A B).
Qed.
End Placed.

(* For tables in the class of the C01 refinement theorem that satisfy the table condition: every NonTerminal of
   the interpreter's result has its children placed (assignment nodes only under common-rule nodes). *)
Theorem asg_placed_of_run g pf mm K c orc fuel input r :
  wfg g pf = true -> orc_pos orc -> table_asg_ok g mm K = true ->
  run g c orc false fuel input = Parsed r -> Forall (okt mm) (flatten r).
Proof.
  intros Hwf Horc Htab Hrun. destruct (wfg_parts g pf Hwf) as [Hnodes _].
  pose proof (refinement g pf c orc fuel input Hwf Horc) as HR. rewrite Hrun in HR.
  destruct HR as [ts [p [_ [_ [tsq [Eq Ee]]]]]]. rewrite <- Ee.
  unfold spec_run_q in Eq. apply (proj1 (seval_placed g input orc true mm pf K Hnodes Htab _ _ _ _ _ _ _ Eq)).
Qed.

Corollary asg_placed_of_run_tree g pf mm K c orc fuel input n t rest :
  wfg g pf = true -> orc_pos orc -> table_asg_ok g mm K = true ->
  run g c orc false fuel input = Parsed (RTree (NT n (t :: rest))) -> asg_placed mm (commonb mm n) t = true.
Proof.
  intros Hwf Horc Htab Hrun. pose proof (asg_placed_of_run g pf mm K c orc fuel input _ Hwf Horc Htab Hrun) as H.
  cbn [flatten] in H. inversion H as [|? ? Ho _]; subst. cbn [okt forallb] in Ho. apply andb_true_iff in Ho as [A _]. exact A.
Qed.

(* C06_objects_nested_ordered with hypotheses on the table and the oracle only *)
Theorem objects_nested_ordered_run g pf mm K c orc fuel input r :
  wfg g pf = true -> nosep g = true -> eof_ok g = true -> orc_pos orc -> table_asg_ok g mm K = true ->
  run g c orc false fuel input = Parsed r ->
  exists t rest, r = RTree (NT (g_top g) (t :: rest)) /\ wf_tree t = true /\ asg_placed mm (commonb mm (g_top g)) t = true /\
    forall grp auto ug top v top', pnode g mm input grp auto ug t top = BOk (v, top') -> good (tpos t) (tend t) v.
Proof.
  intros Hwf Hns He Horc Htab Hrun.
  destruct (run_wf g pf c orc fuel input r Hwf Hns He Horc Hrun) as [t [rest [-> W]]].
  pose proof (asg_placed_of_run_tree g pf mm K c orc fuel input _ t rest Hwf Horc Htab Hrun) as P.
  exists t, rest. split; [reflexivity|]. split; [exact W|]. split; [exact P|].
  intros grp auto ug top v top' H. exact (objects_nested_ordered g mm input grp auto ug t top v top' _ W P H).
Qed.

(* non-vacuity: Model: 'a' items+=Item*; Item: name=ID ('=' v=INT)? | 'b';  with its metamodel table *)
Definition mm_items : list ninfo :=
  [IOther; IRule RCommon [77]%N []; ITerm [] 0; IOther; IAsgn [105]%N OpList; IRule RCommon [73]%N [];
   IOther; IAsgn [110]%N OpPlain; ITerm [73;68]%N 0; IOther; IOther; ITerm [] 0; IAsgn [118]%N OpPlain; ITerm [73;78;84]%N 0;
   ITerm [] 0; ITerm [69;79;70]%N 0].
