(* Termination of the Peg interpreter (Model/Peg.v): for grammar tables accepted by the decidable
   check [terminating] the interpreter never runs out of fuel once the fuel exceeds [fuel_bound].

   The class (what real Arpeggio needs in order to terminate):
   - no left recursion: there is a rank on nodes that strictly decreases along every edge
     "child that can be called at the position where its parent started" (computed with a
     nullability over-approximation [nl]: children of a Sequence/And/Not after a nullable prefix,
     every alternative of an OrderedChoice, the element of Optional / ZeroOrMore / OneOrMore);
   - the element of a ZeroOrMore / OneOrMore cannot return a truthy result without consuming
     ([tr] over-approximates "can be truthy without consuming": a repetition whose element is an
     optional repetition is outside);
   - the Comment rule cannot succeed without consuming;
   - UnorderedGroup: every member and the separator have a smaller rank (its loops end structurally).
   [rxn o] says whether the regex terminal with oracle id [o] is treated as possibly matching the empty
   string; for the ids with [rxn o = false] the theorems need the oracle hypothesis that every match
   is non-empty ([all_nullable]: no hypothesis; [none_nullable]: [orc_pos]).
   The analysis tables are computed by [analyse] and then CHECKED ([check]); the theorems only use
   the check. *)
From TxV Require Import Core.Base Model.PegSyntax Model.Peg Proofs.PegProofs.

Record ana := mkAna { a_null : list bool; a_truthy : list bool; a_rank : list nat }.
Definition nl (a : ana) (i : nat) : bool := nth i (a_null a) true.
Definition tr (a : ana) (i : nat) : bool := nth i (a_truthy a) true.
Definition rk (a : ana) (i : nat) : nat := nth i (a_rank a) 0.

Definition hd_or {A} (d : A) (f : nat -> A) (l : list nat) : A := match l with e :: _ => f e | [] => d end.

(* can return Ok with the position unchanged *)
Definition null_local (rxn : nat -> bool) (a : ana) (nd : node) : bool :=
  match n_kind nd with
  | KSeq => forallb (nl a) (n_kids nd)
  | KChoice => existsb (nl a) (n_kids nd)
  | KPlus => hd_or true (fun e => nl a e || tr a e) (n_kids nd)
  | KStr t _ => Nat.eqb (length t) 0
  | KRegex o => rxn o
  | _ => true
  end.
(* can return a truthy result with the position unchanged *)
Definition truthy_local (a : ana) (nd : node) : bool :=
  match n_kind nd with
  | KSeq => forallb (nl a) (n_kids nd) && existsb (tr a) (n_kids nd)
  | KChoice => existsb (nl a) (n_kids nd)
  | KOpt => hd_or false (nl a) (n_kids nd)
  | KStar | KPlus => hd_or false (tr a) (n_kids nd)
  | KUnord => true
  | KAnd | KNot | KEmpty => false
  | KEOF => true
  | KStr t _ => Nat.eqb (length t) 0
  | KRegex _ => false
  end.

Fixpoint seq_rank_ok (a : ana) (rn : nat) (kids : list nat) : bool :=
  match kids with
  | [] => true
  | c :: r => Nat.ltb (rk a c) rn && (if nl a c then seq_rank_ok a rn r else true)
  end.

Definition rank_ok (a : ana) (i : nat) (nd : node) : bool :=
  let rn := rk a i in
  match n_kind nd with
  | KSeq | KAnd | KNot => seq_rank_ok a rn (n_kids nd)
  | KChoice => forallb (fun c => Nat.ltb (rk a c) rn) (n_kids nd)
  | KOpt => hd_or true (fun e => Nat.ltb (rk a e) rn) (n_kids nd)
  | KStar | KPlus => hd_or true (fun e => Nat.ltb (rk a e) rn && negb (tr a e)) (n_kids nd)
  | KUnord => forallb (fun c => Nat.ltb (rk a c) rn) (n_kids nd) &&
              match n_sep nd with Some sp => Nat.ltb (rk a sp) rn | None => true end
  | _ => true
  end.

Definition node_ok (rxn : nat -> bool) (a : ana) (i : nat) (nd : node) : bool :=
  implb (null_local rxn a nd) (nl a i) && implb (truthy_local a nd) (tr a i) && rank_ok a i nd.

Fixpoint all_nodes_ok (rxn : nat -> bool) (a : ana) (i : nat) (l : list node) : bool :=
  match l with
  | [] => true
  | nd :: l' => node_ok rxn a i nd && all_nodes_ok rxn a (S i) l'
  end.

Definition check (rxn : nat -> bool) (a : ana) (g : grammar) : bool :=
  all_nodes_ok rxn a 0 (g_nodes g) &&
  match g_comments g with None => true | Some cm => negb (nl a cm) end.

(* computing the tables: least fixpoints by iteration; the theorems rest on [check] alone *)
Definition idxs (g : grammar) : list nat := seq 0 (length (g_nodes g)).
Definition step_nt (rxn : nat -> bool) (g : grammar) (a : ana) : ana :=
  mkAna (map (fun nd => null_local rxn a nd) (g_nodes g))
        (map (fun nd => truthy_local a nd) (g_nodes g)) (a_rank a).
Fixpoint callable (a : ana) (kids : list nat) : list nat :=
  match kids with [] => [] | c :: r => c :: (if nl a c then callable a r else []) end.
Definition rank_kids (a : ana) (nd : node) : list nat :=
  match n_kind nd with
  | KSeq | KAnd | KNot => callable a (n_kids nd)
  | KChoice | KUnord => n_kids nd
  | KOpt | KStar | KPlus => match n_kids nd with e :: _ => [e] | [] => [] end
  | _ => []
  end.
Definition step_rk (g : grammar) (a : ana) : ana :=
  mkAna (a_null a) (a_truthy a)
        (map (fun nd => S (list_max (map (rk a) (rank_kids a nd)))) (g_nodes g)).
Fixpoint iter {A} (n : nat) (f : A -> A) (x : A) : A := match n with 0 => x | S n' => iter n' f (f x) end.
Definition analyse (rxn : nat -> bool) (g : grammar) : ana :=
  let n := S (2 * length (g_nodes g)) in
  let a0 := mkAna (map (fun _ => false) (g_nodes g)) (map (fun _ => false) (g_nodes g)) (map (fun _ => 0) (g_nodes g)) in
  iter n (step_rk g) (iter n (step_nt rxn g) a0).

Definition terminating (rxn : nat -> bool) (g : grammar) : bool := check rxn (analyse rxn g) g.

Definition rank_top (a : ana) : nat := S (list_max (a_rank a)).
Definition fuel_bound_a (a : ana) (input : list N) : nat :=
  (2 * length input + 2) * rank_top a + rank_top a + length input + 3.
Definition fuel_bound (rxn : nat -> bool) (g : grammar) (input : list N) : nat := fuel_bound_a (analyse rxn g) input.

Definition orc_sane (g : grammar) (input : list N) (orc : nat -> nat -> option nat) : Prop :=
  (forall o p l, orc o p = Some l -> p + l <= length input) /\
  (forall nid nd t o p x, get_node g nid = Some nd -> n_kind nd = KStr t (Some o) ->
                          orc o p = Some x -> p + length t <= length input).
Definition orc_pos (orc : nat -> nat -> option nat) : Prop := forall o p l, orc o p = Some l -> 0 < l.

Section Term.
Variable g : grammar.
Variable input : list N.
Variable orc : nat -> nat -> option nat.
Variable rxn : nat -> bool.
Variable a : ana.
Hypothesis Hchk : check rxn a g = true.
Hypothesis Hsane : orc_sane g input orc.
Hypothesis Hpos : forall o, rxn o = false -> forall p l, orc o p = Some l -> 0 < l.

Notation parser := (nat -> bool -> st -> out) (only parsing).
Notation len := (length input).

Lemma all_nodes_ok_nth l : forall k j nd,
  all_nodes_ok rxn a k l = true -> nth_error l j = Some nd -> node_ok rxn a (k + j) nd = true.
Proof.
  induction l as [|x l IH]; intros k j nd Hc Hn; [destruct j; discriminate|].
  cbn in Hc. apply andb_true_iff in Hc as [H1 H2]. destruct j as [|j]; cbn in Hn.
  - injection Hn as <-. now rewrite Nat.add_0_r.
  - replace (k + S j) with (S k + j) by lia. now apply IH.
Qed.
Lemma node_checked nid nd : get_node g nid = Some nd -> node_ok rxn a nid nd = true.
Proof.
  intro Hn. unfold check in Hchk. apply andb_true_iff in Hchk as [H1 _].
  apply (all_nodes_ok_nth _ 0 nid nd H1 Hn).
Qed.
Lemma node_null nid nd : get_node g nid = Some nd -> nl a nid = false -> null_local rxn a nd = false.
Proof.
  intros Hn E. pose proof (node_checked _ _ Hn) as C. unfold node_ok in C.
  apply andb_true_iff in C as [C _]. apply andb_true_iff in C as [C _].
  destruct (null_local rxn a nd); [cbn in C; congruence | reflexivity].
Qed.
Lemma node_truthy nid nd : get_node g nid = Some nd -> tr a nid = false -> truthy_local a nd = false.
Proof.
  intros Hn E. pose proof (node_checked _ _ Hn) as C. unfold node_ok in C.
  apply andb_true_iff in C as [C _]. apply andb_true_iff in C as [_ C].
  destruct (truthy_local a nd); [cbn in C; congruence | reflexivity].
Qed.
Lemma node_rank nid nd : get_node g nid = Some nd -> rank_ok a nid nd = true.
Proof.
  intros Hn. pose proof (node_checked _ _ Hn) as C. unfold node_ok in C.
  now apply andb_true_iff in C as [_ C].
Qed.

Definition cache_ok (c : list ((nat * nat) * (cres * nat))) : Prop :=
  forall nid p cr np, clookup nid p c = Some (cr, np) ->
    p <= np <= len /\
    match cr with
    | CRes r => (nl a nid = false -> p < np) /\ (tr a nid = false -> truthy r = true -> p < np)
    | CNoMatch => True
    end.
Definition cposT_ok (c : list (nat * nat)) : Prop := forall k v, lookup k c = Some v -> k <= v <= len.
Definition tinv (s : st) : Prop := pos s <= len /\ cache_ok (cache s) /\ cposT_ok (cpos s).

(* s1 is a later state: invariant kept, position not smaller, same comment mode *)
Definition mono (s s1 : st) : Prop := tinv s1 /\ pos s <= pos s1 /\ in_cmt s1 = in_cmt s.

Lemma mono_refl s : tinv s -> mono s s.
Proof. intro T. split; [exact T | split; [apply Nat.le_refl | reflexivity]]. Qed.
Lemma mono_trans s s1 s2 : mono s s1 -> mono s1 s2 -> mono s s2.
Proof. intros (T1 & P1 & C1) (T2 & P2 & C2). split; [exact T2 | split; [lia | congruence]]. Qed.
Lemma tinv_set_pos p s : tinv s -> p <= len -> tinv (set_pos p s).
Proof. intros (P & C & K) L. split; [exact L | split; [exact C | exact K]]. Qed.
(* a later state moved to a position between where s0 stands and the end is still later than s0:
   every loop resets the position this way after a NoMatch *)
Lemma mono_moved s0 s1 p : mono s0 s1 -> pos s0 <= p -> p <= len -> mono s0 (set_pos p s1).
Proof. intros (T1 & _ & C1) L1 L2. split; [now apply tinv_set_pos | split; [exact L1 | exact C1]]. Qed.
Lemma mono_set_pos p s : tinv s -> pos s <= p -> p <= len -> mono s (set_pos p s).
Proof. intro T. apply mono_moved, mono_refl, T. Qed.

Lemma cache_reg_fail p s : cache (reg_fail p s) = cache s.
Proof. unfold reg_fail. destruct (nm s); [destruct (in_cmt s); [|destruct (Nat.ltb _ _)]|]; reflexivity. Qed.
Lemma mono_reg_fail p s : tinv s -> mono s (reg_fail p s).
Proof.
  intros (P & C & K). unfold mono, tinv.
  rewrite pos_reg_fail, cache_reg_fail, cpos_reg_fail, in_cmt_reg_fail.
  split; [split; [exact P | split; [exact C | exact K]] | split; [apply Nat.le_refl | reflexivity]].
Qed.

Lemma skip_ws_from_bounds w l : forall p, p <= skip_ws_from w l p <= p + length l.
Proof.
  induction l as [|c l IH]; intro p; cbn [skip_ws_from length]; [lia|].
  destruct (existsb (N.eqb c) w); [specialize (IH (S p)); lia | lia].
Qed.
Lemma do_skip_ws_mono s : tinv s -> mono s (do_skip_ws input s).
Proof.
  intro T. unfold do_skip_ws. pose proof (skip_ws_from_bounds (ws s) (skipn (pos s) input) (pos s)) as B.
  rewrite skipn_length in B. destruct T as (P & C & K).
  apply mono_set_pos; [split; [exact P | split; [exact C | exact K]] | lia | lia].
Qed.
Lemma msw_mono s : tinv s -> mono s (maybe_skip_ws input s).
Proof. intro T. unfold maybe_skip_ws. destruct (skipws s); [now apply do_skip_ws_mono | now apply mono_refl]. Qed.

Definition prog (c : nat) (s : st) (o : out) : Prop :=
  match o with
  | Ok r s1 => mono s s1 /\ (nl a c = false -> pos s < pos s1) /\
               (tr a c = false -> truthy r = true -> pos s < pos s1)
  | Fail s1 => mono s s1
  | Abort _ => True
  end.
Definition rec_prog (rec : parser) : Prop := forall c psq s, tinv s -> prog c s (rec c psq s).

Section Prog.
Variable rec : parser.
Hypothesis Hrec : rec_prog rec.

Lemma cmt_loop_prog cm k : forall s, tinv s ->
  match cmt_loop input rec cm k s with
  | Ok _ s1 => mono s s1
  | Fail _ => False
  | Abort _ => True
  end.
Proof.
  induction k as [|k IH]; intros s T; cbn [cmt_loop]; [exact I|].
  pose proof (Hrec cm false s T) as G. destruct (rec cm false s) as [r s1|s1|w]; cbn in G; auto.
  destruct G as [M _]. pose proof (msw_mono s1 (proj1 M)) as M2.
  specialize (IH (maybe_skip_ws input s1) (proj1 M2)).
  destruct (cmt_loop input rec cm k (maybe_skip_ws input s1)); auto.
  eapply mono_trans; [exact M|]. eapply mono_trans; eassumption.
Qed.

Lemma cposT_upd k v c : cposT_ok c -> k <= v <= len -> cposT_ok (upd k v c).
Proof.
  intros C B k2 v2 L. destruct (Nat.eq_dec k2 k) as [->|Hne].
  - rewrite lookup_upd_same in L. injection L as <-. exact B.
  - rewrite lookup_upd_other in L by assumption. now apply C.
Qed.

Lemma match_pre_prog k s : tinv s ->
  match match_pre g input rec k s with
  | Ok _ s1 | Fail s1 => mono s s1
  | Abort _ => True
  end.
Proof.
  intro T. unfold match_pre, parse_comments.
  pose proof (msw_mono s T) as M1. set (s1 := maybe_skip_ws input s) in *.
  destruct (if skipws s1 then lookup (pos s1) (cpos s1) else None) as [p'|] eqn:L.
  - destruct (skipws s1); [|discriminate]. destruct M1 as (T1 & P1 & C1).
    pose proof (proj2 (proj2 T1) _ _ L) as B.
    eapply mono_trans; [split; [exact T1 | split; [exact P1 | exact C1]]|].
    apply mono_set_pos; [exact T1 | lia | lia].
  - destruct (in_cmt s1) eqn:IC; [exact M1|].
    destruct (g_comments g) as [cm|].
    + assert (T2 : tinv (set_in_cmt true s1)) by exact (proj1 M1).
      pose proof (cmt_loop_prog cm k (set_in_cmt true s1) T2) as G.
      destruct (cmt_loop input rec cm k (set_in_cmt true s1)) as [r s2|s2|w]; auto; [|contradiction].
      destruct G as ((P2 & C2 & K2) & L2 & _). cbn in L2.
      eapply mono_trans; [exact M1|]. split; [|split; [exact L2 | cbn; now rewrite IC]].
      split; [exact P2 | split; [exact C2 |]]. cbn. apply cposT_upd; [exact K2 | lia].
    + destruct M1 as ((P1 & C1 & K1) & L1 & I1).
      split; [|split; [exact L1 | cbn; congruence]].
      split; [exact P1 | split; [exact C1|]]. cbn. apply cposT_upd; [exact K1 | lia].
Qed.

End Prog.

Lemma term_prog nid nd psq s : get_node g nid = Some nd -> tinv s ->
  match term_parse input orc nid (n_kind nd) psq s with
  | Ok r s1 => mono s s1 /\ (null_local rxn a nd = false -> pos s < pos s1) /\
               (truthy_local a nd = false -> truthy r = true -> pos s < pos s1)
  | Fail s1 => mono s s1
  | Abort _ => True
  end.
Proof.
  intros Hn T. destruct Hsane as [S1 S2]. unfold term_parse, nm_raise, null_local, truthy_local.
  destruct (n_kind nd) eqn:K; try exact I.
  - (* EOF *)
    destruct (Nat.eqb len (pos s)); [|now apply mono_reg_fail].
    split; [now apply mono_refl | split; discriminate].
  - (* StrMatch *)
    destruct oid as [o|].
    + destruct (orc o (pos s)) as [x|] eqn:E; [|now apply mono_reg_fail].
      pose proof (S2 nid nd s0 o (pos s) x Hn K E) as B.
      split; [apply mono_set_pos; [exact T | lia | lia]|].
      split; intro Z; apply Nat.eqb_neq in Z; cbn; lia.
    + destruct (is_prefix s0 (skipn (pos s) input)) eqn:E; [|now apply mono_reg_fail].
      apply is_prefix_len in E. rewrite skipn_length in E. destruct T as (P & C & Kc).
      split; [apply mono_set_pos; [split; [exact P | split; [exact C | exact Kc]] | lia | lia]|].
      split; intro Z; apply Nat.eqb_neq in Z; cbn; lia.
  - (* RegExMatch *)
    destruct (orc oid (pos s)) as [l|] eqn:E; [|now apply mono_reg_fail].
    pose proof (S1 _ _ _ E) as B. destruct (Nat.eqb l 0) eqn:Z.
    + split; [now apply mono_refl|]. split; [|discriminate].
      intro R. apply Nat.eqb_eq in Z. subst l. pose proof (Hpos _ R _ _ E). lia.
    + apply Nat.eqb_neq in Z. split; [apply mono_set_pos; [exact T | lia | lia]|].
      split; intros; cbn; lia.
Qed.

Section Prog2.
Variable rec : parser.
Hypothesis Hrec : rec_prog rec.

Lemma seq_loop_prog psq kids : forall acc s, tinv s ->
  match seq_loop rec psq kids acc s with
  | Ok r s1 => mono s s1 /\ (forallb (nl a) kids = false -> pos s < pos s1) /\
               exists acc', r = RList acc' /\ (existsb (tr a) kids = false -> acc' = acc \/ pos s < pos s1)
  | Fail s1 => mono s s1
  | Abort _ => True
  end.
Proof.
  induction kids as [|c kids IH]; intros acc s T; cbn [seq_loop forallb existsb].
  - split; [now apply mono_refl | split; [discriminate | exists acc; auto]].
  - pose proof (Hrec c psq s T) as G. destruct (rec c psq s) as [r s1|s1|w]; cbn in G; auto.
    destruct G as (M & GN & GT).
    specialize (IH (if truthy r then acc ++ [r] else acc) s1 (proj1 M)).
    destruct (seq_loop rec psq kids (if truthy r then acc ++ [r] else acc) s1) as [r2 s2|s2|w]; auto.
    + destruct IH as (M2 & IN & acc' & -> & IT). destruct M as (T1 & P1 & C1), M2 as (T2 & P2 & C2).
      split; [split; [exact T2 | split; [lia | congruence]]|]. split.
      * intro F. apply andb_false_iff in F as [F|F]; [specialize (GN F); lia | specialize (IN F); lia].
      * exists acc'. split; [reflexivity|]. intro F. apply orb_false_iff in F as [F1 F2].
        destruct (IT F2) as [E|L]; [|right; lia].
        destruct (truthy r) eqn:Tr; [right; specialize (GT F1 eq_refl); lia | left; exact E].
    + eapply mono_trans; eassumption.
Qed.

(* positions are compared with cp, the position where the OrderedChoice started *)
Lemma choice_loop_prog cp kids : forall s, tinv s -> cp <= pos s -> cp <= len ->
  match choice_loop rec cp kids s with
  | Ok r s1 => tinv s1 /\ cp <= pos s1 /\ in_cmt s1 = in_cmt s /\
               (is_none r = false -> existsb (nl a) kids = false -> cp < pos s1)
  | Fail _ => False
  | Abort _ => True
  end.
Proof.
  induction kids as [|c kids IH]; intros s T L Lc; cbn [choice_loop existsb].
  - split; [exact T | split; [exact L | split; [reflexivity | discriminate]]].
  - pose proof (Hrec c false s T) as G. destruct (rec c false s) as [r s1|s1|w]; cbn in G; auto.
    + destruct G as ((T1 & P1 & C1) & GN & _). destruct (is_none r) eqn:Nn.
      * assert (L1 : cp <= pos s1) by lia. specialize (IH s1 T1 L1 Lc).
        destruct (choice_loop rec cp kids s1); auto.
        destruct IH as (T2 & P2 & C2 & I2). split; [exact T2 | split; [exact P2 | split; [congruence|]]].
        intros Z F. apply orb_false_iff in F as [_ F]. now apply I2.
      * split; [exact T1 | split; [lia | split; [exact C1|]]].
        intros _ F. apply orb_false_iff in F as [F _]. specialize (GN F). lia.
    + destruct G as (T1 & P1 & C1).
      assert (T1' : tinv (set_pos cp s1)) by (apply tinv_set_pos; assumption).
      specialize (IH (set_pos cp s1) T1' (Nat.le_refl _) Lc).
      destruct (choice_loop rec cp kids (set_pos cp s1)); auto.
      destruct IH as (T2 & P2 & C2 & I2). split; [exact T2 | split; [exact P2 | split; [cbn in C2; congruence|]]].
      intros Z F. apply orb_false_iff in F as [_ F]. now apply I2.
Qed.

Lemma mono_reset s0 s s2 : mono s0 s -> mono s s2 -> mono s0 (set_pos (pos s) s2).
Proof. intros M0 M. exact (mono_moved _ _ _ (mono_trans _ _ _ M0 M) (proj1 (proj2 M0)) (proj1 (proj1 M0))). Qed.

Lemma rep_loop_prog s0 e sep plus k : tr a e = false -> forall first acc s,
  mono s0 s -> (first = false -> pos s0 < pos s) ->
  match rep_loop rec e sep plus k first acc s with
  | Ok r s1 => mono s0 s1 /\ (first = false -> pos s0 < pos s1) /\
               ((plus && first)%bool = true -> nl a e = false -> pos s0 < pos s1) /\
               exists acc', r = RList acc' /\ (first = true -> acc' = acc \/ pos s0 < pos s1)
  | Fail s1 => mono s0 s1
  | Abort _ => True
  end.
Proof.
  intro He. induction k as [|k IH]; intros first acc s M0 F0; [exact I|]. rewrite rep_loop_S.
  assert (Helem : forall acc1 s1, mono s s1 -> (first = true -> acc1 = acc /\ s1 = s) ->
    match rep_elem rec e sep plus k first (pos s) acc1 s1 with
    | Ok r s3 => mono s0 s3 /\ (first = false -> pos s0 < pos s3) /\
                 ((plus && first)%bool = true -> nl a e = false -> pos s0 < pos s3) /\
                 exists acc', r = RList acc' /\ (first = true -> acc' = acc \/ pos s0 < pos s3)
    | Fail s3 => mono s0 s3
    | Abort _ => True end).
  { intros acc1 s1 M1 A1. unfold rep_elem. pose proof (mono_trans _ _ _ M0 M1) as M01.
    pose proof (Hrec e false s1 (proj1 M1)) as G.
    destruct (rec e false s1) as [r s2|s2|w]; cbn in G; auto.
    - destruct G as (M2 & GN & GT). pose proof (mono_trans _ _ _ M01 M2) as M02.
      destruct M0 as (_ & P0 & _), M1 as (_ & P1 & _). pose proof (proj1 (proj2 M2)) as P2.
      destruct (truthy r) eqn:Tr.
      + specialize (GT He eq_refl).
        assert (F2 : false = false -> pos s0 < pos s2) by (intros _; lia).
        specialize (IH false (acc1 ++ [r]) s2 M02 F2).
        destruct (rep_loop rec e sep plus k false (acc1 ++ [r]) s2) as [r3 s3|s3|w]; auto.
        destruct IH as (M3 & S3 & _ & acc' & -> & _). specialize (S3 eq_refl).
        split; [exact M3 | split; [auto | split; [auto | exists acc'; split; [reflexivity | auto]]]].
      + split; [exact M02|]. split; [intro Z; specialize (F0 Z); lia|]. split.
        * intros Z F. specialize (GN F). apply andb_true_iff in Z as [_ Z]. destruct (A1 Z) as [_ ->]. lia.
        * exists acc1. split; [reflexivity|]. intro Z. left. now destruct (A1 Z).
    - pose proof (mono_reset s0 s s2 M0 (mono_trans _ _ _ M1 G)) as Mr.
      destruct (plus && first)%bool eqn:PF; [exact Mr|].
      split; [exact Mr|]. split; [intro Z; specialize (F0 Z); cbn; lia|]. split; [discriminate|].
      exists acc1. split; [reflexivity|]. intro Z. left. now destruct (A1 Z). }
  destruct sep as [sp|]; [|apply Helem; [apply mono_refl, (proj1 M0) | auto]].
  destruct first; [apply Helem; [apply mono_refl, (proj1 M0) | auto]|].
  pose proof (Hrec sp false s (proj1 M0)) as G. destruct (rec sp false s) as [sr s1|s1|w]; cbn in G; auto.
  - destruct G as (M1 & _ & _). apply Helem; [exact M1 | discriminate].
  - rewrite andb_false_r. pose proof (mono_reset s0 s s1 M0 G) as Mr.
    split; [exact Mr|]. split; [intro Z; specialize (F0 Z); cbn; lia|]. split; [discriminate|].
    exists acc. split; [reflexivity | discriminate].
Qed.

Definition ugr_mono (s0 : st) (o : ugr) : Prop :=
  match o with UGHit _ _ s1 | UGNone _ s1 => mono s0 s1 | UGAbort _ => True end.
Lemma ug_try_prog s0 sf cl todo : pos s0 <= cl -> cl <= len -> forall mt s, mono s0 s ->
  ugr_mono s0 (ug_try rec sf cl todo mt s).
Proof.
  intros L1 L2.
  assert (Mr : forall s1, mono s0 s1 -> mono s0 (set_pos cl s1)) by (intros s1 M1; now apply mono_moved).
  induction todo as [|e todo IH]; intros mt s M; cbn [ug_try]; [exact M|].
  pose proof (Hrec e false s (proj1 M)) as G. destruct (rec e false s) as [r s1|s1|w]; cbn in G; [| |exact I].
  - destruct G as (M1 & _ & _). pose proof (mono_trans _ _ _ M M1) as M01.
    destruct (truthy r); [destruct sf|]; [apply IH, Mr, M01 | exact M01 | apply IH, M01].
  - apply IH, Mr, (mono_trans _ _ _ M G).
Qed.

Definition ugo_mono (s0 : st) (o : ugo) : Prop :=
  match o with UGDone _ _ s1 => mono s0 s1 | UGOAbort _ => True end.
Lemma ug_loop_prog s0 sep n : forall todo first sr acc s, mono s0 s ->
  ugo_mono s0 (ug_loop rec sep n todo first sr acc s).
Proof.
  induction n as [|n IH]; intros todo first sr acc s M; destruct todo as [|t0 todo];
    try exact M; try exact I. rewrite ug_loop_S.
  assert (Hcont : forall sf sr1 s1, mono s0 s1 -> ugo_mono s0 (ug_cont rec sep n (t0 :: todo) acc (pos s) sf sr1 s1)).
  { intros sf sr1 s1 M1. unfold ug_cont.
    pose proof (ug_try_prog s0 sf (pos s1) (t0 :: todo) (proj1 (proj2 M1)) (proj1 (proj1 M1)) true s1 M1) as G.
    destruct (ug_try rec sf (pos s1) (t0 :: todo) true s1) as [e r s2|mt s2|w]; cbn in G; [now apply IH | | exact I].
    exact (mono_moved _ _ _ G (proj1 (proj2 M)) (proj1 (proj1 M))). }
  destruct sep as [sp|]; [|now apply Hcont]. destruct first; [now apply Hcont|].
  pose proof (Hrec sp false s (proj1 M)) as G. destruct (rec sp false s) as [sr1 s1|s1|w]; cbn in G; [| |exact I].
  - apply Hcont. eapply mono_trans; [exact M | apply G].
  - apply Hcont. exact (mono_moved _ _ _ (mono_trans _ _ _ M G) (proj1 (proj2 M)) (proj1 (proj1 M))).
Qed.

End Prog2.

Definition same_core (s s' : st) : Prop :=
  pos s' = pos s /\ cache s' = cache s /\ cpos s' = cpos s /\ in_cmt s' = in_cmt s.
Lemma same_core_enter_ws nd s : same_core s (enter_ws nd s).
Proof. unfold enter_ws. destruct (n_ws nd), (n_skipws nd); repeat split. Qed.
Lemma same_core_leave_ws nd old s : same_core s (leave_ws nd old s).
Proof. unfold leave_ws. destruct (n_ws nd), (n_skipws nd); repeat split. Qed.
Lemma same_core_enter_eol nd s : same_core s (enter_eol nd s).
Proof. unfold enter_eol. destruct (n_eolterm nd); repeat split. Qed.
Lemma same_core_leave_eol nd old s : same_core s (leave_eol nd old s).
Proof. unfold leave_eol. destruct (n_eolterm nd); repeat split. Qed.
Lemma tinv_core s s' : same_core s s' -> tinv s -> tinv s'.
Proof. intros (P & C & K & _) (A1 & A2 & A3). unfold tinv. now rewrite P, C, K. Qed.
Lemma mono_core_r s s1 s1' : same_core s1 s1' -> mono s s1 -> mono s s1'.
Proof.
  intros Hc (T & P & C). split; [eapply tinv_core; eassumption|]. destruct Hc as (P' & _ & _ & C').
  split; [lia | congruence].
Qed.
Lemma mono_core_l s s' s1 : same_core s s' -> mono s' s1 -> mono s s1.
Proof. intros (P' & _ & _ & C') (T & P & C). split; [exact T | split; [lia | congruence]]. Qed.

Definition bprog (nd : node) (s : st) (o : out) : Prop :=
  match o with
  | Ok r s1 => mono s s1 /\ (null_local rxn a nd = false -> pos s < pos s1) /\
               (truthy_local a nd = false -> truthy r = true -> pos s < pos s1)
  | Fail s1 => mono s s1
  | Abort _ => True
  end.

Lemma mono_raise p s : tinv s -> mono s (reg_fail p s).
Proof. apply mono_reg_fail. Qed.

Lemma body_prog rec k nid nd s :
  rec_prog rec -> get_node g nid = Some nd -> tinv s -> bprog nd s (body rec k nd s).
Proof.
  intros Hrec Hn T. pose proof (node_rank _ _ Hn) as RK.
  unfold body, bprog, null_local, truthy_local, rank_ok in *.
  destruct (n_kind nd) eqn:K; try exact I.
  - (* Sequence *)
    pose proof (same_core_enter_ws nd s) as Ce.
    pose proof (seq_loop_prog rec Hrec true (n_kids nd) [] (enter_ws nd s) (tinv_core _ _ Ce T)) as G.
    destruct (seq_loop rec true (n_kids nd) [] (enter_ws nd s)) as [r s1|s1|w]; auto.
    + destruct G as (M & GN & acc' & -> & GT).
      pose proof (mono_core_l _ _ _ Ce M) as M'.
      pose proof (mono_core_r _ _ _ (same_core_leave_ws nd s s1) M') as M''.
      assert (Pe : pos (enter_ws nd s) = pos s) by apply Ce.
      assert (Pl : pos (leave_ws nd s s1) = pos s1) by apply same_core_leave_ws.
      assert (R : (forallb (nl a) (n_kids nd) = false -> pos s < pos (leave_ws nd s s1)) /\
                  ((forallb (nl a) (n_kids nd) && existsb (tr a) (n_kids nd))%bool = false -> acc' <> [] ->
                   pos s < pos (leave_ws nd s s1))).
      { split; [intro F; specialize (GN F); lia|]. intros F NE. apply andb_false_iff in F as [F|F].
        - specialize (GN F). lia.
        - destruct (GT F) as [E|L]; [contradiction | lia]. }
      destruct R as [R1 R2]. destruct acc' as [|x l].
      * split; [exact M'' | split; [exact R1 | discriminate]].
      * split; [exact M'' | split; [exact R1 | intros F _; apply R2; [exact F | discriminate]]].
    + apply (mono_core_r _ (set_pos (pos s) s1)); [apply same_core_leave_ws|].
      exact (mono_moved _ _ _ (mono_core_l _ _ _ Ce G) (Nat.le_refl _) (proj1 T)).
  - (* OrderedChoice *)
    pose proof (same_core_enter_ws nd s) as Ce. destruct T as (Ps & Tc & Tk).
    assert (Te : tinv (enter_ws nd s)) by (eapply tinv_core; [exact Ce | exact (conj Ps (conj Tc Tk))]).
    assert (Pe : pos (enter_ws nd s) = pos s) by apply Ce.
    pose proof (choice_loop_prog rec Hrec (pos s) (n_kids nd) (enter_ws nd s) Te) as G.
    rewrite Pe in G. specialize (G (Nat.le_refl _) Ps).
    destruct (choice_loop rec (pos s) (n_kids nd) (enter_ws nd s)) as [r s1|s1|w]; auto; [|contradiction].
    destruct G as (T1 & P1 & C1 & GN).
    assert (M1 : mono s (leave_ws nd s s1)).
    { apply (mono_core_r _ s1); [apply same_core_leave_ws|].
      split; [exact T1 | split; [exact P1 | destruct Ce as (_ & _ & _ & Ci); congruence]]. }
    assert (Pl : pos (leave_ws nd s s1) = pos s1) by apply same_core_leave_ws.
    destruct (is_none r) eqn:Nn.
    + unfold nm_raise. eapply mono_trans; [exact M1 | apply mono_reg_fail, (proj1 M1)].
    + split; [exact M1|]. split; [intro F; specialize (GN eq_refl F); lia | intros F _; specialize (GN eq_refl F); lia].
  - (* Optional *)
    destruct (n_kids nd) as [|e l]; [exact I|]. cbn [hd_or] in *.
    pose proof (Hrec e false s T) as G. destruct (rec e false s) as [r s1|s1|w]; cbn in G; auto.
    + destruct G as (M & GN & _). split; [exact M | split; [discriminate | intros F _; now apply GN]].
    + split; [exact (mono_moved _ _ _ G (Nat.le_refl _) (proj1 T)) | split; discriminate].
  - (* ZeroOrMore *)
    destruct (n_kids nd) as [|e l]; [exact I|]. cbn [hd_or] in *.
    apply andb_true_iff in RK as [_ He]. apply negb_true_iff in He.
    pose proof (same_core_enter_eol nd s) as Ce.
    assert (M0 : mono (enter_eol nd s) (enter_eol nd s)) by (apply mono_refl; eapply tinv_core; eassumption).
    pose proof (rep_loop_prog rec Hrec (enter_eol nd s) e (n_sep nd) false k He true [] (enter_eol nd s) M0) as G.
    assert (Pe : pos (enter_eol nd s) = pos s) by apply Ce.
    destruct (rep_loop rec e (n_sep nd) false k true [] (enter_eol nd s)) as [r s1|s1|w]; auto.
    + specialize (G ltac:(discriminate)). destruct G as (M & _ & _ & acc' & -> & GT).
      pose proof (mono_core_r _ _ _ (same_core_leave_eol nd s s1) (mono_core_l _ _ _ Ce M)) as M'.
      assert (Pl : pos (leave_eol nd s s1) = pos s1) by apply same_core_leave_eol.
      split; [exact M' | split; [discriminate|]]. intros _ Tr.
      destruct (GT eq_refl) as [->|L]; [discriminate Tr | lia].
    + specialize (G ltac:(discriminate)).
      exact (mono_core_r _ _ _ (same_core_leave_eol nd s s1) (mono_core_l _ _ _ Ce G)).
  - (* OneOrMore *)
    destruct (n_kids nd) as [|e l]; [exact I|]. cbn [hd_or] in *.
    apply andb_true_iff in RK as [_ He]. apply negb_true_iff in He.
    pose proof (same_core_enter_eol nd s) as Ce.
    assert (M0 : mono (enter_eol nd s) (enter_eol nd s)) by (apply mono_refl; eapply tinv_core; eassumption).
    pose proof (rep_loop_prog rec Hrec (enter_eol nd s) e (n_sep nd) true k He true [] (enter_eol nd s) M0) as G.
    assert (Pe : pos (enter_eol nd s) = pos s) by apply Ce.
    destruct (rep_loop rec e (n_sep nd) true k true [] (enter_eol nd s)) as [r s1|s1|w]; auto.
    + specialize (G ltac:(discriminate)). destruct G as (M & _ & GN & acc' & -> & GT).
      pose proof (mono_core_r _ _ _ (same_core_leave_eol nd s s1) (mono_core_l _ _ _ Ce M)) as M'.
      assert (Pl : pos (leave_eol nd s s1) = pos s1) by apply same_core_leave_eol.
      split; [exact M'|]. split.
      * intro F. apply orb_false_iff in F as [F _]. specialize (GN eq_refl F). lia.
      * intros _ Tr. destruct (GT eq_refl) as [->|L]; [discriminate Tr | lia].
    + specialize (G ltac:(discriminate)).
      exact (mono_core_r _ _ _ (same_core_leave_eol nd s s1) (mono_core_l _ _ _ Ce G)).
  - (* UnorderedGroup *)
    destruct (n_kids nd) as [|e l] eqn:Kd; [exact I|]. rewrite <- Kd.
    pose proof (same_core_enter_eol nd s) as Ce.
    assert (M0 : mono (enter_eol nd s) (enter_eol nd s)) by (apply mono_refl; eapply tinv_core; eassumption).
    pose proof (ug_loop_prog rec Hrec (enter_eol nd s) (n_sep nd) (S (length (n_kids nd))) (n_kids nd) true RNone []
                  (enter_eol nd s) M0) as G.
    destruct (ug_loop rec (n_sep nd) (S (length (n_kids nd))) (n_kids nd) true RNone [] (enter_eol nd s)) as [mt acc s1|w];
      [|exact I]. cbn in G.
    pose proof (mono_core_r _ _ _ (same_core_leave_eol nd s s1) (mono_core_l _ _ _ Ce G)) as M'.
    destruct mt.
    + split; [exact M' | split; discriminate].
    + unfold nm_raise. pose proof (mono_moved _ _ _ M' (Nat.le_refl _) (proj1 T)) as M1.
      eapply mono_trans; [exact M1 | apply mono_reg_fail, (proj1 M1)].
  - (* And *)
    pose proof (seq_loop_prog rec Hrec false (n_kids nd) [] s T) as G.
    destruct (seq_loop rec false (n_kids nd) [] s) as [r s1|s1|w]; auto.
    + split; [exact (mono_moved _ _ _ (proj1 G) (Nat.le_refl _) (proj1 T)) | split; discriminate].
    + exact (mono_moved _ _ _ G (Nat.le_refl _) (proj1 T)).
  - (* Not *)
    pose proof (seq_loop_prog rec Hrec false (n_kids nd) [] s T) as G.
    destruct (seq_loop rec false (n_kids nd) [] s) as [r s1|s1|w]; auto.
    + unfold nm_raise. pose proof (mono_moved _ _ _ (proj1 G) (Nat.le_refl _) (proj1 T)) as M1.
      eapply mono_trans; [exact M1 | apply mono_reg_fail, (proj1 M1)].
    + split; [exact (mono_moved _ _ _ G (Nat.le_refl _) (proj1 T)) | split; discriminate].
  - (* Empty *) split; [now apply mono_refl | split; discriminate].
Qed.

Lemma truthy_post nid nd r : truthy (post nid nd r) = true -> truthy r = true.
Proof.
  unfold post. destruct (n_suppress nd || head_is_none r)%bool.
  - destruct (n_root nd); cbn; discriminate.
  - destruct (n_root nd && truthy r && negb (is_ptnode r))%bool eqn:E; [|auto].
    intros _. apply andb_true_iff in E as [E _]. now apply andb_true_iff in E as [_ E].
Qed.

Lemma cache_ok_cons nid p cr np c :
  cache_ok c -> p <= np <= len ->
  match cr with
  | CRes r => (nl a nid = false -> p < np) /\ (tr a nid = false -> truthy r = true -> p < np)
  | CNoMatch => True
  end ->
  cache_ok (((nid, p), (cr, np)) :: c).
Proof.
  intros C B F nid2 p2 cr2 np2 L. cbn [clookup] in L.
  destruct (Nat.eqb nid2 nid && Nat.eqb p2 p)%bool eqn:E; [|now apply C].
  apply andb_true_iff in E as [E1 E2]. apply Nat.eqb_eq in E1, E2. subst. injection L as <- <-. auto.
Qed.

Lemma parse_prog m f : rec_prog (parse g input orc m f).
Proof.
  induction f as [|f IH]; intros nid psq s T; cbn [parse]; [exact I|].
  destruct (get_node g nid) as [nd|] eqn:Hn; [|exact I].
  destruct (is_match_kind (n_kind nd)) eqn:MK.
  - pose proof (match_pre_prog _ IH f s T) as G0.
    destruct (match_pre g input (parse g input orc m f) f s) as [r0 s0|s0|w0]; auto.
    pose proof (term_prog nid nd psq s0 Hn (proj1 G0)) as G.
    destruct (term_parse input orc nid (n_kind nd) psq s0) as [r s1|s1|w]; auto.
    + destruct G as (M & GN & GT). pose proof (mono_trans _ _ _ G0 M) as M'.
      destruct G0 as (_ & P0 & _). split; [exact M'|]. split.
      * intro F. specialize (GN (node_null _ _ Hn F)). lia.
      * intros F Tr. destruct (n_suppress nd); [discriminate Tr|]. specialize (GT (node_truthy _ _ Hn F) Tr). lia.
    + eapply mono_trans; eassumption.
  - cbn zeta. destruct (if m then clookup nid (pos s) (cache s) else None) as [[cr np]|] eqn:L.
    + destruct m; [|discriminate]. destruct T as (Ps & Tc & Tk). destruct (Tc _ _ _ _ L) as (B & F).
      assert (Ms : mono s (set_pos np s)).
      { split; [apply tinv_set_pos; [exact (conj Ps (conj Tc Tk)) | lia] | split; [cbn; lia | reflexivity]]. }
      destruct cr as [|r]; [exact Ms|]. split; [exact Ms | cbn; exact F].
    + pose proof (body_prog _ f nid nd s IH Hn T) as G.
      destruct (body (parse g input orc m f) f nd s) as [r s1|s1|w]; auto.
      * destruct G as (M & GN & GT). destruct M as ((P1 & C1 & K1) & L1 & I1).
        assert (FN : nl a nid = false -> pos s < pos s1) by (intro F; apply GN, (node_null _ _ Hn F)).
        assert (FT : tr a nid = false -> truthy (post nid nd r) = true -> pos s < pos s1).
        { intros F Tr. apply GT; [apply (node_truthy _ _ Hn F) | now apply truthy_post in Tr]. }
        split; [|split; [cbn; destruct m; exact FN | cbn; destruct m; exact FT]].
        destruct m; [|exact (conj (conj P1 (conj C1 K1)) (conj L1 I1))].
        split; [|split; [exact L1 | exact I1]].
        split; [exact P1 | split; [|exact K1]]. cbn.
        apply cache_ok_cons; [exact C1 | lia | split; [exact FN | exact FT]].
      * destruct G as ((P1 & C1 & K1) & L1 & I1). destruct T as (Ps & _).
        destruct m; cbn.
        -- split; [|split; [apply Nat.le_refl | exact I1]].
           split; [exact Ps | split; [|exact K1]]. cbn.
           apply cache_ok_cons; [exact C1 | lia | exact I].
        -- split; [split; [exact Ps | split; [exact C1 | exact K1]] | split; [apply Nat.le_refl | exact I1]].
Qed.

(* The measure.  A call made while node n runs from s0 is below (s0, n) in the lexicographic order of [lvl]
   (input left; at the same position, comment parsing is below main-mode parsing) and then rank;
   [Bnd] turns that order into an amount of fuel. *)
Definition lvl (s : st) : nat := 2 * (len - pos s) + (if in_cmt s then 0 else 1).
Definition below (s : st) (c : nat) (s0 : st) (n : nat) : Prop :=
  lvl s < lvl s0 \/ (lvl s = lvl s0 /\ rk a c < rk a n).
Definition rec_nab (s0 : st) (n : nat) (rec : parser) : Prop :=
  forall c psq s, tinv s -> below s c s0 n -> rec c psq s <> Abort 0.

Lemma lvl_mono s0 s : mono s0 s -> lvl s <= lvl s0.
Proof. intros (_ & P & C). unfold lvl. rewrite C. lia. Qed.
Lemma lvl_strict s0 s : mono s0 s -> pos s0 < pos s -> lvl s < lvl s0.
Proof. intros ((Ps & _) & P & C) L. unfold lvl. rewrite C. lia. Qed.
Lemma below_rank s0 s c n : mono s0 s -> rk a c < rk a n -> below s c s0 n.
Proof. intros M R. pose proof (lvl_mono _ _ M). unfold below. lia. Qed.
Lemma below_strict s0 s c n : mono s0 s -> pos s0 < pos s -> below s c s0 n.
Proof. intros M L. left. now apply lvl_strict. Qed.

Lemma comment_nonnull cm : g_comments g = Some cm -> nl a cm = false.
Proof.
  intro E. unfold check in Hchk. apply andb_true_iff in Hchk as [_ H2]. rewrite E in H2.
  now apply negb_true_iff in H2.
Qed.

Section Nab.
Variable rec : parser.
Variable s0 : st.
Variable n : nat.
Hypothesis Hrec : rec_prog rec.
Hypothesis Hnab : rec_nab s0 n rec.

Lemma cmt_loop_nab cm : nl a cm = false -> in_cmt s0 = false -> forall k s,
  tinv s -> in_cmt s = true -> pos s0 <= pos s -> len - pos s < k ->
  cmt_loop input rec cm k s <> Abort 0.
Proof.
  intros Hcm I0. induction k as [|k IH]; intros s T IC P L; [lia|]. cbn [cmt_loop].
  assert (B : below s cm s0 n).
  { left. unfold lvl. rewrite IC, I0. destruct T as (Ps & _). lia. }
  pose proof (Hnab cm false s T B) as NA. pose proof (Hrec cm false s T) as G.
  destruct (rec cm false s) as [r s1|s1|w]; cbn in G; [| discriminate | congruence].
  destruct G as (M & GN & _). specialize (GN Hcm).
  pose proof (msw_mono s1 (proj1 M)) as M2. destruct M as (T1 & P1 & C1), M2 as (T2 & P2 & C2).
  pose proof (proj1 T2) as Px. apply IH; [exact T2 | congruence | lia | lia].
Qed.

Lemma match_pre_nab k s : mono s0 s -> len - pos s < k -> match_pre g input rec k s <> Abort 0.
Proof.
  intros M0 L. unfold match_pre, parse_comments.
  pose proof (msw_mono s (proj1 M0)) as M1. set (s1 := maybe_skip_ws input s) in *.
  destruct (if skipws s1 then lookup (pos s1) (cpos s1) else None); [discriminate|].
  destruct (in_cmt s1) eqn:IC; [discriminate|].
  destruct (g_comments g) as [cm|] eqn:E; [|discriminate].
  assert (I0 : in_cmt s0 = false).
  { destruct M0 as (_ & _ & C0), M1 as (_ & _ & C1). congruence. }
  pose proof (cmt_loop_nab cm (comment_nonnull cm E) I0 k (set_in_cmt true s1)) as NA.
  destruct M0 as (_ & P0 & _), M1 as (T1 & P1 & _).
  specialize (NA T1 eq_refl ltac:(cbn; lia) ltac:(cbn; lia)).
  destruct (cmt_loop input rec cm k (set_in_cmt true s1)); [discriminate | discriminate | congruence].
Qed.

Lemma seq_loop_nab psq kids : forall acc s, mono s0 s ->
  pos s0 < pos s \/ seq_rank_ok a (rk a n) kids = true ->
  seq_loop rec psq kids acc s <> Abort 0.
Proof.
  induction kids as [|c kids IH]; intros acc s M D; cbn [seq_loop]; [discriminate|].
  assert (B : below s c s0 n).
  { destruct D as [D|D]; [now apply below_strict|]. cbn in D. apply andb_true_iff in D as [D _].
    apply Nat.ltb_lt in D. now apply below_rank. }
  pose proof (Hnab c psq s (proj1 M) B) as NA. pose proof (Hrec c psq s (proj1 M)) as G.
  destruct (rec c psq s) as [r s1|s1|w]; cbn in G; [| discriminate | congruence].
  destruct G as (M1 & GN & _). apply IH; [eapply mono_trans; eassumption|].
  destruct D as [D|D]; [left; destruct M1 as (_ & P1 & _); lia|].
  cbn in D. apply andb_true_iff in D as [_ D]. destruct (nl a c) eqn:Nc; [now right|].
  left. specialize (GN eq_refl). destruct M as (_ & P & _). lia.
Qed.

Lemma choice_loop_nab kids : forallb (fun c => Nat.ltb (rk a c) (rk a n)) kids = true ->
  forall s, mono s0 s -> choice_loop rec (pos s0) kids s <> Abort 0.
Proof.
  induction kids as [|c kids IH]; intros F s M; cbn [choice_loop]; [discriminate|].
  cbn in F. apply andb_true_iff in F as [F1 F2]. apply Nat.ltb_lt in F1.
  pose proof (Hnab c false s (proj1 M) (below_rank _ _ _ _ M F1)) as NA.
  pose proof (Hrec c false s (proj1 M)) as G.
  destruct (rec c false s) as [r s1|s1|w]; cbn in G; [| | congruence].
  - destruct (is_none r); [|discriminate]. apply IH; [exact F2|]. eapply mono_trans; [exact M | apply G].
  - apply IH; [exact F2|]. apply (mono_moved _ _ _ (mono_trans _ _ _ M G)); [apply Nat.le_refl|].
    destruct M as ((Ps & _) & P & _). lia.
Qed.

Lemma rep_loop_nab e sep plus : tr a e = false -> rk a e < rk a n -> forall k first acc s,
  mono s0 s -> (first = false -> pos s0 < pos s) -> len - pos s < k ->
  rep_loop rec e sep plus k first acc s <> Abort 0.
Proof.
  intros He Re. induction k as [|k IH]; intros first acc s M F L; [lia|]. rewrite rep_loop_S.
  assert (Helem : forall acc1 s1, mono s s1 -> rep_elem rec e sep plus k first (pos s) acc1 s1 <> Abort 0).
  { intros acc1 s1 M1. unfold rep_elem. pose proof (mono_trans _ _ _ M M1) as M01.
    pose proof (Hnab e false s1 (proj1 M1) (below_rank _ _ _ _ M01 Re)) as NA.
    pose proof (Hrec e false s1 (proj1 M1)) as G.
    destruct (rec e false s1) as [r s2|s2|w]; cbn in G; [| | congruence].
    - destruct (truthy r) eqn:Tr; [|discriminate]. destruct G as (M2 & _ & GT). specialize (GT He eq_refl).
      pose proof (mono_trans _ _ _ M01 M2) as M02.
      pose proof (proj1 (proj2 M)) as P. pose proof (proj1 (proj2 M1)) as P1.
      pose proof (proj1 (proj2 M2)) as P2. pose proof (proj1 (proj1 M2)) as Px.
      apply IH; [exact M02 | intros _; lia | lia].
    - destruct (plus && first)%bool; discriminate. }
  destruct sep as [sp|]; [|apply Helem, mono_refl, (proj1 M)].
  destruct first; [apply Helem, mono_refl, (proj1 M)|].
  pose proof (Hnab sp false s (proj1 M) (below_strict _ _ _ _ M (F eq_refl))) as NA.
  pose proof (Hrec sp false s (proj1 M)) as G.
  destruct (rec sp false s) as [sr s1|s1|w]; cbn in G; [| | congruence].
  - apply Helem. apply G.
  - rewrite andb_false_r. discriminate.
Qed.

Lemma ug_try_nab sf cl todo : pos s0 <= cl -> cl <= len ->
  forallb (fun c => Nat.ltb (rk a c) (rk a n)) todo = true ->
  forall mt s, mono s0 s -> forall w, ug_try rec sf cl todo mt s = UGAbort w -> w <> 0.
Proof.
  intros L1 L2.
  assert (Mr : forall s1, mono s0 s1 -> mono s0 (set_pos cl s1)) by (intros s1 M1; now apply mono_moved).
  induction todo as [|e todo IH]; intros F mt s M w E; cbn [ug_try] in E; [discriminate|].
  cbn in F. apply andb_true_iff in F as [F1 F2]. apply Nat.ltb_lt in F1.
  pose proof (Hnab e false s (proj1 M) (below_rank _ _ _ _ M F1)) as NA.
  pose proof (Hrec e false s (proj1 M)) as G.
  destruct (rec e false s) as [r s1|s1|w1]; cbn in G; [| |injection E as <-; congruence].
  - destruct G as (M1 & _ & _). pose proof (mono_trans _ _ _ M M1) as M01.
    destruct (truthy r); [destruct sf|];
      [exact (IH F2 false (set_pos cl s1) (Mr _ M01) w E) | discriminate E | exact (IH F2 mt s1 M01 w E)].
  - exact (IH F2 false (set_pos cl s1) (Mr _ (mono_trans _ _ _ M G)) w E).
Qed.

Lemma ug_try_hit_in sf cl todo : forall mt s e r s1, ug_try rec sf cl todo mt s = UGHit e r s1 -> In e todo.
Proof.
  induction todo as [|x todo IH]; intros mt s e r s1 E; cbn [ug_try] in E; [discriminate|].
  destruct (rec x false s) as [r0 s2|s2|w]; [| |discriminate].
  - destruct (truthy r0); [destruct sf|].
    + right. eapply IH; exact E.
    + injection E as <- _ _. now left.
    + right. eapply IH; exact E.
  - right. eapply IH; exact E.
Qed.

Lemma ug_loop_nab sep : match sep with Some sp => rk a sp < rk a n | None => True end ->
  forall k todo first sr acc s,
  forallb (fun c => Nat.ltb (rk a c) (rk a n)) todo = true -> length todo < k -> mono s0 s ->
  forall w, ug_loop rec sep k todo first sr acc s = UGOAbort w -> w <> 0.
Proof.
  intros Hsep. induction k as [|k IH]; intros todo first sr acc s F L M w E; [lia|].
  destruct todo as [|t0 todo]; [discriminate E|]. rewrite ug_loop_S in E.
  assert (Hcont : forall sf sr1 s1, mono s0 s1 ->
    ug_cont rec sep k (t0 :: todo) acc (pos s) sf sr1 s1 = UGOAbort w -> w <> 0).
  { intros sf sr1 s1 M1 E1. unfold ug_cont in E1.
    pose proof (ug_try_nab sf (pos s1) (t0 :: todo) (proj1 (proj2 M1)) (proj1 (proj1 M1)) F true s1 M1) as NA.
    pose proof (ug_try_prog rec Hrec s0 sf (pos s1) (t0 :: todo) (proj1 (proj2 M1)) (proj1 (proj1 M1)) true s1 M1) as G.
    pose proof (ug_try_hit_in sf (pos s1) (t0 :: todo) true s1) as Hin.
    destruct (ug_try rec sf (pos s1) (t0 :: todo) true s1) as [e r s2|mt s2|w2]; cbn in G.
    - specialize (Hin e r s2 eq_refl). pose proof (remove_first_length e _ Hin) as Hl.
      eapply IH; [apply remove_first_forallb; exact F | | exact G | exact E1]. cbn [length] in *. lia.
    - discriminate E1.
    - injection E1 as <-. now apply NA. }
  destruct sep as [sp|]; [|eapply Hcont; eassumption]. destruct first; [eapply Hcont; eassumption|].
  pose proof (Hnab sp false s (proj1 M) (below_rank _ _ _ _ M Hsep)) as NA.
  pose proof (Hrec sp false s (proj1 M)) as G.
  destruct (rec sp false s) as [sr1 s1|s1|w1]; cbn in G; [| |injection E as <-; congruence].
  - eapply Hcont; [|exact E]. eapply mono_trans; [exact M | apply G].
  - eapply Hcont; [|exact E]. exact (mono_moved _ _ _ (mono_trans _ _ _ M G) (proj1 (proj2 M)) (proj1 (proj1 M))).
Qed.

Lemma body_nab k nd s : get_node g n = Some nd -> mono s0 s -> pos s = pos s0 -> len - pos s < k ->
  body rec k nd s <> Abort 0.
Proof.
  intros Hn M0 Hp L. pose proof (node_rank _ _ Hn) as RK. pose proof (proj1 M0) as T.
  unfold body, rank_ok in *. rewrite Hp. destruct (n_kind nd) eqn:K; try discriminate.
  - pose proof (same_core_enter_ws nd s) as Ce.
    assert (Me : mono s0 (enter_ws nd s)) by (apply (mono_core_r _ s); assumption).
    pose proof (seq_loop_nab true (n_kids nd) [] (enter_ws nd s) Me (or_intror RK)) as NA.
    destruct (seq_loop rec true (n_kids nd) [] (enter_ws nd s)) as [r s1|s1|w]; [| discriminate | congruence].
    destruct r as [|t|[|x l]]; discriminate.
  - pose proof (same_core_enter_ws nd s) as Ce.
    assert (Me : mono s0 (enter_ws nd s)) by (apply (mono_core_r _ s); assumption).
    pose proof (choice_loop_nab (n_kids nd) RK (enter_ws nd s) Me) as NA.
    destruct (choice_loop rec (pos s0) (n_kids nd) (enter_ws nd s)) as [r s1|s1|w]; [| discriminate | congruence].
    destruct (is_none r); discriminate.
  - destruct (n_kids nd) as [|e l]; [discriminate|]. cbn [hd_or] in RK. apply Nat.ltb_lt in RK.
    pose proof (Hnab e false s T (below_rank _ _ _ _ M0 RK)) as NA.
    destruct (rec e false s); [discriminate | discriminate | congruence].
  - destruct (n_kids nd) as [|e l]; [discriminate|]. cbn [hd_or] in RK.
    apply andb_true_iff in RK as [Re He]. apply Nat.ltb_lt in Re. apply negb_true_iff in He.
    pose proof (same_core_enter_eol nd s) as Ce.
    assert (Me : mono s0 (enter_eol nd s)) by (apply (mono_core_r _ s); assumption).
    assert (Pe : pos (enter_eol nd s) = pos s) by apply Ce.
    pose proof (rep_loop_nab e (n_sep nd) false He Re k true [] (enter_eol nd s) Me ltac:(discriminate) ltac:(lia)) as NA.
    destruct (rep_loop rec e (n_sep nd) false k true [] (enter_eol nd s)); [discriminate | discriminate | congruence].
  - destruct (n_kids nd) as [|e l]; [discriminate|]. cbn [hd_or] in RK.
    apply andb_true_iff in RK as [Re He]. apply Nat.ltb_lt in Re. apply negb_true_iff in He.
    pose proof (same_core_enter_eol nd s) as Ce.
    assert (Me : mono s0 (enter_eol nd s)) by (apply (mono_core_r _ s); assumption).
    assert (Pe : pos (enter_eol nd s) = pos s) by apply Ce.
    pose proof (rep_loop_nab e (n_sep nd) true He Re k true [] (enter_eol nd s) Me ltac:(discriminate) ltac:(lia)) as NA.
    destruct (rep_loop rec e (n_sep nd) true k true [] (enter_eol nd s)); [discriminate | discriminate | congruence].
  - (* UnorderedGroup *)
    apply andb_true_iff in RK as [RKk RKs].
    destruct (n_kids nd) as [|e l] eqn:Kd; [discriminate|]. rewrite <- Kd in *.
    pose proof (same_core_enter_eol nd s) as Ce.
    assert (Me : mono s0 (enter_eol nd s)) by (apply (mono_core_r _ s); assumption).
    assert (Hsep : match n_sep nd with Some sp => rk a sp < rk a n | None => True end).
    { destruct (n_sep nd); [now apply Nat.ltb_lt in RKs | exact I]. }
    pose proof (ug_loop_nab (n_sep nd) Hsep (S (length (n_kids nd))) (n_kids nd) true RNone [] (enter_eol nd s)
                  RKk (Nat.lt_succ_diag_r _) Me) as NA.
    destruct (ug_loop rec (n_sep nd) (S (length (n_kids nd))) (n_kids nd) true RNone [] (enter_eol nd s)) as [mt acc s1|w].
    + destruct mt; discriminate.
    + specialize (NA w eq_refl). congruence.
  - pose proof (seq_loop_nab false (n_kids nd) [] s M0 (or_intror RK)) as NA.
    destruct (seq_loop rec false (n_kids nd) [] s); [discriminate | discriminate | congruence].
  - pose proof (seq_loop_nab false (n_kids nd) [] s M0 (or_intror RK)) as NA.
    destruct (seq_loop rec false (n_kids nd) [] s); [discriminate | discriminate | congruence].
Qed.

End Nab.

Definition Bnd (s : st) (c : nat) : nat := lvl s * rank_top a + rk a c + len + 3.

Lemma nth_le_list_max l : forall i, nth i l 0 <= list_max l.
Proof.
  intro i. destruct (Nat.lt_ge_cases i (length l)) as [H|H].
  - apply list_max_ub, nth_In, H.
  - rewrite nth_overflow by exact H. apply Nat.le_0_l.
Qed.
Lemma rk_lt_top c : rk a c < rank_top a.
Proof. unfold rk, rank_top. pose proof (nth_le_list_max (a_rank a) c). lia. Qed.
Lemma below_Bnd s c s0 n : below s c s0 n -> Bnd s c < Bnd s0 n.
Proof.
  unfold below, Bnd. pose proof (rk_lt_top c). intros [L|[E R]]; [nia | rewrite E; lia].
Qed.

Lemma term_parse_nab nid k psq s : term_parse input orc nid k psq s <> Abort 0.
Proof.
  destruct (term_parse_cases input orc nid k psq s) as [(r & p' & E)|[E|E]]; rewrite E by reflexivity; discriminate.
Qed.

Theorem parse_terminates m f : forall nid psq s,
  tinv s -> Bnd s nid <= f -> parse g input orc m f nid psq s <> Abort 0.
Proof.
  induction f as [|f IH]; intros nid psq s T B; [unfold Bnd in B; lia|]. cbn [parse].
  destruct (get_node g nid) as [nd|] eqn:Hn; [|discriminate].
  assert (Hnab : rec_nab s nid (parse g input orc m f)).
  { intros c psq' s' T' Bl. apply IH; [exact T'|]. apply below_Bnd in Bl. lia. }
  assert (Lk : len - pos s < f) by (unfold Bnd in B; lia).
  destruct (is_match_kind (n_kind nd)).
  - pose proof (match_pre_nab _ s nid (parse_prog m f) Hnab f s (mono_refl s T) Lk) as NA.
    destruct (match_pre g input (parse g input orc m f) f s) as [r0 s1|s1|w]; [| discriminate | congruence].
    pose proof (term_parse_nab nid (n_kind nd) psq s1) as NA2.
    destruct (term_parse input orc nid (n_kind nd) psq s1); [discriminate | discriminate | congruence].
  - cbn zeta. destruct (if m then clookup nid (pos s) (cache s) else None) as [[[|r] np]|]; try discriminate.
    pose proof (body_nab _ s nid (parse_prog m f) Hnab f nd s Hn (mono_refl s T) eq_refl Lk) as NA.
    destruct (body (parse g input orc m f) f nd s); [discriminate | discriminate | congruence].
Qed.

Theorem run_terminates_a c m f :
  fuel_bound_a a input <= f -> run g c orc m f input <> Aborted 0.
Proof.
  intro L. unfold run.
  assert (T0 : tinv (init_st c)).
  { split; [cbn; lia | split; [intros nid p cr np E; discriminate E | intros k v E; discriminate E]]. }
  assert (B0 : Bnd (init_st c) (g_top g) <= f).
  { unfold Bnd, lvl, fuel_bound_a in *. cbn. pose proof (rk_lt_top (g_top g)). nia. }
  pose proof (parse_terminates m f (g_top g) false (init_st c) T0 B0) as NA.
  destruct (parse g input orc m f (g_top g) false (init_st c)); [discriminate | discriminate | congruence].
Qed.

End Term.

Theorem run_terminates rxn g c orc m input f :
  terminating rxn g = true -> orc_sane g input orc ->
  (forall o, rxn o = false -> forall p l, orc o p = Some l -> 0 < l) ->
  fuel_bound rxn g input <= f -> run g c orc m f input <> Aborted 0.
Proof.
  intros Ht Hs Hp L. unfold terminating in Ht. unfold fuel_bound in L.
  exact (run_terminates_a g input orc rxn (analyse rxn g) Ht Hs Hp c m f L).
Qed.

(* every regex terminal treated as possibly matching the empty string: no hypothesis on matches *)
Definition all_nullable (o : nat) : bool := true.
Corollary run_terminates_rxn g c orc m input f :
  terminating all_nullable g = true -> orc_sane g input orc ->
  fuel_bound all_nullable g input <= f -> run g c orc m f input <> Aborted 0.
Proof. intros Ht Hs L. apply (run_terminates all_nullable g c orc m input f Ht Hs); [discriminate | exact L]. Qed.

(* every match non-empty ([orc_pos]): regex terminals are not nullable *)
Definition none_nullable (o : nat) : bool := false.
Corollary run_terminates_pos g c orc m input f :
  terminating none_nullable g = true -> orc_sane g input orc -> orc_pos orc ->
  fuel_bound none_nullable g input <= f -> run g c orc m f input <> Aborted 0.
Proof.
  intros Ht Hs Hp L. apply (run_terminates none_nullable g c orc m input f Ht Hs); [|exact L].
  intros o _ p l E. exact (Hp o p l E).
Qed.

(* witnesses at the boundary *)
(* left recursion:  Model: A;  A: A 'x' | 'y';   (dumped by tools/pegdump.py) *)
Definition g_leftrec : grammar := (mkGrammar [mkNode KSeq [1;5] None false [77;111;100;101;108]%N true false None None;
  mkNode KChoice [2;4] None false [65]%N true false None None;
  mkNode KSeq [1;3] None false []%N false false None None;
  mkNode (KStr [120]%N None) [] None false []%N false false None None;
  mkNode (KStr [121]%N None) [] None false []%N false false None None;
  mkNode KEOF [] None false [69;79;70]%N false false None None] 0 None).

Lemma leftrec_aborts input orc : forall f,
  (forall psq s, parse g_leftrec input orc false f 1 psq s = Abort 0) /\
  (forall psq s, parse g_leftrec input orc false (S f) 1 psq s = Abort 0).
Proof.
  induction f as [|f [IH1 IH2]].
  - split; intros psq s; reflexivity.
  - split; [exact IH2|]. intros psq s. cbn. rewrite IH1. reflexivity.
Qed.

Theorem leftrec_never_terminates c orc input f :
  terminating all_nullable g_leftrec = false /\ run g_leftrec c orc false f input = Aborted 0.
Proof.
  split; [vm_compute; reflexivity|]. unfold run. destruct f as [|f]; [reflexivity|].
  cbn. rewrite (proj1 (leftrec_aborts input orc f)). reflexivity.
Qed.

(* a repetition whose element can be truthy without consuming:  Model: ('y'* | 'b')* 'c';
   the real interpreter loops forever; the model is out of fuel for every fuel, input, oracle and
   configuration: 'y'* always returns a list, so the choice always returns a truthy [list], and a
   repetition over an element that is always truthy ends only by running out of fuel *)
Definition g_loop : grammar := (mkGrammar [mkNode KSeq [1;8] None false [77;111;100;101;108]%N true false None None;
  mkNode KSeq [2;7] None false [77;111;100;101;108]%N true false None None;
  mkNode KStar [3] None false []%N false false None None;
  mkNode KChoice [4;6] None false []%N false false None None;
  mkNode KStar [5] None false []%N false false None None;
  mkNode (KStr [121]%N None) [] None false []%N false false None None;
  mkNode (KStr [98]%N None) [] None false []%N false false None None;
  mkNode (KStr [99]%N None) [] None false []%N false false None None;
  mkNode KEOF [] None false [69;79;70]%N false false None None] 0 None).

Lemma rep_loop_truthy_aborts rec e plus :
  (forall s, match rec e false s with Ok r _ => truthy r = true | Fail _ => False | Abort w => w = 0 end) ->
  forall k first acc s, rep_loop rec e None plus k first acc s = Abort 0.
Proof.
  intros He. induction k as [|k IH]; intros first acc s; [reflexivity|].
  rewrite rep_loop_S. unfold rep_elem. specialize (He s).
  destruct (rec e false s) as [r s1|s1|w]; [rewrite He; apply IH | contradiction | now subst].
Qed.

(* what a ZeroOrMore without separator returns is a list that does not start with None *)
Lemma star_loop_shape rec e :
  (forall s w, rec e false s = Abort w -> w = 0) ->
  forall k first acc s, head_is_none (RList acc) = false ->
  match rep_loop rec e None false k first acc s with
  | Ok r _ => is_none r = false /\ head_is_none r = false
  | Fail _ => False
  | Abort w => w = 0
  end.
Proof.
  intros He. induction k as [|k IH]; intros first acc s Ha; [reflexivity|].
  rewrite rep_loop_S. unfold rep_elem. specialize (He s).
  destruct (rec e false s) as [r s1|s1|w]; [ | cbn; auto | now apply He].
  destruct (truthy r) eqn:Tr; [|cbn; auto]. apply IH.
  destruct acc as [|x acc]; [destruct r; [discriminate Tr | reflexivity | reflexivity] | exact Ha].
Qed.

Lemma match_pre_no_comments g input rec k s :
  g_comments g = None -> exists s1, match_pre g input rec k s = Ok RNone s1.
Proof.
  intro Hc. unfold match_pre, parse_comments. rewrite Hc.
  destruct (if skipws _ then _ else None); [|destruct (in_cmt _)]; eauto.
Qed.

Section Loop.
Variable input : list N.
Variable orc : nat -> nat -> option nat.
Notation P := (parse g_loop input orc false).

Lemma loop_y f s w : P f 5 false s = Abort w -> w = 0.
Proof.
  destruct f as [|f]; intros E; [now injection E|]. cbn in E.
  destruct (match_pre_no_comments g_loop input (P f) f s eq_refl) as (s1 & E1). rewrite E1 in E.
  destruct (match skipn (pos s1) input with [] => false | _ => _ end); discriminate E.
Qed.

Lemma loop_inner f psq s :
  match P f 4 psq s with Ok r _ => is_none r = false | Fail _ => False | Abort w => w = 0 end.
Proof.
  destruct f as [|f]; [reflexivity|]. cbn.
  pose proof (star_loop_shape (P f) 5 (loop_y f) f true [] s eq_refl) as Sh.
  destruct (rep_loop (P f) 5 None false f true [] s) as [r s1|s1|w]; [|exact Sh|exact Sh].
  destruct Sh as [N1 N2]. now rewrite N2.
Qed.

Lemma loop_elem f s :
  match P f 3 false s with Ok r _ => truthy r = true | Fail _ => False | Abort w => w = 0 end.
Proof.
  destruct f as [|f]; [reflexivity|]. cbn.
  pose proof (loop_inner f false s) as In.
  destruct (P f 4 false s) as [r s1|s1|w]; [|destruct In|exact In].
  rewrite In. cbn. rewrite In. destruct r; [discriminate In | reflexivity | reflexivity].
Qed.

Lemma loop_star f psq s : P f 2 psq s = Abort 0.
Proof.
  destruct f as [|f]; [reflexivity|]. cbn.
  now rewrite (rep_loop_truthy_aborts (P f) 3 false (loop_elem f)).
Qed.

Theorem loop_never_terminates c f : run g_loop c orc false f input = Aborted 0.
Proof.
  unfold run. destruct f as [|[|f]]; [reflexivity | reflexivity |]. cbn. now rewrite loop_star.
Qed.
End Loop.

Lemma loop_aborts_1500 :
  terminating all_nullable g_loop = false /\
  run g_loop (mkConfig true [9;10;13;32]%N) (fun _ _ => None) false 1500 [99]%N = Aborted 0.
Proof. split; [vm_compute; reflexivity | apply loop_never_terminates]. Qed.

(* non-vacuity: a grammar of the class (backtracking, repetition with separator), hypotheses satisfiable *)
Lemma terminates_example :
  terminating none_nullable g_ex = true /\
  orc_sane g_ex [120;44;120;46]%N (fun _ _ => None) /\ orc_pos (fun _ _ => None) /\
  accepts (run g_ex c_default (fun _ _ => None) true (fuel_bound none_nullable g_ex [120;44;120;46]%N) [120;44;120;46]%N) = true.
Proof.
  split; [vm_compute; reflexivity|]. split; [split; intros; discriminate|].
  split; [intros o p l E; discriminate E | vm_compute; reflexivity].
Qed.
