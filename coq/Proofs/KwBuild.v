(* Composition of the parse-level results of C20 / C21 with model construction (Model/Build.v, read
   only): a simulation for [pnode] / [pmatch] / [build].

   Two worlds (grammar table, text, group oracle) with the same metamodel table, whose nodes have the
   same rule names and separators and whose TERMINALS OCCURRING IN THE TREE have related values,
   build related object graphs from trees that are equal up to the Terminal.suppress relabelling:
   same classes, attribute names, positions, list shapes, the same errors; string values related by
   [vrel]: equal, or - for texts that are not converted by a base type (INT FLOAT STRICTFLOAT BOOL
   STRING) - equal up to the letter case ([lo]). *)
From TxV Require Import Core.Base Model.PegSyntax Model.Peg Model.Build Proofs.PegCongr Proofs.PegInv.
From TxV Require Export Proofs.BuildRel.

Section ListRel.
Context {A B : Type}.
Variable R : A -> B -> Prop.
Fixpoint list_rel (l : list A) (l' : list B) : Prop :=
  match l, l' with
  | [], [] => True
  | x :: l1, y :: l1' => R x y /\ list_rel l1 l1'
  | _, _ => False
  end.
End ListRel.

Lemma list_rel_app {A B} (R : A -> B -> Prop) l1 l1' l2 l2' :
  list_rel R l1 l1' -> list_rel R l2 l2' -> list_rel R (l1 ++ l2) (l1' ++ l2').
Proof.
  revert l1'; induction l1 as [|x l1 IH]; intros [|y l1'] H1 H2; try contradiction; [exact H2|].
  destruct H1 as [Hxy H1]. split; [exact Hxy | apply IH; assumption].
Qed.

Lemma list_rel_mono {A B} (R Q : A -> B -> Prop) l :
  Forall (fun x => forall y, R x y -> Q x y) l -> forall l', list_rel R l l' -> list_rel Q l l'.
Proof.
  induction 1 as [| x l Hx _ IH]; intros [|y l'] H; try contradiction; [exact I|].
  destruct H as [Hxy H]. split; [exact (Hx y Hxy) | exact (IH l' H)].
Qed.

Lemma list_rel_eq {A} (R : A -> A -> Prop) : (forall x y, R x y -> y = x) ->
  forall l l', list_rel R l l' -> l' = l.
Proof.
  intros HR l. induction l as [|x l IH]; intros [|y l'] H; try contradiction; [reflexivity|].
  destruct H as [Hxy H]. rewrite (HR x y Hxy), (IH l' H). reflexivity.
Qed.

Lemma list_rel_nil_iff {A B} (R : A -> B -> Prop) l l' : list_rel R l l' -> (l = [] <-> l' = []).
Proof. destruct l, l'; cbn; intro H; try contradiction; split; congruence. Qed.

Lemma find_attr_same a l : find_attr a l = find_attr a l. Proof. reflexivity. Qed.

Section Rel.
Variable lo : N -> N.

Definition cv (s s' : list N) : Prop := map lo s' = map lo s.
(* texts of a terminal of rule [r] *)
Definition trel (r t t' : list N) : Prop := t' = t \/ (is_base5 r = false /\ cv t t').

Fixpoint vrel (v v' : value) {struct v} : Prop :=
  match v, v' with
  | VNone, VNone => True
  | VBool b, VBool b' => b' = b
  | VDefault t, VDefault t' => t' = t
  | VStr s, VStr s' => cv s s'
  | VTerm r t, VTerm r' t' => r' = r /\ trel r t t'
  | VJoin r ps, VJoin r' ps' => r' = r /\ list_rel (fun x y => vrel x y) ps ps'
  | VConv r x, VConv r' x' => r' = r /\ vrel x x'
  | VObj c p e a, VObj c' p' e' a' =>
    c' = c /\ p' = p /\ e' = e /\
    list_rel (fun kv kv' => fst kv' = fst kv /\ vrel (snd kv) (snd kv')) a a'
  | VRef nm p cl, VRef nm' p' cl' => vrel nm nm' /\ p' = p /\ cl' = cl
  | VList l, VList l' => list_rel (fun x y => vrel x y) l l'
  | _, _ => False
  end.

Definition kvrel (kv kv' : list N * value) : Prop := fst kv' = fst kv /\ vrel (snd kv) (snd kv').
Definition vals_rel := list_rel kvrel.

(* related values have the same shape *)
Inductive vrel_view : value -> value -> Prop :=
| VV_none : vrel_view VNone VNone
| VV_bool b : vrel_view (VBool b) (VBool b)
| VV_default t : vrel_view (VDefault t) (VDefault t)
| VV_str s s' : cv s s' -> vrel_view (VStr s) (VStr s')
| VV_term r t t' : trel r t t' -> vrel_view (VTerm r t) (VTerm r t')
| VV_join r ps ps' : list_rel vrel ps ps' -> vrel_view (VJoin r ps) (VJoin r ps')
| VV_conv r x x' : vrel x x' -> vrel_view (VConv r x) (VConv r x')
| VV_obj c p e a a' : vals_rel a a' -> vrel_view (VObj c p e a) (VObj c p e a')
| VV_ref nm nm' p cl : vrel nm nm' -> vrel_view (VRef nm p cl) (VRef nm' p cl)
| VV_list l l' : list_rel vrel l l' -> vrel_view (VList l) (VList l').
(* induction on related values: the two sides are taken apart together, once, here *)
Section VrelInd.
Variable P : value -> value -> Prop.
Hypothesis PNone : P VNone VNone.
Hypothesis PBool : forall b, P (VBool b) (VBool b).
Hypothesis PDefault : forall t, P (VDefault t) (VDefault t).
Hypothesis PStr : forall s s', cv s s' -> P (VStr s) (VStr s').
Hypothesis PTerm : forall r t t', trel r t t' -> P (VTerm r t) (VTerm r t').
Hypothesis PJoin : forall r ps ps', list_rel vrel ps ps' -> list_rel P ps ps' -> P (VJoin r ps) (VJoin r ps').
Hypothesis PConv : forall r x x', vrel x x' -> P x x' -> P (VConv r x) (VConv r x').
Hypothesis PObj : forall c p e a a', vals_rel a a' ->
  list_rel (fun kv kv' => fst kv' = fst kv /\ P (snd kv) (snd kv')) a a' -> P (VObj c p e a) (VObj c p e a').
Hypothesis PRef : forall nm nm' p cl, vrel nm nm' -> P nm nm' -> P (VRef nm p cl) (VRef nm' p cl).
Hypothesis PList : forall l l', list_rel vrel l l' -> list_rel P l l' -> P (VList l) (VList l').

Theorem vrel_ind' : forall v v', vrel v v' -> P v v'.
Proof.
  induction v as [| b | t | s | r t | r ps IH | r x IH | c p e a IH | nm p cl IH | l IH] using BuildObjProofs.value_ind2;
    intros v' H; destruct v'; try contradiction; cbn [vrel] in H.
  - exact PNone.
  - subst. apply PBool.
  - subst. apply PDefault.
  - apply PStr, H.
  - destruct H as [-> H]. apply PTerm, H.
  - destruct H as [-> H]. apply PJoin; [exact H | exact (list_rel_mono _ _ _ IH _ H)].
  - destruct H as [-> H]. apply PConv; [exact H | exact (IH _ H)].
  - destruct H as [-> [-> [-> H]]]. apply PObj; [exact H|]. refine (list_rel_mono _ _ _ _ _ H).
    eapply Forall_impl; [|exact IH]. intros kv Hkv kv' [Hk Hv]. split; [exact Hk | exact (Hkv _ Hv)].
  - destruct H as [H [-> ->]]. apply PRef; [exact H | exact (IH _ H)].
  - apply PList; [exact H | exact (list_rel_mono _ _ _ IH _ H)].
Qed.
End VrelInd.

Lemma vrel_case {v v'} : vrel v v' -> vrel_view v v'.
Proof. revert v v'. apply vrel_ind'; intros; constructor; assumption. Qed.

Lemma cv_nonempty s s' : cv s s' -> nonempty s' = nonempty s.
Proof. unfold cv. destruct s, s'; cbn; intro H; try discriminate; reflexivity. Qed.
Lemma cv_app a a' b b' : cv a a' -> cv b b' -> cv (a ++ b) (a' ++ b').
Proof. unfold cv. intros H1 H2. rewrite !map_app, H1, H2. reflexivity. Qed.
Lemma trel_cv r t t' : trel r t t' -> cv t t'.
Proof. intros [->|[_ H]]; [reflexivity | exact H]. Qed.

Lemma term_truthy_rel r t t' : trel r t t' ->
  term_truthy r t' = term_truthy r t /\ term_str_nonempty r t' = term_str_nonempty r t.
Proof.
  intros [->|[Hb Hc]]; [split; reflexivity|].
  (* the rule is none of the five converting base types: only emptiness of the text is looked at *)
  unfold term_truthy, term_str_nonempty. rewrite Hb. unfold is_base5, mem_str in Hb. cbn [existsb] in Hb.
  repeat (apply orb_false_iff in Hb as [-> Hb]). cbn [orb].
  rewrite (cv_nonempty t t' Hc). split; reflexivity.
Qed.

Lemma vrel_truthy : forall v v', vrel v v' ->
  val_truthy v' = val_truthy v /\ str_nonempty v' = str_nonempty v.
Proof.
  apply vrel_ind'; intros; cbn [val_truthy str_nonempty]; try (split; reflexivity).
  - rewrite (cv_nonempty s s'); [split; reflexivity | assumption].
  - apply term_truthy_rel. assumption.
  - (* the parts of a join, one by one *)
    clear H. revert ps' H0. induction ps as [|x l IH]; intros [|y l'] H; try contradiction; [split; reflexivity|].
    destruct H as [[_ Hxy] H]. destruct (IH l' H) as [E _]. rewrite Hxy, E. split; reflexivity.
  - assumption.
  - destruct l, l'; try contradiction; split; reflexivity.
Qed.

Lemma vrel_is_vlist v v' : vrel v v' -> is_vlist v' = is_vlist v.
Proof. intro H. destruct (vrel_case H); reflexivity. Qed.

(* objects under construction *)
Definition crel (c c' : cur) : Prop :=
  c_cls c' = c_cls c /\ c_meta c' = c_meta c /\ c_pos c' = c_pos c /\ c_end c' = c_end c /\
  vals_rel (c_vals c) (c_vals c').
Definition orel := opt_rel crel.

Lemma get_val_rel a l l' : vals_rel l l' -> opt_rel vrel (get_val a l) (get_val a l').
Proof.
  revert l'; induction l as [|[k v] l IH]; intros [|[k' v'] l'] H; try contradiction; [exact I|].
  destruct H as [[Hk Hv] H]. cbn [fst snd] in Hk, Hv. subst k'. cbn [get_val].
  destruct (str_eqb a k); [exact Hv | apply IH, H].
Qed.

Lemma set_val_rel a v v' l l' : vrel v v' -> vals_rel l l' -> vals_rel (set_val a v l) (set_val a v' l').
Proof.
  intro Hv. revert l'; induction l as [|[k w] l IH]; intros [|[k' w'] l'] H; try contradiction.
  - cbn. split; [split; [reflexivity | exact Hv] | exact I].
  - destruct H as [[Hk Hw] H]. cbn [fst snd] in Hk, Hw. subst k'. cbn [set_val].
    destruct (str_eqb a k).
    + split; [split; [reflexivity | exact Hv] | exact H].
    + split; [split; [reflexivity | exact Hw] | apply IH, H].
Qed.

Lemma cur_set_rel a v v' c c' : vrel v v' -> crel c c' -> crel (cur_set a v c) (cur_set a v' c').
Proof.
  intros Hv [H1 [H2 [H3 [H4 H5]]]]. unfold crel, cur_set. cbn [c_cls c_meta c_pos c_end c_vals].
  repeat split; try assumption. apply set_val_rel; assumption.
Qed.

Lemma name_ok_rel l l' : vals_rel l l' -> name_ok l' = name_ok l.
Proof.
  intro H. unfold name_ok.
  destruct (opt_case (get_val_rel s_name l l' H)) as [v v' Hv|]; [|reflexivity].
  destruct (vrel_case Hv) as [| | | | | | | | |[|x vs] [|y vs'] Hl]; try reflexivity; contradiction.
Qed.

Lemma many_ok_rel meta l l' : vals_rel l l' -> many_ok meta l' = many_ok meta l.
Proof.
  intro H. apply forallb_ext. intro ma.
  destruct (opt_case (get_val_rel (a_name ma) l l' H)) as [v v' Hv|]; [destruct (vrel_case Hv)|]; reflexivity.
Qed.

Definition rrel : bres (value * option cur) -> bres (value * option cur) -> Prop :=
  brel (fun x x' => vrel (fst x) (fst x') /\ orel (snd x) (snd x')).
Definition vbrel (x x' : bres value) : Prop :=
  match x, x' with
  | BOk v, BOk v' => vrel v v'
  | BErr e, BErr e' => e' = e
  | _, _ => False
  end.

Section Sim.
Variable supf : nat -> bool -> bool.
Variables g g' : grammar.
Variable mm : list ninfo.
Variables input input' : list N.
Variables grp grp' : nat -> nat -> option (nat * nat).
Variables auto ug : bool.

Notation ftt := (ft supf).

Hypothesis G_rule : forall nid, rule_of g' nid = rule_of g nid.
Hypothesis G_sep : forall asg t, is_sep_of g' asg (ftt t) = is_sep_of g asg t.

Definition term_ok (nid p len : nat) : Prop :=
  vbrel (term_value g mm input grp ug nid p len) (term_value g' mm input' grp' ug nid p len) /\
  trel (rule_of g nid) (term_text g input nid p len) (term_text g' input' nid p len).
Definition tgood (t : tree) : Prop :=
  forall nid p len, In (nid, p, len) (tree_terminals t) -> term_ok nid p len.

(* the oracle whose group(1) is the value of terminal [nid] under use_regexp_group *)
Definition grp_oid (h : grammar) (nid : nat) : option nat :=
  match get_node h nid with
  | Some nd => match n_kind nd, info mm nid with KRegex o, ITerm _ 1 => Some o | _, _ => None end
  | None => None
  end.

Lemma grp_oid_some h nid o : grp_oid h nid = Some o -> exists nd, get_node h nid = Some nd /\ n_kind nd = KRegex o.
Proof.
  unfold grp_oid. destruct (get_node h nid) as [nd|]; [|discriminate].
  destruct (n_kind nd) eqn:Ek; try discriminate. destruct (info mm nid) as [| |rr [|[|n]]|]; try discriminate.
  intro H. injection H as <-. exists nd. split; [reflexivity | exact Ek].
Qed.

Lemma term_value_eq h inp gr nid p len :
  term_value h mm inp gr ug nid p len =
  match (if ug then grp_oid h nid else None) with
  | Some o => match gr o p with
              | Some (gs, gl) => BOk (VTerm (rule_of h nid) (slice inp gs gl))
              | None => if is_base5 (rule_of h nid) then BErr ECrash else BOk VNone
              end
  | None => BOk (VTerm (rule_of h nid) (term_text h inp nid p len))
  end.
Proof.
  unfold term_value, grp_oid. destruct ug; [|reflexivity].
  destruct (get_node h nid) as [nd|]; [|reflexivity].
  destruct (n_kind nd); try reflexivity. destruct (info mm nid) as [| |rr [|[|n]]|]; reflexivity.
Qed.

(* what has to be shown of a terminal: related texts, and with use_regexp_group related group(1) slices *)
Lemma term_ok_intro nid p len :
  trel (rule_of g nid) (term_text g input nid p len) (term_text g' input' nid p len) ->
  (ug = true ->
   opt_rel (fun o o' => grp' o' p = grp o p /\
                        forall gs gl, grp o p = Some (gs, gl) ->
                                      trel (rule_of g nid) (slice input gs gl) (slice input' gs gl))
           (grp_oid g nid) (grp_oid g' nid)) ->
  term_ok nid p len.
Proof.
  intros Ht Hg. split; [|exact Ht]. rewrite !term_value_eq, G_rule.
  destruct ug; [|split; [reflexivity | exact Ht]].
  destruct (opt_case (Hg eq_refl)) as [o o' [E Hs]|]; [|split; [reflexivity | exact Ht]].
  rewrite E. destruct (grp o p) as [[gs gl]|]; [split; [reflexivity | exact (Hs gs gl eq_refl)]|].
  destruct (is_base5 (rule_of g nid)); [reflexivity | exact I].
Qed.

Lemma tgood_kid nid kids k : tgood (NT nid kids) -> In k kids -> tgood k.
Proof.
  intros H Hk n p l Hin. apply H. cbn [tree_terminals]. apply in_flat_map. exists k. split; assumption.
Qed.

Lemma tree_nid_ft t : tree_nid (ftt t) = tree_nid t.
Proof. destruct t; reflexivity. Qed.

Lemma pmatch_parts_rel l :
  (forall k, In k l -> vbrel (pmatch g input k) (pmatch g' input' (ftt k))) ->
  brel (list_rel vrel) (pmatch_parts g input l) (pmatch_parts g' input' (map ftt l)).
Proof.
  induction l as [|x l IH]; intro H; [exact I|]. cbn [map pmatch_parts].
  destruct (brel_case (R := vrel) (H x (or_introl eq_refl))) as [v v' Hv|e]; [|reflexivity].
  destruct (brel_case (IH (fun k Hk => H k (or_intror Hk)))) as [vs vs' Hvs|e]; [|reflexivity].
  split; assumption.
Qed.

Lemma pmatch_rel : forall t, tgood t -> vbrel (pmatch g input t) (pmatch g' input' (ftt t)).
Proof.
  induction t as [nid p len sup | nid kids IH] using PegProofs.tree_ind2; intro Hg.
  - cbn [ft pmatch vbrel vrel]. split; [apply G_rule|].
    exact (proj2 (Hg nid p len (or_introl eq_refl))).
  - assert (Hk : forall k, In k kids -> vbrel (pmatch g input k) (pmatch g' input' (ftt k))).
    { rewrite Forall_forall in IH. intros k Hin. exact (IH k Hin (tgood_kid nid kids k Hg Hin)). }
    cbn [ft]. rewrite !pmatch_NT, G_rule. destruct (is_base5 (rule_of g nid)); [reflexivity|].
    destruct kids as [|k [|k2 rest]]; [reflexivity | |].
    + cbn [map]. destruct (brel_case (R := vrel) (Hk k (or_introl eq_refl))) as [v v' Hv|e];
        [split; [reflexivity | exact Hv] | reflexivity].
    + pose proof (pmatch_parts_rel _ Hk) as Hj. cbn [map] in Hj |- *.
      destruct (brel_case Hj) as [vs vs' Hvs|e]; [split; [reflexivity | exact Hvs] | reflexivity].
Qed.

Lemma tpos_ft t : tpos (ftt t) = tpos t.
Proof.
  induction t as [n p len sup | n kids IH] using PegProofs.tree_ind2; [reflexivity|].
  cbn [ft tpos]. destruct IH; [reflexivity | assumption].
Qed.

Lemma tend_ft t : tend (ftt t) = tend t.
Proof.
  induction t as [n p len sup | n kids IH] using PegProofs.tree_ind2; [reflexivity|].
  cbn [ft tend].
  (* the inner loop of [tend] answers alike on the relabelled children *)
  match goal with |- match ?e' with _ => _ end = match ?e with _ => _ end =>
    enough (E : e' = e) by (rewrite E; reflexivity) end.
  induction IH as [| x l Hx _ IHl]; [reflexivity|]. cbn [map]. rewrite IHl, Hx. reflexivity.
Qed.

Lemma init_attrs_rel l : vals_rel (init_attrs auto l) (init_attrs auto l).
Proof.
  induction l as [|a l IH]; [exact I|]. cbn [init_attrs map]. split; [|exact IH].
  split; [reflexivity|]. cbn [snd]. unfold init_attr.
  destruct (a_mult a); try exact I;
    (destruct (is_base_type (a_cls a)); [destruct auto; [reflexivity | destruct (a_bool a); reflexivity] | exact I]).
Qed.

Lemma tree_text_cv kids : (forall k, In k kids -> tgood k) ->
  cv (List.concat (map (tree_text g input) kids)) (List.concat (map (tree_text g' input') (map ftt kids))).
Proof.
  induction kids as [|k kids IH]; intro H; [reflexivity|].
  cbn [map List.concat]. apply cv_app; [|apply IH; intros x Hx; apply H; right; exact Hx].
  destruct k as [n p len sup|n ks]; [|reflexivity].
  cbn [ft tree_text]. apply (trel_cv (rule_of g n)).
  exact (proj2 (H (T n p len sup) (or_introl eq_refl) n p len (or_introl eq_refl))).
Qed.

(* process_node: the lifting theorem of Proofs/BuildRel.v at vrel / crel *)
Lemma vrel_snoc av av' w w' : vrel av av' -> vrel w w' -> vrel (snoc_or av w) (snoc_or av' w').
Proof.
  intros Hav Hw. destruct (vrel_case Hav); cbn [snoc_or]; try exact Hw.
  apply (list_rel_app vrel); [assumption | split; [exact Hw | exact I]].
Qed.

Lemma vrel_put o o' v v' : opt_rel vrel o o' -> vrel v v' -> opt_rel vrel (lst_put o v) (lst_put o' v').
Proof.
  intros Ho Hv. destruct (opt_case Ho) as [x x' Hx|]; [|exact I].
  destruct (vrel_case Hx); try exact I; cbn [lst_put opt_rel vrel].
  - split; [exact Hv | exact I].
  - apply (list_rel_app vrel); [assumption | split; [exact Hv | exact I]].
Qed.

Theorem pnode_rel : forall t, tgood t -> forall top top', orel top top' ->
  rrel (pnode g mm input grp auto ug t top) (pnode g' mm input' grp' auto ug (ftt t) top').
Proof.
  apply (pnode_lift g g' mm input input' grp grp' auto ug ftt tgood vrel crel).
  - intros n p l s. exists p, (supf n s). reflexivity.
  - reflexivity.
  - exact G_sep.
  - exact tgood_kid.
  - exact I.
  - reflexivity.
  - intros k v v' cl _ Hv. rewrite tpos_ft. cbn [vrel]. repeat split. exact Hv.
  - intros v v' Hv. split; [exact (proj1 (vrel_truthy _ _ Hv)) | exact (vrel_is_vlist _ _ Hv)].
  - exact vrel_snoc.
  - exact vrel_put.
  - intros c c' Hc. exact (proj1 (proj2 Hc)).
  - intros a c c' Hc. exact (get_val_rel a _ _ (proj2 (proj2 (proj2 (proj2 Hc))))).
  - intros a v v' c c' Hc Hv. exact (cur_set_rel a v v' c c' Hv Hc).
  - intros c c' [H1 [H2 [H3 [H4 H5]]]]. rewrite (name_ok_rel _ _ H5), H2, (many_ok_rel (c_meta c) _ _ H5).
    cbn [vrel]. repeat split; assumption.
  - intros t cls attrs _. rewrite tpos_ft, tend_ft. unfold crel. cbn. repeat split. apply init_attrs_rel.
  - intros nid p len sup Hg top top' Ho. cbn [ft pnode].
    destruct (brel_case (R := vrel) (proj1 (Hg nid p len (or_introl eq_refl)))) as [v v' Hv|e];
      [split; assumption | reflexivity].
  - exact pmatch_rel.
  - intros n kids Hg. apply (tree_text_cv kids). intros x Hx. exact (tgood_kid n _ x Hg Hx).
Qed.

Theorem build_rel r : (forall nid p len, In (nid, p, len) (res_terminals r) -> term_ok nid p len) ->
  vbrel (build g mm input grp auto ug r) (build g' mm input' grp' auto ug (fr supf r)).
Proof.
  intro H. unfold build. destruct r as [|[n p len sup|n [|t kids]]|l]; try reflexivity.
  cbn [fr ft map].
  assert (Hg : tgood t).
  { intros a b c Hin. apply H. cbn [res_terminals tree_terminals flat_map]. apply in_or_app. left. exact Hin. }
  destruct (brel_case (pnode_rel t Hg None None I)) as [[v o] [v' o'] [Hv _]|e]; [exact Hv | reflexivity].
Qed.

End Sim.
End Rel.

(* with the identity as case folding the relation is equality *)
Lemma vrel_id_eq : forall v v', vrel (fun c => c) v v' -> v' = v.
Proof.
  assert (Hcv : forall s s', cv (fun c => c) s s' -> s' = s) by (unfold cv; intros s s'; rewrite !map_id; trivial).
  apply vrel_ind'; intros; subst; try reflexivity; f_equal.
  - apply Hcv. assumption.
  - destruct H as [->|[_ H]]; [reflexivity | apply Hcv, H].
  - exact (list_rel_eq _ (fun x y E => E) _ _ H0).
  - refine (list_rel_eq _ _ _ _ H0). intros [k x] [k' y] [Hk Hv]. cbn [fst snd] in *. congruence.
  - exact (list_rel_eq _ (fun x y E => E) _ _ H0).
Qed.

Lemma vbrel_id_eq x x' : vbrel (fun c => c) x x' -> x' = x.
Proof.
  intro H. destruct (brel_case (R := vrel (fun c => c)) H) as [v v' Hv|e]; [rewrite (vrel_id_eq _ _ Hv)|]; reflexivity.
Qed.
