(* C29 — graph exports are well-formed for any model and metamodel. *)
From Coq Require Import String.
From TxV Require Import Core.Base Model.ExportDefs Gen.SrcExport Model.Export Model.ExportWalk Model.ExportMeta Proofs.ExportProofs Proofs.ExportWalkProofs Proofs.ExportMetaProofs.

(* dot_escape is the replacement chain translated from textx/export.py.  For every string s, the text
   <quote> dot_escape s <quote> rest  is scanned by the DOT string scanner as exactly one quoted string
   whose text is dot_escape s, whatever follows. *)
Theorem C29_escape_quoted : forall s rest,
  lex_qstring ([c_quote] ++ dot_escape s ++ [c_quote] ++ rest) = Some (dot_escape s, rest).
Proof. intros s rest. apply quoted, dot_escape_qrun. Qed.
Print Assumptions C29_escape_quoted.

(* the same for ANY replacement chain that passes the decidable per-character check (what is re-run
   against the translated chain): the chain acts character by character, untouched characters are
   neither quote nor backslash *)
Theorem C29_escape_chain_sound : forall chain, chain_safe chain = true -> forall s rest,
  lex_qstring ([c_quote] ++ apply_chain chain s ++ [c_quote] ++ rest) = Some (apply_chain chain s, rest).
Proof. intros chain H s rest. apply quoted, chain_safe_qrun, H. Qed.
Print Assumptions C29_escape_chain_sound.

Theorem C29_escape_chain_checked : chain_safe escape_chain = true.
Proof. exact escape_chain_safe. Qed.
Print Assumptions C29_escape_chain_checked.

(* truncation in dot_repr cannot expose a quote or leave a backslash in front of the closing quote *)
Theorem C29_repr_safe : forall s rest,
  lex_qstring ([c_quote] ++ dot_repr_str s ++ [c_quote] ++ rest) = Some (dot_repr_str s, rest).
Proof. intros s rest. apply quoted, dot_repr_qrun. Qed.
Print Assumptions C29_repr_safe.

(* template safety is decidable and sound: if the abstract run of the document machine over a template
   succeeds from outside-a-string to outside-a-string, then every text the template can produce (holes
   filled with anything of their kind) leaves the DOT scanner outside any string, with no hole able to
   close or open one, and contains no comment opener outside strings *)
Theorem C29_templates_sound : forall t, doc_quotes_ok t = true -> forall w, gen t w -> drun DOut w = Some DOut.
Proof. exact doc_quotes_sound. Qed.
Print Assumptions C29_templates_sound.

(* the templates translated from model_export_to_file / metamodel_export_tofile + DotRenderer pass it *)
Theorem C29_model_doc : forall w, gen model_doc w -> drun DOut w = Some DOut.
Proof. apply doc_quotes_sound. vm_compute. reflexivity. Qed.
Print Assumptions C29_model_doc.

Theorem C29_metamodel_doc : forall w, gen metamodel_doc w -> drun DOut w = Some DOut.
Proof. apply doc_quotes_sound. vm_compute. reflexivity. Qed.
Print Assumptions C29_metamodel_doc.

(* blocks: braces and brackets outside strings.  gstep refines the document machine: strings and attribute
   lists only inside the graph block, attribute lists [ ] not nested and without braces, HTML strings only inside
   attribute lists, the brace that returns to depth 0 ends the graph and only white space follows it.
   Every text the translated DOT templates can produce is one such block (the subgraph blocks of the repository
   path open and close inside it; _export_subgraph is translated as the sequence of its writes). *)
Theorem C29_blocks_sound : forall t, doc_blocks_ok t = true -> forall w, gen t w -> grun g_start w = Some g_final.
Proof. exact doc_blocks_sound. Qed.
Print Assumptions C29_blocks_sound.

Theorem C29_model_doc_blocks : forall w, gen model_doc w -> grun g_start w = Some g_final.
Proof. apply doc_blocks_sound. vm_compute. reflexivity. Qed.
Print Assumptions C29_model_doc_blocks.

Theorem C29_metamodel_doc_blocks : forall w, gen metamodel_doc w -> grun g_start w = Some g_final.
Proof. apply doc_blocks_sound. vm_compute. reflexivity. Qed.
Print Assumptions C29_metamodel_doc_blocks.

Example C29_blocks_nonvacuous :
  grun g_start [103; 32; 123; 97; 91; 108; 61; 34; 125; 34; 93; 123; 98; 125; 125; 10]%N = Some g_final   (* g {a[l="}"]{b}} *)
  /\ grun g_start [103; 123; 97; 91; 91]%N = None            (* nested bracket *)
  /\ grun g_start [103; 123; 125; 97]%N = None               (* text after the closing brace *)
  /\ grun g_start [103; 123; 91; 123]%N = None               (* brace inside an attribute list *)
  /\ doc_blocks_ok (TCat [TLit [103; 123]%N; TStar (TLit [125]%N)]) = false.
Proof. vm_compute. repeat split; reflexivity. Qed.
Print Assumptions C29_blocks_nonvacuous.

(* record labels (all nodes have shape=record): Graphviz reports "bad label format" and exits non-zero
   when a label's braces, pipes and angle brackets do not form a record.
   For every string, dot_escape and dot_repr expose no structuring character and leave no backslash behind
   that could swallow the next character (record-label scanner of shapes.c). *)
Theorem C29_escape_record_safe : forall s, rrun RNorm (dot_escape s) = Some RNorm /\ rrun RNorm (dot_repr_str s) = Some RNorm.
Proof. intro s. split; [exact (dot_escape_rrun s) | exact (dot_repr_rrun s)]. Qed.
Print Assumptions C29_escape_record_safe.

(* every text that the label templates of the node statements (translated from the source) can produce is one
   flat record  { field | field ... }  with nothing after the closing brace *)
Theorem C29_labels_sound : forall t, label_ok t = true -> forall w, gen t w -> lrun LStart w = Some LDone.
Proof. exact label_sound. Qed.
Print Assumptions C29_labels_sound.

Theorem C29_model_labels : forall t w, In t model_labels -> gen t w -> lrun LStart w = Some LDone.
Proof. apply labels_sound. vm_compute. reflexivity. Qed.
Print Assumptions C29_model_labels.

Theorem C29_metamodel_labels : forall t w, In t metamodel_labels -> gen t w -> lrun LStart w = Some LDone.
Proof. apply labels_sound. vm_compute. reflexivity. Qed.
Print Assumptions C29_metamodel_labels.

(* PlantUML: in everything written before the legend (header, class blocks, links) braces open and close
   alternately: each class body is closed before anything else opens, none closes twice *)
Theorem C29_plantuml_balanced : forall w, gen (plantuml_body plantuml_doc) w -> brun false w = Some false.
Proof. apply braces_sound. vm_compute. reflexivity. Qed.
Print Assumptions C29_plantuml_balanced.

(* non-vacuity: a hostile value, and a template whose hole sits inside a string *)
Example C29_escape_example :
  dot_escape [97; 34; 92; 10; 123]%N = [97; 92; 34; 92; 92; 92; 92; 110; 92; 123]%N
  /\ lex_qstring ([c_quote] ++ dot_escape [97; 34; 92]%N ++ [c_quote; 59]%N) = Some ([97; 92; 34; 92; 92]%N, [59]%N).
Proof. vm_compute. split; reflexivity. Qed.
Print Assumptions C29_escape_example.

Example C29_templates_nonvacuous :
  let t := TCat [TLit [108; 61; 34]%N; THole HEscaped; TLit [34; 59]%N] in
  doc_quotes_ok t = true /\ gen t ([108; 61; 34] ++ dot_escape [97; 34]%N ++ [34; 59])%N
  /\ doc_quotes_ok (TCat [TLit [108; 61; 34]%N; THole HRaw; TLit [34; 59]%N]) = false.
Proof.
  split; [vm_compute; reflexivity|]. split; [|vm_compute; reflexivity].
  apply (GCatCons (TLit [108; 61; 34]%N) _ [108; 61; 34]%N _ (GLit _)).
  apply (GCatCons (THole HEscaped) _ (dot_escape [97; 34]%N) [34; 59]%N).
  - apply GHole. exists [97; 34]%N. reflexivity.
  - rewrite <- (app_nil_r [34; 59]%N). apply (GCatCons (TLit [34; 59]%N) [] [34; 59]%N [] (GLit _) GCatNil).
Qed.
Print Assumptions C29_templates_nonvacuous.

Example C29_labels_nonvacuous :
  model_labels <> [] /\ metamodel_labels <> []
  /\ label_ok (TCat [TLit [123]%N; THole HEscaped; TLit [124; 125]%N]) = true
  /\ label_ok (TCat [TLit [123]%N; THole HRaw; TLit [124; 125]%N]) = false
  /\ lrun LStart ([123] ++ dot_escape [124; 125; 92]%N ++ [124; 125])%N = Some LDone
  /\ lrun LStart [123; 124; 125; 124; 125]%N = None.
Proof. split; [discriminate|]. split; [discriminate|]. vm_compute. repeat split; reflexivity. Qed.
Print Assumptions C29_labels_nonvacuous.

Example C29_plantuml_nonvacuous :
  gen (plantuml_body (TCat [TLit [99; 32]%N; THole HIdent; TLit [32; 123; 10; 125; 10]%N; TLit [101]%N])) [99; 32; 65; 32; 123; 10; 125; 10]%N
  /\ brun false [123; 123]%N = None /\ brun false [125]%N = None.
Proof.
  split; [|vm_compute; split; reflexivity].
  cbn [plantuml_body removelast].
  apply (GCatCons (TLit [99; 32]%N) _ [99; 32]%N _ (GLit _)).
  apply (GCatCons (THole HIdent) _ [65]%N [32; 123; 10; 125; 10]%N).
  - apply GHole. reflexivity.
  - rewrite <- (app_nil_r [32; 123; 10; 125; 10]%N). apply (GCatCons (TLit [32; 123; 10; 125; 10]%N) [] _ [] (GLit _) GCatNil).
Qed.
Print Assumptions C29_plantuml_nonvacuous.

(* a node for every model object.  ExportWalk.export transcribes _export of model_export_to_file (processed
   set keyed by object identity = object number; compared text for text with the implementation on every
   run).  For every object store and every root in it: the node statements it writes are those of exactly the
   objects reachable from the root through attributes (plain object values and object members of lists, by
   containment or reference), each exactly once - whatever the shape of the graph (sharing, cycles, self
   references) and with the fuel the model uses. *)
Theorem C29_nodes : forall st root, root < length st ->
  NoDup (node_ids (export_stmts st root)) /\ forall k, In k (node_ids (export_stmts st root)) <-> reach st root k.
Proof.
  intros st root Hr. unfold export_stmts.
  change (node_ids (fst (export st (S (length st)) root ([], [])))) with (snd (proj (export st (S (length st)) root ([], [])))).
  rewrite export_visit. apply (visit_exact st root Hr).
Qed.
Print Assumptions C29_nodes.

(* the exported text is the header, the texts of these statements in order, and the closing brace *)
Theorem C29_doc_of_stmts : forall st header root,
  export_doc st header root = header ++ flat_map snd (export_stmts st root) ++ [10; 125; 10]%N.
Proof. reflexivity. Qed.
Print Assumptions C29_doc_of_stmts.

(* non-vacuity: a list with two objects and a string, a reference cycle 0 -> 1 -> 2 -> 0, a shared object (2)
   and an object that is not reachable (3) *)
Example C29_nodes_nonvacuous :
  let a (name : list N) (l : bool) (v : aval) := mkAttr name true true l v in
  let st := [mkObj [77]%N [a [107]%N true (VList [IObj 1; IPrim (PStr [120]%N); IObj 2])];
             mkObj [65]%N [a [114]%N false (VObj 2)];
             mkObj [66]%N [a [114]%N false (VObj 0); a [110; 97; 109; 101]%N false (VPrim (PStr [34]%N))];
             mkObj [67]%N []] in
  node_ids (export_stmts st 0) = [2; 1; 0]%nat /\ reach st 0 2 /\ ~ In 3%nat (node_ids (export_stmts st 0)).
Proof.
  cbn zeta. split; [vm_compute; reflexivity|]. split.
  - apply (reach_step _ 0 1 2).
    + apply (reach_step _ 0 0 1); [constructor|]. eexists. split; [reflexivity|]. split; [cbn; tauto | cbn; lia].
    + eexists. split; [reflexivity|]. split; [cbn; tauto | cbn; lia].
  - vm_compute. intros [H|[H|[H|[]]]]; discriminate.
Qed.
Print Assumptions C29_nodes_nonvacuous.

(* the repository path (several models, one subgraph block per model file, one processed set, references
   across files): the node statements are those of exactly the objects reachable from any of the models, each once;
   the subgraph blocks contribute no node statement of their own (their members are bare ids) *)
Theorem C29_repo_nodes : forall st roots, (forall r, In r (map fst roots) -> r < length st) ->
  NoDup (node_ids (fst (export_repo st roots)))
  /\ forall k, In k (node_ids (fst (export_repo st roots))) <-> reach_any st (map fst roots) k.
Proof.
  intros st roots Hr. change (node_ids (fst (export_repo st roots))) with (snd (proj (export_repo st roots))).
  unfold export_repo. rewrite repo_visit. apply (repo_exact st (map fst roots) Hr).
Qed.
Print Assumptions C29_repo_nodes.

(* two files: model 0 contains 1; model 2 contains 3, and 1 refers to 3 across files: 3 is written while model 0 is
   exported and not again with its own model *)
Example C29_repo_nonvacuous :
  let a (name : list N) (c l : bool) (v : aval) := mkAttr name c true l v in
  let st := [mkObj [77]%N [a [107]%N true true (VList [IObj 1])];
             mkObj [65]%N [a [114]%N false false (VObj 3)];
             mkObj [77]%N [a [107]%N true true (VList [IObj 3])];
             mkObj [66]%N []] in
  node_ids (fst (export_repo st [(0%nat, [102]%N); (2%nat, [103]%N)])) = [3; 1; 0; 2]%nat
  /\ children st 5 2 [] = [2; 3]%nat
  /\ reach_any st [0; 2]%nat 3.
Proof.
  cbn zeta. split; [vm_compute; reflexivity|]. split; [vm_compute; reflexivity|].
  exists 2%nat. split; [cbn; tauto|]. apply (reach_step _ 2 2 3); [constructor|].
  eexists. split; [reflexivity|]. split; [cbn; tauto | cbn; lia].
Qed.
Print Assumptions C29_repo_nonvacuous.

(* metamodel exports.  ExportMeta.mm_stmts transcribes metamodel_export_tofile over the class list of
   get_unified_classes for any renderer; with DotRenderer / PlantUmlRenderer it is compared text for text with
   the implementation on every generated metamodel.  has_node c: c is in the exported list (fqn not a built-in
   type name), its name is no built-in type name and it is not a match rule = the common and abstract classes of
   the grammar.  For every class list and every renderer: *)

(* every such class gets exactly one node statement (DOT) / class declaration (PlantUML) *)
Theorem C29_mm_nodes : forall cl R k c, nth_error cl k = Some c -> has_node c = true ->
  count_occ Nat.eq_dec (mnode_ids (mm_stmts cl R)) k = 1.
Proof. exact mm_node_once. Qed.
Print Assumptions C29_mm_nodes.

(* nothing else is declared, except a built-in abstract class (OBJECT) once per attribute of that type; never a
   match rule *)
Theorem C29_mm_nodes_only : forall cl R k, In k (mnode_ids (mm_stmts cl R)) ->
  exists c, nth_error cl k = Some c /\ is_match c = false /\ (has_node c = true \/ in_classes c = false).
Proof. exact mm_node_only. Qed.
Print Assumptions C29_mm_nodes_only.

(* the statement tagged as the declaration of class k is the renderer's text for class k *)
Theorem C29_mm_node_text : forall cl R k t, In (MNode k, t) (mm_stmts cl R) ->
  exists c, nth_error cl k = Some c /\ t = r_class R cl k c.
Proof. exact mm_node_text. Qed.
Print Assumptions C29_mm_node_text.

(* links and specialisation edges only join declared classes, given what textX guarantees about the class list
   (wf_mm: decidable, evaluated on every dumped list) *)
Theorem C29_mm_edges_declared : forall cl R, wf_mm cl = true -> forall a b, In (a, b) (medges (mm_stmts cl R)) ->
  In a (mnode_ids (mm_stmts cl R)) /\ In b (mnode_ids (mm_stmts cl R)).
Proof. exact mm_edges_declared. Qed.
Print Assumptions C29_mm_edges_declared.

(* the PlantUML document is @startuml, then header rest, statements and legend, then @enduml; the DOT one is the
   header (digraph ... {), statements and match-rule table, then the closing brace *)
Theorem C29_plantuml_shape : forall cl lt rows,
  mm_pu_doc cl lt rows = pu_start ++ (pu_header_rest lt ++ flat_map snd (mm_stmts cl pu_renderer) ++ pu_legend rows) ++ pu_end.
Proof. exact pu_doc_shape. Qed.
Print Assumptions C29_plantuml_shape.

Theorem C29_mm_dot_shape : forall cl rows,
  mm_dot_doc cl rows = export_header ++ (flat_map snd (mm_stmts cl dot_renderer) ++ dot_table rows) ++ dot_close.
Proof. intros cl rows. unfold mm_dot_doc, mm_doc, dot_trailer. repeat rewrite <- app_assoc. reflexivity. Qed.
Print Assumptions C29_mm_dot_shape.

(* non-vacuity: Model (common: items+=Item, o=OBJECT, t=Tok), Item (abstract: Sub), Sub (common), Tok (match),
   the built-in ID (match) and OBJECT (abstract) *)
Local Open Scope string_scope.
Example C29_mm_nonvacuous :
  let cl := [mkMCls (codes "Model") (codes "Model") KCommon
               [mkMAttr (codes "items") 1 M1s true true; mkMAttr (codes "o") 5 M1 true true; mkMAttr (codes "t") 3 M1 true false] [];
             mkMCls (codes "Item") (codes "Item") KAbstract [] [2%nat];
             mkMCls (codes "Sub") (codes "Sub") KCommon [mkMAttr (codes "name") 4 M1 true false] [];
             mkMCls (codes "Tok") (codes "Tok") KMatch [] [];
             mkMCls (codes "ID") (codes "ID") KMatch [] [];
             mkMCls (codes "OBJECT") (codes "OBJECT") KAbstract [] []] in
  wf_mm cl = true
  /\ mnode_ids (mm_stmts cl dot_renderer) = [0; 1; 2; 5]%nat
  /\ medges (mm_stmts cl pu_renderer) = [(0, 1); (1, 2)]%nat
  /\ map has_node cl = [true; true; true; false; false; false].
Proof. vm_compute. repeat split; reflexivity. Qed.
Print Assumptions C29_mm_nonvacuous.

(* PlantUML is line oriented.  With identifier names (names_ok, rows_ok) and a plain linetype (all evaluated
   on every dumped case), exactly two lines of the modelled document start with '@': by C29_plantuml_shape they
   are the first line @startuml and the last line @enduml, so each directive occurs exactly once - even when
   the legend quotes a match rule such as '@enduml' (rule texts go through dot_escape, which never produces a
   newline, and sit behind the row prefix). *)
Theorem C29_plantuml_directives_once : forall cl lt rows,
  names_ok cl = true -> rows_ok rows = true -> linetype_ok lt = true ->
  at_lines true (mm_pu_doc cl lt rows) = 2%nat.
Proof. exact pu_at_lines. Qed.
Print Assumptions C29_plantuml_directives_once.

Theorem C29_escape_no_newline : forall s, forallb (fun c => negb (N.eqb c 10)) (dot_escape s) = true.
Proof. exact dot_escape_nonl. Qed.
Print Assumptions C29_escape_no_newline.

Example C29_plantuml_directives_nonvacuous :
  let cl := [mkMCls (codes "Model") (codes "g.Model") KCommon [mkMAttr (codes "t") 1 M1 true false] [];
             mkMCls (codes "Tok") (codes "g.Tok") KMatch [] []] in
  let rows := [(codes "Tok", [64; 101; 110; 100; 117; 109; 108; 10; 64]%N)] in      (* rule text @enduml <newline> @ *)
  names_ok cl = true /\ rows_ok rows = true /\ at_lines true (mm_pu_doc cl (Some (codes "ortho")) rows) = 2%nat
  /\ at_lines true (pu_start ++ pu_end ++ pu_end) = 3%nat
  /\ names_ok [mkMCls [64%N] [64%N] KCommon [] []] = false.
Proof. vm_compute. repeat split; reflexivity. Qed.
Print Assumptions C29_plantuml_directives_nonvacuous.
