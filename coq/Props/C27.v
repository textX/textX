(* C27 — model parameters are validated and reach every loaded model.
   Model: Model/Params.v (hand-written transcription, tied to the code by the correspondence run);
   Gen/SrcParams.v (argument names of model_from_str / model_from_file, RESERVED_PARAM_NAMES, the
   built-in definitions) is regenerated from the source on every run. *)
From TxV Require Import Core.Base Gen.SrcParams Model.Params Proofs.ParamsProofs.

(* check_params accepts exactly the keyword sets that are declared ... *)
Theorem C27_check_accepts_iff_declared : forall declared kw,
  check_params declared kw = None <-> (forall k, In k (keys kw) -> In k declared).
Proof. exact check_params_none. Qed.
Print Assumptions C27_check_accepts_iff_declared.

(* ... and otherwise reports the first undeclared keyword in call order *)
Theorem C27_check_reports_first_undeclared : forall declared kw k,
  check_params declared kw = Some k <->
  exists pre v post, kw = pre ++ (k, v) :: post /\ ~ In k declared /\ (forall k', In k' (keys pre) -> In k' declared).
Proof. exact check_params_some. Qed.
Print Assumptions C27_check_reports_first_undeclared.

(* model_from_str / model_from_file (any provider configuration, any repository state, any files):
   a well-formed call is rejected with "unknown parameter" exactly when it passes a keyword that is
   neither an explicit argument of the entry point nor declared *)
Theorem C27_validated : forall w c declared opn g o kw,
  o_entry o <> ERepo ->
  bind_kwargs (o_entry o) (o_kw o) = Some kw ->
  ((exists k, snd (run_op w c declared opn g o) = ORejected k) <->
   (exists k, In k (keys (o_kw o)) /\ ~ In k (sig_of (o_entry o)) /\ ~ In k declared)).
Proof. exact validated. Qed.
Print Assumptions C27_validated.

(* the parameter definitions of a metamodel (built-ins plus any sequence of add calls) never contain
   an argument name of the entry points (Gen: every argument name is in RESERVED_PARAM_NAMES) ... *)
Theorem C27_declared_never_an_argument : forall names k,
  In k (declare builtin_store names) -> ~ In k (sig_from_str ++ sig_from_file).
Proof. intros names k Hd Hs. apply declared_exactly in Hd as [_ Hd]. rewrite (sigs_reserved k Hs) in Hd. discriminate. Qed.
Print Assumptions C27_declared_never_an_argument.

(* ... every other added name is declared, and nothing else is *)
Theorem C27_declared_exactly : forall names k,
  In k (declare builtin_store names) <->
  (In k builtin_store \/ In k names) /\ mem_str k reserved_names = false.
Proof. exact declared_exactly. Qed.
Print Assumptions C27_declared_exactly.

(* hence a call passing only declared parameters is never a TypeError, never rejected, and all its
   keywords reach **kwargs unchanged, for each of the three call shapes *)
Theorem C27_declared_accepted : forall names e call_kw,
  e <> ERepo ->
  (forall k, In k (keys call_kw) -> In k (declare builtin_store names)) ->
  bind_kwargs e call_kw = Some call_kw /\ check_params (declare builtin_store names) call_kw = None.
Proof.
  intros names e call_kw He H. split; [|apply check_params_none; exact H].
  apply bind_kwargs_unreserved; [exact He|]. intros k Hk. apply (declared_exactly names k), H, Hk.
Qed.
Print Assumptions C27_declared_accepted.

(* a refused or failed load leaves the metamodel's state (repository, models) untouched *)
Theorem C27_refused_leaves_no_trace : forall w c declared opn g o,
  is_loaded (snd (run_op w c declared opn g o)) = false -> fst (run_op w c declared opn g o) = g.
Proof. intros w c declared opn g o. destruct (run_op_ran c declared opn g o w); cbn [fst snd is_loaded]; try reflexivity; discriminate. Qed.
Print Assumptions C27_refused_leaves_no_trace.

(* One load, any import graph (cycles, diamonds, globs), any provider kind, with or without a global
   repository: the heap grows by the models this load creates; each of them that can carry attributes
   has _tx_model_params = exactly the bound keyword arguments (order and values), primitive (str/int)
   models have none; models that existed before are untouched; the returned model is either the first
   new one or — global repository only — a cached one, in which case nothing at all is created. *)
Theorem C27_everywhere : forall w c declared opn g o g' res n0 repo kw,
  run_op w c declared opn g o = (g', OLoaded res n0 repo) ->
  bind_kwargs (o_entry o) (o_kw o) = Some kw ->
  n0 = length (g_heap g) /\
  exists added, g_heap g' = g_heap g ++ added /\ Forall (good kw opn) added /\
    ((added = [] /\ g' = g /\ c_grepo c = true /\ exists f, repo_find f (g_repo g) = Some res) \/ (res = n0 /\ added <> [])).
Proof.
  intros w c declared opn g o g' res n0 repo kw R Hb. revert R.
  destruct (run_op_ran c declared opn g o w) as [| |? ? _ _ Hf|? f ? _ _ _ Hg Hf|kw' s' ? Hb' _ _ G L|]; intro R; try discriminate R.
  - injection R as _ ->. destruct Hf.
  - injection R as <- <- <- <-. split; [reflexivity|]. exists []. split; [symmetry; apply app_nil_r|]. split; [constructor|].
    left. repeat split; [exact Hg | exists f; exact Hf].
  - injection R as <- <- <- <-. rewrite Hb in Hb'. injection Hb' as <-. destruct G as [(added & Ha & Fa) _]. cbn [heap] in Ha.
    split; [reflexivity|]. exists added. split; [exact Ha|]. split; [exact Fa|].
    right. split; [reflexivity|]. intros ->. rewrite Ha, app_nil_r in L. lia.
Qed.
Print Assumptions C27_everywhere.

(* with declared parameters only: exactly the keywords of the call *)
Theorem C27_declared_everywhere : forall w c names opn g o g' res n0 repo,
  (forall k, In k (keys (o_kw o)) -> In k (declare builtin_store names)) ->
  run_op w c (declare builtin_store names) opn g o = (g', OLoaded res n0 repo) ->
  exists added, g_heap g' = g_heap g ++ added /\ Forall (good (o_kw o) opn) added.
Proof.
  intros w c names opn g o g' res n0 repo Hd H.
  assert (He : o_entry o <> ERepo).
  { revert H. destruct (run_op_ran c (declare builtin_store names) opn g o w) as [| |? ? _ _ Hf| | |]; intro R;
      try discriminate R; try assumption. injection R as _ ->. destruct Hf. }
  destruct (C27_declared_accepted names (o_entry o) (o_kw o) He Hd) as [Hb _].
  destruct (C27_everywhere _ _ _ _ _ _ _ _ _ _ _ H Hb) as (_ & added & Ha & Fa & _).
  exists added. split; assumption.
Qed.
Print Assumptions C27_declared_everywhere.

(* Histories of any length on one metamodel: at the end every model object ever created (and kept)
   carries exactly the bound keyword arguments of the operation that created it — later loads, cached
   re-loads and refused loads never change the parameters of an existing model. *)
Theorem C27_history : forall w c declared ops,
  Forall (carries ops) (g_heap (end_state w c declared 0 g_init ops)).
Proof. intros w c declared ops. apply end_state_carries; [intros i o Hi; exact Hi | constructor]. Qed.
Print Assumptions C27_history.

(* After any history the model returned by a load is either an object that existed before (a cached
   model of the global repository: nothing is created, nothing changes) or the first object this load
   creates; repository entries always denote existing objects (history invariant gok). *)
Theorem C27_result_index : forall w c declared ops o g' res n0 repo,
  run_op w c declared (length ops) (end_state w c declared 0 g_init ops) o = (g', OLoaded res n0 repo) ->
  (res < n0 /\ g' = end_state w c declared 0 g_init ops /\ c_grepo c = true) \/
  (res = n0 /\ n0 < length (g_heap g')).
Proof.
  intros w c declared ops o g' res n0 repo H. set (g := end_state w c declared 0 g_init ops) in *.
  assert (Hg : gok g) by (apply end_state_gok; intros f id Hf; discriminate).
  destruct (bind_kwargs (o_entry o) (o_kw o)) as [kw|] eqn:Hb.
  - destruct (C27_everywhere _ _ _ _ _ _ _ _ _ _ _ H Hb) as (Hn & added & Ha & _ & [(He & Hgg & Hc & f & Hf)|(Hr & Hne)]).
    + left. split; [|split; assumption]. subst n0. apply (Hg f res Hf).
    + right. split; [exact Hr|]. rewrite Ha, app_length, Hn. destruct added; [contradiction | cbn [length]; lia].
  - apply (run_op_typeerror w c declared (length ops) g o) in Hb. rewrite H in Hb. discriminate.
Qed.
Print Assumptions C27_result_index.

(* GlobalRepo.load_models_in_model_repo (documented: no validation): never rejects; every model it
   creates — whatever registered language loads it — carries exactly the bound keyword arguments; the
   metamodel's own repository is not touched.  (C27_history covers these operations too.) *)
Theorem C27_repo_never_rejects : forall w c declared opn g o k,
  o_entry o = ERepo -> snd (run_op w c declared opn g o) <> ORejected k.
Proof.
  intros w c declared opn g o k He. destruct (run_op_ran c declared opn g o w) as [|? ? _ Hne _|? ? _ _ Hf| | |]; cbn [snd]; try discriminate.
  - contradiction.
  - intros ->. destruct Hf.
Qed.
Print Assumptions C27_repo_never_rejects.

Theorem C27_repo_everywhere : forall w c declared opn g o g' n0 repo kw,
  run_op w c declared opn g o = (g', ORepo n0 repo) ->
  bind_kwargs (o_entry o) (o_kw o) = Some kw ->
  o_entry o = ERepo /\ n0 = length (g_heap g) /\ g_repo g' = g_repo g /\
  exists added, g_heap g' = g_heap g ++ added /\ Forall (good kw opn) added.
Proof.
  intros w c declared opn g o g' n0 repo kw R Hb. revert R.
  destruct (run_op_ran c declared opn g o w) as [| |? ? _ _ Hf| | |kw' s' Hb' He G]; intro R; try discriminate R.
  - injection R as _ ->. destruct Hf.
  - injection R as <- <- <-. rewrite Hb in Hb'. injection Hb' as <-. destruct G as [(added & Ha & Fa) _].
    split; [exact He|]. split; [reflexivity|]. split; [reflexivity|]. exists added. split; [exact Ha | exact Fa].
Qed.
Print Assumptions C27_repo_everywhere.

(* the model's out-of-fuel value is an artefact that no operation ever produces: the fuel given by
   run_op (number of files + 2) always suffices, whatever the import graph *)
Theorem C27_fuel_sufficient : forall w c declared opn g o,
  snd (run_op w c declared opn g o) <> OErr EFuel.
Proof.
  intros w c declared opn g o.
  destruct (run_op_ran c declared opn g o w) as [| |? ? _ _ Hf| | |]; cbn [snd]; try discriminate.
  intros ->. exact (Hf eq_refl).
Qed.
Print Assumptions C27_fuel_sufficient.

(* Non-vacuity, on the example worlds at the end of Model/Params.v. *)
(* load of a.m with project_root=5, p=0, debug=3: accepted (debug is an explicit argument), three
   models created, all carrying (project_root=5, p=0); a second load with other values returns the
   cached model and leaves every model as it was *)
Example C27_nonvacuous_loaded :
  let d := declare builtin_store [k_p; k_debug] in
  let r1 := run_op ex_world ex_cfg d 0 g_init (ex_op [(project_root_key, 5%N); (k_p, 0%N); (k_debug, 3%N)]) in
  let r2 := run_op ex_world ex_cfg d 1 (fst r1) (ex_op [(k_p, 1%N)]) in
  d = [project_root_key; k_p] /\
  snd r1 = OLoaded 0 0 (Some [(0, 0); (1, 1); (2, 2)]) /\
  map m_params (g_heap (fst r1)) = (let kw := Some [(project_root_key, 5%N); (k_p, 0%N)] in [kw; kw; kw]) /\
  snd r2 = OLoaded 0 3 (Some [(0, 0); (1, 1); (2, 2)]) /\ fst r2 = fst r1.
Proof. vm_compute. repeat split; reflexivity. Qed.
Print Assumptions C27_nonvacuous_loaded.

Example C27_nonvacuous_rejected :
  snd (run_op ex_world ex_cfg (declare builtin_store [k_p]) 0 g_init (ex_op [(k_p, 0%N); ([113]%N, 1%N); ([114]%N, 2%N)]))
  = ORejected [113]%N
  /\ snd (run_op ex_world ex_cfg (declare builtin_store [k_p]) 0 g_init (ex_op [(k_p, 0%N); ([115;101;108;102]%N, 1%N)]))
  = OTypeError.
Proof. vm_compute. split; reflexivity. Qed.
Print Assumptions C27_nonvacuous_rejected.

(* several registered languages: the parameters reach the models loaded by another metamodel (b.n1, and
   c.u which has no language and is loaded by the importing metamodel 1) and the files of the outer
   language below them (d.m), although only the entry metamodel declares p *)
Example C27_nonvacuous_languages :
  let r := run_op ex_world_langs {| c_prov := PImportURI; c_grepo := false |} (declare builtin_store [k_p]) 0 g_init
                  (ex_op [(k_p, 7%N)]) in
  snd r = OLoaded 0 0 (Some [(0, 0); (1, 1); (2, 2); (3, 3)]) /\
  map m_mm (g_heap (fst r)) = [0; 1; 1; 0] /\
  map m_params (g_heap (fst r)) = (let kw := Some [(k_p, 7%N)] in [kw; kw; kw; kw]).
Proof. vm_compute. repeat split; reflexivity. Qed.
Print Assumptions C27_nonvacuous_languages.

(* load_models_in_model_repo with an undeclared keyword: not rejected, four models created (the file
   without language is loaded by the metamodel of the model that imports it) *)
Example C27_nonvacuous_repo :
  let r := run_op ex_world_langs {| c_prov := PGlobalRepo; c_grepo := false |} builtin_store 0 g_init
                  (ex_repo_op [([113]%N, 1%N)]) in
  snd r = ORepo 0 [(1, 0); (2, 1); (3, 2); (0, 3)] /\
  map m_mm (g_heap (fst r)) = [1; 1; 0; 0] /\
  map m_params (g_heap (fst r)) = (let kw := Some [([113]%N, 1%N)] in [kw; kw; kw; kw]).
Proof. vm_compute. repeat split; reflexivity. Qed.
Print Assumptions C27_nonvacuous_repo.
