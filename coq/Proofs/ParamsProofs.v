(* C27 — proofs about Model/Params.v.  Two notions carry the file: `grows`, what a load and every part of one does
   to the state, and `ran`, what an operation does, by outcome.  The statements Props/C27.v takes about single
   operations are read off `run_op_ran`. *)
From TxV Require Import Core.Base Gen.SrcParams Model.Params.

Lemma check_params_none declared kw :
  check_params declared kw = None <-> (forall k, In k (keys kw) -> In k declared).
Proof.
  induction kw as [|[k v] r IH]; cbn [check_params keys map fst].
  - split; [intros _ k [] | reflexivity].
  - destruct (mem_str k declared) eqn:E.
    + apply mem_str_In in E. rewrite IH. split.
      * intros H k' [<-|Hk]; [exact E | exact (H k' Hk)].
      * intros H k' Hk. exact (H k' (or_intror Hk)).
    + apply mem_str_false in E. split; [discriminate|]. intro H. destruct E. apply H. left. reflexivity.
Qed.

(* the reported key is the first keyword (in call order) that is not declared *)
Lemma check_params_some declared kw k :
  check_params declared kw = Some k <->
  exists pre v post, kw = pre ++ (k, v) :: post /\ ~ In k declared /\ (forall k', In k' (keys pre) -> In k' declared).
Proof.
  split.
  - induction kw as [|[k0 v0] r IH]; cbn [check_params]; [discriminate|].
    destruct (mem_str k0 declared) eqn:E; intro H.
    + destruct (IH H) as (pre & v & post & -> & Hn & Hp).
      exists ((k0, v0) :: pre), v, post. split; [reflexivity|]. split; [exact Hn|].
      intros k' [<-|Hk]; [apply mem_str_In; exact E | exact (Hp k' Hk)].
    + injection H as <-. exists [], v0, r. split; [reflexivity|]. split; [apply mem_str_false; exact E | intros k' []].
  - intros (pre & v & post & -> & Hn & Hp). induction pre as [|[k1 v1] pre IH]; cbn [app check_params].
    + apply mem_str_false in Hn. rewrite Hn. reflexivity.
    + rewrite (proj2 (mem_str_In k1 declared) (Hp k1 (or_introl eq_refl))).
      apply IH. intros k' Hk. exact (Hp k' (or_intror Hk)).
Qed.

(* one add call: refused for a reserved name (the store stays), otherwise the name is declared *)
Lemma defs_add_In store n k :
  In k (match defs_add store n with Some st' => st' | None => store end) <->
  In k store \/ (k = n /\ mem_str n reserved_names = false).
Proof.
  unfold defs_add. destruct (mem_str n reserved_names).
  - split; [left; assumption | intros [H|[_ H]]; [exact H | discriminate]].
  - destruct (mem_str n store) eqn:E.
    + apply mem_str_In in E. split; [left; assumption | intros [H|[-> _]]; assumption].
    + rewrite in_app_iff. cbn [In]. split.
      * intros [H|[<-|[]]]; [left; exact H | right; split; reflexivity].
      * intros [H|[-> _]]; [left; exact H | right; left; reflexivity].
Qed.

Lemma declare_spec names : forall store k,
  In k (declare store names) <-> In k store \/ (In k names /\ mem_str k reserved_names = false).
Proof.
  unfold declare. induction names as [|n names IH]; intros store k; cbn [fold_left In].
  - split; [left; assumption | intros [H|[[] _]]; exact H].
  - rewrite IH, defs_add_In. split.
    + intros [[H|[-> Hr]]|[H Hr]].
      * left. exact H.
      * right. split; [left; reflexivity | exact Hr].
      * right. split; [right; exact H | exact Hr].
    + intros [H|[[<-|H] Hr]].
      * left. left. exact H.
      * left. right. split; [reflexivity | exact Hr].
      * right. split; assumption.
Qed.

Lemma declared_exactly names k :
  In k (declare builtin_store names) <->
  (In k builtin_store \/ In k names) /\ mem_str k reserved_names = false.
Proof.
  rewrite declare_spec. split.
  - intros [H|[H Hr]]; [|split; [right; exact H | exact Hr]].
    split; [left; exact H|]. apply declare_spec in H as [[]|[_ Hr]]. exact Hr.
  - intros [[H|H] Hr]; [left; exact H | right; split; assumption].
Qed.

(* facts about the translated data (re-proved whenever the source changes) *)
Lemma sigs_reserved k : In k (sig_from_str ++ sig_from_file) -> mem_str k reserved_names = true.
Proof. revert k. apply forallb_forall. vm_compute. reflexivity. Qed.

Lemma builtin_not_reserved : forallb (fun k => negb (mem_str k reserved_names)) builtin_params = true.
Proof. vm_compute. reflexivity. Qed.

Lemma project_root_builtin : mem_str project_root_key builtin_store = true.
Proof. vm_compute. reflexivity. Qed.

Lemma sig_in_reserved e k : e <> ERepo -> In k (sig_of e) -> mem_str k reserved_names = true.
Proof.
  intros He Hk. apply sigs_reserved, in_or_app.
  destruct e; cbn [sig_of] in Hk; [left | left | right | contradiction]; exact Hk.
Qed.

Lemma in_firstn_in {A} (x : A) n : forall l, In x (firstn n l) -> In x l.
Proof.
  induction n as [|n IH]; intros [|y l] H; cbn [firstn] in H; try contradiction.
  destruct H as [->|H]; [left; reflexivity | right; apply IH; exact H].
Qed.

Lemma pos_bound_sig e k : In k (pos_bound e) -> In k (sig_of e).
Proof. destruct e; cbn [pos_bound sig_of]; apply in_firstn_in. Qed.

Lemma keys_filter (p : list N -> bool) kw k :
  In k (keys (filter (fun kv => p (fst kv)) kw)) <-> In k (keys kw) /\ p k = true.
Proof.
  unfold keys. rewrite !in_map_iff. split.
  - intros (kv & <- & H). apply filter_In in H as [H Hp]. split; [exists kv; split; [reflexivity | exact H] | exact Hp].
  - intros [(kv & <- & H) Hp]. exists kv. split; [reflexivity|]. apply filter_In. split; assumption.
Qed.

Lemma bind_kwargs_keys e call_kw kw k :
  bind_kwargs e call_kw = Some kw -> (In k (keys kw) <-> In k (keys call_kw) /\ ~ In k (sig_of e)).
Proof.
  unfold bind_kwargs. destruct (existsb _ call_kw); [discriminate|]. intro H. injection H as <-.
  rewrite (keys_filter (fun k => negb (mem_str k (sig_of e)))), negb_true_iff, mem_str_false. reflexivity.
Qed.

(* keywords whose names are not reserved are passed through untouched, whatever the entry point: every explicit
   argument of an entry point has a reserved name *)
Lemma bind_kwargs_unreserved e call_kw : e <> ERepo ->
  (forall k, In k (keys call_kw) -> mem_str k reserved_names = false) -> bind_kwargs e call_kw = Some call_kw.
Proof.
  intros He H. unfold bind_kwargs.
  assert (Hs : forall kv, In kv call_kw -> mem_str (fst kv) (sig_of e) = false).
  { intros kv Hin. apply mem_str_false. intro Hk. apply (sig_in_reserved e _ He) in Hk.
    rewrite (H (fst kv) (in_map fst _ _ Hin)) in Hk. discriminate. }
  rewrite existsb_none, filter_all; [reflexivity | |].
  - intros kv Hin. rewrite (Hs kv Hin). reflexivity.
  - intros kv Hin. apply mem_str_false. intro Hk. apply pos_bound_sig, mem_str_In in Hk.
    rewrite (Hs kv Hin) in Hk. discriminate.
Qed.

Definition repo_le (a b : list (nat * nat)) : Prop := forall f, repo_find f a <> None -> repo_find f b <> None.

Lemma repo_le_refl a : repo_le a a.
Proof. intros f H. exact H. Qed.

Lemma repo_le_trans a b c : repo_le a b -> repo_le b c -> repo_le a c.
Proof. intros H1 H2 f H. apply H2, H1, H. Qed.

Lemma repo_set_find f id a f' :
  repo_find f' (repo_set f id a) = if Nat.eqb f' f then Some id else repo_find f' a.
Proof.
  induction a as [|[f0 id0] t IH]; cbn [repo_set repo_find].
  - reflexivity.
  - destruct (Nat.eqb_spec f f0) as [->|Hn]; cbn [repo_find].
    + destruct (Nat.eqb f' f0); reflexivity.
    + rewrite IH. destruct (Nat.eqb_spec f' f0) as [->|Hn2]; [|reflexivity].
      destruct (Nat.eqb_spec f0 f) as [E|_]; [congruence | reflexivity].
Qed.

Lemma repo_find_app f a b :
  repo_find f (a ++ b) = match repo_find f a with Some x => Some x | None => repo_find f b end.
Proof.
  induction a as [|[f0 id0] t IH]; cbn [app repo_find]; [reflexivity|].
  destruct (Nat.eqb f f0); [reflexivity | exact IH].
Qed.

Lemma repo_le_set f id a : repo_le a (repo_set f id a).
Proof. intros f' H. rewrite repo_set_find. destruct (Nat.eqb f' f); [discriminate | exact H]. Qed.

Lemma repo_le_register fn id a : repo_le a (repo_register_main fn id a).
Proof.
  unfold repo_register_main. destruct fn as [f|]; [|apply repo_le_refl].
  destruct (repo_find f a); [apply repo_le_refl|].
  intros f' H. rewrite repo_find_app. destruct (repo_find f' a); [discriminate | contradiction].
Qed.

(* repository entries denote existing model objects *)
Definition repo_ok (h : list mrec) (r : list (nat * nat)) : Prop :=
  forall f id, repo_find f r = Some id -> id < length h.
Definition sok (s : lstate) : Prop := repo_ok (heap s) (allm s).
Definition gok (g : gstate) : Prop := repo_ok (g_heap g) (g_repo g).

Lemma repo_ok_heap h h' r : repo_ok h r -> length h <= length h' -> repo_ok h' r.
Proof. intros H Hl f id Hf. apply H in Hf. lia. Qed.

Lemma repo_ok_set h r f id : repo_ok h r -> id < length h -> repo_ok h (repo_set f id r).
Proof.
  intros H Hid f' id' Hf. rewrite repo_set_find in Hf. destruct (Nat.eqb f' f).
  - injection Hf as <-. exact Hid.
  - exact (H f' id' Hf).
Qed.

Lemma repo_ok_register h r fn id : repo_ok h r -> id < length h -> repo_ok h (repo_register_main fn id r).
Proof.
  intros H Hid. unfold repo_register_main. destruct fn as [f|]; [|exact H].
  destruct (repo_find f r) eqn:E; [exact H|].
  intros f' id' Hf. rewrite repo_find_app in Hf. destruct (repo_find f' r) eqn:E'.
  - injection Hf as <-. exact (H f' _ E').
  - cbn [repo_find] in Hf. destruct (Nat.eqb f' f); [injection Hf as <-; exact Hid | discriminate].
Qed.

(* a model object created by operation opn of a load with (bound) keyword arguments kw *)
Definition good (kw : list (list N * N)) (opn : nat) (m : mrec) : Prop :=
  m_op m = opn /\ ((m_prim m = false /\ m_params m = Some kw) \/ (m_prim m = true /\ m_params m = None)).

(* a load, and every part of one: the heap gains models that carry the parameters, the repository gains keys and
   loses none, and its entries keep denoting existing objects *)
Definition grows (kw : list (list N * N)) (opn : nat) (s s' : lstate) : Prop :=
  (exists added, heap s' = heap s ++ added /\ Forall (good kw opn) added) /\
  repo_le (allm s) (allm s') /\ (sok s -> sok s').

Lemma grows_refl kw opn s : grows kw opn s s.
Proof.
  split; [exists []; split; [symmetry; apply app_nil_r | constructor] | split; [apply repo_le_refl | intro H; exact H]].
Qed.

Lemma grows_trans kw opn s1 s2 s3 : grows kw opn s1 s2 -> grows kw opn s2 s3 -> grows kw opn s1 s3.
Proof.
  intros ((a & Ha & Fa) & La & Ka) ((b & Hb & Fb) & Lb & Kb). split; [|split].
  - exists (a ++ b). split; [rewrite Hb, Ha, app_assoc; reflexivity | apply Forall_app; split; assumption].
  - exact (repo_le_trans _ _ _ La Lb).
  - intro H. exact (Kb (Ka H)).
Qed.

Lemma grows_length kw opn s s' : grows kw opn s s' -> length (heap s) <= length (heap s').
Proof. intros ((a & Ha & _) & _). rewrite Ha, app_length. lia. Qed.

(* the object created first, followed by whatever the rest of the load does *)
Lemma grows_push kw opn s m a s' :
  good kw opn m -> repo_le (allm s) a -> (sok s -> repo_ok (heap s ++ [m]) a) ->
  grows kw opn {| heap := heap s ++ [m]; allm := a |} s' ->
  grows kw opn s s' /\ length (heap s) < length (heap s').
Proof.
  intros Hm Ha Hok G. split.
  - refine (grows_trans _ _ _ _ _ _ G). split; [|split; [exact Ha | exact Hok]].
    exists [m]. split; [reflexivity | constructor; [exact Hm | constructor]].
  - apply grows_length in G. cbn [heap] in G. rewrite app_length in G. cbn [length] in G. lia.
Qed.

Lemma grows_register kw opn s fn id : id < length (heap s) ->
  grows kw opn s {| heap := heap s; allm := repo_register_main fn id (allm s) |}.
Proof.
  intro Hid. split; [exists []; split; [symmetry; apply app_nil_r | constructor] | split].
  - apply repo_le_register.
  - intro Hs. apply repo_ok_register; assumption.
Qed.

Definition unregb (a : list (nat * nat)) (f : nat) : bool :=
  match repo_find f a with None => true | Some _ => false end.
(* number of files of the world that have no entry in the repository *)
Definition unreg (w : list file) (a : list (nat * nat)) : nat := length (filter (unregb a) (seq 0 (length w))).

Lemma unregb_mono a b x : repo_le a b -> unregb b x = true -> unregb a x = true.
Proof.
  unfold unregb. intros H Hb. destruct (repo_find x a) eqn:Ea; [|reflexivity].
  destruct (repo_find x b) eqn:Eb; [discriminate|]. destruct (H x); [rewrite Ea; discriminate | exact Eb].
Qed.

Lemma unreg_mono w a b : repo_le a b -> unreg w b <= unreg w a.
Proof. intro H. apply filter_len_le. intros x _. apply unregb_mono. exact H. Qed.

Lemma unreg_set_lt w f id a :
  f < length w -> repo_find f a = None -> unreg w (repo_set f id a) < unreg w a.
Proof.
  intros Hf Ha. apply filter_len_lt with (x0 := f).
  - intros x _. apply unregb_mono, repo_le_set.
  - apply in_seq. lia.
  - unfold unregb. rewrite Ha. reflexivity.
  - unfold unregb. rewrite repo_set_find, Nat.eqb_refl. reflexivity.
Qed.

Lemma unreg_le_len w a : unreg w a <= length w.
Proof. unfold unreg. rewrite <- (seq_length (length w) 0) at 2. apply filter_len. Qed.

Lemma grows_unreg kw opn w s s' b : grows kw opn s s' -> unreg w (allm s) <= b -> unreg w (allm s') <= b.
Proof. intros (_ & H & _). apply Nat.le_trans, unreg_mono, H. Qed.

Lemma load_imps_step rec w prov mm fn id p i l s :
  load_imps rec w prov mm fn id p (i :: l) s = Fail ENoFile \/
  load_imps rec w prov mm fn id p (i :: l) s =
    match resolve i p with
    | None => Fail EMissing
    | Some fs => match load_files rec w (Some mm) fs {| heap := heap s; allm := repo_register_main fn id (allm s) |} with
                 | Ok s1 => load_imps rec w prov mm fn id p l s1
                 | Fail e => Fail e end end.
Proof. cbn [load_imps]. destruct prov; try (right; reflexivity). destruct fn; [right; reflexivity | left; reflexivity]. Qed.

(* any reflexive and transitive relation that the recursive load respects is respected by the loops over files
   and over patterns *)
Section Walk.
  Variable rec : nat -> nat -> file -> lstate -> res.
  Variable w : list file.
  Variable R : lstate -> lstate -> Prop.
  Hypothesis R_refl : forall s, R s s.
  Hypothesis R_trans : forall s1 s2 s3, R s1 s2 -> R s2 s3 -> R s1 s3.
  Hypothesis rec_R : forall mm f fr s s', rec mm f fr s = Ok s' -> R s s'.

  Lemma load_files_walk fs : forall dflt s s', load_files rec w dflt fs s = Ok s' -> R s s'.
  Proof.
    induction fs as [|f fs IH]; intros dflt s s' H; cbn [load_files] in H.
    - injection H as <-. apply R_refl.
    - destruct (nth_error w f) as [fr|]; [|discriminate].
      destruct (repo_find f (allm s)); [exact (IH _ _ _ H)|].
      destruct (mm_for dflt fr) as [mm|]; [|discriminate].
      destruct (rec mm f fr s) as [s1|e] eqn:E; [|discriminate].
      exact (R_trans _ _ _ (rec_R _ _ _ _ _ E) (IH _ _ _ H)).
  Qed.

  Lemma load_pats_walk l : forall s s', load_pats rec w l s = Ok s' -> R s s'.
  Proof.
    induction l as [|i l IH]; intros s s' H; cbn [load_pats] in H.
    - injection H as <-. apply R_refl.
    - destruct (i_plain i) as [fs|]; [|discriminate].
      destruct (load_files rec w None fs s) as [s1|e] eqn:E; [|discriminate].
      exact (R_trans _ _ _ (load_files_walk _ _ _ _ E) (IH _ _ H)).
  Qed.
End Walk.

Section LoopsOk.
  Variable rec : nat -> nat -> file -> lstate -> res.
  Variable w : list file.
  Hypothesis rec_sok : forall mm f fr s s', sok s -> rec mm f fr s = Ok s' -> sok s'.

  Lemma load_pats_sok l : forall s s', sok s -> load_pats rec w l s = Ok s' -> sok s'.
  Proof.
    intros s s' Hs H. revert Hs. apply (load_pats_walk rec w (fun s s' => sok s -> sok s')) with (l := l).
    - intros s0 H0. exact H0.
    - intros s1 s2 s3 H12 H23 H1. exact (H23 (H12 H1)).
    - intros mm f fr s0 s0' H0 Hs0. exact (rec_sok mm f fr s0 s0' Hs0 H0).
    - exact H.
  Qed.
End LoopsOk.

Section Loops.
  Variable rec : nat -> nat -> file -> lstate -> res.
  Variable w : list file.
  Variable kw : list (list N * N).
  Variable opn : nat.
  Hypothesis rec_grows : forall mm f fr s s', rec mm f fr s = Ok s' -> grows kw opn s s'.

  Lemma load_files_grows fs dflt s s' : load_files rec w dflt fs s = Ok s' -> grows kw opn s s'.
  Proof. exact (load_files_walk rec w _ (grows_refl kw opn) (grows_trans kw opn) rec_grows fs dflt s s'). Qed.

  Lemma load_pats_grows l s s' : load_pats rec w l s = Ok s' -> grows kw opn s s'.
  Proof. exact (load_pats_walk rec w _ (grows_refl kw opn) (grows_trans kw opn) rec_grows l s s'). Qed.

  (* id is the importing model: it exists, so registering it keeps the repository sound *)
  Lemma load_imps_grows prov mm fn id p l : forall s s',
    id < length (heap s) -> load_imps rec w prov mm fn id p l s = Ok s' -> grows kw opn s s'.
  Proof.
    induction l as [|i l IH]; intros s s' Hid H.
    - cbn [load_imps] in H. injection H as <-. apply grows_refl.
    - destruct (load_imps_step rec w prov mm fn id p i l s) as [E|E]; rewrite E in H; [discriminate|].
      destruct (resolve i p) as [fs|]; [|discriminate].
      destruct (load_files rec w (Some mm) fs _) as [s1|e] eqn:E1; [|discriminate].
      apply load_files_grows in E1.
      refine (grows_trans _ _ _ _ _ (grows_register kw opn s fn id Hid) (grows_trans _ _ _ _ _ E1 (IH _ _ _ H))).
      apply grows_length in E1. cbn [heap] in E1. lia.
  Qed.

  (* the recursive load does not run out of fuel while at most `bound` files are unregistered: then no loop does *)
  Variable bound : nat.
  Hypothesis rec_nofuel : forall mm f fr s,
    repo_find f (allm s) = None -> nth_error w f = Some fr -> unreg w (allm s) <= bound -> rec mm f fr s <> Fail EFuel.

  Lemma load_files_nofuel fs : forall dflt s, unreg w (allm s) <= bound -> load_files rec w dflt fs s <> Fail EFuel.
  Proof.
    induction fs as [|f fs IH]; intros dflt s Hb; cbn [load_files]; [discriminate|].
    destruct (nth_error w f) as [fr|] eqn:En; [|discriminate].
    destruct (repo_find f (allm s)) eqn:Ef; [apply IH; exact Hb|].
    destruct (mm_for dflt fr) as [mm|]; [|discriminate].
    destruct (rec mm f fr s) as [s1|e] eqn:E.
    - apply IH. exact (grows_unreg _ _ w _ _ _ (rec_grows _ _ _ _ _ E) Hb).
    - intro X. injection X as ->. exact (rec_nofuel mm f fr s Ef En Hb E).
  Qed.

  Lemma load_imps_nofuel prov mm fn id p l : forall s, unreg w (allm s) <= bound -> load_imps rec w prov mm fn id p l s <> Fail EFuel.
  Proof.
    induction l as [|i l IH]; intros s Hb.
    - cbn [load_imps]. discriminate.
    - destruct (load_imps_step rec w prov mm fn id p i l s) as [E|E]; rewrite E; [discriminate|].
      destruct (resolve i p) as [fs|]; [|discriminate].
      set (s1 := {| heap := heap s; allm := repo_register_main fn id (allm s) |}).
      assert (Hb1 : unreg w (allm s1) <= bound)
        by exact (Nat.le_trans _ _ _ (unreg_mono w _ _ (repo_le_register fn id (allm s))) Hb).
      destruct (load_files rec w (Some mm) fs s1) as [s2|e] eqn:E1.
      + apply IH. exact (grows_unreg _ _ w _ _ _ (load_files_grows _ _ _ _ E1) Hb1).
      + intro X. injection X as ->. exact (load_files_nofuel fs (Some mm) s1 Hb1 E1).
  Qed.

  Lemma load_pats_nofuel l : forall s, unreg w (allm s) <= bound -> load_pats rec w l s <> Fail EFuel.
  Proof.
    induction l as [|i l IH]; intros s Hb; cbn [load_pats]; [discriminate|].
    destruct (i_plain i) as [fs|]; [|discriminate].
    destruct (load_files rec w None fs s) as [s1|e] eqn:E.
    - apply IH. exact (grows_unreg _ _ w _ _ _ (load_files_grows _ _ _ _ E) Hb).
    - intro X. injection X as ->. exact (load_files_nofuel fs None s Hb E).
  Qed.
End Loops.

Lemma nth_error_snoc {A} (l : list A) x : nth_error (l ++ [x]) (length l) = Some x.
Proof. rewrite nth_error_app2 by lia. rewrite Nat.sub_diag. reflexivity. Qed.

(* every model a load creates carries the parameters, and at least one is created *)
Lemma load_new_grows fuel : forall w prov opn mm fn fr p reg s s',
  load_new fuel w prov opn mm fn fr p reg s = Ok s' -> grows p opn s s' /\ length (heap s) < length (heap s').
Proof.
  induction fuel as [|fuel IH]; intros w prov opn mm fn fr p reg s s' H; cbn [load_new] in H; [discriminate|].
  (* the object is created, then the callback may register it under its file name *)
  assert (G : forall m (cb : bool) s2, good p opn m ->
            grows p opn {| heap := heap s ++ [m];
                           allm := if cb then match fn with Some f => repo_set f (length (heap s)) (allm s) | None => allm s end
                                   else allm s |} s2 ->
            grows p opn s s2 /\ length (heap s) < length (heap s2)).
  { intros m cb s2 Hm. assert (Hl : length (heap s) < length (heap s ++ [m])) by (rewrite app_length; cbn [length]; lia).
    apply grows_push; [exact Hm | |].
    - destruct cb; [destruct fn; [apply repo_le_set|] |]; apply repo_le_refl.
    - intro Hs. assert (H0 : repo_ok (heap s ++ [m]) (allm s)) by (apply (repo_ok_heap _ _ _ Hs); lia).
      destruct cb; [destruct fn; [apply repo_ok_set; assumption|] |]; exact H0. }
  destruct (f_prim fr).
  - destruct (reg || is_loader prov); [discriminate|]. injection H as <-.
    refine (G _ false _ _ (grows_refl _ _ _)). split; [reflexivity | right; split; reflexivity].
  - assert (Hm : good p opn {| m_file := fn; m_prim := false; m_params := Some p; m_op := opn; m_mm := mm |})
      by (split; [reflexivity | left; split; reflexivity]).
    destruct (is_loader prov); [|injection H as <-; exact (G _ reg _ Hm (grows_refl _ _ _))].
    cbn [heap] in H. rewrite nth_error_snoc in H. cbn [m_params] in H.
    apply (G _ reg _ Hm). eapply load_imps_grows; [| |exact H].
    + intros mm' f fr' s0 s0' H0. exact (proj1 (IH _ _ _ _ _ _ _ _ _ _ H0)).
    + cbn [heap]. rewrite app_length. cbn [length]. lia.
Qed.

(* the recursive load of an import, as the loops take it *)
Lemma load_new_rec_grows fuel w prov opn p mm f fr s s' :
  load_new fuel w prov opn mm (Some f) fr p true s = Ok s' -> grows p opn s s'.
Proof. intro H. exact (proj1 (load_new_grows _ _ _ _ _ _ _ _ _ _ _ H)). Qed.

(* an import is loaded only while its file is unregistered, and registers it before it loads its own imports:
   the number of unregistered files bounds the depth *)
Lemma load_new_import_nofuel fuel : forall w prov opn mm p f fr s,
  repo_find f (allm s) = None -> nth_error w f = Some fr -> unreg w (allm s) <= fuel ->
  load_new fuel w prov opn mm (Some f) fr p true s <> Fail EFuel.
Proof.
  induction fuel as [|fuel IH]; intros w prov opn mm p f fr s Hf Hn Hb;
    assert (Hlt : f < length w) by (apply nth_error_Some; rewrite Hn; discriminate);
    pose proof (unreg_set_lt w f (length (heap s)) (allm s) Hlt Hf) as Hset; [lia|].
  cbn [load_new]. destruct (f_prim fr); [cbn [orb]; discriminate|].
  destruct (is_loader prov); [|discriminate].
  cbn [heap]. rewrite nth_error_snoc. cbn [m_params].
  apply load_imps_nofuel with (kw := p) (opn := opn) (bound := fuel).
  - intros mm' f' fr' s0 s0'. apply load_new_rec_grows.
  - intros mm' f' fr' s0 Hf' Hn' Hb'. apply IH; assumption.
  - cbn [allm]. lia.
Qed.

Lemma load_new_top_nofuel fuel w prov opn mm fn fr p reg s :
  length w <= fuel -> load_new (S fuel) w prov opn mm fn fr p reg s <> Fail EFuel.
Proof.
  intro Hl. cbn [load_new]. destruct (f_prim fr); [destruct (reg || is_loader prov); discriminate|].
  destruct (is_loader prov); [|discriminate].
  cbn [heap]. rewrite nth_error_snoc. cbn [m_params].
  apply load_imps_nofuel with (kw := p) (opn := opn) (bound := fuel).
  - intros mm' f' fr' s0 s0'. apply load_new_rec_grows.
  - intros mm' f' fr' s0 Hf' Hn' Hb'. apply load_new_import_nofuel; assumption.
  - pose proof (unreg_le_len w) as L. cbn [allm]. etransitivity; [apply L | exact Hl].
Qed.

Definition is_loaded (out : outcome) : bool := match out with OLoaded _ _ _ | ORepo _ _ => true | _ => false end.

(* the outcomes of an operation that is neither refused nor completed; running out of fuel is not among them *)
Definition failure (out : outcome) : Prop :=
  match out with ONotStr => True | OErr e => e <> EFuel | _ => False end.

Section Operation.
  Variables (c : cfg) (declared : list (list N)) (opn : nat) (g : gstate) (o : op).

  (* What an operation does, by outcome: the conditions under which the outcome arises and the state it leaves.
     Every statement about single operations, here and in Props/C27.v, is read off this description. *)
  Inductive ran : gstate * outcome -> Prop :=
  | RTypeError :
      bind_kwargs (o_entry o) (o_kw o) = None -> ran (g, OTypeError)
  | RRejected kw k :
      bind_kwargs (o_entry o) (o_kw o) = Some kw -> o_entry o <> ERepo -> check_params declared kw = Some k ->
      ran (g, ORejected k)
  | RFailed kw out :
      bind_kwargs (o_entry o) (o_kw o) = Some kw -> (o_entry o <> ERepo -> check_params declared kw = None) ->
      failure out -> ran (g, out)
  | RCached kw f id :
      bind_kwargs (o_entry o) (o_kw o) = Some kw -> o_entry o <> ERepo -> check_params declared kw = None ->
      c_grepo c = true -> repo_find f (g_repo g) = Some id ->
      ran (g, OLoaded id (length (g_heap g)) (Some (g_repo g)))
  | RLoaded kw s' repo :
      bind_kwargs (o_entry o) (o_kw o) = Some kw -> o_entry o <> ERepo -> check_params declared kw = None ->
      grows kw opn {| heap := g_heap g; allm := if c_grepo c then g_repo g else [] |} s' ->
      length (g_heap g) < length (heap s') ->
      ran ({| g_heap := heap s'; g_repo := if c_grepo c then allm s' else g_repo g |},
           OLoaded (length (g_heap g)) (length (g_heap g)) repo)
  | RRepo kw s' :
      bind_kwargs (o_entry o) (o_kw o) = Some kw -> o_entry o = ERepo ->
      grows kw opn {| heap := g_heap g; allm := [] |} s' ->
      ran ({| g_heap := heap s'; g_repo := g_repo g |}, ORepo (length (g_heap g)) (allm s')).

  Variable w : list file.

  (* a call that is bound and passes validation *)
  Section Accepted.
    Variable kw : list (list N * N).
    Hypothesis Hb : bind_kwargs (o_entry o) (o_kw o) = Some kw.
    Hypothesis Hne : o_entry o <> ERepo.
    Hypothesis Hc : check_params declared kw = None.

    Lemma ran_finish e prim fn fr reg :
      ran (finish_load c g e prim (load_new (fuel_for w) w (c_prov c) opn 0 fn fr kw reg
             {| heap := g_heap g; allm := if c_grepo c then g_repo g else [] |})).
    Proof.
      unfold finish_load. destruct (load_new _ _ _ _ _ _ _ _ _ _) as [s'|x] eqn:E.
      - apply load_new_grows in E as [G L]. exact (RLoaded kw s' _ Hb Hne Hc G L).
      - apply (RFailed kw _ Hb (fun _ => Hc)). intros ->. revert E. apply load_new_top_nofuel. lia.
    Qed.

    Lemma ran_cached f r :
      ran r ->
      ran match (if c_grepo c then repo_find f (g_repo g) else None) with
          | Some id => (g, OLoaded id (length (g_heap g)) (Some (g_repo g)))
          | None => r
          end.
    Proof.
      intro Hr. destruct (c_grepo c) eqn:Eg; [|exact Hr].
      destruct (repo_find f (g_repo g)) as [id|] eqn:Ef; [exact (RCached kw f id Hb Hne Hc Eg Ef) | exact Hr].
    Qed.
  End Accepted.

  Lemma run_op_ran : ran (run_op w c declared opn g o).
  Proof.
    unfold run_op. destruct (bind_kwargs (o_entry o) (o_kw o)) as [kw|] eqn:Hb; [|exact (RTypeError Hb)].
    destruct (o_entry o) as [|f|f|] eqn:He; rewrite <- He in Hb; cbn [is_str_entry andb].
    1-3: assert (Hne : o_entry o <> ERepo) by (rewrite He; discriminate).
    1-3: destruct (check_params declared kw) as [k|] eqn:Hc; [exact (RRejected kw k Hb Hne Hc)|].
    - destruct (negb (o_is_str o)); [exact (RFailed kw ONotStr Hb (fun _ => Hc) I) | apply (ran_finish kw Hb Hne Hc)].
    - destruct (negb (o_is_str o)); [exact (RFailed kw ONotStr Hb (fun _ => Hc) I)|].
      apply (ran_cached kw Hb Hne Hc), (ran_finish kw Hb Hne Hc).
    - apply (ran_cached kw Hb Hne Hc).
      destruct (nth_error w f); [apply (ran_finish kw Hb Hne Hc) | apply (RFailed kw _ Hb (fun _ => Hc)); discriminate].
    - destruct (c_prov c); try (apply (RFailed kw _ Hb); [contradiction | discriminate]).
      pose proof (load_new_rec_grows (S (length w)) w PGlobalRepo opn kw) as Hrec.
      destruct (load_pats _ _ _ _) as [s'|x] eqn:E.
      + apply load_pats_grows with (kw := kw) (opn := opn) in E; [exact (RRepo kw s' Hb He E) | exact Hrec].
      + apply (RFailed kw _ Hb); [contradiction|]. intros ->. revert E.
        apply load_pats_nofuel with (kw := kw) (opn := opn) (bound := length w); [exact Hrec | | apply unreg_le_len].
        intros mm f fr s Hf Hn Hl. apply load_new_import_nofuel; [assumption | assumption | lia].
  Qed.
End Operation.

Lemma run_op_typeerror w c declared opn g o :
  snd (run_op w c declared opn g o) = OTypeError <-> bind_kwargs (o_entry o) (o_kw o) = None.
Proof.
  destruct (run_op_ran c declared opn g o w) as [Hb|kw k Hb _ _|kw out Hb _ Hf|kw f id Hb _ _ _ _|kw s' repo Hb _ _ _ _|kw s' Hb _ _];
    cbn [snd]; rewrite Hb; split; try discriminate; try reflexivity.
  intros ->. destruct Hf.
Qed.

(* rejection happens exactly when a bound keyword is not declared, and names the first such keyword *)
Lemma run_op_rejected w c declared opn g o kw :
  o_entry o <> ERepo ->
  bind_kwargs (o_entry o) (o_kw o) = Some kw ->
  forall k, snd (run_op w c declared opn g o) = ORejected k <-> check_params declared kw = Some k.
Proof.
  intros He Hb k.
  destruct (run_op_ran c declared opn g o w)
    as [Hb'|kw' k' Hb' _ Hc|kw' out Hb' Hc Hf|kw' f id Hb' _ Hc _ _|kw' s' repo Hb' _ Hc _ _|kw' s' Hb' He' _];
    cbn [snd]; rewrite Hb in Hb'; try discriminate Hb'; try contradiction; injection Hb' as <-.
  - rewrite Hc. split; intro H; injection H as <-; reflexivity.
  - rewrite (Hc He). split; [intros ->; destruct Hf | discriminate].
  - rewrite Hc. split; discriminate.
  - rewrite Hc. split; discriminate.
Qed.

Lemma run_op_gok w c declared opn g o : gok g -> gok (fst (run_op w c declared opn g o)).
Proof.
  intro Hg. destruct (run_op_ran c declared opn g o w) as [| | | |? s' ? _ _ _ G L|? s' _ _ G]; cbn [fst]; try exact Hg.
  - unfold gok. cbn [g_heap g_repo]. destruct G as (_ & _ & K). destruct (c_grepo c).
    + exact (K Hg).
    + apply (repo_ok_heap _ _ _ Hg). lia.
  - apply (repo_ok_heap _ _ _ Hg). apply grows_length in G. exact G.
Qed.

Lemma validated w c declared opn g o kw :
  o_entry o <> ERepo ->
  bind_kwargs (o_entry o) (o_kw o) = Some kw ->
  ((exists k, snd (run_op w c declared opn g o) = ORejected k) <->
   (exists k, In k (keys (o_kw o)) /\ ~ In k (sig_of (o_entry o)) /\ ~ In k declared)).
Proof.
  intros He Hb. split.
  - intros [k H]. apply (run_op_rejected w c declared opn g o kw He Hb) in H.
    apply check_params_some in H as (pre & v & post & Hk & Hn & _). exists k.
    assert (Hin : In k (keys kw)).
    { rewrite Hk. unfold keys. rewrite map_app. apply in_or_app. right. left. reflexivity. }
    apply (bind_kwargs_keys _ _ _ k Hb) in Hin as [H1 H2]. split; [exact H1|]. split; [exact H2 | exact Hn].
  - intros (k & H1 & H2 & H3).
    destruct (check_params declared kw) as [k'|] eqn:E.
    + exists k'. apply (run_op_rejected w c declared opn g o kw He Hb). exact E.
    + exfalso. apply H3. rewrite check_params_none in E. apply E.
      apply (bind_kwargs_keys _ _ _ k Hb). split; assumption.
Qed.

(* every model object carries exactly the (bound) keyword arguments of the operation that created it *)
Definition carries (ops : list op) (m : mrec) : Prop :=
  exists o kw, nth_error ops (m_op m) = Some o /\ bind_kwargs (o_entry o) (o_kw o) = Some kw /\ good kw (m_op m) m.

Lemma end_state_carries w c declared all : forall ops opn g,
  (forall i o, nth_error ops i = Some o -> nth_error all (opn + i) = Some o) ->
  Forall (carries all) (g_heap g) -> Forall (carries all) (g_heap (end_state w c declared opn g ops)).
Proof.
  induction ops as [|o ops IH]; intros opn g Hat H; cbn [end_state]; [exact H|]. apply IH.
  - intros i o' Hi. rewrite Nat.add_succ_comm. exact (Hat (S i) o' Hi).
  - assert (Ho : nth_error all opn = Some o) by (rewrite <- (Nat.add_0_r opn); exact (Hat 0 o eq_refl)).
    assert (New : forall kw a s', bind_kwargs (o_entry o) (o_kw o) = Some kw ->
                    grows kw opn {| heap := g_heap g; allm := a |} s' -> Forall (carries all) (heap s')).
    { intros kw a s' Hb [(added & Ha & Fa) _]. rewrite Ha. apply Forall_app. split; [exact H|].
      eapply Forall_impl; [|exact Fa]. intros m Hm. exists o, kw.
      rewrite (proj1 Hm). repeat split; [exact Ho | exact Hb | apply Hm..]. }
    destruct (run_op_ran c declared opn g o w) as [| | | |kw s' ? Hb _ _ G _|kw s' Hb _ G]; cbn [fst g_heap];
      try exact H; exact (New kw _ s' Hb G).
Qed.

Lemma end_state_gok w c declared : forall ops opn g, gok g -> gok (end_state w c declared opn g ops).
Proof.
  induction ops as [|o ops IH]; intros opn g Hg; cbn [end_state]; [exact Hg|].
  apply IH. apply run_op_gok. exact Hg.
Qed.

