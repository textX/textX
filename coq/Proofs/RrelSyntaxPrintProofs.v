(* The printer instantiated by the translated __repr__ bodies (print_src) prints exactly the
   rendering of the token sequence of the token-level model:  print_src e = render (t_expr e).
   This is the obligation an edit of a __repr__ method breaks. *)
From TxV Require Import Core.Base Model.Rx Model.RrelSyntaxLib Gen.SrcRrelSyntax Model.RrelSyntax Model.RrelSyntaxText.
Require Import Lia.

Lemma srep1 c n : srep [c] n = repeat c n.
Proof. unfold srep. induction n as [|n IH]; cbn [repeat concat app]; [reflexivity | f_equal; exact IH]. Qed.

Lemma sin1 c s : sin [c] s = has c s.
Proof.
  unfold has. induction s as [|x s IH]; [reflexivity|].
  cbn [sin is_prefix existsb]. rewrite IH, andb_true_r. reflexivity.
Qed.

(* unesc, str_ok and the regex of string_value read a backslash together with the character after it:
   induction with the hypothesis for the tail and for the tail's tail *)
Lemma has_cons q c s : has q (c :: s) = (N.eqb q c || has q s)%bool.
Proof. reflexivity. Qed.

(* "q" in f.replace("\\q", "")  is  "f has an unescaped q" *)
Lemma has_sreplace_fuel q : N.eqb q 92 = false -> forall f fuel, length f < fuel ->
  has q (sreplace_fuel fuel [92%N; q] [] f) = unesc q f.
Proof.
  intros Hq f. induction f as [|c f IHf IHt] using list_ind2; intros [|fu] Hfuel; try (cbn in Hfuel; lia); [reflexivity|].
  cbn [length] in Hfuel. cbn [sreplace_fuel is_prefix unesc]. unfold c_bslash. rewrite (N.eqb_sym 92 c).
  destruct (N.eqb c 92) eqn:Hc.
  - apply N.eqb_eq in Hc. subst c. rewrite (N.eqb_sym 92 q), Hq. cbn [andb].
    destruct f as [|d f]; [destruct fu; cbn [sreplace_fuel]; rewrite has_cons, Hq; reflexivity|].
    cbn [length tl] in *. rewrite andb_true_r, (N.eqb_sym q d).
    destruct (N.eqb d q); cbn [app length skipn].
    + apply IHt. lia.
    + rewrite has_cons, Hq. apply IHf. cbn [length]. lia.
  - cbn [andb]. rewrite has_cons, (N.eqb_sym q c).
    destruct (N.eqb c q); [reflexivity|]. apply IHf. lia.
Qed.

Lemma has_sreplace q f : N.eqb q 92 = false -> has q (sreplace [92%N; q] [] f) = unesc q f.
Proof. intro Hq. unfold sreplace. apply (has_sreplace_fuel q Hq). lia. Qed.

Lemma sjoin_cons sep x y l : sjoin sep (x :: y :: l) = x ++ sep ++ sjoin sep (y :: l).
Proof. reflexivity. Qed.

Lemma render_app a b : render (a ++ b) = render a ++ render b.
Proof. apply flat_map_app. Qed.
Lemma render_cons t ts : render (t :: ts) = r_tok t ++ render ts.
Proof. reflexivity. Qed.
Lemma render_nil : render [] = [].
Proof. reflexivity. Qed.

Lemma ps_pstrs_cons p : exists x l, ps_pstrs p = x :: l.
Proof. destruct p; cbn [ps_pstrs]; eexists _, _; reflexivity. Qed.
Lemma ps_sstrs_cons s : exists x l, ps_sstrs s = x :: l.
Proof. destruct s; cbn [ps_sstrs]; eexists _, _; reflexivity. Qed.

Definition QE (e : elem) : Prop := ps_elem e = render (t_elem e).
Definition QP (p : path) : Prop :=
  sjoin [46%N] (ps_pstrs p) = render (t_path_tail p) /\ ps_path p = render (t_path p).
Definition QS (s : seq) : Prop := ps_seq s = render (t_seq s).

Lemma path_of_tail p :
  sjoin [46%N] (ps_pstrs p) = render (t_path_tail p) ->
  (forall e p', p = PCons e p' -> sjoin [46%N] (ps_pstrs p') = render (t_path_tail p')) ->
  ps_path p = render (t_path p).
Proof.
  intros Htail Hsub. unfold ps_path, repr_RRELPath.
  destruct p as [e|e p'].
  - destruct e; cbn [head_is_dots t_path]; try exact Htail.
    cbn [ps_pstrs shd hd tl sjoin t_path_tail t_elem]. cbn [ps_pstrs sjoin t_path_tail t_elem] in Htail.
    rewrite ?app_nil_r. exact Htail.
  - destruct e; cbn [head_is_dots t_path]; try exact Htail.
    cbn [ps_pstrs shd hd tl]. rewrite (Hsub _ _ eq_refl).
    rewrite render_cons. cbn [ps_elem r_tok]. unfold repr_RRELDots. rewrite srep1. reflexivity.
Qed.

Theorem print_src_all : (forall e, QE e) /\ (forall p, QP p) /\ (forall s, QS s).
Proof.
  apply rrel_mutind; unfold QE, QP, QS.
  - (* parent *)
    intro t. cbn [ps_elem t_elem]. unfold repr_RRELParent, render. cbn [flat_map r_tok kw_parent app].
    rewrite ?app_nil_r. reflexivity.
  - (* navigation *)
    intros n c f. cbn [ps_elem t_elem]. unfold repr_RRELNavigation.
    destruct f as [fx|].
    + rewrite sin1, has_sreplace by reflexivity. unfold quote_for, c_squote, c_dquote, render. cbn [flat_map r_tok].
      destruct (unesc 39%N fx); cbn [app]; rewrite <- !app_assoc; cbn [app]; rewrite ?app_nil_r; reflexivity.
    + destruct c; unfold render; cbn [flat_map r_tok app]; rewrite ?app_nil_r; reflexivity.
  - (* dots *)
    intro n. cbn [ps_elem t_elem]. unfold repr_RRELDots, render. cbn [flat_map r_tok]. rewrite srep1, ?app_nil_r. reflexivity.
  - (* brackets *)
    intros s IH. cbn [ps_elem t_elem]. unfold repr_RRELBrackets. fold (ps_seq s). rewrite IH.
    rewrite render_cons, render_app. cbn [r_tok app]. rewrite <- ?app_assoc. reflexivity.
  - (* star *)
    intros s IH. cbn [ps_elem t_elem]. unfold repr_RRELZeroOrMore, repr_RRELBrackets. fold (ps_seq s). rewrite IH.
    rewrite render_cons, render_app. cbn [r_tok app]. rewrite <- ?app_assoc. reflexivity.
  - (* P1 *)
    intros e IHe.
    assert (Htail : sjoin [46%N] (ps_pstrs (P1 e)) = render (t_path_tail (P1 e))).
    { cbn [ps_pstrs sjoin t_path_tail]. exact IHe. }
    split; [exact Htail|]. apply path_of_tail; [exact Htail | intros; discriminate].
  - (* PCons *)
    intros e IHe p [IHp _].
    assert (Htail : sjoin [46%N] (ps_pstrs (PCons e p)) = render (t_path_tail (PCons e p))).
    { cbn [ps_pstrs t_path_tail]. destruct (ps_pstrs_cons p) as [x [l E]]. rewrite E in *.
      rewrite sjoin_cons, IHe, IHp, render_app, render_cons. reflexivity. }
    split; [exact Htail|]. apply path_of_tail; [exact Htail|].
    intros e0 p0 E. inversion E; subst. exact IHp.
  - (* S1 *)
    intros p [_ IHp]. unfold ps_seq, repr_RRELSequence. cbn [ps_sstrs sjoin]. fold (ps_path p).
    rewrite IHp. destruct p as [[]|[] ?]; reflexivity.
  - (* SCons *)
    intros p [_ IHp] s IHs. unfold ps_seq, repr_RRELSequence in *. cbn [ps_sstrs]. fold (ps_path p).
    destruct (ps_sstrs_cons s) as [x [l E]]. rewrite E in *. rewrite sjoin_cons, IHp, IHs.
    transitivity (render (t_path p ++ TComma :: t_seq s)).
    + rewrite render_app, render_cons. reflexivity.
    + destruct p as [[]|[] ?]; reflexivity.
Qed.

Theorem print_src_render e : print_src e = render (t_expr e).
Proof.
  destruct print_src_all as [_ [_ HS]]. unfold print_src, repr_RRELExpression, t_expr.
  rewrite (HS (eseq e)). destruct (eflags e) as [|c fl]; cbn [struth]; [reflexivity|].
  rewrite render_cons. cbn [r_tok app]. rewrite <- !app_assoc. reflexivity.
Qed.
