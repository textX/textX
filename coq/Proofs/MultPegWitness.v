(* C02 — a dumped parser model (tools/pegdump.py + tools/mmdump.py on `Model: (a=INT | b=INT) a+=INT[/,?/];`, input
   `1 2 , 3`) as non-vacuity witness of the link theorem. *)
From TxV Require Import Core.Base Model.MultBase Model.Mult.
From TxV Require Model.Build.
From TxV Require Import Model.PegSyntax Model.Peg.

Definition wit_g : grammar :=
  (mkGrammar [mkNode KSeq [1;8] None false [77;111;100;101;108]%N true false None None;
  mkNode KSeq [2;6] None false [77;111;100;101;108]%N true false None None;
  mkNode KChoice [3;5] None false []%N false false None None;
  mkNode KSeq [4] None false [95;95;97;115;103;110;95;112;108;97;105;110]%N true false None None;
  mkNode (KRegex 0) [] None false [73;78;84]%N true false None None;
  mkNode KSeq [4] None false [95;95;97;115;103;110;95;112;108;97;105;110]%N true false None None;
  mkNode KPlus [4] (Some 7) false [95;95;97;115;103;110;95;111;110;101;111;114;109;111;114;101]%N true false None None;
  mkNode (KRegex 1) [] None false [115;101;112]%N false false None None;
  mkNode KEOF [] None false [69;79;70]%N false false None None] 0 None).
Definition wit_mm : list Build.ninfo :=
  [Build.IOther;
  Build.IRule Build.RCommon [77;111;100;101;108]%N [Build.mkAttr [97]%N Build.MPlus true false [73;78;84]%N false;Build.mkAttr [98]%N Build.M1 true false [73;78;84]%N false];
  Build.IOther;
  Build.IAsgn [97]%N Build.OpPlain;
  Build.ITerm [73;78;84]%N 0;
  Build.IAsgn [98]%N Build.OpPlain;
  Build.IAsgn [97]%N Build.OpList;
  Build.ITerm [115;101;112]%N 0;
  Build.ITerm [69;79;70]%N 0].
Definition wit_cfg : config := (mkConfig true [9;10;13;32]%N).
Definition wit_tbl := [((0,0),1);((0,2),1);((0,6),1);((1,0),0);((1,1),0);((1,2),0);((1,3),0);((1,4),1);((1,5),0);((1,6),0);((1,7),0)].
Definition wit_input : list N := [49;32;50;32;44;32;51]%N.
Definition wit_nid : nat := 1.

Definition wit_attr (s : list N) : nat := match s with [97%N] => 0 | [98%N] => 1 | _ => 9 end.
(* the converted value of a child is kept abstract in the theorem; here: its position in the input *)
Definition wit_conv (t : tree) : sval := match t with T _ p _ _ => SInt (Z.of_nat p) | NT _ _ => SNone end.
Definition wit_body : Mult.body := BSeq [BAlt [BAsg 0 OpPlain; BAsg 1 OpPlain]; BAsg 0 OpPlus].

(* for the end-to-end run on the witness (memoized run, full builder) *)
Definition wit_attrs : list Build.attr :=
  [Build.mkAttr [97]%N Build.MPlus true false [73;78;84]%N false; Build.mkAttr [98]%N Build.M1 true false [73;78;84]%N false].
Definition wit_grp : nat -> nat -> option (nat * nat) := fun _ _ => None.
Definition first_tree (r : res) : tree := match r with RTree (NT _ (t :: _)) => t | _ => T 0 0 0 false end.

