(* C33 — errors raised by processors carry the location of the processed text.
   obj_location fs m pos pos_end = {file name of model m; line/col of pos in its text; nchar = pos_end - pos};
   located_at = the same without nchar; completed e loc = e with every missing field taken from loc.
   process_fills / location_keys / match_keys are regenerated from textx/metamodel.py and
   textx/model.py on every run. *)
From TxV Require Import Core.Base Model.PegSyntax Model.Peg Model.Build.
From TxV Require Import Model.ErrLoc Gen.SrcLoc Proofs.ErrLocProofs Proofs.ErrLocSrcProofs Model.ErrLocLoad Proofs.ErrLocLoadProofs.
From TxV Require Import Proofs.PegTerm.

(* object processor raising a TextXError (through textxerror_wrap or not): every field it supplied is
   kept, every other one is the location of the processed object, including nchar *)
Theorem C33_object_textx_error : forall fs m pos pos_end wrapped e, in_text fs m pos ->
  obj_dispatch process_fills location_keys fs m pos pos_end wrapped (RaisesTx e)
  = Fails (completed e (obj_location fs m pos pos_end)).
Proof. intros fs m pos pos_end wrapped e H. exact (obj_dispatch_spec fs m pos pos_end wrapped (RaisesTx e) H). Qed.
Print Assumptions C33_object_textx_error.

(* without any supplied location the error is exactly the object's location *)
Theorem C33_object_unlocated : forall fs m pos pos_end wrapped, in_text fs m pos ->
  obj_dispatch process_fills location_keys fs m pos pos_end wrapped (RaisesTx no_loc)
  = Fails (obj_location fs m pos pos_end).
Proof. intros fs m pos pos_end wrapped H. exact (obj_dispatch_spec fs m pos pos_end wrapped (RaisesTx no_loc) H). Qed.
Print Assumptions C33_object_unlocated.

(* any other exception through textxerror_wrap becomes a TextXError at the object *)
Theorem C33_object_wrapped_any_exception : forall fs m pos pos_end, in_text fs m pos ->
  obj_dispatch process_fills location_keys fs m pos pos_end true RaisesOther
  = Fails (obj_location fs m pos pos_end).
Proof. intros fs m pos pos_end H. exact (obj_dispatch_spec fs m pos pos_end true RaisesOther H). Qed.
Print Assumptions C33_object_wrapped_any_exception.

(* match processors: file/line/col of the match; nchar only if the processor supplied it *)
Theorem C33_match_textx_error : forall fs m pos wrapped e, in_text fs m pos ->
  match_dispatch process_fills match_keys fs m pos wrapped (RaisesTx e)
  = Fails (completed e (located_at fs m pos)).
Proof. intros fs m pos wrapped e H. exact (match_dispatch_spec fs m pos wrapped (RaisesTx e) H). Qed.
Print Assumptions C33_match_textx_error.

Theorem C33_match_wrapped_any_exception : forall fs m pos, in_text fs m pos ->
  match_dispatch process_fills match_keys fs m pos true RaisesOther = Fails (located_at fs m pos).
Proof. intros fs m pos H. exact (match_dispatch_spec fs m pos true RaisesOther H). Qed.
Print Assumptions C33_match_wrapped_any_exception.

(* supplied fields are kept: field by field *)
Theorem C33_supplied_kept : forall e loc,
  (forall x, r_line e = Some x -> r_line (completed e loc) = Some x) /\
  (forall x, r_col e = Some x -> r_col (completed e loc) = Some x) /\
  (forall x, r_nchar e = Some x -> r_nchar (completed e loc) = Some x) /\
  (forall x, r_file e = Some x -> r_file (completed e loc) = Some x).
Proof. intros e loc. repeat split; intros x H; cbn; rewrite H; reflexivity. Qed.
Print Assumptions C33_supplied_kept.

(* a processor that returns, and a foreign exception without the wrapper, are not turned into errors *)
Theorem C33_other_outcomes : forall fs m pos pos_end wrapped,
  obj_dispatch process_fills location_keys fs m pos pos_end wrapped Returns = Loaded /\
  obj_dispatch process_fills location_keys fs m pos pos_end false RaisesOther = Propagates.
Proof. intros fs m pos pos_end wrapped. split; [destruct wrapped|]; reflexivity. Qed.
Print Assumptions C33_other_outcomes.

(* non-vacuity: object "xy z" (offsets 4..8) of an imported file, processor supplied only a line *)
Example C33_nonvacuous :
  let fs := [ {| s_name := Some [109]%N; s_text := [10;10]%N |};
              {| s_name := Some [98]%N; s_text := [97;98;10;10;120;121;32;122]%N |} ] in
  in_text fs 1 4 /\
  obj_dispatch process_fills location_keys fs 1 4 8 false
     (RaisesTx {| r_file := None; r_line := Some 99; r_col := None; r_nchar := None |})
  = Fails {| r_file := Some [98]%N; r_line := Some 99; r_col := Some 1; r_nchar := Some 4 |} /\
  match_dispatch process_fills match_keys fs 1 7 true RaisesOther
  = Fails {| r_file := Some [98]%N; r_line := Some 3; r_col := Some 4; r_nchar := None |}.
Proof. vm_compute. repeat split; try reflexivity. repeat constructor. Qed.
Print Assumptions C33_nonvacuous.

(* Composed with the object builder (Model/Build.v, C06_object_span): the span is not an input.
   For EVERY grammar table, metamodel table, group oracle, option setting and file list: the object that
   process_node builds from a common-rule node (NT n kids) of model m's parse tree is processed with the
   location of that NODE: line/col of tpos (start of its first terminal), nchar = tend - tpos. *)
Theorem C33_built_object_error : forall g mm grp auto use_grp fs m n kids top v top' wrapped err,
  pnode g mm (s_text (file_at fs m)) grp auto use_grp (NT n kids) top = BOk (v, top') ->
  (exists c a, info mm n = IRule RCommon c a) ->
  in_text fs m (tpos (NT n kids)) ->
  process_built_node process_fills location_keys g mm grp auto use_grp fs m (NT n kids) top wrapped (RaisesTx err)
  = Some (Fails (completed err (obj_location fs m (tpos (NT n kids)) (tend (NT n kids))))).
Proof. intros g mm grp auto use_grp fs m n kids top v top' wrapped err. exact (built_node_dispatch g mm grp auto use_grp fs m n kids top v top' wrapped (RaisesTx err)). Qed.
Print Assumptions C33_built_object_error.

Theorem C33_built_object_wrapped_exception : forall g mm grp auto use_grp fs m n kids top v top',
  pnode g mm (s_text (file_at fs m)) grp auto use_grp (NT n kids) top = BOk (v, top') ->
  (exists c a, info mm n = IRule RCommon c a) ->
  in_text fs m (tpos (NT n kids)) ->
  process_built_node process_fills location_keys g mm grp auto use_grp fs m (NT n kids) top true RaisesOther
  = Some (Fails (obj_location fs m (tpos (NT n kids)) (tend (NT n kids)))).
Proof. intros g mm grp auto use_grp fs m n kids top v top'. exact (built_node_dispatch g mm grp auto use_grp fs m n kids top v top' true RaisesOther). Qed.
Print Assumptions C33_built_object_wrapped_exception.

(* for a well-formed node nchar is the (positive) length from its first to its last terminal *)
Theorem C33_built_object_nchar : forall fs m t, wf_tree t = true ->
  exists k, r_nchar (obj_location fs m (tpos t) (tend t)) = Some k /\ 0 < k /\ tpos t + k = tend t.
Proof. exact built_object_nchar_positive. Qed.
Print Assumptions C33_built_object_nchar.

(* obj_location is C06's get_location (Model/Build.v) plus the file name *)
Theorem C33_location_is_C06_location : forall fs m p e, in_text fs m p ->
  obj_location fs m p e =
  let '(lc, n) := Build.get_location (s_text (file_at fs m)) p e in
  {| r_file := s_name (file_at fs m); r_line := Some (fst lc); r_col := Some (snd lc); r_nchar := Some n |}.
Proof.
  intros fs m p e H. unfold obj_location, Build.get_location.
  rewrite linecol_models_agree, (pos_to_linecol_exact _ _ H). reflexivity.
Qed.
Print Assumptions C33_location_is_C06_location.

(* the location is a function of the OBJECT (its model and its whole span), not of its start offset:
   two objects starting at the same offset with different ends (a parent and its first child) never
   get the same error, nor do objects at equal offsets of two differently named files.  Any scheme that
   keys locations by the start offset alone contradicts these. *)
Theorem C33_location_distinguishes_ends : forall fs m pos e1 e2 wrapped, in_text fs m pos ->
  pos <= e1 -> pos <= e2 -> e1 <> e2 ->
  obj_dispatch process_fills location_keys fs m pos e1 wrapped (RaisesTx no_loc)
  <> obj_dispatch process_fills location_keys fs m pos e2 wrapped (RaisesTx no_loc).
Proof. exact location_distinguishes_ends. Qed.
Print Assumptions C33_location_distinguishes_ends.

Theorem C33_location_distinguishes_models : forall fs m1 m2 pos e wrapped, in_text fs m1 pos -> in_text fs m2 pos ->
  s_name (file_at fs m1) <> s_name (file_at fs m2) ->
  obj_dispatch process_fills location_keys fs m1 pos e wrapped (RaisesTx no_loc)
  <> obj_dispatch process_fills location_keys fs m2 pos e wrapped (RaisesTx no_loc).
Proof. exact location_distinguishes_models. Qed.
Print Assumptions C33_location_distinguishes_models.

(* a common-rule node with terminals at 2..5 and 7..8 of the imported file "ab\ncdefgh" *)
Example C33_composed_nonvacuous :
  let fs := [ {| s_name := None; s_text := [] |};
              {| s_name := Some [98]%N; s_text := [97;98;10;99;100;101;102;103;104]%N |} ] in
  (exists v top', pnode (mkGrammar [] 0 None) [IRule RCommon [65]%N []] (s_text (file_at fs 1)) (fun _ _ => None) true false
                   (NT 0 [T 1 2 3 false; T 1 7 1 false]) None = BOk (v, top')) /\
  process_built_node process_fills location_keys (mkGrammar [] 0 None) [IRule RCommon [65]%N []] (fun _ _ => None) true false fs 1
    (NT 0 [T 1 2 3 false; T 1 7 1 false]) None false (RaisesTx no_loc)
  = Some (Fails {| r_file := Some [98]%N; r_line := Some 1; r_col := Some 3; r_nchar := Some 6 |}).
Proof. split; [eexists; eexists; vm_compute; reflexivity | vm_compute; reflexivity]. Qed.
Print Assumptions C33_composed_nonvacuous.

(* Without a numeric bound: positions of an ACCEPTED parse stay inside the text.
   orc_sane (Proofs/PegTerm.v): every regex / ignore-case match reported by the oracle lies inside the input.
   For every grammar table, config, such oracle, memo flag and fuel: a well-formed node (C06's wf_tree: non-empty
   terminals) of the parse result starts inside the text (terminal invariant of Proofs/PegInv.v). *)
Theorem C33_parsed_node_in_text : forall g c orc memo fuel input r t,
  orc_sane g input orc -> Peg.run g c orc memo fuel input = Parsed r ->
  In t (res_subtrees r) -> wf_tree t = true -> tpos t <= length input.
Proof. exact parsed_node_in_text. Qed.
Print Assumptions C33_parsed_node_in_text.

(* parser + builder + dispatch: the object built from a well-formed common-rule node of the parse of model m's
   text is processed with the location of that node; no hypothesis on positions *)
Theorem C33_parsed_object_error : forall g c orc memo fuel mm grp auto use_grp fs m r n kids top v top' wrapped err,
  orc_sane g (s_text (file_at fs m)) orc ->
  Peg.run g c orc memo fuel (s_text (file_at fs m)) = Parsed r ->
  In (NT n kids) (res_subtrees r) -> wf_tree (NT n kids) = true ->
  pnode g mm (s_text (file_at fs m)) grp auto use_grp (NT n kids) top = BOk (v, top') ->
  (exists cl a, info mm n = IRule RCommon cl a) ->
  process_built_node process_fills location_keys g mm grp auto use_grp fs m (NT n kids) top wrapped (RaisesTx err)
  = Some (Fails (completed err (obj_location fs m (tpos (NT n kids)) (tend (NT n kids))))).
Proof.
  intros g c orc memo fuel mm grp auto use_grp fs m r n kids top v top' wrapped err S R Hin W H Hc.
  exact (built_node_dispatch _ _ _ _ _ _ _ _ _ _ _ _ wrapped (RaisesTx err) H Hc (parsed_node_in_text g c orc memo fuel _ r _ S R Hin W)).
Qed.
Print Assumptions C33_parsed_object_error.

Theorem C33_parsed_object_wrapped_exception : forall g c orc memo fuel mm grp auto use_grp fs m r n kids top v top',
  orc_sane g (s_text (file_at fs m)) orc ->
  Peg.run g c orc memo fuel (s_text (file_at fs m)) = Parsed r ->
  In (NT n kids) (res_subtrees r) -> wf_tree (NT n kids) = true ->
  pnode g mm (s_text (file_at fs m)) grp auto use_grp (NT n kids) top = BOk (v, top') ->
  (exists cl a, info mm n = IRule RCommon cl a) ->
  process_built_node process_fills location_keys g mm grp auto use_grp fs m (NT n kids) top true RaisesOther
  = Some (Fails (obj_location fs m (tpos (NT n kids)) (tend (NT n kids)))).
Proof.
  intros g c orc memo fuel mm grp auto use_grp fs m r n kids top v top' S R Hin W H Hc.
  exact (built_node_dispatch _ _ _ _ _ _ _ _ _ _ _ _ true RaisesOther H Hc (parsed_node_in_text g c orc memo fuel _ r _ S R Hin W)).
Qed.
Print Assumptions C33_parsed_object_wrapped_exception.

(* grammar  M: 'a';  on the text "\n a\n": accepted, the node of M is in the result, well-formed, and its
   object is processed at line 2, column 2, nchar 1 *)
Example C33_parsed_nonvacuous :
  let g := mkGrammar [mkNode KSeq [1;3] None false [] false false None None;
                      mkNode KSeq [2] None false [77]%N true false None None;
                      mkNode (KStr [97]%N None) [] None false [] false false None None;
                      mkNode KEOF [] None false [] false false None None] 0 None in
  let fs := [ {| s_name := Some [109]%N; s_text := [10;32;97;10]%N |} ] in
  let orc := fun (_ _ : nat) => @None nat in
  let node := NT 1 [T 2 2 1 true] in
  orc_sane g (s_text (file_at fs 0)) orc /\
  (exists r, Peg.run g (mkConfig true [32;10]%N) orc false 20 (s_text (file_at fs 0)) = Parsed r /\ In node (res_subtrees r)) /\
  wf_tree node = true /\
  process_built_node process_fills location_keys g [IOther; IRule RCommon [77]%N []] (fun _ _ => None) true false fs 0
     node None false (RaisesTx no_loc)
  = Some (Fails {| r_file := Some [109]%N; r_line := Some 2; r_col := Some 2; r_nchar := Some 1 |}).
Proof.
  cbv zeta. split; [split; intros; discriminate|].
  split; [eexists; split; [vm_compute; reflexivity | cbn; left; reflexivity]|].
  split; vm_compute; reflexivity.
Qed.
Print Assumptions C33_parsed_nonvacuous.
