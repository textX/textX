(* C03 — rule kinds determine what objects a model contains.
   Model: Model/Kinds.v (transcription of _determine_rule_types, _textx_isinstance and the
   abstract / match / common branch of process_node in the repaired tree). *)
From TxV Require Import Core.Base Model.Kinds Proofs.KindsProofs Proofs.KindsInhProofs.

(* ---- rule kinds.  The multi-pass fixpoint terminates (the model's fuel - |rules|+1 passes,
   |rules|+1 nested calls per pass - is never exhausted) and gives every rule the documented
   kind: common iff it has assignments; otherwise abstract iff it references a rule that is not a
   match rule (least fixpoint, arbitrary cyclic reference graphs, aliases); otherwise match. *)
Theorem C03_kinds : forall g : list rule,
  exists s, determine_types g = Some s /\ forall x, kind_spec g x (types s x).
Proof. intro g. destruct (kinds_correct g) as [s [H1 [H2 _]]]. exists s. split; assumption. Qed.
Print Assumptions C03_kinds.

(* the documented kind is unique, so C03_kinds pins the computed kind down completely *)
Theorem C03_kind_spec_deterministic : forall g x k1 k2, kind_spec g x k1 -> kind_spec g x k2 -> k1 = k2.
Proof.
  intros g x k1 k2. destruct k1, k2; simpl; intros H1 H2; try reflexivity; exfalso.
  - destruct H2 as [_ [y [Hy Hn]]]. apply H1. apply (nm_ref g x y Hy Hn).
  - apply H1. apply nm_attrs. exact H2.
  - destruct H1 as [_ [y [Hy Hn]]]. apply H2. apply (nm_ref g x y Hy Hn).
  - destruct H1 as [H1 _]. congruence.
  - apply H2. apply nm_attrs. exact H1.
  - destruct H2 as [H2 _]. congruence.
Qed.
Print Assumptions C03_kind_spec_deterministic.

Example C03_kinds_example :
  (* A: B | C;  B: '(' A ')' | M;  C: x=INT;  M: 'm'; *)
  let g := [ {| r_attrs := false; r_body := Body (Choice [Ref 1; Ref 2]) |};
             {| r_attrs := false; r_body := Body (Choice [Seq [Term; Ref 0; Term]; Ref 3]) |};
             {| r_attrs := true; r_body := Body Term |};
             {| r_attrs := false; r_body := Body Term |} ] in
  exists s, determine_types g = Some s /\
            map (types s) [0; 1; 2; 3] = [KAbstract; KAbstract; KCommon; KMatch].
Proof. eexists. split; [vm_compute; reflexivity | reflexivity]. Qed.
Print Assumptions C03_kinds_example.

(* ---- textx_isinstance.
   Full statement of the property:
     isinstance k R = true <-> R = OBJECT \/ yields g kinds R k
   (yields: k is R or can be the first non-match reference, transitively through abstract rules).
   Proved for all grammars: the visited-set search always terminates with an answer (also on
   cyclic _tx_inh_by), OBJECT always holds, the answer is exactly reachability in the recorded
   _tx_inh_by lists, and a positive answer implies that k is R or is reachable from R through
   references of abstract rules to non-match rules (no false positives).
   Missing for the full statement: completeness of _tx_inh_by - refuted below on the
   code as it stands (known finding inh-by-incomplete); proved under wf_inh in C03_isinstance_complete. *)
Theorem C03_isinstance_iff_partial : forall g : list rule,
  exists s, determine_types g = Some s /\
    forall k, isinstance (length g) (inh s) k None = Some true /\
    forall r, exists b, isinstance (length g) (inh s) k (Some r) = Some b /\
                        (b = true <-> ireach (inh s) r k) /\
                        (b = true -> reach g (types s) r k).
Proof.
  intro g. destruct (isinstance_correct g) as [s [H1 H2]]. exists s. split; [exact H1|].
  intro k. split; [reflexivity | intro r; apply H2].
Qed.
Print Assumptions C03_isinstance_iff_partial.

(* _tx_inh_by of the result only ever lists non-match rules referenced by an abstract rule *)
Theorem C03_inh_by_sound : forall g : list rule, exists s, determine_types g = Some s /\
  forall z y, In y (inh s z) -> types s z = KAbstract /\ In y (rule_refs g z) /\ types s y <> KMatch.
Proof.
  intro g. destruct (kinds_correct g) as [s [H1 [_ H3]]]. exists s. split; [exact H1|].
  intros z y Hy. destruct (H3 z y Hy) as [A [B C]]. split; [exact A|]. split; [exact B|].
  apply is_match_false. exact C.
Qed.
Print Assumptions C03_inh_by_sound.

Example C03_isinstance_example :
  (* X: C | Y;  Y: '(' X ')' | D;  C, D, E common: _tx_inh_by is cyclic (X -> Y -> X) *)
  let g := [ {| r_attrs := false; r_body := Body (Choice [Ref 2; Ref 1]) |};
             {| r_attrs := false; r_body := Body (Choice [Seq [Term; Ref 0; Term]; Ref 3]) |};
             {| r_attrs := true; r_body := Body Term |};
             {| r_attrs := true; r_body := Body Term |};
             {| r_attrs := true; r_body := Body Term |} ] in
  exists s, determine_types g = Some s /\ inh s 0 = [2; 1] /\ inh s 1 = [0; 3] /\
            map (fun k => isinstance 5 (inh s) k (Some 0)) [2; 3; 4] = [Some true; Some true; Some false].
Proof. eexists. split; [vm_compute; reflexivity | repeat split; reflexivity]. Qed.
Print Assumptions C03_isinstance_example.

(* the recorded inheritance is incomplete: B: '(' A ')' | D yields C objects through A, but
   textx_isinstance(c_obj, B) is false   (A: B | C;  B: '(' A ')' | D;) *)
Theorem C03_isinstance_complete_refuted :
  exists (g : list rule) s r k, determine_types g = Some s /\ yields g (types s) r k /\
                                isinstance (length g) (inh s) k (Some r) = Some false.
Proof.
  exists [ {| r_attrs := false; r_body := Body (Choice [Ref 1; Ref 2]) |};
           {| r_attrs := false; r_body := Body (Choice [Seq [Term; Ref 0; Term]; Ref 3]) |};
           {| r_attrs := true; r_body := Body Term |};
           {| r_attrs := true; r_body := Body Term |} ].
  eexists. exists 1, 2. split; [vm_compute; reflexivity|].
  (* the computed state gets a name: its normal form then stands once in the proof, not in every goal *)
  set (s := Build_st _ _ _ _ _). split; [|reflexivity].
  apply yields_step with (y := 0); [reflexivity | simpl; auto|].
  apply yields_step with (y := 2); [reflexivity | simpl; auto | apply yields_refl].
Qed.
Print Assumptions C03_isinstance_complete_refuted.

(* The completeness half holds for every grammar outside the finding's class: wf_inh = no cycle
   through abstract rules (a rank decreases along references between abstract rules) and no
   sequence of an abstract rule with a skippable element that holds a non-match reference in front
   of another element holding one.  Then every rule that R can yield (first non-match
   references, transitively) passes textx_isinstance(_, R).  The classifier of the known finding
   inh-by-incomplete is the negation of wf_inh. *)
Theorem C03_isinstance_complete : forall (g : list rule) (rank : nat -> nat) (s : st),
  determine_types g = Some s -> wf_inh g (types s) rank ->
  forall r k, yields g (types s) r k -> isinstance (length g) (inh s) k (Some r) = Some true.
Proof. exact isinstance_complete. Qed.
Print Assumptions C03_isinstance_complete.

(* ... and the full statement when moreover every non-match reference of an abstract rule is a
   first one (tight: e.g. alternatives with at most one non-match reference) *)
Theorem C03_isinstance_iff : forall (g : list rule) (rank : nat -> nat) (s : st),
  determine_types g = Some s -> wf_inh g (types s) rank -> tight g (types s) ->
  forall r k, isinstance (length g) (inh s) k (Some r) = Some true <-> yields g (types s) r k.
Proof. exact isinstance_iff. Qed.
Print Assumptions C03_isinstance_iff.

(* non-vacuity: T: 'k' M A | C;  A: B? 'j' | C;  B, C common, M match - wf_inh and tight hold,
   T yields B through A *)
Example C03_isinstance_iff_example :
  let g := [ {| r_attrs := false; r_body := Body (Choice [Seq [Term; Ref 4; Ref 1]; Ref 3]) |};
             {| r_attrs := false; r_body := Body (Choice [Seq [Opt (Ref 2); Term]; Ref 3]) |};
             {| r_attrs := true; r_body := Body Term |};
             {| r_attrs := true; r_body := Body Term |};
             {| r_attrs := false; r_body := Body Term |} ] in
  exists s, determine_types g = Some s /\ wf_inh g (types s) (fun x => match x with 0 => 1 | _ => 0 end) /\
            tight g (types s) /\ yields g (types s) 0 2 /\ isinstance 5 (inh s) 2 (Some 0) = Some true.
Proof.
  eexists. split; [vm_compute; reflexivity|]. set (s := Build_st _ _ _ _ _).
  split; [|split; [|split]].
  - split.
    + intros x y Hx Hy Ky. destruct x as [|[|[|[|[|x]]]]]; try discriminate Hx.
      * destruct Hy as [<-|[<-|[<-|[]]]]; try discriminate Ky. simpl. lia.
      * destruct Hy as [<-|[<-|[]]]; discriminate Ky.
    + intros x e Hx Hb. destruct x as [|[|[|[|[|x]]]]]; try discriminate Hx; inversion Hb; reflexivity.
  - intros x c Hx Hc Hn. destruct x as [|[|[|[|[|x]]]]]; try discriminate Hx.
    + destruct Hc as [<-|[<-|[<-|[]]]]; [exfalso; apply Hn; reflexivity | simpl; auto | simpl; auto].
    + destruct Hc as [<-|[<-|[]]]; simpl; auto.
  - apply yields_step with (y := 1); [reflexivity | simpl; auto|].
    apply yields_step with (y := 2); [reflexivity | simpl; auto | apply yields_refl].
  - reflexivity.
Qed.
Print Assumptions C03_isinstance_iff_example.

(* Without `tight` the converse fails even under wf_inh: the walk leaves a sequence only after an
   element that ADDED a class, so  A: C | 'k' C D;  records [C; D] and textx_isinstance(d_obj, A) is
   true although A never yields a D object.  The recorded lists are then exactly the declarative
   early-exit walk over the final kinds (`recorded`, Model/Kinds.v; compared with _tx_inh_by on every
   generated grammar without a cycle through abstract rules, and proved equal to it for all of them:
   C03_tx_inh_by_recorded below). *)
Theorem C03_isinstance_implies_yields_refuted :
  exists (g : list rule) s rank, determine_types g = Some s /\ wf_inh g (types s) rank /\
    inh_is_recorded g s = true /\
    isinstance (length g) (inh s) 2 (Some 0) = Some true /\ ~ yields g (types s) 0 2.
Proof.
  exists [ {| r_attrs := false; r_body := Body (Choice [Ref 1; Seq [Term; Ref 1; Ref 2]]) |};
           {| r_attrs := true; r_body := Body Term |};
           {| r_attrs := true; r_body := Body Term |} ].
  eexists. exists (fun _ => 0). split; [vm_compute; reflexivity|]. set (s := Build_st _ _ _ _ _).
  split; [|split; [reflexivity | split; [reflexivity|]]].
  - split.
    + intros x y Hx Hy Ky. destruct x as [|[|[|x]]]; try discriminate Hx.
      destruct Hy as [<-|[<-|[<-|[]]]]; discriminate Ky.
    + intros x e Hx Hb. destruct x as [|[|[|x]]]; try discriminate Hx. inversion Hb. reflexivity.
  - intro H. inversion H as [|x y z Kx Hy Hyz]; subst.
    simpl in Hy. destruct Hy as [<-|[<-|[]]];
      (inversion Hyz as [|x' y' z' Kx' _ _]; subst; discriminate Kx').
Qed.
Print Assumptions C03_isinstance_implies_yields_refuted.

(* ---- the recorded lists, exactly.  For every grammar without a cycle through abstract rules the lists
   that _determine_rule_types leaves are the declarative early-exit walk over the final kinds, as lists: *)
Theorem C03_tx_inh_by_recorded : forall (g : list rule) (rank : nat -> nat) (s : st),
  determine_types g = Some s -> acyclic_abstract g (types s) rank ->
  forall x, types s x = KAbstract -> inh s x = recorded g (types s) x.
Proof. exact tx_inh_by_recorded. Qed.
Print Assumptions C03_tx_inh_by_recorded.

(* ... so textx_isinstance is exactly the closure of `recorded`: the code's conformance relation is
   specified, not only bounded (yields <= recorded_reach <= reach; equality with yields under tight) *)
Theorem C03_isinstance_exact : forall (g : list rule) (rank : nat -> nat) (s : st),
  determine_types g = Some s -> acyclic_abstract g (types s) rank ->
  forall r k, isinstance (length g) (inh s) k (Some r) = Some true <-> recorded_reach g (types s) r k.
Proof. exact isinstance_exact. Qed.
Print Assumptions C03_isinstance_exact.

Theorem C03_yields_recorded_reach : forall (g : list rule) (rank : nat -> nat) (s : st),
  determine_types g = Some s -> wf_inh g (types s) rank ->
  forall r k, (yields g (types s) r k -> recorded_reach g (types s) r k) /\
              (tight g (types s) -> recorded_reach g (types s) r k -> yields g (types s) r k).
Proof.
  intros g rank s Hs Hwf r k. split; [apply (yields_recorded g (types s) (proj2 Hwf))|].
  intros Ht H. apply (isinstance_iff g rank s Hs Hwf Ht). apply (isinstance_exact g rank s Hs (proj1 Hwf)). exact H.
Qed.
Print Assumptions C03_yields_recorded_reach.

Example C03_isinstance_exact_example :
  (* A: C | 'k' C D;  records [C; D]: D is in the closure of `recorded` although A never yields D *)
  let g := [ {| r_attrs := false; r_body := Body (Choice [Ref 1; Seq [Term; Ref 1; Ref 2]]) |};
             {| r_attrs := true; r_body := Body Term |};
             {| r_attrs := true; r_body := Body Term |} ] in
  exists s, determine_types g = Some s /\ acyclic_abstract g (types s) (fun _ => 0) /\
            recorded g (types s) 0 = [1; 2] /\ recorded_reach g (types s) 0 2.
Proof.
  eexists. split; [vm_compute; reflexivity|]. set (s := Build_st _ _ _ _ _). split; [|split; [reflexivity|]].
  - intros x y Hx Hy Ky. destruct x as [|[|[|x]]]; try discriminate Hx.
    destruct Hy as [<-|[<-|[<-|[]]]]; discriminate Ky.
  - apply rreach_step with (y := 2); [reflexivity | simpl; auto | apply rreach_refl].
Qed.
Print Assumptions C03_isinstance_exact_example.

(* with a cycle through abstract rules the lists are NOT the walk over the final kinds
   (A: B | C;  B: '(' A ')' | D;  B holds [D], the walk gives [A; D]): the known finding *)
Theorem C03_tx_inh_by_recorded_cyclic_refuted :
  exists (g : list rule) s x, determine_types g = Some s /\ types s x = KAbstract /\
                               inh s x <> recorded g (types s) x.
Proof.
  exists [ {| r_attrs := false; r_body := Body (Choice [Ref 1; Ref 2]) |};
           {| r_attrs := false; r_body := Body (Choice [Seq [Term; Ref 0; Term]; Ref 3]) |};
           {| r_attrs := true; r_body := Body Term |};
           {| r_attrs := true; r_body := Body Term |} ].
  eexists. exists 1. split; [vm_compute; reflexivity|]. split; [reflexivity|]. vm_compute. discriminate.
Qed.
Print Assumptions C03_tx_inh_by_recorded_cyclic_refuted.

(* ---- objects.  Whatever the parse tree and the kinds, every object that process_node creates
   is an instance of a rule whose kind is common (an abstract rule's class is never
   instantiated, a match rule never gives an object). *)
Theorem C03_only_common_instances : forall (K : nat -> kind) (t : tree),
  Forall (fun c => K c = KCommon) (objs (process K t)).
Proof. intros K t. apply Forall_forall. intros c Hc. apply (objs_from_nodes K t c Hc). Qed.
Print Assumptions C03_only_common_instances.

(* ... and every object is created for a NonTerminal node of that rule in the parse tree: nothing
   is instantiated that the parse did not produce *)
Theorem C03_objects_from_nodes : forall (K : nat -> kind) (t : tree) (c : nat),
  In c (objs (process K t)) -> K c = KCommon /\ In c (node_rules t).
Proof. exact objs_from_nodes. Qed.
Print Assumptions C03_objects_from_nodes.

Theorem C03_match_plain : forall K r kids, K r = KMatch -> exists s, process K (TN r kids) = VStr s.
Proof. intros K r kids H. eexists. apply process_match. exact H. Qed.
Print Assumptions C03_match_plain.

(* ---- result of an abstract node: the first node of an abstract / common rule, whatever
   terminals and match-rule nodes precede it and whatever follows *)
Theorem C03_abstract_result : forall K r pre r' ks post,
  K r = KAbstract -> (forall p, In p pre -> plain_node K p) -> K r' <> KMatch ->
  process K (TN r (pre ++ TN r' ks :: post)) = process K (TN r' ks).
Proof.
  intros K r pre r' ks post Hr Hp Hk. apply abstract_first_nonmatch; [exact Hr | |].
  - intros p Hin. destruct (Hp p Hin) as [[s ->]|[q [qs [-> Hq]]]]; [reflexivity|].
    rewrite nonmatch_node_TN, Hq. reflexivity.
  - rewrite nonmatch_node_TN. apply negb_true_iff. apply is_match_false. exact Hk.
Qed.
Print Assumptions C03_abstract_result.

Example C03_abstract_result_example :
  (* Abs: 'k' M C | C on `k a b c 5`: the C object, not the text of M *)
  let K := fun x => match x with 0 => KAbstract | 1 => KMatch | _ => KCommon end in
  process K (TN 0 [TT [107]; TN 1 [TT [97]; TT [98]]; TN 2 [TT [99]; TA [TT [53]]]])%N = VObj 2 [VStr [53]%N].
Proof. reflexivity. Qed.
Print Assumptions C03_abstract_result_example.

(* ... or the concatenated text when the alternative matched terminals only *)
Theorem C03_abstract_concat_partial : forall K r kids,
  K r = KAbstract -> (forall p, In p kids -> exists s, p = TT s) ->
  process K (TN r kids) = VStr (flat (TN r kids)).
Proof.
  intros K r kids Hr Ht. rewrite (process_abstract K r _ Hr). unfold abstract_result.
  destruct kids as [|k1 [|k2 l]].
  - reflexivity.
  - destruct (Ht k1 (or_introl eq_refl)) as [s ->]. simpl. rewrite app_nil_r. reflexivity.
  - rewrite (pick_nm_none_terms K _ Ht), (first_nt_none _ Ht). reflexivity.
Qed.
Print Assumptions C03_abstract_concat_partial.

Example C03_abstract_concat_example :
  process (fun _ => KAbstract) (TN 0 [TT [113]; TT [52]; TT [119]])%N = VStr [113; 52; 119]%N.
Proof. reflexivity. Qed.
Print Assumptions C03_abstract_concat_example.

(* Full statement (concatenation whenever the alternative holds only terminals and match-rule
   nodes) is refuted: with a match-rule node present its value alone is the result
   (Abs: M N | C on `a b x`: 'ab'; asserted by tests/functional/regressions/test_issue166.py;
   known finding abstract-all-match-first-node). *)
Theorem C03_abstract_concat_refuted :
  exists K r kids, K r = KAbstract /\ (forall p, In p kids -> nonmatch_node K p = false) /\
                   process K (TN r kids) <> VStr (flat (TN r kids)).
Proof.
  exists (fun x => match x with 0 => KAbstract | _ => KMatch end), 0,
         [TN 1 [TT [97]; TT [98]]; TN 2 [TT [120]]]%N.
  split; [reflexivity|]. split.
  - intros p [<-|[<-|[]]]; reflexivity.
  - vm_compute. discriminate.
Qed.
Print Assumptions C03_abstract_concat_refuted.
