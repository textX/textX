(* C10 — the FQN scope provider resolves only genuine qualified names.

   Model: Model/Fqn.v (find_obj / _find_obj_fqn / _find_referenced_obj of textx/scoping/providers.py over
   object tables in __dict__ order); the attribute filter of find_obj is Gen.SrcFqn.src_walked, translated
   from the current source on every run, so every theorem below is re-proved against it.

   wf_model m   : every object's __dict__ consists of declared attributes (ordinary names, not callable),
                  the `parent` link and `_tx_*` entries; parents precede children in the table (decidable,
                  evaluated on every dumped implementation model by the check).
   contains / chain / scope_at / resolves_to / unresolvable : the specification (Model/Fqn.v). *)
From TxV Require Import Core.Base Model.FqnDefs Gen.SrcFqn Model.Fqn Model.FqnExt Model.FqnWitness Proofs.FqnProofs.

(* Sibling names unique: a dotted name resolves to t exactly when t ends the chain of named, contained
   objects matching its parts that starts at the nearest of [referrer, parent, grand-parent, ...] having
   such a chain ending in an object of the target type. *)
Theorem C10_fqn : forall conf m r text T t,
  wf_model m = true -> r < length m -> siblings_unique m ->
  (fqn_resolve conf m r text T = Found t <-> resolves_to conf m r (split_dots text) T t).
Proof. intros conf m r text T t Hwf Hr Hu. apply (fqn_resolve_wf conf m r text T Hwf Hr (siblings_unique_on m _ Hu)). Qed.
Print Assumptions C10_fqn.

(* ... and is reported unknown exactly when no scope has such a chain. *)
Theorem C10_fqn_unknown : forall conf m r text T,
  wf_model m = true -> r < length m -> siblings_unique m ->
  (fqn_resolve conf m r text T = Unknown <-> unresolvable conf m r (split_dots text) T).
Proof. intros conf m r text T Hwf Hr Hu. apply (fqn_resolve_wf conf m r text T Hwf Hr (siblings_unique_on m _ Hu)). Qed.
Print Assumptions C10_fqn_unknown.

(* The same under the weaker hypothesis that sibling names are unique for the names occurring in the text. *)
Theorem C10_fqn_on : forall conf m r text T t,
  wf_model m = true -> r < length m -> unique_on m (split_dots text) ->
  (fqn_resolve conf m r text T = Found t <-> resolves_to conf m r (split_dots text) T t).
Proof. intros conf m r text T t Hwf Hr Hu. apply (fqn_resolve_wf conf m r text T Hwf Hr Hu). Qed.
Print Assumptions C10_fqn_on.

Theorem C10_fqn_unknown_on : forall conf m r text T,
  wf_model m = true -> r < length m -> unique_on m (split_dots text) ->
  (fqn_resolve conf m r text T = Unknown <-> unresolvable conf m r (split_dots text) T).
Proof. intros conf m r text T Hwf Hr Hu. apply (fqn_resolve_wf conf m r text T Hwf Hr Hu). Qed.
Print Assumptions C10_fqn_unknown_on.

(* The search always terminates with one of the two answers (the fuel of the model is never exhausted). *)
Theorem C10_fqn_total : forall conf m r text T,
  wf_model m = true -> r < length m -> fqn_resolve conf m r text T <> OutOfFuel.
Proof. intros conf m r text T Hwf. apply fqn_total_w. apply wf_parents_decrease. exact Hwf. Qed.
Print Assumptions C10_fqn_total.

(* Without any uniqueness assumption: whatever is resolved ends a genuine containment chain from the referrer
   or one of its ancestors -- never a walk through `parent` or a non-containment reference. *)
Theorem C10_only_genuine : forall conf m r text T t,
  wf_model m = true -> fqn_resolve conf m r text T = Found t ->
  exists i s, scope_at m r i s /\ chain m s (split_dots text) t /\ conforms conf m t T = true.
Proof.
  intros conf m r text T t Hwf H. destruct (fqn_genuine_w conf m r text T t H) as (i & s & Hs & Hch & Hc).
  exists i, s. split; [exact Hs|]. split; [apply chain_w_wf; assumption | exact Hc].
Qed.
Print Assumptions C10_only_genuine.

(* The answer does not depend on the values of non-containment references (which of them are already
   resolved, and to what). *)
Theorem C10_references_irrelevant : forall conf m m' r text T,
  wf_model m = true -> wf_model m' = true -> erase_refs m = erase_refs m' ->
  fqn_resolve conf m r text T = fqn_resolve conf m' r text T.
Proof.
  intros conf m m' r text T H1 H2 E.
  rewrite <- (fqn_resolve_erase conf m r text T H1), <- (fqn_resolve_erase conf m' r text T H2), E. reflexivity.
Qed.
Print Assumptions C10_references_irrelevant.

(* Every dotted text over dot-free names denotes exactly its parts. *)
Theorem C10_dotted_text : forall parts,
  parts <> [] -> Forall (fun p => ~ In 46%N p) parts -> split_dots (join_dots parts) = parts.
Proof.
  induction parts as [|p rest IH]; [intros H; contradiction|].
  intros _ HF. inversion HF as [|x l Hp Hrest]; subst.
  destruct rest as [|p2 rest].
  - cbn [join_dots]. apply split_nodot. exact Hp.
  - change (join_dots (p :: p2 :: rest)) with (p ++ 46%N :: join_dots (p2 :: rest)).
    rewrite split_app by exact Hp. rewrite IH; [reflexivity | discriminate | exact Hrest].
Qed.
Print Assumptions C10_dotted_text.

(* decidable sibling uniqueness used by the check and the examples *)
Theorem C10_unique_b_sound : forall m, unique_b m = true -> siblings_unique m.
Proof.
  unfold unique_b. intros m H o c1 c2 nm H1 H2 N1 N2. rewrite forallb_forall in H.
  destruct (contains_children m o c1 H1) as (ob & G & I1).
  destruct (contains_children m o c2 H2) as (ob' & G' & I2).
  rewrite G in G'. injection G' as <-.
  refine (uniq_names_sound m (children_of ob) _ c1 c2 nm I1 I2 N1 N2).
  apply H. unfold get in G. exact (nth_error_In _ _ G).
Qed.
Print Assumptions C10_unique_b_sound.

(* The filter before the repair (walk every instance attribute) violates the statement: `c.p.c` resolves
   through c.parent, `p.d.c` through the resolved reference d.base (both replayed on the implementation
   by corpus/C10; fixed in textX). *)
Theorem C10_old_filter_refuted_parent_link :
  wf_model w1 = true /\ siblings_unique w1 /\ 3 < length w1 /\
  fqn_resolve_with old_walked wconf w1 3 t_cpc 2 = Found 2 /\ unresolvable wconf w1 3 (split_dots t_cpc) 2.
Proof.
  assert (wf_model w1 = true) as Hwf by (vm_compute; reflexivity).
  assert (siblings_unique w1) as Hu by (apply C10_unique_b_sound; vm_compute; reflexivity).
  assert (3 < length w1) as Hr by (vm_compute; lia).
  split; [exact Hwf|]. split; [exact Hu|]. split; [exact Hr|]. split; [vm_compute; reflexivity|].
  apply (C10_fqn_unknown wconf w1 3 t_cpc 2 Hwf Hr Hu). vm_compute. reflexivity.
Qed.
Print Assumptions C10_old_filter_refuted_parent_link.

Theorem C10_old_filter_refuted_reference :
  wf_model w2 = true /\ siblings_unique w2 /\ 4 < length w2 /\
  fqn_resolve_with old_walked wconf w2 4 t_pdc 5 = Found 2 /\ unresolvable wconf w2 4 (split_dots t_pdc) 5.
Proof.
  assert (wf_model w2 = true) as Hwf by (vm_compute; reflexivity).
  assert (siblings_unique w2) as Hu by (apply C10_unique_b_sound; vm_compute; reflexivity).
  assert (4 < length w2) as Hr by (vm_compute; lia).
  split; [exact Hwf|]. split; [exact Hu|]. split; [exact Hr|]. split; [vm_compute; reflexivity|].
  apply (C10_fqn_unknown wconf w2 4 t_pdc 5 Hwf Hr Hu). vm_compute. reflexivity.
Qed.
Print Assumptions C10_old_filter_refuted_reference.

(* ---- non-vacuity: the hypotheses hold on real dumped models and the conclusions are not trivial *)
(* C10_fqn / C10_fqn_on / C10_only_genuine / C10_fqn_total: `c` from class d resolves through the parent scope p *)
Example C10_nonvacuous_resolves :
  wf_model w2 = true /\ unique_b w2 = true /\ 3 < length w2 /\ fqn_resolve wconf w2 3 [99]%N 2 = Found 2
  /\ fqn_resolve wconf w2 4 [112;46;99]%N 5 = Found 2.
Proof. vm_compute. repeat split; try reflexivity; lia. Qed.
Print Assumptions C10_nonvacuous_resolves.

(* C10_fqn_unknown / C10_fqn_unknown_on: with the current filter the two spurious names are unknown *)
Example C10_nonvacuous_unknown :
  wf_model w1 = true /\ unique_b w1 = true /\ fqn_resolve wconf w1 3 t_cpc 2 = Unknown
  /\ fqn_resolve wconf w2 4 t_pdc 5 = Unknown.
Proof. vm_compute. repeat split; reflexivity. Qed.
Print Assumptions C10_nonvacuous_unknown.

(* C10_references_irrelevant: two different resolution states of the same model *)
Example C10_nonvacuous_references :
  wf_model w2 = true /\ wf_model w2' = true /\ erase_refs w2 = erase_refs w2' /\ w2 <> w2'.
Proof. split; [vm_compute; reflexivity|]. split; [vm_compute; reflexivity|]. split; [vm_compute; reflexivity|]. discriminate. Qed.
Print Assumptions C10_nonvacuous_references.

Example C10_nonvacuous_dotted : split_dots (join_dots [[112];[100];[99]]%N) = [[112];[100];[99]]%N /\ join_dots [[112];[100];[99]]%N = t_pdc.
Proof. vm_compute. split; reflexivity. Qed.
Print Assumptions C10_nonvacuous_dotted.

(* ---- what C10 means for objects that are not (only) textX objects.  The provider walks an attribute
   exactly when its name is public (no `__`/`_tx_` prefix, not `parent`), its value is not callable and, if
   it is a declared textX attribute, it is a containment attribute.  So for plain Python objects and for
   attributes added by user code "contained" means: value of any public, non-callable attribute. *)
Theorem C10_walked_meaning : forall a, src_walked a = walked_meaning a.
Proof. exact src_walked_meaning. Qed.
Print Assumptions C10_walked_meaning.

(* With `contains_w` (value of a walked attribute) in place of `contains`, C10_fqn holds for EVERY object
   table whose parent links point to earlier objects -- no assumption on the attributes at all. *)
Theorem C10_fqn_walked : forall conf m r text T t,
  parents_decrease m = true -> r < length m -> unique_on_w m (split_dots text) ->
  (fqn_resolve conf m r text T = Found t <-> resolves_g m (good_w conf m (split_dots text) T) r t).
Proof. intros conf m r text T t Hp Hr Hu. apply (fqn_resolve_w conf m r text T Hp Hr Hu). Qed.
Print Assumptions C10_fqn_walked.

Theorem C10_fqn_walked_unknown : forall conf m r text T,
  parents_decrease m = true -> r < length m -> unique_on_w m (split_dots text) ->
  (fqn_resolve conf m r text T = Unknown <-> unresolvable_g m (good_w conf m (split_dots text) T) r).
Proof. intros conf m r text T Hp Hr Hu. apply (fqn_resolve_w conf m r text T Hp Hr Hu). Qed.
Print Assumptions C10_fqn_walked_unknown.

Theorem C10_fqn_walked_total : forall conf m r text T,
  parents_decrease m = true -> r < length m -> fqn_resolve conf m r text T <> OutOfFuel.
Proof. exact fqn_total_w. Qed.
Print Assumptions C10_fqn_walked_total.

(* no hypothesis at all: whatever is found ends a chain over walked attributes from the referrer or an ancestor *)
Theorem C10_walked_genuine : forall conf m r text T t,
  fqn_resolve conf m r text T = Found t ->
  exists i s, scope_at m r i s /\ chain_w m s (split_dots text) t /\ conforms conf m t T = true.
Proof. exact fqn_genuine_w. Qed.
Print Assumptions C10_walked_genuine.

(* for textX objects the two notions coincide *)
Theorem C10_walked_is_containment : forall m o c, wf_model m = true -> (contains_w m o c <-> contains m o c).
Proof. exact contains_w_wf. Qed.
Print Assumptions C10_walked_is_containment.

(* ---- FQNImportURI / FQNGlobalRepo (ImportURI.__call__ around FQN): the same search is started at the
   referring object, then at every local model, then at every builtin model (order translated from the
   source); the answer is that of the first start at which the single-model specification resolves. *)
Theorem C10_import_order : forall r locals builtins, search_starts r locals builtins = r :: locals ++ builtins.
Proof. intros r locals builtins. unfold search_starts, import_order. cbn [flat_map]. rewrite app_nil_r. reflexivity. Qed.
Print Assumptions C10_import_order.

Theorem C10_import_fqn : forall conf m r locals builtins text T t,
  wf_model m = true -> Forall (fun s => s < length m) (r :: locals ++ builtins) -> siblings_unique m ->
  (fqn_import_resolve conf m r locals builtins text T = Found t <->
   multi_resolves (fun s t => resolves_to conf m s (split_dots text) T t)
                  (fun s => unresolvable conf m s (split_dots text) T) (r :: locals ++ builtins) t).
Proof.
  intros conf m r locals builtins text T t Hwf Hall Hu. unfold fqn_import_resolve. rewrite C10_import_order.
  apply first_found_found. intros s Hs. rewrite Forall_forall in Hall.
  destruct (fqn_resolve_wf conf m s text T Hwf (Hall s Hs) (siblings_unique_on m _ Hu)) as [Hf Hk].
  split; [exact Hf|]. split; [exact Hk | exact (C10_fqn_total conf m s text T Hwf (Hall s Hs))].
Qed.
Print Assumptions C10_import_fqn.

Theorem C10_import_unknown : forall conf m r locals builtins text T,
  wf_model m = true -> Forall (fun s => s < length m) (r :: locals ++ builtins) -> siblings_unique m ->
  (fqn_import_resolve conf m r locals builtins text T = Unknown <->
   multi_unresolvable (fun s => unresolvable conf m s (split_dots text) T) (r :: locals ++ builtins)).
Proof.
  intros conf m r locals builtins text T Hwf Hall Hu. unfold fqn_import_resolve. rewrite C10_import_order.
  apply first_found_unknown. intros s Hs. rewrite Forall_forall in Hall.
  split; [exact (C10_fqn_unknown conf m s text T Hwf (Hall s Hs) Hu) | exact (C10_fqn_total conf m s text T Hwf (Hall s Hs))].
Qed.
Print Assumptions C10_import_unknown.

(* ---- FQN(scope_redirection_logic=...) *)
(* a callback that always answers [] changes nothing: all theorems above transfer *)
Theorem C10_redirect_conservative : forall conf redir f m r text T,
  (forall p, redir p = RList []) ->
  fqn_resolve_r conf redir (S f) m r text T = lift_result (fqn_resolve conf m r text T).
Proof. intros conf redir f m r text T H. unfold fqn_resolve_r, fqn_resolve, fqn_resolve_with. apply find_referenced_r_empty. exact H. Qed.
Print Assumptions C10_redirect_conservative.

(* no hypothesis: whatever is resolved ends a chain of named objects, each contained in the previous one or in
   an object the callback lets stand in for it -- never reached through `parent` or a non-containment reference. *)
Theorem C10_redirect_genuine : forall conf redir rf m r text T t,
  fqn_resolve_r conf redir rf m r text T = XFound t ->
  exists i s, scope_at m r i s /\ chain_r redir r m s (split_dots text) t /\ conforms conf m t T = true.
Proof. intros conf redir rf m r text T t. unfold fqn_resolve_r. apply find_referenced_r_sound. Qed.
Print Assumptions C10_redirect_genuine.

(* C10_fqn with redirection, for callbacks that answer lists (never Postponed) whose elements are not redirected
   themselves (as follow_loaded_models_scope_redirection_logic of FQNImportURI(importAs=True): the loaded models):
   with names unique among contained and stand-in objects together, the provider resolves a dotted name exactly to the
   end of the chain (over `reach`) from the nearest scope that has a well-typed one, answers unknown exactly when there is
   none, and never postpones or runs out of the model's fuel.
   PARTIAL with respect to arbitrary callbacks: nested (acyclic) redirections and Postponed answers are covered by
   C10_redirect_genuine only. *)
Theorem C10_redirect_fqn_partial : forall conf redir f m r text T,
  parents_decrease m = true -> r < length m ->
  (forall p, exists l, redir p = RList l) -> (forall p l x, redir p = RList l -> In x l -> redir x = RList []) ->
  unique_on_r redir r m (split_dots text) ->
  (forall t, fqn_resolve_r conf redir (S (S f)) m r text T = XFound t <->
             resolves_g m (good_r conf redir r m T (split_dots text)) r t) /\
  (fqn_resolve_r conf redir (S (S f)) m r text T = XUnknown <->
   unresolvable_g m (good_r conf redir r m T (split_dots text)) r) /\
  fqn_resolve_r conf redir (S (S f)) m r text T <> XOutOfFuel /\
  fqn_resolve_r conf redir (S (S f)) m r text T <> XPostponed.
Proof.
  intros conf redir f m r text T Hp Hr Hlist Hflat Hu. unfold fqn_resolve_r.
  rewrite (find_referenced_r_outward conf redir r m Hlist Hflat T (split_dots text) f).
  apply outward_exact_lifted; [|exact Hp | lia].
  exact (F_r_spec conf redir r m Hlist Hflat T (split_dots text) Hu f).
Qed.
Print Assumptions C10_redirect_fqn_partial.

(* ---- non-vacuity of the extensions *)
Example C10_nonvacuous_import :
  wf_model w3 = true /\ unique_b w3 = true /\ Forall (fun s => s < length w3) (3 :: [5] ++ []) /\
  fqn_resolve wconf w3 3 t_pe 2 = Unknown /\ fqn_import_resolve wconf w3 3 [5] [] t_pe 2 = Found 7 /\
  fqn_import_resolve wconf w3 3 [5] [] [99]%N 2 = Found 2 /\ fqn_import_resolve wconf w3 3 [5] [] t_pdc 2 = Unknown.
Proof. vm_compute. repeat split; try reflexivity; repeat constructor. Qed.
Print Assumptions C10_nonvacuous_import.

Example C10_nonvacuous_redirect :
  fqn_resolve_r wconf w_redir 3 w3 3 t_cpe 2 = XFound 7 /\ fqn_resolve wconf w3 3 t_cpe 2 = Unknown /\
  fqn_resolve_r wconf (fun _ => RList []) 3 w3 3 t_cpe 2 = XUnknown.
Proof. vm_compute. repeat split; reflexivity. Qed.
Print Assumptions C10_nonvacuous_redirect.

Example C10_nonvacuous_redirect_hyps :
  parents_decrease w3 = true /\ (forall p, exists l, w_redir p = RList l) /\
  (forall p l x, w_redir p = RList l -> In x l -> w_redir x = RList []).
Proof.
  split; [vm_compute; reflexivity|]. split.
  - intro p. unfold w_redir. destruct (Nat.eqb p 2); eexists; reflexivity.
  - intros p l x H Hin. unfold w_redir in H. destruct (Nat.eqb p 2); injection H as <-; [|destruct Hin].
    destruct Hin as [<-|[]]. reflexivity.
Qed.
Print Assumptions C10_nonvacuous_redirect_hyps.

Example C10_nonvacuous_walked :
  wf_model w_py = false /\ parents_decrease w_py = true /\ fqn_resolve wconf w_py 0 t_pnk 7 = Found 3 /\
  fqn_resolve wconf w_py 3 [110]%N 7 = Unknown /\ fqn_resolve wconf w_py 2 [107]%N 7 = Found 3.
Proof. vm_compute. repeat split; reflexivity. Qed.
Print Assumptions C10_nonvacuous_walked.
