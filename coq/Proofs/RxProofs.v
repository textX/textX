(* Generic lemmas about the list-of-successes regex semantics of Model/Rx.v:
   unfolding equations, `eats` (the first success takes exactly a given literal, one rule per
   constructor), exact characterisation of greedy runs over one-character bodies, emptiness, and
   what every success of every regex preserves. *)
From TxV Require Import Core.Base Model.Rx.
Require Import Lia.

Lemma hd_error_app_cons {A} (x : A) (l l' : list A) : hd_error ((x :: l) ++ l') = Some x.
Proof. reflexivity. Qed.

Lemma ends_seq E a b st : ends E (RSeq a b) st = flat_map (ends E b) (ends E a st).
Proof. reflexivity. Qed.
Lemma ends_alt E a b st : ends E (RAlt a b) st = ends E a st ++ ends E b st.
Proof. reflexivity. Qed.
Lemma ends_group E n r st : ends E (RGroup n r) st = ends E r st.
Proof. reflexivity. Qed.

Lemma chr_eq_plain E c l : e_ignorecase E = false -> chr_eq E c l = N.eqb c l.
Proof. intros H. unfold chr_eq. rewrite H. cbn. apply orb_false_r. Qed.

Lemma set_mem_plain E c items : e_ignorecase E = false -> set_mem E c items = existsb (item_match E c) items.
Proof. intros H. unfold set_mem. rewrite H. cbn. apply orb_false_r. Qed.

Lemma ends_chr E l pre c t : e_ignorecase E = false ->
  ends E (RChr l) (pre, c :: t) = if N.eqb c l then [(c :: pre, t)] else [].
Proof. intros H. cbn. unfold step1. cbn. rewrite chr_eq_plain by exact H. reflexivity. Qed.

Lemma ends_chr_nil E l pre : ends E (RChr l) (pre, []) = [].
Proof. reflexivity. Qed.

Lemma ends_notchr E l pre c t : e_ignorecase E = false ->
  ends E (RSet true [IChar l]) (pre, c :: t) = if N.eqb c l then [] else [(c :: pre, t)].
Proof.
  intros H. cbn. unfold step1. cbn. rewrite set_mem_plain by exact H. cbn.
  rewrite orb_false_r. destruct (N.eqb c l); reflexivity.
Qed.

Lemma ends_set E neg items pre c t :
  ends E (RSet neg items) (pre, c :: t) = if xorb neg (set_mem E c items) then [(c :: pre, t)] else [].
Proof. reflexivity. Qed.

Lemma ends_set_nil E neg items pre : ends E (RSet neg items) (pre, []) = [].
Proof. reflexivity. Qed.

Lemma first_seq E a b st st1 st2 :
  rx_first E a st = Some st1 -> rx_first E b st1 = Some st2 -> rx_first E (RSeq a b) st = Some st2.
Proof.
  unfold rx_first. rewrite ends_seq.
  destruct (ends E a st) as [|x l]; cbn; [discriminate|]. intros [= ->].
  destruct (ends E b st1) as [|y l']; cbn; [discriminate|]. intros [= ->]. reflexivity.
Qed.

Lemma ends_seq_nil_l E a b st : ends E a st = [] -> ends E (RSeq a b) st = [].
Proof. rewrite ends_seq. intros ->. reflexivity. Qed.

Lemma ends_alt_nil E a b st : ends E a st = [] -> ends E b st = [] -> ends E (RAlt a b) st = [].
Proof. rewrite ends_alt. intros -> ->. reflexivity. Qed.

Lemma rx_match_first E r pre rest st' :
  rx_first E r (pre, rest) = Some st' -> rx_match E r pre rest = Some (length rest - length (snd st')).
Proof. unfold rx_first, rx_match. destruct (ends E r (pre, rest)); cbn; [discriminate|]. intros [= ->]. reflexivity. Qed.

Lemma rx_match_nil E r pre rest : ends E r (pre, rest) = [] -> rx_match E r pre rest = None.
Proof. unfold rx_match. intros ->. reflexivity. Qed.

Lemma ends_opt E r st :
  ends E (RRep true 0 (Some 1) r) st =
  flat_map (fun st' => if Nat.ltb (length (snd st')) (length (snd st)) then [st'] else []) (ends E r st) ++ [st].
Proof.
  cbn [ends rep_loop is_zero_opt pred_opt Nat.add Nat.pred]. apply (f_equal (fun l => l ++ [st])).
  apply flat_map_ext. intros st'.
  destruct (Nat.ltb (length (snd st')) (length (snd st))) eqn:Hlt; [|reflexivity].
  apply Nat.ltb_lt in Hlt. destruct (length (snd st)) as [|k]; [lia|]. reflexivity.
Qed.

Lemma ends_opt_nil_body E r st : ends E r st = [] -> ends E (RRep true 0 (Some 1) r) st = [st].
Proof. intros H. rewrite ends_opt, H. reflexivity. Qed.

(* the first success consumes exactly `lit` *)
Definition eats (E : rxenv) (r : rx) (pre lit rest : list N) : Prop :=
  rx_first E r (pre, lit ++ rest) = Some (rev lit ++ pre, rest).

Lemma rx_match_eats E r pre lit rest : eats E r pre lit rest -> rx_match E r pre (lit ++ rest) = Some (length lit).
Proof. intros H. rewrite (rx_match_first _ _ _ _ _ H). cbn [snd]. rewrite app_length, Nat.add_sub. reflexivity. Qed.

Lemma eats_group E n r pre lit rest : eats E r pre lit rest -> eats E (RGroup n r) pre lit rest.
Proof. exact (fun H => H). Qed.

Lemma eats_seq E a b pre l1 l2 rest :
  eats E a pre l1 (l2 ++ rest) -> eats E b (rev l1 ++ pre) l2 rest -> eats E (RSeq a b) pre (l1 ++ l2) rest.
Proof.
  unfold eats. intros Ha Hb. rewrite <- app_assoc, (first_seq _ _ _ _ _ _ Ha Hb), rev_app_distr, app_assoc. reflexivity.
Qed.

Lemma eats_seq_nil_r E a b pre lit rest :
  eats E a pre lit rest -> eats E b (rev lit ++ pre) [] rest -> eats E (RSeq a b) pre lit rest.
Proof. intros Ha Hb. rewrite <- (app_nil_r lit). apply eats_seq; assumption. Qed.

Lemma eats_alt_l E a b pre lit rest : eats E a pre lit rest -> eats E (RAlt a b) pre lit rest.
Proof.
  unfold eats, rx_first. rewrite ends_alt. destruct (ends E a _); cbn; [discriminate|]. intros [= ->]. reflexivity.
Qed.

Lemma eats_alt_r E a b pre lit rest :
  ends E a (pre, lit ++ rest) = [] -> eats E b pre lit rest -> eats E (RAlt a b) pre lit rest.
Proof. unfold eats, rx_first. rewrite ends_alt. intros -> Hb. exact Hb. Qed.

Lemma eats_opt_take E r pre lit rest :
  lit <> [] -> eats E r pre lit rest -> eats E (RRep true 0 (Some 1) r) pre lit rest.
Proof.
  unfold eats, rx_first. intros Hne. rewrite ends_opt.
  destruct (ends E r _) as [|x l]; cbn [hd_error]; [discriminate|]. intros [= ->].
  cbn [flat_map snd]. rewrite (proj2 (Nat.ltb_lt _ _)); [reflexivity|].
  rewrite app_length. destruct lit; [contradiction | cbn [length]; lia].
Qed.

Lemma eats_opt_skip E r pre rest : ends E r (pre, rest) = [] -> eats E (RRep true 0 (Some 1) r) pre [] rest.
Proof. intros H. unfold eats, rx_first. cbn [app]. rewrite ends_opt, H. reflexivity. Qed.

(* an iteration that consumes nothing does not count *)
Lemma eats_opt_empty E r pre rest :
  ends E r (pre, rest) = [(pre, rest)] -> eats E (RRep true 0 (Some 1) r) pre [] rest.
Proof.
  intros H. unfold eats, rx_first. cbn [app]. rewrite ends_opt, H. cbn [flat_map snd]. rewrite Nat.ltb_irrefl. reflexivity.
Qed.

Lemma eats_chr E c pre rest : e_ignorecase E = false -> eats E (RChr c) pre [c] rest.
Proof. intros Hic. unfold eats, rx_first. cbn [app]. rewrite ends_chr, N.eqb_refl by exact Hic. reflexivity. Qed.

Lemma eats_set E neg items c pre rest :
  xorb neg (set_mem E c items) = true -> eats E (RSet neg items) pre [c] rest.
Proof. intros Hc. unfold eats, rx_first. cbn [app]. rewrite ends_set, Hc. reflexivity. Qed.

(* greedy star: the first success, one iteration at a time *)
Lemma star_first_stop step fuel st :
  step st = [] -> hd_error (rep_loop step true 0 None (S fuel) st) = Some st.
Proof. intros H. cbn [rep_loop is_zero_opt]. rewrite H. reflexivity. Qed.

Lemma star_first_step step fuel st st1 x :
  hd_error (step st) = Some st1 -> length (snd st1) < length (snd st) ->
  hd_error (rep_loop step true 0 None fuel st1) = Some x ->
  hd_error (rep_loop step true 0 None (S fuel) st) = Some x.
Proof.
  intros Hs Hlt Hx. cbn [rep_loop is_zero_opt pred_opt].
  destruct (step st) as [|y l]; [discriminate|]. injection Hs as ->.
  cbn [flat_map]. rewrite (proj2 (Nat.ltb_lt _ _) Hlt).
  destruct (rep_loop step true 0 None fuel st1); [discriminate | exact Hx].
Qed.

(* greedy runs over a one-character body *)
Definition stops (ok : N -> bool) (rest : list N) : Prop :=
  match rest with [] => True | c :: _ => ok c = false end.

(* every way a greedy repetition can stop inside `run`, longest first *)
Fixpoint prefix_states (pre run rest : list N) : list (list N * list N) :=
  match run with
  | [] => [(pre, rest)]
  | c :: run' => prefix_states (c :: pre) run' rest ++ [(pre, run ++ rest)]
  end.

Lemma step1_hit ok pre c t : ok c = true -> step1 ok (pre, c :: t) = [(c :: pre, t)].
Proof. intros H. unfold step1. cbn. rewrite H. reflexivity. Qed.

Lemma step1_stop ok pre rest : stops ok rest -> step1 ok (pre, rest) = [].
Proof. unfold step1, stops. cbn. destruct rest; [reflexivity|]. intros ->. reflexivity. Qed.

Lemma rep_star_step1 ok : forall run pre rest fuel,
  forallb ok run = true -> stops ok rest -> length (run ++ rest) < fuel ->
  rep_loop (step1 ok) true 0 None fuel (pre, run ++ rest) = prefix_states pre run rest.
Proof.
  induction run as [|c run IH]; intros pre rest fuel Hall Hstop Hfuel.
  - destruct fuel as [|f]; [cbn in Hfuel; lia|].
    cbn [rep_loop is_zero_opt app]. rewrite step1_stop by exact Hstop. reflexivity.
  - destruct fuel as [|f]; [cbn in Hfuel; lia|].
    cbn [forallb] in Hall. apply andb_true_iff in Hall as [Hc Hall].
    cbn [rep_loop is_zero_opt app]. rewrite step1_hit by exact Hc.
    cbn [flat_map snd length]. rewrite (proj2 (Nat.ltb_lt _ _)) by lia.
    cbn [pred_opt]. rewrite IH; [| exact Hall | exact Hstop | cbn in Hfuel; lia].
    rewrite app_nil_r. reflexivity.
Qed.

Lemma ends_star_set E neg items run pre rest :
  forallb (fun c => xorb neg (set_mem E c items)) run = true ->
  stops (fun c => xorb neg (set_mem E c items)) rest ->
  ends E (RRep true 0 None (RSet neg items)) (pre, run ++ rest) = prefix_states pre run rest.
Proof.
  intros Hall Hstop. cbn [ends snd].
  apply (rep_star_step1 (fun c => xorb neg (set_mem E c items))); [exact Hall | exact Hstop | cbn; lia].
Qed.

Lemma rep_loop_lo step g lo hi f st :
  rep_loop step g (S lo) hi (S f) st = flat_map (rep_loop step g lo (pred_opt hi) f) (step st).
Proof. reflexivity. Qed.

Lemma ends_plus_set E neg items run pre rest :
  forallb (fun c => xorb neg (set_mem E c items)) run = true ->
  stops (fun c => xorb neg (set_mem E c items)) rest ->
  ends E (RRep true 1 None (RSet neg items)) (pre, run ++ rest) =
  match run with [] => [] | c :: run' => prefix_states (c :: pre) run' rest end.
Proof.
  intros Hall Hstop. cbn [ends snd]. rewrite rep_loop_lo. cbn [pred_opt].
  destruct run as [|c run].
  - cbn [app]. rewrite (step1_stop (fun c => xorb neg (set_mem E c items))) by exact Hstop. reflexivity.
  - cbn [forallb] in Hall. apply andb_true_iff in Hall as [Hc Hall].
    cbn [app]. rewrite (step1_hit (fun c => xorb neg (set_mem E c items))) by exact Hc.
    cbn [flat_map]. rewrite app_nil_r.
    apply (rep_star_step1 (fun c => xorb neg (set_mem E c items))); [exact Hall | exact Hstop | cbn; lia].
Qed.

Lemma prefix_states_hd pre run rest :
  exists tl, prefix_states pre run rest = (rev run ++ pre, rest) :: tl.
Proof.
  revert pre. induction run as [|c run IH]; intros pre.
  - exists []. reflexivity.
  - destruct (IH (c :: pre)) as [tl Htl]. cbn [prefix_states]. rewrite Htl.
    eexists. cbn [rev]. rewrite <- app_assoc. cbn [app]. reflexivity.
Qed.

Lemma prefix_states_in pre run rest st' :
  In st' (prefix_states pre run rest) ->
  exists a b, run = a ++ b /\ st' = (rev a ++ pre, b ++ rest).
Proof.
  revert pre. induction run as [|c run IH]; intros pre Hin.
  - cbn in Hin. destruct Hin as [<-|[]]. exists [], []. split; reflexivity.
  - cbn [prefix_states] in Hin. apply in_app_or in Hin as [Hin|Hin].
    + destruct (IH _ Hin) as (a & b & -> & ->). exists (c :: a), b. split; [reflexivity|].
      cbn [rev]. rewrite <- app_assoc. reflexivity.
    + destruct Hin as [<-|[]]. exists [], (c :: run). split; reflexivity.
Qed.

(* the remaining input after any way of stopping inside the run starts with a run character or is `rest` *)
Lemma prefix_states_next ok pre run rest st' :
  forallb ok run = true -> In st' (prefix_states pre run rest) ->
  snd st' = rest \/ exists c t, snd st' = c :: t /\ ok c = true.
Proof.
  intros Hall Hin. destruct (prefix_states_in _ _ _ _ Hin) as (a & b & -> & ->).
  cbn [snd]. destruct b as [|c b]; [left; reflexivity|]. right. exists c, (b ++ rest). split; [reflexivity|].
  rewrite forallb_app in Hall. apply andb_true_iff in Hall as [_ Hb]. cbn in Hb.
  apply andb_true_iff in Hb as [Hc _]. exact Hc.
Qed.

Lemma first_star_set E neg items run pre rest :
  forallb (fun c => xorb neg (set_mem E c items)) run = true ->
  stops (fun c => xorb neg (set_mem E c items)) rest ->
  rx_first E (RRep true 0 None (RSet neg items)) (pre, run ++ rest) = Some (rev run ++ pre, rest).
Proof.
  intros Hall Hstop. unfold rx_first. rewrite ends_star_set by assumption.
  destruct (prefix_states_hd pre run rest) as [tl ->]. reflexivity.
Qed.

Lemma first_plus_set E neg items c run pre rest :
  forallb (fun c => xorb neg (set_mem E c items)) (c :: run) = true ->
  stops (fun c => xorb neg (set_mem E c items)) rest ->
  rx_first E (RRep true 1 None (RSet neg items)) (pre, (c :: run) ++ rest) = Some (rev (c :: run) ++ pre, rest).
Proof.
  intros Hall Hstop. unfold rx_first. rewrite ends_plus_set by assumption.
  destruct (prefix_states_hd (c :: pre) run rest) as [tl ->]. cbn [rev hd_error]. rewrite <- app_assoc. reflexivity.
Qed.

(* a one-or-more repetition cannot start on a character outside the set *)
Lemma ends_plus_set_nil E neg items pre rest :
  stops (fun c => xorb neg (set_mem E c items)) rest ->
  ends E (RRep true 1 None (RSet neg items)) (pre, rest) = [].
Proof.
  intros Hstop. apply (ends_plus_set E neg items [] pre rest); [reflexivity | exact Hstop].
Qed.

Lemma ends_lookahead_neg_set E items pre rest :
  stops (fun c => set_mem E c items) rest ->
  ends E (RLookAhead true (RSet false items)) (pre, rest) = [(pre, rest)].
Proof.
  intros Hstop. cbn [ends]. unfold step1. cbn [snd]. destruct rest as [|c t]; [reflexivity|].
  cbn in Hstop. cbn [xorb]. rewrite Hstop. reflexivity.
Qed.

Lemma ends_lookbehind1_set E items c pre rest :
  set_mem E c items = true ->
  ends E (RLookBehind false 1 (RSet false items)) (c :: pre, rest) = [(c :: pre, rest)].
Proof.
  intros Hc. cbn [ends back fst snd]. unfold step1. cbn [snd fst xorb]. rewrite Hc.
  cbn [existsb snd]. rewrite Nat.eqb_refl. reflexivity.
Qed.

Definition shrinks (step : list N * list N -> list (list N * list N)) : Prop :=
  forall st st', In st' (step st) -> length (snd st') <= length (snd st).

(* one layer of rep_loop: a success is the state itself or a success of the remaining loop after one step *)
Lemma rep_loop_in step g lo hi f st st' :
  In st' (rep_loop step g lo hi (S f) st) ->
  (lo = 0 /\ st' = st) \/
  exists mid, In mid (step st) /\ In st' (rep_loop step g (Nat.pred lo) (pred_opt hi) f mid).
Proof.
  cbn [rep_loop]. destruct lo as [|lo']; [|intros Hin; right; apply in_flat_map in Hin; exact Hin].
  destruct (is_zero_opt hi); [intros [<-|[]]; left; split; reflexivity|]. intros Hin.
  assert (Hin' : st' = st \/ In st' (flat_map (fun mid => if Nat.ltb (length (snd mid)) (length (snd st))
                                       then rep_loop step g 0 (pred_opt hi) f mid else []) (step st))).
  { destruct g; [apply in_app_or in Hin as [Hin | [<-|[]]] | destruct Hin as [<-|Hin]]; auto. }
  destruct Hin' as [-> | Hin']; [left; split; reflexivity | right].
  apply in_flat_map in Hin' as (mid & Hmid & Hin'). exists mid. split; [exact Hmid|].
  destruct (Nat.ltb (length (snd mid)) (length (snd st))); [exact Hin' | destruct Hin'].
Qed.

Lemma in_guard {A} (b : bool) (x y : A) : In y (if b then [x] else []) -> y = x.
Proof. destruct b; [intros [<-|[]]; reflexivity | intros []]. Qed.

(* A reflexive, transitive relation between states that holds across the consumption of one character holds between
   a state and every success of every regex from it. *)
Section Invariant.
Variable R : list N * list N -> list N * list N -> Prop.
Hypothesis R_refl : forall st, R st st.
Hypothesis R_trans : forall a b c, R a b -> R b c -> R a c.

Lemma rep_loop_inv step g : (forall st st', In st' (step st) -> R st st') ->
  forall fuel lo hi st st', In st' (rep_loop step g lo hi fuel st) -> R st st'.
Proof.
  intros Hs. induction fuel as [|f IH]; intros lo hi st st' Hin; [destruct Hin|].
  apply rep_loop_in in Hin as [[_ ->] | (mid & Hmid & Hin)]; [apply R_refl|].
  apply (R_trans _ mid); [apply Hs, Hmid | apply (IH _ _ _ _ Hin)].
Qed.

Hypothesis R_chr : forall pre c t, R (pre, c :: t) (c :: pre, t).

Lemma step1_inv ok st st' : In st' (step1 ok st) -> R st st'.
Proof.
  destruct st as [pre [|c t]]; [intros []|]. unfold step1. cbn [fst snd].
  intros Hin. apply in_guard in Hin as ->. apply R_chr.
Qed.

Lemma ends_inv E r : forall st st', In st' (ends E r st) -> R st st'.
Proof.
  induction r; intros st st' Hin; cbn [ends] in Hin;
    try (apply (step1_inv _ _ _ Hin)); try (apply in_guard in Hin as ->; apply R_refl).
  - destruct Hin as [<-|[]]. apply R_refl.
  - apply in_flat_map in Hin as (mid & Hmid & Hin). apply (R_trans _ mid); [apply IHr1, Hmid | apply IHr2, Hin].
  - apply in_app_or in Hin as [Hin|Hin]; [apply IHr1, Hin | apply IHr2, Hin].
  - apply (rep_loop_inv _ _ IHr _ _ _ _ _ Hin).
  - apply IHr, Hin.
  - destruct (back w st); apply in_guard in Hin as ->; apply R_refl.
Qed.
End Invariant.

Lemma rep_loop_shrinks step g : shrinks step ->
  forall fuel lo hi st st', In st' (rep_loop step g lo hi fuel st) -> length (snd st') <= length (snd st).
Proof.
  apply (rep_loop_inv (fun st st' => length (snd st') <= length (snd st))); [intros st; apply le_n|].
  intros a b c Hab Hbc. apply (Nat.le_trans _ _ _ Hbc Hab).
Qed.

Lemma step1_shrinks ok : shrinks (step1 ok).
Proof.
  intros st st'. apply (step1_inv (fun st st' => length (snd st') <= length (snd st))).
  intros pre c t. apply Nat.le_succ_diag_r.
Qed.

Lemma ends_shrinks E r : shrinks (ends E r).
Proof.
  unfold shrinks. apply (ends_inv (fun st st' => length (snd st') <= length (snd st))).
  - intros st. apply le_n.
  - intros a b c Hab Hbc. apply (Nat.le_trans _ _ _ Hbc Hab).
  - intros pre c t. apply Nat.le_succ_diag_r.
Qed.

(* any fuel above lo + |rest| gives the same result: the out-of-fuel branch of rep_loop is never taken *)
Lemma rep_loop_fuel step g : shrinks step ->
  forall f1 lo hi st f2, lo + length (snd st) < f1 -> lo + length (snd st) < f2 ->
  rep_loop step g lo hi f1 st = rep_loop step g lo hi f2 st.
Proof.
  intros Hs. induction f1 as [|f1 IH]; intros lo hi st f2 H1 H2; [lia|]. destruct f2 as [|f2]; [lia|].
  cbn [rep_loop]. destruct lo as [|lo'].
  - destruct (is_zero_opt hi); [reflexivity|].
    assert (Hm : flat_map (fun st' => if Nat.ltb (length (snd st')) (length (snd st))
                                      then rep_loop step g 0 (pred_opt hi) f1 st' else []) (step st)
               = flat_map (fun st' => if Nat.ltb (length (snd st')) (length (snd st))
                                      then rep_loop step g 0 (pred_opt hi) f2 st' else []) (step st)).
    { apply flat_map_ext_in. intros st' Hin.
      destruct (Nat.ltb (length (snd st')) (length (snd st))) eqn:Hlt; [|reflexivity].
      apply Nat.ltb_lt in Hlt. apply IH; lia. }
    rewrite Hm. reflexivity.
  - apply flat_map_ext_in. intros st' Hin. specialize (Hs _ _ Hin). apply IH; lia.
Qed.

Lemma ends_rep_fuel E g lo hi r st fuel : lo + length (snd st) < fuel ->
  ends E (RRep g lo hi r) st = rep_loop (ends E r) g lo hi fuel st.
Proof. intros H. cbn [ends]. apply rep_loop_fuel; [apply ends_shrinks | lia | exact H]. Qed.

(* every success consumed a prefix `m` of the input: rest = m ++ rest', prefix' = rev m ++ prefix *)
Lemma ends_consumes E r pre rest st' :
  In st' (ends E r (pre, rest)) -> exists m, rest = m ++ snd st' /\ fst st' = rev m ++ pre.
Proof.
  apply (ends_inv (fun st st' => exists m, snd st = m ++ snd st' /\ fst st' = rev m ++ fst st)).
  - intros st. exists []. split; reflexivity.
  - intros a b c (m1 & Hs1 & Hp1) (m2 & Hs2 & Hp2). exists (m1 ++ m2).
    rewrite Hs1, Hs2, Hp2, Hp1, rev_app_distr, !app_assoc. split; reflexivity.
  - intros p c t. exists [c]. split; reflexivity.
Qed.

(* what rx_match reports is the length of a prefix of the input, and the match is the head success *)
Lemma rx_match_prefix E r pre rest n :
  rx_match E r pre rest = Some n ->
  exists m rest', rest = m ++ rest' /\ length m = n /\ rx_first E r (pre, rest) = Some (rev m ++ pre, rest').
Proof.
  unfold rx_match, rx_first. destruct (ends E r (pre, rest)) as [|st' l] eqn:He; [discriminate|].
  intros [= <-]. destruct (ends_consumes E r pre rest st') as (m & Hm & Hp); [rewrite He; left; reflexivity|].
  exists m, (snd st'). split; [exact Hm|]. split.
  - rewrite Hm at 1. rewrite app_length. lia.
  - cbn [hd_error]. rewrite <- Hp. destruct st'; reflexivity.
Qed.

Lemma ends_seq_in E a b st st' :
  In st' (ends E (RSeq a b) st) -> exists mid, In mid (ends E a st) /\ In st' (ends E b mid).
Proof. rewrite ends_seq. intros H. apply in_flat_map in H. exact H. Qed.

(* a pattern that ends in a negative look-ahead for a character set only succeeds before a character outside it *)
Lemma ends_lookahead_neg_in E items st st' :
  In st' (ends E (RLookAhead true (RSet false items)) st) -> st' = st /\ stops (fun c => set_mem E c items) (snd st).
Proof.
  cbn [ends]. destruct st as [pre rest]. unfold step1. cbn [snd fst]. destruct rest as [|c t].
  - cbn. intros [<-|[]]. split; [reflexivity | exact I].
  - cbn [xorb stops]. destruct (set_mem E c items); cbn; [intros [] | intros [<-|[]]; split; reflexivity].
Qed.
