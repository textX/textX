From TxV Require Import Core.Base Gen.SrcResolve Model.Resolve Proofs.ResolveStepProofs.

(* C09: termination of qloop for every sprovider,
   hence of loop for every provider.  Depends on ONE fact of Gen/SrcResolve.v (read from
   textx/model.py): the while-condition demands resolved_count > 0.  It holds for any value of the
   other facts: wherever Postponed references are re-queued or reported, whatever is counted as
   progress (a resolution counts at most once), whatever the error condition. *)
Lemma tfact_loop : loop_condition = [(true, 0); (false, 0)]. Proof. reflexivity. Qed.

Lemma continue_needs_progress u c : forallb (holds u c) loop_condition = true -> 0 < c.
Proof.
  rewrite tfact_loop. cbn [forallb holds fst snd]. intro H. apply andb_true_iff in H as [_ H].
  apply andb_true_iff in H as [H _]. apply Nat.ltb_lt in H. exact H.
Qed.

Opaque carry counted holds.

Lemma step_shrinks ans pend st st' np d c :
  step ans pend st = Some (st', np, d, c) -> length np + c <= length pend /\ length d = length np.
Proof.
  intro H. apply step_runs in H.
  induction H as [st | x t r st st' np d c _ _ [L1 L2] | x r st st' np d c _ _ [L1 L2]]; cbn [length].
  - split; reflexivity.
  - pose proof (counted_le1 x). split; [lia | exact L2].
  - rewrite !carry_length. split; [lia | rewrite L2; reflexivity].
Qed.

Lemma qround_shrinks ans models st s st' pends dels c s' :
  qround ans models st s = Some (st', pends, dels, c, s') -> total pends + c <= total models /\ total dels = total pends.
Proof.
  intro H. apply qround_runs in H. unfold total.
  induction H as [st s | m ms st s st1 np d c st2 nps ds c' s2 E1 _ [L3 L4]]; [split; reflexivity|].
  destruct (step_shrinks _ _ _ _ _ _ _ E1) as [L1 L2]. cbn [concat]. rewrite !app_length. split; lia.
Qed.

Lemma qloop_fuel_direct ans : forall fuel models st s, total models < fuel -> qloop fuel ans models st s <> OutOfFuel.
Proof.
  induction fuel as [|f IH]; intros models st s Hf; [lia|]. cbn [qloop].
  destruct (qround ans models st s) as [[[[[st' pends] dels] c] s']|] eqn:E; [|discriminate].
  destruct (qround_shrinks _ _ _ _ _ _ _ _ _ E) as [L1 L2].
  destruct (forallb (holds (total dels) c) loop_condition) eqn:Ec.
  - apply continue_needs_progress in Ec. apply IH. lia.
  - destruct (holds (total dels) c error_condition); discriminate.
Qed.

Theorem qload_terminates_direct ans models : qload ans models <> OutOfFuel.
Proof. unfold qload. apply qloop_fuel_direct. lia. Qed.

Theorem load_terminates_direct ans models : load ans models <> OutOfFuel.
Proof. rewrite load_qload. apply qload_terminates_direct. Qed.

Transparent carry counted holds.
