(* C23 — proofs about the front-end model.  With every crash source guarded (cfg_safe) each phase of `front` but
   rule-reference resolution is free of crashes, and that one can only exhaust its budget; without the alias guard
   resolution exhausts the budget or agrees with the guarded one. *)
From TxV Require Import Core.Base Model.FrontDefs Model.Front.
From TxV Require Proofs.KindsProofs.

Definition is_crash (o : outcome) : bool := match o with Crash _ => true | _ => false end.

Lemma no_crash_neq o x : is_crash o = false -> o <> Crash x.
Proof. intros H ->. discriminate. Qed.

Lemma catches_of_type cl e T : mem_str T (cl_types cl) = true -> In T (x_mro e) -> catches cl e = true.
Proof.
  intros Hm Hin. unfold catches. apply existsb_exists. exists T. split.
  - apply mem_str_In. exact Hm.
  - apply mem_str_In. exact Hin.
Qed.

(* a clause list that `handles` class T turns every exception with T in its MRO into "swallowed" or a TextXError *)
Lemma dispatch_handles cls T e w : handles cls T = true -> In T (x_mro e) ->
  dispatch cls e w = DSwallowed \/ exists c, dispatch cls e w = DOut (TxErr c w).
Proof.
  induction cls as [|cl rest IH]; intros Hh Hin; [discriminate|].
  cbn [handles] in Hh. apply andb_true_iff in Hh as [Hsafe Hor].
  cbn [dispatch]. destruct (catches cl e) eqn:Hc.
  - destruct (cl_action cl) as [|[n|] c]; [left; reflexivity | discriminate | right; exists c; reflexivity].
  - apply orb_true_iff in Hor as [Hm|Hr]; [|exact (IH Hr Hin)].
    rewrite (catches_of_type cl e T Hm Hin) in Hc. discriminate.
Qed.

Lemma dispatch_no_crash cls T e w : handles cls T = true -> In T (x_mro e) -> is_crash (out_of (dispatch cls e w)) = false.
Proof.
  intros Hh Hin. destruct (dispatch_handles cls T e w Hh Hin) as [-> | [c ->]]; reflexivity.
Qed.

Record safe_facts (c : cfg) : Prop := {
  sf_ws : exists cl, c_ws_guard c = Some cl;
  sf_re : handles (c_re_clauses c) n_Exception = true;
  sf_str_u : handles (c_str_clauses c) n_UnicodeDecodeError = true;
  sf_str_i : handles (c_str_clauses c) n_IndexError = true;
  sf_nomatch : handles (c_nomatch_clauses c) n_NoMatch = true;
  sf_key : handles (c_keyerror_clauses c) n_KeyError = true;
  sf_contains : handles (c_contains_clauses c) n_KeyError = true;
  sf_ugroup : c_ugroup_guard c = true;
  sf_alias : exists cl, c_alias_guard c = Some cl;
  sf_mmm : c_mmm_getitem c = true;
  sf_ruletype : c_ruletype_by_class c = true }.

Lemma cfg_safe_parts c : cfg_safe c = true -> safe_facts c.
Proof.
  unfold cfg_safe. intro H.
  repeat (apply andb_true_iff in H; destruct H as [H ?]).
  constructor; try assumption.
  - destruct (c_ws_guard c) as [cl|]; [exists cl; reflexivity | discriminate].
  - destruct (c_alias_guard c) as [cl|]; [exists cl; reflexivity | discriminate].
Qed.

Lemma key_in_mro : In n_KeyError (x_mro exc_KeyError).
Proof. left. reflexivity. Qed.

Lemma check_param_no_crash c p : (exists cl, c_ws_guard c = Some cl) -> is_crash (check_param c p) = false.
Proof.
  intros [cl Hg]. destruct p as [n v]. unfold check_param.
  destruct (negb (mem_str n (c_params c))); [reflexivity|].
  destruct (str_eqb n s_split && negb (is_str v)); [reflexivity|].
  destruct (str_eqb n s_split && match v with PStr [] => true | _ => false end); [reflexivity|].
  destruct (str_eqb n s_ws && negb (is_str v)); [|reflexivity].
  rewrite Hg. reflexivity.
Qed.

Lemma check_params_no_crash c ps : (exists cl, c_ws_guard c = Some cl) -> is_crash (check_params c ps) = false.
Proof.
  intro Hg. induction ps as [|p ps IH]; [reflexivity|].
  cbn [check_params]. pose proof (check_param_no_crash c (norm_param p) Hg) as Hp.
  destruct (check_param c (norm_param p)); [exact IH | reflexivity | discriminate].
Qed.

Lemma step_no_crash c o user st e : safe_facts c -> oracle_wf o -> is_crash (snd (step c o user st e)) = false.
Proof.
  intros F [Hre [Hdec _]].
  destruct e as [n|ps|s|s|cls|op hm onr|a op hm|br bm]; cbn [step snd].
  - unfold visit_rule_name. destruct (mem_str n user); [destruct (mem_str n (s_used st))|]; reflexivity.
  - apply check_params_no_crash, F.
  - unfold visit_str_match. destruct (o_decode o s) as [e|] eqn:E; [|reflexivity].
    destruct (Hdec s e E) as [Hu|Hi].
    + exact (dispatch_no_crash _ _ e WEscape (sf_str_u c F) Hu).
    + exact (dispatch_no_crash _ _ e WEscape (sf_str_i c F) Hi).
  - unfold visit_re_match. destruct (o_regex o s) as [e|] eqn:E; [|reflexivity].
    exact (dispatch_no_crash _ _ e WRegex (sf_re c F) (Hre s e E)).
  - unfold visit_obj_ref. destruct (mem_str cls (c_base_names c) && negb (str_eqb cls s_OBJECT)); reflexivity.
  - unfold visit_repeatable_expr. rewrite (sf_ugroup c F). destruct op; try reflexivity.
    + destruct hm; reflexivity.
    + rewrite andb_false_r. reflexivity.
  - unfold visit_assignment.
    destruct (mem_str a (s_attrs st) && match op with OpOpt => true | _ => false end); [reflexivity|].
    destruct (hm && match op with OpOpt | OpEq => true | _ => false end); reflexivity.
  - destruct br; [reflexivity|]. destruct bm; [|reflexivity]. destruct (c_boolmany_check c); reflexivity.
Qed.

Lemma run_events_no_crash c o user es : safe_facts c -> oracle_wf o ->
  forall st, is_crash (run_events c o user st es) = false.
Proof.
  intros F Ho. induction es as [|e es IH]; intro st; [reflexivity|].
  cbn [run_events]. pose proof (step_no_crash c o user st e F Ho) as He.
  destruct (step c o user st e) as [st' r]. cbn [snd] in He.
  destruct r; [apply IH | reflexivity | discriminate].
Qed.

Lemma last_def_name n rs r : last_def n rs = Some r -> In n (map r_name rs).
Proof.
  revert r. induction rs as [|r0 rs IH]; intros r H; [discriminate|].
  cbn [last_def] in H. cbn [map In].
  destruct (last_def n rs) as [r'|] eqn:E.
  - right. exact (IH r' eq_refl).
  - destruct (str_eqb (r_name r0) n) eqn:En; [|discriminate].
    left. apply str_eqb_eq. exact En.
Qed.

Lemma lookup_alias_name c o t n tg : lookup_rule c o t n = LAlias tg -> In n (map r_name (t_rules t)).
Proof.
  unfold lookup_rule. destruct (split_dot n) as [[ns nm]|].
  - destruct (qualified c o (t_stmts t) ns nm); [discriminate | | discriminate].
    destruct (dispatch (c_contains_clauses c) exc_KeyError WRuleRef); discriminate.
  - destruct (last_def n (t_rules t)) as [r|] eqn:E.
    + intros _. exact (last_def_name n (t_rules t) r E).
    + destruct (mem_str n (c_base_names c)); discriminate.
Qed.

Lemma propagate_no_crash e w : In n_TextXError (x_mro e) -> is_crash (propagate e w) = false.
Proof. intro H. unfold propagate. apply mem_str_In in H. rewrite H. reflexivity. Qed.

Lemma qualified_err_no_crash c o ss ns nm e : safe_facts c -> oracle_wf o ->
  qualified c o ss ns nm = QErr e -> is_crash e = false.
Proof.
  intros F [_ [_ Hext]]. unfold qualified. destruct (lang_of ns ss) as [l|].
  - destruct (o_ext o l nm) as [x| | |found] eqn:E; try discriminate.
    + intro H. injection H as <-. exact (propagate_no_crash x WRegistration (Hext l nm x E)).
    + rewrite (sf_mmm c F). destruct found; discriminate.
  - destruct (str_eqb ns s_base && mem_str nm (c_base_names c)); discriminate.
Qed.

Lemma lookup_err_no_crash c o t n e : safe_facts c -> oracle_wf o -> lookup_rule c o t n = LErr e -> is_crash e = false.
Proof.
  intros F Ho. unfold lookup_rule. destruct (split_dot n) as [[ns nm]|].
  - destruct (qualified c o (t_stmts t) ns nm) as [f| |e'] eqn:Eq; try discriminate.
    + destruct (dispatch_handles _ _ exc_KeyError WRuleRef (sf_contains c F) key_in_mro) as [-> | [cl ->]]; [discriminate|].
      intro H. injection H as <-. reflexivity.
    + intro H. injection H as <-. exact (qualified_err_no_crash c o _ ns nm e' F Ho Eq).
  - destruct (last_def n (t_rules t)) as [r|].
    + destruct (alias_of r); discriminate.
    + destruct (mem_str n (c_base_names c)); discriminate.
Qed.

(* With the alias guard the chain holds distinct rule names, so following a reference takes at most one step per
   rule of the grammar: the budget `fuel` still has room for a chain that can only grow to the number of rules. *)
Definition room (t : tree) (fuel : nat) (chain : list (list N)) : Prop :=
  NoDup chain /\ incl chain (map r_name (t_rules t)) /\ fuel + length chain > length (t_rules t).

Lemma room_start t fuel : fuel > length (t_rules t) -> room t fuel [].
Proof. intro H. split; [constructor | split; [intros x [] | cbn [length]; lia]]. Qed.

Lemma room_fuel t chain : ~ room t 0 chain.
Proof.
  intros (Hnd & Hincl & Hlen). pose proof (NoDup_incl_length Hnd Hincl) as Hl. rewrite map_length in Hl. lia.
Qed.

Lemma room_step c o t f chain n tg :
  room t (S f) chain -> lookup_rule c o t n = LAlias tg -> mem_str n chain = false -> room t f (n :: chain).
Proof.
  intros (Hnd & Hincl & Hlen) El Em. split; [|split].
  - constructor; [|exact Hnd]. intro Hin. apply mem_str_In in Hin. congruence.
  - intros x [<-|Hx]; [exact (lookup_alias_name c o t _ tg El) | exact (Hincl x Hx)].
  - cbn [length]. lia.
Qed.

Lemma follow_no_crash c o t : safe_facts c -> oracle_wf o ->
  forall fuel chain n, room t fuel chain -> is_crash (follow c o t fuel chain n) = false.
Proof.
  intros F Ho. destruct (sf_alias c F) as [cl Hg].
  induction fuel as [|f IH]; intros chain n Hr; [destruct (room_fuel t chain Hr)|].
  cbn [follow]. destruct (lookup_rule c o t n) as [| |tg|e] eqn:El; try reflexivity.
  - rewrite Hg. destruct (mem_str n chain) eqn:Em; [reflexivity|].
    exact (IH _ _ (room_step c o t f chain n tg Hr El Em)).
  - exact (lookup_err_no_crash c o t n e F Ho El).
Qed.

(* whatever the budget, the only crash rule-reference resolution can end in is the exhausted budget *)
Lemma follow_crash_is_recursion c o t : safe_facts c -> oracle_wf o ->
  forall fuel chain n x, follow c o t fuel chain n = Crash x -> x = n_RecursionError.
Proof.
  intros F Ho. destruct (sf_alias c F) as [cl Hg].
  induction fuel as [|f IH]; intros chain n x H.
  - cbn in H. injection H as <-. reflexivity.
  - cbn [follow] in H. destruct (lookup_rule c o t n) as [| |tg|e] eqn:El; try discriminate.
    + rewrite Hg in H. destruct (mem_str n chain); [discriminate | exact (IH _ _ _ H)].
    + destruct (no_crash_neq _ x (lookup_err_no_crash c o t n e F Ho El) H).
Qed.

(* the outcome does not depend on the recursion budget once it exceeds the number of rules *)
Lemma follow_fuel_irrelevant c o t cl : c_alias_guard c = Some cl ->
  forall f1 f2 chain n, room t f1 chain -> room t f2 chain -> follow c o t f1 chain n = follow c o t f2 chain n.
Proof.
  intro Hg. induction f1 as [|f1 IH]; intros f2 chain n H1 H2; [destruct (room_fuel t chain H1)|].
  destruct f2 as [|f2]; [destruct (room_fuel t chain H2)|].
  cbn [follow]. destruct (lookup_rule c o t n) as [| |tg|e] eqn:El; try reflexivity.
  rewrite Hg. destruct (mem_str n chain) eqn:Em; [reflexivity|].
  exact (IH _ _ _ (room_step c o t f1 chain n tg H1 El Em) (room_step c o t f2 chain n tg H2 El Em)).
Qed.

Lemma first_error_in l : first_error l = Ok \/ In (first_error l) l.
Proof.
  induction l as [|o l IH]; [left; reflexivity|].
  cbn [first_error]. destruct o; [destruct IH as [IH|IH]; [left; exact IH | right; right; exact IH] | right; left; reflexivity ..].
Qed.

Lemma first_error_no_crash l : (forall o, In o l -> is_crash o = false) -> is_crash (first_error l) = false.
Proof.
  intro H. destruct (first_error_in l) as [E|E]; [rewrite E; reflexivity | exact (H _ E)].
Qed.

Lemma resolve_rule_refs_no_crash c o t fuel : safe_facts c -> oracle_wf o -> fuel > length (t_rules t) ->
  is_crash (resolve_rule_refs c o fuel t) = false.
Proof.
  intros F Ho Hf. unfold resolve_rule_refs. apply first_error_no_crash. intros x Hx.
  apply in_map_iff in Hx as [n [<- _]]. exact (follow_no_crash c o t F Ho fuel [] n (room_start t fuel Hf)).
Qed.

Lemma resolve_rule_refs_crash_is_recursion c o t fuel x : safe_facts c -> oracle_wf o ->
  resolve_rule_refs c o fuel t = Crash x -> x = n_RecursionError.
Proof.
  intros F Ho H. unfold resolve_rule_refs in H.
  destruct (first_error_in (map (follow c o t fuel []) (all_refs (t_rules t)))) as [E|E].
  - rewrite E in H. discriminate.
  - rewrite H in E. apply in_map_iff in E as [n [E _]].
    exact (follow_crash_is_recursion c o t F Ho fuel [] n x E).
Qed.

(* the rule-kind fixpoint ends for every grammar (C03: Proofs/KindsProofs.kinds_correct) *)
Lemma rule_kinds_fixpoint_ok c t : rule_kinds_fixpoint c t = Ok.
Proof.
  unfold rule_kinds_fixpoint. destruct (KindsProofs.kinds_correct (to_kinds c t)) as [s [H _]]. rewrite H. reflexivity.
Qed.

Lemma determine_rule_types_ok c o t fuel : safe_facts c -> determine_rule_types c o fuel t = Ok.
Proof.
  intro F. unfold determine_rule_types. rewrite (sf_ruletype c F), rule_kinds_fixpoint_ok. reflexivity.
Qed.

Lemma resolve_cls_name_no_crash c o t n : safe_facts c -> oracle_wf o -> is_crash (resolve_cls_name c o t n) = false.
Proof.
  intros F Ho.
  pose proof (dispatch_no_crash _ _ exc_KeyError WClsRef (sf_key c F) key_in_mro) as Hh.
  unfold resolve_cls_name. destruct (split_dot n) as [[ns nm]|].
  - destruct (qualified c o (t_stmts t) ns nm) as [f| |e] eqn:Eq; [reflexivity | exact Hh |].
    exact (qualified_err_no_crash c o _ ns nm e F Ho Eq).
  - destruct (last_def n (t_rules t)); [reflexivity|].
    destruct (mem_str n (c_base_names c)); [reflexivity | exact Hh].
Qed.

Lemma resolve_cls_refs_no_crash c o t : safe_facts c -> oracle_wf o -> is_crash (resolve_cls_refs c o t) = false.
Proof.
  intros F Ho. unfold resolve_cls_refs, cls_errors. apply first_error_no_crash. intros x Hx.
  apply in_map_iff in Hx as [a [<- _]]. apply resolve_cls_name_no_crash; assumption.
Qed.

Lemma validate_user_no_crash c user rs : is_crash (validate_user_classes c user rs) = false.
Proof. unfold validate_user_classes. destruct (forallb _ user); reflexivity. Qed.

Lemma seq_out_crash a b x : seq_out a b = Crash x -> a = Crash x \/ (a = Ok /\ b = Crash x).
Proof. destruct a; cbn; intro H; [right; split; [reflexivity | exact H] | discriminate | left; exact H]. Qed.

(* every phase but rule-reference resolution is free of crashes: a crash of the front-end is a crash of that phase *)
Lemma front_crash_in_resolution c o user fuel g x :
  cfg_safe c = true -> oracle_wf o -> parse_wf g -> has_import g = false ->
  front c o user fuel g = Crash x -> exists t, g = GTree t /\ resolve_rule_refs c o fuel t = Crash x.
Proof.
  intros Hs Ho Hp Hi H. pose proof (cfg_safe_parts c Hs) as F. destruct g as [e|t]; cbn [front] in H.
  - destruct (no_crash_neq _ x (dispatch_no_crash _ _ e WParse (sf_nomatch c F) Hp) H).
  - exists t. split; [reflexivity|]. cbn [has_import] in Hi.
    apply seq_out_crash in H as [H|[_ H]]; [unfold visit_stmts in H; rewrite Hi in H; discriminate|].
    apply seq_out_crash in H as [H|[_ H]];
      [destruct (no_crash_neq _ x (run_events_no_crash c o user (events t) F Ho init_state) H)|].
    apply seq_out_crash in H as [H|[_ H]]; [exact H|]. exfalso.
    rewrite (determine_rule_types_ok c o t fuel F) in H. cbn [seq_out] in H.
    apply seq_out_crash in H as [H|[_ H]].
    + exact (no_crash_neq _ x (resolve_cls_refs_no_crash c o t F Ho) H).
    + exact (no_crash_neq _ x (validate_user_no_crash c user (t_rules t)) H).
Qed.

Theorem front_never_crashes c o user fuel g k :
  cfg_safe c = true -> oracle_wf o -> parse_wf g -> has_import g = false -> fuel > nrules g ->
  front c o user fuel g <> Crash k.
Proof.
  intros Hs Ho Hp Hi Hf E. destruct (front_crash_in_resolution c o user fuel g k Hs Ho Hp Hi E) as (t & -> & H).
  exact (no_crash_neq _ k (resolve_rule_refs_no_crash c o t fuel (cfg_safe_parts c Hs) Ho Hf) H).
Qed.

(* For EVERY budget: the only exception other than a TextXError is RecursionError, and only when the budget
   does not exceed the number of rules. *)
Theorem front_crash_only_recursion c o user fuel g x :
  cfg_safe c = true -> oracle_wf o -> parse_wf g -> has_import g = false ->
  front c o user fuel g = Crash x -> x = n_RecursionError /\ fuel <= nrules g.
Proof.
  intros Hs Ho Hp Hi H. split.
  - destruct (front_crash_in_resolution c o user fuel g x Hs Ho Hp Hi H) as (t & _ & Hr).
    exact (resolve_rule_refs_crash_is_recursion c o t fuel x (cfg_safe_parts c Hs) Ho Hr).
  - destruct (le_lt_dec fuel (nrules g)) as [Hle|Hgt]; [exact Hle|].
    destruct (front_never_crashes c o user fuel g x Hs Ho Hp Hi Hgt H).
Qed.

Theorem front_fuel_irrelevant c o user g f1 f2 :
  cfg_safe c = true -> f1 > nrules g -> f2 > nrules g -> front c o user f1 g = front c o user f2 g.
Proof.
  intros Hs H1 H2. destruct g as [e|t]; [reflexivity|]. cbn [front nrules] in *.
  pose proof (cfg_safe_parts c Hs) as F. destruct (sf_alias c F) as [cl Hg].
  assert (E : resolve_rule_refs c o f1 t = resolve_rule_refs c o f2 t).
  { unfold resolve_rule_refs. f_equal. apply map_ext. intro n.
    exact (follow_fuel_irrelevant c o t cl Hg f1 f2 [] n (room_start t f1 H1) (room_start t f2 H2)). }
  rewrite E, !(determine_rule_types_ok c o t _ F). reflexivity.
Qed.

(* _resolve_rule_refs / _resolve_cls_refs reach the references in an order (a depth-first walk over mutable
   nodes, with repeats) that the model does not transcribe.  What an order can change is only WHICH error of
   the phase is reported, never the class of the outcome. *)
Inductive oclass := ClOk | ClTextX | ClCrash.
Definition class_of (o : outcome) : oclass := match o with Ok => ClOk | TxErr _ _ => ClTextX | Crash _ => ClCrash end.

Lemma first_error_ok_iff l : first_error l = Ok <-> forall x, In x l -> x = Ok.
Proof.
  induction l as [|o l IH]; cbn [first_error].
  - split; [intros _ x [] | reflexivity].
  - destruct o.
    + rewrite IH. split; [intros H x [<-|Hx]; [reflexivity | exact (H x Hx)] | intros H x Hx; exact (H x (or_intror Hx))].
    + split; [discriminate | intro H; exact (H _ (or_introl eq_refl))].
    + split; [discriminate | intro H; exact (H _ (or_introl eq_refl))].
Qed.

Lemma class_of_first_error l : (forall x, In x l -> is_crash x = false) ->
  class_of (first_error l) = ClOk \/ class_of (first_error l) = ClTextX.
Proof.
  intro H. pose proof (first_error_no_crash l H) as Hn. destruct (first_error l); [left | right | discriminate]; reflexivity.
Qed.

(* without crashes the class says whether every outcome is Ok, which depends on the set of outcomes only *)
Lemma first_error_class_same_set (f : list N -> outcome) l1 l2 :
  (forall n, is_crash (f n) = false) -> (forall n, In n l1 <-> In n l2) ->
  class_of (first_error (map f l1)) = class_of (first_error (map f l2)).
Proof.
  intros Hf Hset.
  assert (Hnc : forall l, is_crash (first_error (map f l)) = false).
  { intro l. apply first_error_no_crash. intros x Hx. apply in_map_iff in Hx as [n [<- _]]. apply Hf. }
  assert (Hok : forall la lb, incl lb la -> first_error (map f la) = Ok -> first_error (map f lb) = Ok).
  { intros la lb Hi. rewrite !first_error_ok_iff. intros H x Hx. exact (H x (incl_map f Hi x Hx)). }
  pose proof (Hnc l1) as N1. pose proof (Hnc l2) as N2.
  pose proof (Hok l1 l2 (fun n => proj2 (Hset n))) as H12. pose proof (Hok l2 l1 (fun n => proj1 (Hset n))) as H21.
  destruct (first_error (map f l1)), (first_error (map f l2)); try discriminate; try reflexivity.
  - discriminate (H12 eq_refl).
  - discriminate (H21 eq_refl).
Qed.

(* the phase run over the references in the given order *)
Definition resolve_in_order (c : cfg) (o : oracles) (fuel : nat) (t : tree) (refs : list (list N)) : outcome :=
  first_error (map (follow c o t fuel []) refs).
Definition resolve_cls_in_order (c : cfg) (o : oracles) (t : tree) (types : list (list N)) : outcome :=
  first_error (map (resolve_cls_name c o t) types).

Theorem resolve_order_irrelevant c o fuel t refs : cfg_safe c = true -> oracle_wf o -> fuel > length (t_rules t) ->
  (forall n, In n refs <-> In n (all_refs (t_rules t))) ->
  class_of (resolve_in_order c o fuel t refs) = class_of (resolve_rule_refs c o fuel t).
Proof.
  intros Hs Ho Hf Hset. unfold resolve_in_order, resolve_rule_refs.
  apply first_error_class_same_set; [|exact Hset].
  intro n. exact (follow_no_crash c o t (cfg_safe_parts c Hs) Ho fuel [] n (room_start t fuel Hf)).
Qed.

Theorem resolve_cls_order_irrelevant c o t types : cfg_safe c = true -> oracle_wf o ->
  (forall n, In n types <-> In n (map snd (flat_map attrs_rule (effective (t_rules t))))) ->
  class_of (resolve_cls_in_order c o t types) = class_of (resolve_cls_refs c o t).
Proof.
  intros Hs Ho Hset. unfold resolve_cls_in_order, resolve_cls_refs, cls_errors.
  rewrite <- (map_map snd (resolve_cls_name c o t)).
  apply first_error_class_same_set; [|exact Hset].
  intro n. apply resolve_cls_name_no_crash; [apply cfg_safe_parts; exact Hs | exact Ho].
Qed.

(* a set of alias rules closed under "target of" : the unguarded resolution never leaves it *)
Lemma follow_diverges c o t (S : list (list N)) : c_alias_guard c = None ->
  (forall m, In m S -> exists tg, lookup_rule c o t m = LAlias tg /\ In tg S) ->
  forall fuel chain m, In m S -> follow c o t fuel chain m = Crash n_RecursionError.
Proof.
  intros Hg Hclosed. induction fuel as [|f IH]; intros chain m Hm; [reflexivity|].
  cbn [follow]. destruct (Hclosed m Hm) as [tg [Hl Ht]]. rewrite Hl, Hg. apply IH. exact Ht.
Qed.

(* so a grammar whose first rule reference lies in such a set ends in RecursionError whatever the budget *)
Lemma front_unguarded_cycle c o user t (S : list (list N)) n rest fuel : c_alias_guard c = None ->
  visit_stmts (t_stmts t) = Ok -> run_events c o user init_state (events t) = Ok ->
  all_refs (t_rules t) = n :: rest -> In n S ->
  (forall m, In m S -> exists tg, lookup_rule c o t m = LAlias tg /\ In tg S) ->
  front c o user fuel (GTree t) = Crash n_RecursionError.
Proof.
  intros Hg Hv He Hr Hn Hclosed. cbn [front]. rewrite Hv, He. cbn [seq_out].
  unfold resolve_rule_refs. rewrite Hr. cbn [map first_error].
  rewrite (follow_diverges c o t S Hg Hclosed fuel [] n Hn). reflexivity.
Qed.

(* Witnesses used by Props/C23.v: exception types, oracles, grammars. *)
Definition mk_exc (n : list N) (bases : list (list N)) : exc := {| x_name := n; x_mro := n :: bases |}.
Definition n_error : list N := [101;114;114;111;114]%N.                                             (* re.error *)
Definition n_OverflowError : list N := [79;118;101;114;102;108;111;119;69;114;114;111;114]%N.
Definition n_ArithmeticError : list N := [65;114;105;116;104;109;101;116;105;99;69;114;114;111;114]%N.
Definition n_ValueError : list N := [86;97;108;117;101;69;114;114;111;114]%N.
Definition n_RuntimeError : list N := [82;117;110;116;105;109;101;69;114;114;111;114]%N.
Definition exc_re_error := mk_exc n_error [n_Exception; n_BaseException].
Definition exc_overflow := mk_exc n_OverflowError [n_ArithmeticError; n_Exception; n_BaseException].
Definition exc_recursion := mk_exc n_RecursionError [n_RuntimeError; n_Exception; n_BaseException].
Definition exc_unicode := mk_exc n_UnicodeDecodeError [[85;110;105;99;111;100;101;69;114;114;111;114]%N; n_ValueError; n_Exception; n_BaseException].
Definition exc_nomatch := mk_exc n_NoMatch [n_Exception; n_BaseException].
Definition exc_registration := mk_exc n_TextXRegistrationError [n_TextXError; n_Exception; n_BaseException].

Definition all_ok : oracles := {| o_regex := fun _ => None; o_decode := fun _ => None; o_ext := fun _ _ => ExtMissing |}.
Definition bad_regex : oracles := {| o_regex := fun _ => Some exc_re_error; o_decode := fun _ => None; o_ext := fun _ _ => ExtMissing |}.
Definition overflow_regex : oracles := {| o_regex := fun _ => Some exc_overflow; o_decode := fun _ => None; o_ext := fun _ _ => ExtMissing |}.
Definition bad_escape : oracles := {| o_regex := fun _ => None; o_decode := fun _ => Some exc_unicode; o_ext := fun _ _ => ExtMissing |}.
Definition textx_lang : oracles := {| o_regex := fun _ => None; o_decode := fun _ => None; o_ext := fun _ _ => ExtBuiltin false |}.
Definition lang_found : oracles := {| o_regex := fun _ => None; o_decode := fun _ => None; o_ext := fun _ _ => ExtFound |}.
Definition lang_unregistered : oracles := {| o_regex := fun _ => None; o_decode := fun _ => None; o_ext := fun _ _ => ExtLangRaises exc_registration |}.

Lemma all_ok_wf : oracle_wf all_ok.
Proof. repeat split; intros; discriminate. Qed.
Lemma overflow_regex_wf : oracle_wf overflow_regex.
Proof.
  repeat split; intros; try discriminate.
  cbn in H. injection H as <-. right. right. left. reflexivity.
Qed.

Definition nA : list N := [65]%N.
Definition nB : list N := [66]%N.
Definition nC : list N := [67]%N.
Definition rule1 (n : list N) (ps : option (list (list N * option (list N)))) (e : expr) rep : rule :=
  {| r_name := n; r_params := ps; r_body := [[RX e rep false]] |}.
Definition gram (ss : list stmt) (rs : list rule) : ginput := GTree {| t_stmts := ss; t_rules := rs |}.

Definition g_regex := gram [] [rule1 nA None (EMatch false (SRe [40]%N)) None].                     (* A: /(/;            *)
Definition g_ws := gram [] [rule1 nA (Some [(s_ws, None)]) (EMatch false (SStr [97]%N)) None].     (* A[ws]: 'a';        *)
Definition g_ugroup := gram [] [rule1 nA None (ERef false nB) (Some (RHash, None));
                                rule1 nB None (EMatch false (SStr [120]%N)) None].                 (* A: B#; B: 'x';     *)
Definition g_self := gram [] [rule1 nA None (ERef false nA) None].                                 (* A: A;              *)
Definition g_cycle := gram [] [rule1 nA None (ERef false nB) None; rule1 nB None (ERef false nA) None]. (* A: B; B: A;   *)
Definition g_escape := gram [] [rule1 nA None (EMatch false (SStr [92;78;123;102;111;111;125]%N)) None]. (* A: '\N{foo}'; *)
Definition s_textx : list N := [116;101;120;116;120]%N.
Definition g_textx := gram [SReference s_textx None]
  [rule1 nA None (EAsg [97]%N OpEq (ARef (RObj (s_textx ++ [46;70;111;111])%N None false)) None) None]. (* reference textx  A: a=[textx.Foo]; *)
Definition g_import := gram [SImport] [rule1 nA None (EMatch false (SStr [97]%N)) None].           (* import foo  A: 'a'; *)

(* qualified references (rule references may be fully qualified names) *)
Definition s_lang : list N := [108]%N.                                                              (* l *)
Definition s_Thing : list N := [84]%N.                                                             (* T *)
Definition g_qualified_alias := gram [SReference s_lang None]
  [rule1 nA None (ERef false (s_lang ++ [46] ++ s_Thing)%N) None].                                 (* reference l  A: l.T;  *)
Definition g_unknown_ns := gram []
  [rule1 nA None (EAsg [120]%N OpEq (ARef (RRule [116;46;73]%N)) None) None].                       (* A: x=t.I;            *)
Definition g_boolmany := gram []
  [{| r_name := nA; r_params := None;
      r_body := [[RX (EAsg [99]%N OpOpt (ARef (RRule nA)) None) None false];
                 [RX (ERef false nA) None false; RX (EAsg [99]%N OpStar (ARef (RRule nA)) None) None false]] |}]. (* A: c?=A | A c*=A; *)
(* A: C B; B: B;   -- an undefined rule before an alias cycle *)
Definition t_undef_cycle : tree := {| t_stmts := [];
  t_rules := [{| r_name := nA; r_params := None; r_body := [[RX (ERef false nC) None false; RX (ERef false nB) None false]] |};
              rule1 nB None (ERef false nB) None] |}.
Definition g_plain := gram [] [rule1 nA None (EMatch false (SStr [97]%N)) None; rule1 nA None (EMatch false (SStr [98]%N)) None]. (* A: 'a'; A: 'b'; *)

(* A: B | C;  B: x=INT;  C: 'c'; *)
Definition t_kinds : tree := {| t_stmts := [];
  t_rules := [{| r_name := nA; r_params := None; r_body := [[RX (ERef false nB) None false]; [RX (ERef false nC) None false]] |};
              rule1 nB None (EAsg [120]%N OpEq (ARef (RRule [73;78;84]%N)) None) None;
              rule1 nC None (EMatch false (SStr [99]%N)) None] |}.

(* A: B; B: C; C: 'x';  -- two alias hops *)
Definition g_self_chain := gram [] [rule1 nA None (ERef false nB) None; rule1 nB None (ERef false nC) None;
                                    rule1 nC None (EMatch false (SStr [120]%N)) None].

(* The same source facts with other answers to: is a rule found in its own alias chain rejected / which except
   clauses does __contains__ have / is the alias target class taken from the rule. *)
Definition set_facts (c : cfg) (g : option txclass) (cc : list clause) (rb : bool) (rc : list clause) : cfg :=
  {| c_params := c_params c; c_param_cls := c_param_cls c; c_split_cls := c_split_cls c; c_ws_guard := c_ws_guard c;
     c_re_clauses := rc; c_str_clauses := c_str_clauses c; c_nomatch_clauses := c_nomatch_clauses c;
     c_keyerror_clauses := c_keyerror_clauses c; c_contains_clauses := cc;
     c_ugroup_guard := c_ugroup_guard c; c_alias_guard := g;
     c_mmm_getitem := c_mmm_getitem c; c_ruletype_by_class := rb; c_boolmany_check := c_boolmany_check c;
     c_user_redef_cls := c_user_redef_cls c; c_user_unused_cls := c_user_unused_cls c;
     c_base_names := c_base_names c |}.
Definition with_alias_guard (c : cfg) (g : option txclass) : cfg :=
  set_facts c g (c_contains_clauses c) (c_ruletype_by_class c) (c_re_clauses c).
Definition with_contains (c : cfg) (cc : list clause) : cfg :=
  set_facts c (c_alias_guard c) cc (c_ruletype_by_class c) (c_re_clauses c).
Definition with_ruletype_by_class (c : cfg) (b : bool) : cfg :=
  set_facts c (c_alias_guard c) (c_contains_clauses c) b (c_re_clauses c).
Definition with_re_clauses (c : cfg) (rc : list clause) : cfg :=
  set_facts c (c_alias_guard c) (c_contains_clauses c) (c_ruletype_by_class c) rc.

Lemma lookup_with_guard c g o t n : lookup_rule (with_alias_guard c g) o t n = lookup_rule c o t n.
Proof. reflexivity. Qed.

(* chain = the alias rules being followed, most recent first; each one's target is the next more recent
   one, the head's target is the name being looked up *)
Fixpoint chain_ok (c : cfg) (o : oracles) (t : tree) (chain : list (list N)) (cur : list N) : Prop :=
  match chain with
  | [] => True
  | x :: rest => lookup_rule c o t x = LAlias cur /\ chain_ok c o t rest x
  end.

(* every rule of such a chain is an alias of the name being looked up or of a rule of the chain *)
Lemma chain_ok_closed c o t : forall chain cur, chain_ok c o t chain cur ->
  forall m, In m chain -> exists tg, lookup_rule c o t m = LAlias tg /\ (tg = cur \/ In tg chain).
Proof.
  induction chain as [|x chain IH]; intros cur Hok m Hm; [destruct Hm|]. destruct Hok as [Hl Hrest].
  destruct Hm as [<-|Hm]; [exists cur; split; [exact Hl | left; reflexivity]|].
  destruct (IH x Hrest m Hm) as [tg [Ht Hin]]. exists tg. split; [exact Ht|].
  right. destruct Hin as [->|Hin]; [left; reflexivity | right; exact Hin].
Qed.

Lemma follow_guard_conservative c o t cl : c_alias_guard c = None ->
  forall fuel chain n, chain_ok c o t chain n ->
    follow c o t fuel chain n = Crash n_RecursionError
    \/ follow c o t fuel chain n = follow (with_alias_guard c (Some cl)) o t fuel chain n.
Proof.
  intro Hg. induction fuel as [|f IH]; intros chain n Hok; [left; reflexivity|].
  cbn [follow]. rewrite lookup_with_guard. destruct (lookup_rule c o t n) as [| |tg|e] eqn:El; try (right; reflexivity).
  rewrite Hg. cbn [c_alias_guard with_alias_guard].
  destruct (mem_str n chain) eqn:Em.
  - (* the guard fires: n is in its own chain, so the chain is closed under "target of" and tg is in it *)
    left. apply mem_str_In in Em.
    assert (Hclosed : forall m, In m chain -> exists tg', lookup_rule c o t m = LAlias tg' /\ In tg' chain).
    { intros m Hm. destruct (chain_ok_closed c o t chain n Hok m Hm) as [tg' [Ht Hin]]. exists tg'. split; [exact Ht|].
      destruct Hin as [->|Hin]; assumption. }
    apply (follow_diverges c o t chain Hg Hclosed).
    destruct (Hclosed n Em) as [tg' [Ht Hin]]. rewrite El in Ht. injection Ht as ->. exact Hin.
  - apply IH. cbn [chain_ok]. split; [exact El | exact Hok].
Qed.

Lemma first_error_conservative (la lb : list outcome) :
  Forall2 (fun a b => a = Crash n_RecursionError \/ a = b) la lb ->
  first_error la = Crash n_RecursionError \/ first_error la = first_error lb.
Proof.
  induction 1 as [|a b la lb [ -> | -> ] _ IH]; [right; reflexivity | left; reflexivity |].
  cbn [first_error]. destruct b; [exact IH | right; reflexivity ..].
Qed.

(* The repair changes the outcome of rule-reference resolution only where the unguarded code exhausts its
   recursion budget. *)
Theorem resolve_guard_conservative c cl o fuel t : c_alias_guard c = None ->
  resolve_rule_refs c o fuel t = Crash n_RecursionError
  \/ resolve_rule_refs c o fuel t = resolve_rule_refs (with_alias_guard c (Some cl)) o fuel t.
Proof.
  intro Hg. unfold resolve_rule_refs. apply first_error_conservative.
  induction (all_refs (t_rules t)) as [|n l IH]; [constructor|].
  cbn [map]. constructor; [|exact IH].
  apply (follow_guard_conservative c o t cl Hg fuel [] n). exact I.
Qed.

Theorem alias_repair_conservative c cl o fuel t : c_alias_guard c = Some cl ->
  resolve_rule_refs (with_alias_guard c None) o fuel t = Crash n_RecursionError
  \/ resolve_rule_refs (with_alias_guard c None) o fuel t = resolve_rule_refs c o fuel t.
Proof.
  intro H. pose proof (resolve_guard_conservative (with_alias_guard c None) cl o fuel t eq_refl) as P.
  assert (E : with_alias_guard (with_alias_guard c None) (Some cl) = c).
  { destruct c. cbn in H. subst. reflexivity. }
  rewrite E in P. exact P.
Qed.

(* the budget shows in the outcome only as RecursionError *)
Lemma follow_stable c o t : forall fuel chain n, follow c o t fuel chain n <> Crash n_RecursionError ->
  forall fuel', fuel' >= fuel -> follow c o t fuel' chain n = follow c o t fuel chain n.
Proof.
  induction fuel as [|f IH]; intros chain n Hnc fuel' Hge; [destruct (Hnc eq_refl)|].
  destruct fuel' as [|f']; [lia|]. cbn [follow] in *.
  destruct (lookup_rule c o t n) as [| |tg|e]; try reflexivity.
  destruct (c_alias_guard c); [destruct (mem_str n chain); [reflexivity|] |]; apply IH; [exact Hnc | lia | exact Hnc | lia].
Qed.

Theorem unguarded_never_recovers c o t cl : c_alias_guard c = None ->
  forall fuel n, follow c o t fuel [] n <> Crash n_RecursionError ->
  forall fuel', fuel' >= fuel -> follow c o t fuel' [] n = follow (with_alias_guard c (Some cl)) o t fuel' [] n.
Proof.
  intros Hg fuel n Hnc fuel' Hge.
  destruct (follow_guard_conservative c o t cl Hg fuel' [] n I) as [Hc|He]; [|exact He].
  exfalso. apply Hnc. rewrite <- (follow_stable c o t fuel [] n Hnc fuel' Hge). exact Hc.
Qed.
