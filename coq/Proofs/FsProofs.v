From TxV Require Import Core.Base Model.FsDefs Gen.SrcFs Model.Fs.

(* bookkeeping of the injected low-level failure: it has not fired before event n / it fires before event T *)
Definition ok_before (fl : failure) (n : nat) : Prop := match fl with AtFlush e _ _ => n <= e | _ => True end.
Definition fired (fl : failure) (T : nat) : Prop := match fl with AtFlush e _ _ => e < T | _ => False end.
Definition nonempty {A} (l : list A) : bool := match l with [] => false | _ => true end.

Lemma fails_true : forall fl n, ok_before fl n -> fails fl n = true -> fired fl (S n).
Proof.
  intros fl n Hb Hf. destruct fl as [| |e pers part| |]; cbn in *; try discriminate.
  destruct pers; [apply Nat.leb_le in Hf | apply Nat.eqb_eq in Hf]; lia.
Qed.

Lemma fails_false : forall fl n, ok_before fl n -> fails fl n = false -> ok_before fl (S n).
Proof.
  intros fl n Hb Hf. destruct fl as [| |e pers part| |]; cbn in *; try exact I.
  destruct pers; [apply Nat.leb_gt in Hf | apply Nat.eqb_neq in Hf]; lia.
Qed.

Lemma fired_mono : forall fl T T', fired fl T -> T <= T' -> fired fl T'.
Proof. intros fl T T' H Hle. destruct fl; cbn in *; try contradiction. lia. Qed.

Lemma ok_fired_absurd : forall fl T, ok_before fl T -> fired fl T -> False.
Proof. intros fl T H1 H2. destruct fl; cbn in *; try contradiction. lia. Qed.

(* The situation of the exporters' writes: the open file object writes to the temporary name, which holds c so
   far, and the target is tg.  A low-level write in it, failing or not, stays in it. *)
Definition tmp (tg : option (list piece)) (c : list piece) (o : ostate) : Prop :=
  target (o_disk o) = tg /\ temp (o_disk o) = Some c /\ h_loc (o_h o) = AtTemp.

Lemma raw_event_tmp fl tg c o tw keep : tmp tg c o ->
  let '(o', raised) := raw_event fl o tw keep in
  o_ev o' = S (o_ev o) /\ raised = fails fl (o_ev o) /\
  if raised then exists c', tmp tg c' o' else tmp tg (c ++ map Chunk tw) o' /\ pending (o_h o') = keep.
Proof.
  intros [Hg [Ht Hl]]. unfold raw_event, tmp. rewrite Hl.
  destruct (fails fl (o_ev o)); cbn [o_ev o_disk o_h h_loc pending]; (split; [reflexivity|]); (split; [reflexivity|]).
  - destruct (leaves_part fl); unfold append_at; rewrite ?Ht; cbn [target temp]; eauto.
  - unfold append_at. rewrite Ht. cbn [target temp]. auto.
Qed.

Lemma close_keeps_target fl tg c o : tmp tg c o -> target (disk (fst (close fl (still_open o)))) = tg.
Proof.
  intro H. destruct o as [d h n]. unfold close. cbn [still_open hnd o_h opened disk ev o_disk o_ev].
  destruct (pending h) as [|p pr]; [apply H|].
  pose proof (raw_event_tmp fl tg c {| o_disk := d; o_h := h; o_ev := n |} (p :: pr) [] H) as R.
  destruct (raw_event fl _ (p :: pr) []) as [o' []]; cbn [fst disk]; [destruct R as [_ [_ [c' R]]] | destruct R as [_ [_ [R _]]]]; apply R.
Qed.

(* What is to be shown of the rest of the `with` block (the remaining writes, then close) from a state in that
   situation: the target stays tg; an exception means close failed or the injected failure fired before event N;
   without one the temporary file holds `all`, and the failure has not fired before N. *)
Definition block_post (fl : failure) tg (all : list piece) (N : nat) (res : ostate * bool) : Prop :=
  let '(o1, r1) := res in
  let '(st, r2) := close fl (still_open o1) in
  target (disk st) = tg /\
  if (r1 || r2)%bool then fl = AtClose \/ fired fl N
  else temp (disk st) = Some all /\ fl <> AtClose /\ ok_before fl N.

(* one low-level write and then `rest`, when an undisturbed run makes at least this one event more *)
Lemma flush_step fl tg all N (rest : ostate -> ostate * bool) o c tw keep :
  tmp tg c o -> ok_before fl (o_ev o) -> S (o_ev o) <= N ->
  (forall o1, tmp tg (c ++ map Chunk tw) o1 -> pending (o_h o1) = keep -> o_ev o1 = S (o_ev o) -> ok_before fl (o_ev o1) ->
     block_post fl tg all N (rest o1)) ->
  block_post fl tg all N (let '(o1, raised) := raw_event fl o tw keep in if raised then (o1, true) else rest o1).
Proof.
  intros Ho Hb HN Hrest. pose proof (raw_event_tmp fl tg c o tw keep Ho) as R.
  destruct (raw_event fl o tw keep) as [o1 r]. destruct R as [Hev [Hr R]]. destruct r.
  - destruct R as [c' R]. unfold block_post. pose proof (close_keeps_target fl tg c' o1 R) as K.
    destruct (close fl (still_open o1)) as [st r2]. split; [exact K|]. right.
    apply (fired_mono fl (S (o_ev o))); [apply fails_true; auto | exact HN].
  - destruct R as [R Hp]. apply Hrest; auto. rewrite Hev. apply fails_false; auto.
Qed.

Lemma close_flag fl (r : bool) N (P : Prop) :
  (if r then fired fl N else P /\ ok_before fl N) ->
  if (r || match fl with AtClose => true | _ => false end)%bool then fl = AtClose \/ fired fl N
  else P /\ fl <> AtClose /\ ok_before fl N.
Proof.
  destruct r; [right; assumption|]. intros [HP Hb].
  destruct fl; cbn [orb]; try (split; [exact HP | split; [discriminate | exact Hb]]). left. reflexivity.
Qed.

Lemma nonempty_snoc : forall (l : list nat) c, nonempty (l ++ [c]) = true.
Proof. intros l c. destruct l; reflexivity. Qed.

Lemma chunks_assoc (c : list piece) tw keep r :
  (c ++ map Chunk tw) ++ map Chunk (keep ++ r) = c ++ map Chunk ((tw ++ keep) ++ r).
Proof. rewrite !map_app, !app_assoc. reflexivity. Qed.

(* N, the events made so far plus those an undisturbed run still makes (the last one is the flush in close), is the
   same at every step. *)
Lemma block_spec fl tg : forall chunks sched o c, tmp tg c o -> ok_before fl (o_ev o) ->
  block_post fl tg (c ++ map Chunk (pending (o_h o) ++ chunks))
    (o_ev o + n_events_from chunks sched (nonempty (pending (o_h o)))) (write_loop chunks sched fl o).
Proof.
  induction chunks as [|c0 r IH]; intros sched o c Ho Hb; cbn [write_loop n_events_from].
  - rewrite app_nil_r. destruct o as [d h n]. unfold block_post, close. cbn [still_open hnd o_h opened disk ev o_disk o_ev pending] in *.
    destruct (pending h) as [|p pr]; cbn [nonempty].
    + cbn [disk orb]. split; [apply Ho|]. apply (close_flag fl false). rewrite Nat.add_0_r. cbn [map]. rewrite app_nil_r. split; [apply Ho | exact Hb].
    + pose proof (raw_event_tmp fl tg c {| o_disk := d; o_h := h; o_ev := n |} (p :: pr) [] Ho) as R.
      destruct (raw_event fl _ (p :: pr) []) as [o' r']. cbn [disk o_ev orb] in *. destruct R as [Hev [Hr R]].
      rewrite Nat.add_1_r.
      destruct r'.
      * destruct R as [c' R]. split; [apply R|]. apply (close_flag fl true). apply fails_true; auto.
      * destruct R as [R _]. split; [apply R|]. apply (close_flag fl false). split; [apply R | apply fails_false; auto].
  - change (c0 :: r) with ([c0] ++ r). rewrite app_assoc. destruct (hd Buf sched).
    + specialize (IH (tl sched) (buffer c0 o) c Ho Hb). cbn [buffer o_h o_ev pending] in IH. rewrite nonempty_snoc in IH. exact IH.
    + rewrite Nat.add_succ_r.
      apply (flush_step fl tg _ _ (write_loop r (tl sched) fl) o c (pending (o_h o) ++ [c0]) [] Ho Hb); [lia|].
      intros o1 T P E B. specialize (IH (tl sched) o1 _ T B). rewrite P, E, chunks_assoc, app_nil_r in IH. exact IH.
    + rewrite Nat.add_succ_r.
      apply (flush_step fl tg _ _ (write_loop r (tl sched) fl) o c (pending (o_h o)) [c0] Ho Hb); [lia|].
      intros o1 T P E B. specialize (IH (tl sched) o1 _ T B). rewrite P, E, chunks_assoc in IH. exact IH.
Qed.

Lemma exec_seq a b chunks sched fl e st :
  exec (PSeq a b) chunks sched fl e st =
  let '(st1, raised) := exec a chunks sched fl e st in if raised then (st1, true) else exec b chunks sched fl e st1.
Proof. reflexivity. Qed.

Lemma exec_try body handler chunks sched fl e st :
  exec (PTry body handler) chunks sched fl e st =
  let '(st1, raised) := exec body chunks sched fl e st in
  if raised then (fst (exec handler chunks sched fl e st1), true) else (st1, false).
Proof. reflexivity. Qed.

Lemma exec_open body chunks sched fl e st : fl <> AtOpen ->
  exec (POpen body) chunks sched fl e st =
  let '(st1, r1) := exec body chunks sched fl e (open_file st) in
  let '(st2, r2) := close fl st1 in (st2, (r1 || r2)%bool).
Proof. intro H. destruct fl; try reflexivity. destruct H. reflexivity. Qed.

(* The exporters' protocol, as translated from the source. *)
Lemma protocol_is : protocol = PTry (PSeq (POpen PWrite) PReplace) PRemoveTmp /\ writes_to_temp = true /\ temp_same_dir = true.
Proof. repeat split; reflexivity. Qed.

(* all-or-nothing: whatever the buffering and the failure point, afterwards the target is either complete or
   exactly what it was before (absent if it was absent), and no temporary file remains *)
Theorem export_atomic : forall xd f chunks sched fl,
  let '(f', raised) := export xd f chunks sched fl in
  temp f' = None /\
  (if raised then target f' = target f else target f' = Some (complete chunks)) /\
  (raised = false <-> fl = NoFailure \/ (exists e p q, fl = AtFlush e p q /\ n_events chunks sched <= e)).
Proof.
  intros xd f chunks sched fl. destruct protocol_is as [P1 [Hw P3]].
  unfold export, run. rewrite P1, P3, exec_try, exec_seq. set (en := {| xdev := xd; same_dir := true |}).
  assert (Ho : fl = AtOpen \/ fl <> AtOpen) by (destruct fl; (left; reflexivity) || (right; discriminate)).
  destruct Ho as [->|Ho].
  - cbn. split; [reflexivity|]. split; [reflexivity|]. split; [discriminate|].
    intros [H|[e [p [q [H _]]]]]; discriminate.
  - rewrite (exec_open PWrite chunks sched fl en (init f) Ho). cbn [exec]. unfold open_file. rewrite Hw. cbn [init hnd disk ev].
    pose proof (block_spec fl (target f) chunks sched (opened (init {| target := target f; temp := Some [] |}) {| h_loc := AtTemp; pending := [] |}) []) as B.
    unfold block_post in B. cbn [opened init disk ev o_ev o_h pending nonempty app] in B. unfold opened, init in *.
    destruct (write_loop chunks sched fl _) as [o1 r1]. destruct (close fl (still_open o1)) as [st r2].
    destruct B as [Hg B]; [repeat split | destruct fl; cbn; auto; lia |]. fold (n_events chunks sched) in B.
    destruct (r1 || r2)%bool.
    + (* the `with` block raised: the handler removes the temporary file *)
      cbn [exec fst disk target temp]. split; [reflexivity|]. split; [exact Hg|]. split; [discriminate|].
      intros [->|[e [p [q [-> Hle]]]]]; destruct B as [B|B]; try discriminate; cbn in B; try contradiction; lia.
    + destruct B as [Hc [Hcl Hb]].
      assert (Hcd : cross_device en = false) by apply andb_false_r.
      destruct fl as [| |e p q| |]; try (destruct Ho; reflexivity); try (destruct Hcl; reflexivity);
        cbn [exec]; rewrite ?Hcd, ?Hc; cbn [fst disk target temp].
      * split; [reflexivity|]. split; [reflexivity|]. split; [intros _; left; reflexivity | reflexivity].
      * split; [reflexivity|]. split; [reflexivity|]. split; [|reflexivity].
        intros _. right. exists e, p, q. split; [reflexivity | exact Hb].
      * split; [reflexivity|]. split; [assumption|]. split; [discriminate|].
        intros [H|[e [p [q [H _]]]]]; discriminate.
Qed.

(* an existing complete file is never touched without --overwrite *)
Lemma existing_kept xd c chunks sched fl : forall t, gen_file xd false {| target := Some c; temp := t |} chunks sched fl = ({| target := Some c; temp := t |}, false).
Proof. intro t. unfold gen_file. cbn. reflexivity. Qed.

(* why the order matters: the same statements with os.replace moved inside the `with open` block (before the
   close that flushes the buffer) are not atomic - a failure of the flush at close truncates the target *)
Definition early_replace : prog := POpen (PTry (PSeq PWrite PReplace) PRemoveTmp).

(* why the place of the temporary file and the publication primitive matter: the same statements with the temporary
   file in the system temporary folder and shutil.move.  When that folder is on another file system than the output
   folder the rename fails and shutil.move copies: a failure of the copy's low-level write (event 1; event 0 is the
   flush in close) leaves a truncated target.  On the same file system, or with the temporary file next to the
   target, the same failure point is never reached and the file is published by the rename.  With os.replace and a
   temporary file on another file system nothing is ever published. *)
Definition moved : prog := PTry (PSeq (POpen PWrite) PMove) PRemoveTmp.
