(* [pnode] on a NonTerminal as the dispatch of one step function per node kind (asgn_step, abstract_step,
   common_step; pnode_NT), with their inversion lemmas; objects built by Model/Build.v carry exactly the span of
   their rule node. *)
From TxV Require Import Core.Base Model.PegSyntax Model.Peg Model.Build Proofs.BuildProofs.
Require Import Lia.

(* the object under construction keeps its class and span while children are processed *)
Definition same_frame (top top' : option cur) : Prop :=
  match top, top' with
  | None, None => True
  | Some c, Some c' => c_pos c' = c_pos c /\ c_end c' = c_end c /\ c_cls c' = c_cls c /\ c_meta c' = c_meta c
  | _, _ => False
  end.

Lemma same_frame_refl top : same_frame top top.
Proof. destruct top; cbn; auto. Qed.
Lemma same_frame_trans a b c : same_frame a b -> same_frame b c -> same_frame a c.
Proof.
  destruct a, b, c; cbn; try tauto. intros [A1 [A2 [A3 A4]]] [B1 [B2 [B3 B4]]]. repeat split; congruence.
Qed.
Lemma same_frame_set a v c c1 : same_frame (Some c) (Some c1) -> same_frame (Some c) (Some (cur_set a v c1)).
Proof. cbn. tauto. Qed.

Definition frame_ok (rec : tree -> option cur -> bres (value * option cur)) (t : tree) : Prop :=
  forall top v top', rec t top = BOk (v, top') -> same_frame top top'.

Lemma each_frame rec l :
  Forall (frame_ok rec) l -> forall top top', each_loop rec l top = BOk top' -> same_frame top top'.
Proof.
  induction l as [|k l IH]; intros HF top top' H; cbn [each_loop] in H.
  - inversion H; subst. apply same_frame_refl.
  - inversion HF as [|? ? Hk HF']; subst.
    destruct (rec k top) as [[v top1]|e] eqn:E; [|discriminate].
    eapply same_frame_trans; [apply (Hk _ _ _ E) | apply (IH HF' _ _ H)].
Qed.

Lemma lst_frame rec is_sep a refcls l :
  Forall (frame_ok rec) l -> forall top top', lst_loop rec is_sep a refcls l top = BOk top' -> same_frame top top'.
Proof.
  induction l as [|k l IH]; intros HF top top' H; cbn [lst_loop] in H.
  - inversion H; subst. apply same_frame_refl.
  - inversion HF as [|? ? Hk HF']; subst.
    destruct (is_sep k); [apply (IH HF' _ _ H)|].
    destruct (rec k top) as [[v top1]|e] eqn:E; [|discriminate]. cbv zeta in H.
    destruct top1 as [c1|]; [|discriminate].
    pose proof (Hk _ _ _ E) as F1.
    destruct (get_val a (c_vals c1)) as [[]|] eqn:Eg; try discriminate.
    + eapply same_frame_trans; [|apply (IH HF' _ _ H)].
      destruct top as [c|]; [apply same_frame_set; exact F1 | destruct F1].
    + eapply same_frame_trans; [|apply (IH HF' _ _ H)].
      destruct top as [c|]; [apply same_frame_set; exact F1 | destruct F1].
Qed.

(* the result of an abstract node with several children is the result of one of them *)
Lemma first_nonmatch_in rec kind_of l top v top' :
  first_nonmatch rec kind_of l top = Some (BOk (v, top')) -> exists x, In x l /\ rec x top = BOk (v, top').
Proof.
  induction l as [|k l IH]; cbn [first_nonmatch]; [discriminate|].
  destruct k as [n p len s|xn kids].
  - intro H. destruct (IH H) as [x [A B]]. exists x. split; [right; exact A | exact B].
  - destruct (kind_of xn) as [[|]|]; intro H.
    + injection H as H. eexists. split; [left; reflexivity | exact H].
    + destruct (IH H) as [x [A B]]. exists x. split; [right; exact A | exact B].
    + discriminate.
Qed.

Lemma first_nt_in rec has_cls l top v top' :
  first_nt rec has_cls l top = Some (BOk (v, top')) -> exists x, In x l /\ rec x top = BOk (v, top').
Proof.
  induction l as [|k l IH]; cbn [first_nt]; [discriminate|].
  destruct k as [n p len s|xn kids].
  - intro H. destruct (IH H) as [x [A B]]. exists x. split; [right; exact A | exact B].
  - intro H. injection H as H. destruct (has_cls xn); [|discriminate]. eexists. split; [left; reflexivity | exact H].
Qed.

Section Frame.
Variable g : grammar.
Variable mm : list ninfo.
Variable input : list N.
Variable grp : nat -> nat -> option (nat * nat).
Variable auto use_grp : bool.
Notation pn := (pnode g mm input grp auto use_grp).

(* pnode on a NonTerminal, one function per kind of node (the recursive call a parameter), and what a
   successful run of each did *)
Section Steps.
Variable rec : tree -> option cur -> bres (value * option cur).

(* `a = x`: the value of the first child, wrapped if the attribute is a reference, is appended to a list
   and overwrites anything else; c is the object on top of the stack *)
Definition plain_step (a : list N) (ma : attr) (kids : list tree) (top : option cur) (c : cur)
  : bres (value * option cur) :=
  match get_val a (c_vals c) with
  | None => BErr ECrash
  | Some av =>
    if (val_truthy av && negb (is_vlist av))%bool then BErr ESem
    else
      match kids with
      | [] => BErr ECrash
      | k :: _ =>
        match rec k top with
        | BOk (v0, top1) =>
          let v := if (a_ref ma && negb (a_cont ma))%bool then VRef v0 (tpos k) (a_cls ma) else v0 in
          match top1 with
          | None => BErr ECrash
          | Some c1 =>
            match av with
            | VList l => BOk (VNone, Some (cur_set a (VList (l ++ [v])) c1))
            | _ => BOk (VNone, Some (cur_set a v c1))
            end
          end
        | BErr e => BErr e
        end
      end
  end.

Definition asgn_step (nid : nat) (a : list N) (op : aop) (kids : list tree) (top : option cur)
  : bres (value * option cur) :=
  match top with
  | None => BErr ECrash
  | Some c =>
    match find_attr a (c_meta c) with
    | None => BErr ECrash
    | Some ma =>
      match op with
      | OpOptional => BOk (VNone, Some (cur_set a (VBool true) c))
      | OpPlain => plain_step a ma kids top c
      | OpList =>
        match lst_loop rec (is_sep_of g nid) a (if (a_ref ma && negb (a_cont ma))%bool then Some (a_cls ma) else None) kids top with
        | BOk top' => BOk (VNone, top')
        | BErr e => BErr e
        end
      | OpOther => BErr ECrash
      end
    end
  end.

Definition abstract_step (kids : list tree) (top : option cur) : bres (value * option cur) :=
  match kids with
  | [] => BErr ECrash
  | k :: rest =>
    match rest with
    | [] => rec k top
    | _ :: _ =>
      match first_nonmatch rec (nonmatch_class mm) kids top with
      | Some r => r
      | None =>
        match first_nt rec (has_class mm) kids top with
        | Some r => r
        | None => BOk (VStr (List.concat (map (tree_text g input) kids)), top)
        end
      end
    end
  end.

Definition common_step (t : tree) (cls : list N) (attrs : list attr) (kids : list tree) (top : option cur)
  : bres (value * option cur) :=
  match each_loop rec kids (Some (mkCur cls attrs (tpos t) (tend t) (init_attrs auto attrs))) with
  | BOk (Some c1) =>
    if name_ok (c_vals c1) then
      if many_ok (c_meta c1) (c_vals c1) then BOk (VObj (c_cls c1) (c_pos c1) (c_end c1) (c_vals c1), top)
      else BErr EUnsup
    else BErr ESem
  | BOk None => BErr ECrash
  | BErr e => BErr e
  end.

Lemma asgn_step_inv n kids a op top v top' :
  asgn_step n a op kids top = BOk (v, top') ->
  v = VNone /\ exists c ma, top = Some c /\ find_attr a (c_meta c) = Some ma /\
  match op with
  | OpPlain => exists av k rest v0 c1,
      get_val a (c_vals c) = Some av /\ kids = k :: rest /\ rec k top = BOk (v0, Some c1) /\
      let w := if (a_ref ma && negb (a_cont ma))%bool then VRef v0 (tpos k) (a_cls ma) else v0 in
      top' = Some (cur_set a (match av with VList l => VList (l ++ [w]) | _ => w end) c1)
  | OpOptional => top' = Some (cur_set a (VBool true) c)
  | OpList => lst_loop rec (is_sep_of g n) a (if (a_ref ma && negb (a_cont ma))%bool then Some (a_cls ma) else None) kids top = BOk top'
  | OpOther => False
  end.
Proof.
  unfold asgn_step. intro H.
  destruct top as [c|]; [|discriminate].
  destruct (find_attr a (c_meta c)) as [ma|] eqn:Ef; [|discriminate].
  destruct op; try discriminate.
  - unfold plain_step in H. destruct (get_val a (c_vals c)) as [av|] eqn:Eg; [|discriminate].
    destruct (val_truthy av && negb (is_vlist av))%bool; [discriminate|].
    destruct kids as [|k rest]; [discriminate|].
    destruct (rec k (Some c)) as [[v0 [c1|]]|e] eqn:E1; try discriminate. cbv zeta in H.
    set (w := if (a_ref ma && negb (a_cont ma))%bool then VRef v0 (tpos k) (a_cls ma) else v0) in *.
    replace (match av with VList l => BOk (VNone, Some (cur_set a (VList (l ++ [w])) c1)) | _ => BOk (VNone, Some (cur_set a w c1)) end)
      with (BOk (VNone, Some (cur_set a (match av with VList l => VList (l ++ [w]) | _ => w end) c1))) in H
      by (destruct av; reflexivity).
    injection H as <- <-. split; [reflexivity|].
    exists c, ma. split; [reflexivity|]. split; [exact Ef|].
    exists av, k, rest, v0, c1. repeat split; assumption.
  - injection H as <- <-. split; [reflexivity|]. exists c, ma. auto.
  - match type of H with match ?X with _ => _ end = _ => destruct X as [t1|e] eqn:E end; [|discriminate].
    injection H as <- <-. split; [reflexivity|]. exists c, ma. auto.
Qed.

Lemma common_step_inv t kids cls attrs top v top' :
  common_step t cls attrs kids top = BOk (v, top') ->
  top' = top /\ exists c1,
    each_loop rec kids (Some (mkCur cls attrs (tpos t) (tend t) (init_attrs auto attrs))) = BOk (Some c1) /\
    v = VObj (c_cls c1) (c_pos c1) (c_end c1) (c_vals c1).
Proof.
  unfold common_step. intro H.
  destruct (each_loop rec kids _) as [[c1|]|e]; try discriminate.
  destruct (name_ok (c_vals c1)); [|discriminate]. destruct (many_ok (c_meta c1) (c_vals c1)); [|discriminate].
  injection H as <- <-. eauto.
Qed.

Lemma abstract_step_inv kids top v top' :
  abstract_step kids top = BOk (v, top') ->
  (exists x, In x kids /\ rec x top = BOk (v, top')) \/ ((exists s, v = VStr s) /\ top' = top).
Proof.
  unfold abstract_step. intro H.
  destruct kids as [|k [|k2 rest]]; [discriminate | left; exists k; split; [left; reflexivity | exact H] |].
  destruct (first_nonmatch rec (nonmatch_class mm) (k :: k2 :: rest) top) as [r0|] eqn:E0.
  - subst r0. left. exact (first_nonmatch_in _ _ _ _ _ _ E0).
  - destruct (first_nt rec (has_class mm) (k :: k2 :: rest) top) as [r1|] eqn:E1.
    + subst r1. left. exact (first_nt_in _ _ _ _ _ _ E1).
    + right. injection H as <- <-. eauto.
Qed.
End Steps.

Lemma pnode_NT n kids top :
  pn (NT n kids) top =
  match info mm n with
  | IAsgn a op => asgn_step pn n a op kids top
  | IRule RAbstract _ _ => abstract_step pn kids top
  | IRule RMatch _ _ => match pmatch g input (NT n kids) with BOk v => BOk (v, top) | BErr e => BErr e end
  | IRule RCommon cls attrs => common_step pn (NT n kids) cls attrs kids top
  | ITerm _ _ | IOther => BErr ECrash
  end.
Proof. reflexivity. Qed.

Lemma pnode_frame : forall t, frame_ok pn t.
Proof.
  induction t as [n p l s | n kids IH] using PegProofs.tree_ind2; intros top v top' H.
  - cbn [pnode] in H. destruct (term_value g mm input grp use_grp n p l); inversion H; subst. apply same_frame_refl.
  - rewrite pnode_NT in H. destruct (info mm n) as [a op|[] cls attrs|r gr|]; try discriminate.
    + destruct (asgn_step_inv _ _ _ _ _ _ _ _ H) as [_ [c [ma [-> [_ Hop]]]]].
      destruct op.
      * destruct Hop as (av & k & rest & v0 & c1 & _ & -> & E & ->).
        apply same_frame_set, (Forall_inv IH _ _ _ E).
      * subst top'. apply same_frame_set, (same_frame_refl (Some c)).
      * exact (lst_frame _ _ _ _ _ IH _ _ Hop).
      * destruct Hop.
    + (* common: the enclosing object is untouched *)
      destruct (common_step_inv _ _ _ _ _ _ _ _ H) as [-> _]. apply same_frame_refl.
    + destruct (abstract_step_inv _ _ _ _ _ H) as [[x [Hx Ex]]|[_ ->]]; [|apply same_frame_refl].
      rewrite Forall_forall in IH. exact (IH x Hx _ _ _ Ex).
    + destruct (pmatch g input (NT n kids)); inversion H; subst. apply same_frame_refl.
Qed.

(* every object is created by a common-rule node and carries exactly that node's span *)
Lemma common_node_object n kids cls attrs top v top' :
  info mm n = IRule RCommon cls attrs -> pn (NT n kids) top = BOk (v, top') ->
  top' = top /\ exists c1,
    each_loop pn kids (Some (mkCur cls attrs (tpos (NT n kids)) (tend (NT n kids)) (init_attrs auto attrs))) = BOk (Some c1) /\
    v = VObj cls (tpos (NT n kids)) (tend (NT n kids)) (c_vals c1).
Proof.
  intros Ei H. rewrite pnode_NT, Ei in H. destruct (common_step_inv _ _ _ _ _ _ _ _ H) as [-> [c1 [E ->]]].
  split; [reflexivity|]. exists c1. split; [exact E|].
  destruct (each_frame pn kids (proj2 (Forall_forall _ _) (fun t _ => pnode_frame t)) _ _ E) as (-> & -> & -> & _).
  reflexivity.
Qed.

End Frame.

Definition nxt (lo : nat) (x : value) : nat := match x with VObj _ _ e _ => e | _ => lo end.

(* [good lo hi v]: every object directly in v (v itself, or the members of a list, which must be ordered
   and disjoint) has a non-empty span inside [lo, hi], and recursively the values of its attributes lie
   inside its own span *)
Fixpoint good (lo hi : nat) (v : value) {struct v} : Prop :=
  match v with
  | VObj _ p e attrs =>
    lo <= p /\ p < e /\ e <= hi /\
    (fix ga (l : list (list N * value)) : Prop :=
       match l with [] => True | (_, x) :: l' => good p e x /\ ga l' end) attrs
  | VList l =>
    (fix gl (lo : nat) (l : list value) : Prop :=
       match l with [] => True | x :: l' => good lo hi x /\ gl (nxt lo x) l' end) lo l
  | _ => True
  end.

Definition good_attrs (p e : nat) (attrs : list (list N * value)) : Prop := Forall (fun kv => good p e (snd kv)) attrs.

Lemma good_obj lo hi c p e attrs :
  good lo hi (VObj c p e attrs) <-> lo <= p /\ p < e /\ e <= hi /\ good_attrs p e attrs.
Proof.
  cbn [good]. unfold good_attrs.
  assert (E : (fix ga (l : list (list N * value)) : Prop :=
                 match l with [] => True | (_, x) :: l' => good p e x /\ ga l' end) attrs
              <-> Forall (fun kv => good p e (snd kv)) attrs).
  { induction attrs as [|[k x] l IH]; [split; [constructor | trivial]|].
    split.
    - intros [A B]. constructor; [exact A | apply IH; exact B].
    - intro F. inversion F; subst. split; [assumption | apply IH; assumption]. }
  tauto.
Qed.

Lemma good_vlist_cons lo hi x l : good lo hi (VList (x :: l)) = (good lo hi x /\ good (nxt lo x) hi (VList l)).
Proof. reflexivity. Qed.

Section ValueInd.
Variable P : value -> Prop.
Hypothesis HNone : P VNone.
Hypothesis HBool : forall b, P (VBool b).
Hypothesis HDef : forall t, P (VDefault t).
Hypothesis HStr : forall s, P (VStr s).
Hypothesis HTerm : forall r t, P (VTerm r t).
Hypothesis HJoin : forall r ps, Forall P ps -> P (VJoin r ps).
Hypothesis HConv : forall r v, P v -> P (VConv r v).
Hypothesis HObj : forall c p e attrs, Forall (fun kv => P (snd kv)) attrs -> P (VObj c p e attrs).
Hypothesis HRef : forall nm p c, P nm -> P (VRef nm p c).
Hypothesis HList : forall l, Forall P l -> P (VList l).
Fixpoint value_ind2 (v : value) : P v :=
  match v with
  | VNone => HNone
  | VBool b => HBool b
  | VDefault t => HDef t
  | VStr s => HStr s
  | VTerm r t => HTerm r t
  | VJoin r ps => HJoin r ps ((fix go (l : list value) : Forall P l :=
                                 match l with [] => Forall_nil P | x :: l' => Forall_cons x (value_ind2 x) (go l') end) ps)
  | VConv r x => HConv r x (value_ind2 x)
  | VObj c p e attrs =>
    HObj c p e attrs ((fix go (l : list (list N * value)) : Forall (fun kv => P (snd kv)) l :=
                         match l with
                         | [] => Forall_nil _
                         | kv :: l' => Forall_cons kv (value_ind2 (snd kv)) (go l')
                         end) attrs)
  | VRef nm p c => HRef nm p c (value_ind2 nm)
  | VList l => HList l ((fix go (l : list value) : Forall P l :=
                           match l with [] => Forall_nil P | x :: l' => Forall_cons x (value_ind2 x) (go l') end) l)
  end.
End ValueInd.

Lemma nxt_mono lo lo' x : lo' <= lo -> nxt lo' x <= nxt lo x.
Proof. destruct x; cbn; lia. Qed.

Lemma good_mono v : forall lo hi lo' hi', good lo hi v -> lo' <= lo -> hi <= hi' -> good lo' hi' v.
Proof.
  induction v as [| | | | |r ps IHj|r v IHc|c p e attrs IH|nm q cl IHr|l IH] using value_ind2; intros lo hi lo' hi' H Hl Hh; try exact I.
  - apply good_obj in H. apply good_obj. destruct H as [A [B [C D]]]. repeat split; try lia. exact D.
  - revert lo lo' H Hl. induction l as [|x l IHl]; intros lo lo' H Hl; [exact I|].
    inversion IH as [|? ? Hx Hl']; subst.
    rewrite good_vlist_cons in *. destruct H as [A B]. split.
    + apply (Hx lo hi lo' hi' A Hl Hh).
    + apply (IHl Hl' (nxt lo x) (nxt lo' x) B). apply nxt_mono. exact Hl.
Qed.

Lemma good_nxt_le lo hi x : good lo hi x -> lo <= hi -> nxt lo x <= hi.
Proof. destruct x; cbn [nxt]; try lia. intros H _. apply good_obj in H. lia. Qed.

(* appending an element that lies after everything already in the list *)
Lemma good_snoc l : forall lo hi hi' v,
  good lo hi (VList l) -> lo <= hi -> hi <= hi' -> good hi hi' v -> good lo hi' (VList (l ++ [v])).
Proof.
  induction l as [|x l IH]; intros lo hi hi' v H Hle Hh Hv.
  - cbn [app]. rewrite good_vlist_cons. split; [apply (good_mono v hi hi' lo hi' Hv Hle (le_n _)) | exact I].
  - cbn [app]. rewrite good_vlist_cons in *. destruct H as [A B]. split.
    + apply (good_mono x lo hi lo hi' A (le_n _) Hh).
    + apply (IH (nxt lo x) hi hi' v B (good_nxt_le lo hi x A Hle) Hh Hv).
Qed.

Definition cur_ok (lo hi : nat) (c : cur) : Prop := lo <= hi /\ Forall (fun kv => good lo hi (snd kv)) (c_vals c).

Lemma cur_ok_mono lo hi hi' c : cur_ok lo hi c -> hi <= hi' -> cur_ok lo hi' c.
Proof.
  intros [A B] H. split; [lia|]. eapply Forall_impl; [|exact B]. intros kv G. apply (good_mono _ lo hi lo hi' G (le_n _) H).
Qed.

Lemma set_val_forall (Q : value -> Prop) a v vals :
  Forall (fun kv => Q (snd kv)) vals -> Q v -> Forall (fun kv : list N * value => Q (snd kv)) (set_val a v vals).
Proof.
  induction vals as [|[k w] l IH]; intros F Hv; cbn [set_val].
  - constructor; [exact Hv | constructor].
  - inversion F; subst. destruct (str_eqb a k); constructor; try assumption. apply IH; assumption.
Qed.

Lemma get_val_forall (Q : value -> Prop) a v vals :
  Forall (fun kv => Q (snd kv)) vals -> get_val a vals = Some v -> Q v.
Proof.
  induction vals as [|[k w] l IH]; intros F H; cbn [get_val] in H; [discriminate|].
  inversion F; subst. destruct (str_eqb a k); [inversion H; subst; assumption | apply IH; assumption].
Qed.

Lemma cur_ok_set lo hi a v c : cur_ok lo hi c -> good lo hi v -> cur_ok lo hi (cur_set a v c).
Proof. intros [A B] G. split; [exact A|]. cbn [cur_set c_vals]. apply set_val_forall; assumption. Qed.

(* the object under construction exists and holds what was built up to the frontier hi *)
Definition top_ok (lo hi : nat) (top : option cur) : Prop := exists c, top = Some c /\ cur_ok lo hi c.

Lemma top_ok_mono lo hi hi' top : top_ok lo hi top -> hi <= hi' -> top_ok lo hi' top.
Proof. intros [c [E H]] Hh. exists c. split; [exact E | exact (cur_ok_mono _ _ _ _ H Hh)]. Qed.

Lemma init_attrs_good auto lo hi attrs : Forall (fun kv => good lo hi (snd kv)) (init_attrs auto attrs).
Proof.
  unfold init_attrs. apply Forall_forall. intros kv Hin. apply in_map_iff in Hin as [a [<- _]]. cbn [snd].
  unfold init_attr. destruct (a_mult a); try exact I; destruct (is_base_type (a_cls a)); try exact I;
    destruct auto; try exact I; destruct (a_bool a); exact I.
Qed.

Section Objects.
Variable g : grammar.
Variable mm : list ninfo.
Variable input : list N.
Variable grp : nat -> nat -> option (nat * nat).
Variable auto use_grp : bool.
Notation pn := (pnode g mm input grp auto use_grp).

Definition is_asgn (t : tree) : bool :=
  match t with
  | NT nid _ => match info mm nid with IAsgn _ _ => true | _ => false end
  | T _ _ _ _ => false
  end.

Lemma placed_false_not_asgn t : asg_placed mm false t = true -> is_asgn t = false.
Proof.
  destruct t as [|nid kids]; [reflexivity|]. cbn [asg_placed is_asgn]. unfold info.
  destruct (nth nid mm IOther); try reflexivity. cbn. discriminate.
Qed.

(* what processing a node does: the value lies in the node's span; only an assignment node touches the object
   under construction; and whatever that object held up to a frontier before the node, it holds up to the
   node's end afterwards *)
Definition obj_ok (rec : tree -> option cur -> bres (value * option cur)) (t : tree) : Prop :=
  forall under top v top', wf_tree t = true -> asg_placed mm under t = true -> rec t top = BOk (v, top') ->
    good (tpos t) (tend t) v /\
    (is_asgn t = false -> top' = top) /\
    (forall lo hi, top_ok lo hi top -> hi <= tpos t -> top_ok lo (tend t) top').

Lemma each_ok rec under E lo : forall l hi top top',
  Forall (obj_ok rec) l -> Forall (fun k => wf_tree k = true) l -> forallb (asg_placed mm under) l = true ->
  chain hi l -> (forall k, In k l -> tend k <= E) -> hi <= E ->
  each_loop rec l top = BOk top' -> top_ok lo hi top -> top_ok lo E top'.
Proof.
  induction l as [|k l IH]; intros hi top top' HF Hwf Hpl Hch HE HhE H Hc; cbn [each_loop] in H.
  - inversion H; subst. exact (top_ok_mono _ _ _ _ Hc HhE).
  - inversion HF as [|? ? Hk HF']; subst. inversion Hwf as [|? ? Wk Hwf']; subst.
    cbn [forallb] in Hpl. apply andb_true_iff in Hpl as [Pk Hpl'].
    cbn [chain] in Hch. destruct Hch as [C1 [C2 C3]].
    destruct (rec k top) as [[v top1]|e] eqn:E1; [|discriminate].
    destruct (Hk under top v top1 Wk Pk E1) as [_ [_ H3]].
    exact (IH (tend k) top1 top' HF' Hwf' Hpl' C3 (fun x Hx => HE x (or_intror Hx)) (HE k (or_introl eq_refl)) H
              (H3 lo hi Hc C1)).
Qed.

Lemma lst_ok rec is_sep a refcls E lo : forall l hi top top',
  Forall (obj_ok rec) l -> Forall (fun k => wf_tree k = true) l -> forallb (asg_placed mm false) l = true ->
  chain hi l -> (forall k, In k l -> tend k <= E) -> hi <= E ->
  lst_loop rec is_sep a refcls l top = BOk top' -> top_ok lo hi top -> top_ok lo E top'.
Proof.
  induction l as [|k l IH]; intros hi top top' HF Hwf Hpl Hch HE HhE H Hc; cbn [lst_loop] in H.
  - inversion H; subst. exact (top_ok_mono _ _ _ _ Hc HhE).
  - inversion HF as [|? ? Hk HF']; subst. inversion Hwf as [|? ? Wk Hwf']; subst.
    cbn [forallb] in Hpl. apply andb_true_iff in Hpl as [Pk Hpl'].
    cbn [chain] in Hch. destruct Hch as [C1 [C2 C3]].
    assert (HEk : tend k <= E) by (apply HE; left; reflexivity).
    destruct (is_sep k).
    + apply (IH hi top top' HF' Hwf' Hpl' (chain_mono (tend k) hi l C3 ltac:(lia)) (fun x Hx => HE x (or_intror Hx)) HhE H Hc).
    + destruct (rec k top) as [[v0 top1]|e] eqn:E1; [|discriminate].
      (* the element is not an assignment node: the list it is appended to is the one held before it *)
      destruct (Hk false top v0 top1 Wk Pk E1) as [Gv0 [Hpure _]].
      rewrite (Hpure (placed_false_not_asgn k Pk)) in H. cbv zeta in H.
      destruct Hc as [c [-> [Hlo Hvals]]].
      set (v := match refcls with Some cl => VRef v0 (tpos k) cl | None => v0 end) in *.
      assert (Gv : good hi (tend k) v).
      { apply (good_mono v (tpos k) (tend k)); [|exact C1 | exact (le_n _)]. subst v. destruct refcls; [exact I | exact Gv0]. }
      assert (Hc' : cur_ok lo (tend k) c) by (apply (cur_ok_mono lo hi); [split; assumption | lia]).
      destruct (get_val a (c_vals c)) as [[| | | | | | | | |vs]|] eqn:Eg; try discriminate;
        (apply (IH (tend k) _ top' HF' Hwf' Hpl' C3 (fun x Hx => HE x (or_intror Hx)) HEk H);
         eexists; split; [reflexivity|]; apply cur_ok_set; [exact Hc'|]).
      * (* VNone: a fresh list *)
        rewrite good_vlist_cons. split; [apply (good_mono v _ _ _ _ Gv); lia | exact I].
      * (* append *)
        apply (good_snoc vs lo hi (tend k) v); [|exact Hlo | lia | exact Gv].
        apply (get_val_forall (good lo hi) a _ _ Hvals Eg).
Qed.

Lemma term_value_good n p l v lo hi : term_value g mm input grp use_grp n p l = BOk v -> good lo hi v.
Proof.
  unfold term_value.
  repeat match goal with |- context [match ?x with _ => _ end] => destruct x end; intro X; inversion X; exact I.
Qed.

Lemma pmatch_good t v lo hi : pmatch g input t = BOk v -> good lo hi v.
Proof.
  destruct t as [n p len s|n kids]; cbn [pmatch]; intro H.
  - inversion H; subst. exact I.
  - destruct (is_base5 (rule_of g n)); [discriminate|].
    destruct kids as [|k rest]; [discriminate|].
    destruct rest as [|k2 rest].
    + destruct (pmatch g input k); inversion H; subst. exact I.
    + match type of H with match ?X with _ => _ end = _ => destruct X end; inversion H; subst. exact I.
Qed.

Lemma pnode_obj_ok : forall t, obj_ok pn t.
Proof.
  induction t as [n p l s | n kids IH] using PegProofs.tree_ind2; intros under top v top' Hwf Hpl H.
  - cbn [pnode] in H. destruct (term_value g mm input grp use_grp n p l) as [v0|e] eqn:Et; [|discriminate].
    inversion H; subst. split; [exact (term_value_good _ _ _ _ _ _ Et)|]. split; [reflexivity|].
    intros lo hi Hc Hh. apply (top_ok_mono _ _ _ _ Hc). cbn [tpos tend] in *. lia.
  - pose proof (wf_tree_nonempty _ Hwf) as Hne.
    destruct (wf_tree_NT _ _ Hwf) as [_ [Hkwf _]].
    pose proof (wf_tree_chain _ _ Hwf) as Hch.
    pose proof (fun x Hx => proj2 (wf_tree_nesting n kids x Hwf Hx)) as HE.
    (* a node that leaves the object under construction alone only moves the frontier *)
    assert (Hpure : top' = top ->
              forall lo hi, top_ok lo hi top -> hi <= tpos (NT n kids) -> top_ok lo (tend (NT n kids)) top').
    { intros -> lo hi Hc Hh. apply (top_ok_mono _ _ _ _ Hc). lia. }
    cbn [asg_placed] in Hpl. change (nth n mm IOther) with (info mm n) in Hpl. cbn [is_asgn].
    destruct (info mm n) as [a op|rk cls attrs|r gr|] eqn:Ei; [|destruct rk|..].
    + (* assignment: the value goes into the object under construction, after everything it holds *)
      rewrite pnode_NT, Ei in H. apply asgn_step_inv in H as [-> [c [ma [-> [_ Hop]]]]].
      apply andb_true_iff in Hpl as [_ Hpl].
      split; [exact I|]. split; [discriminate|].
      intros lo hi [c' [Ec Hc]] Hh. inversion Ec; subst c'. clear Ec.
      destruct op.
      * destruct Hop as (av & k & rest & v0 & c1 & Eg & -> & E1 & ->).
        pose proof (Forall_inv IH) as Hk. pose proof (Forall_inv Hkwf) as Wk. cbn beta in Hk, Wk.
        cbn [forallb] in Hpl. apply andb_true_iff in Hpl as [Pk _].
        destruct (Hk false _ _ _ Wk Pk E1) as [Gv0 [Hp _]].
        specialize (Hp (placed_false_not_asgn k Pk)). injection Hp as ->.
        set (w := if (a_ref ma && negb (a_cont ma))%bool then VRef v0 (tpos k) (a_cls ma) else v0).
        assert (Gw : good (tpos k) (tend k) w) by (subst w; destruct (a_ref ma && negb (a_cont ma))%bool; [exact I | exact Gv0]).
        pose proof (HE k (or_introl eq_refl)) as HEk. pose proof (wf_tree_nonempty _ Wk) as Hk1.
        cbn [tpos] in Hh. fold (tpos k) in Hh. destruct Hc as [Hlo Hvals].
        apply (fun G => good_mono w _ _ hi (tend k) G Hh (le_n _)) in Gw.
        eexists. split; [reflexivity|]. apply cur_ok_set; [apply (cur_ok_mono lo hi); [split; assumption | lia] |].
        destruct av; try (apply (good_mono w _ _ _ _ Gw); [exact Hlo | exact HEk]).
        (* list valued: the new element comes after those already held *)
        apply (good_mono _ lo (tend k) lo _); [|exact (le_n _) | exact HEk].
        apply (good_snoc l lo hi (tend k) w); [|exact Hlo | lia | exact Gw].
        apply (get_val_forall (good lo hi) a _ _ Hvals Eg).
      * subst top'. eexists. split; [reflexivity|]. apply cur_ok_set; [apply (cur_ok_mono _ _ _ _ Hc); lia | exact I].
      * apply (lst_ok pn _ a _ (tend (NT n kids)) lo kids hi _ top' IH Hkwf Hpl (chain_mono _ _ _ Hch Hh) HE ltac:(lia) Hop).
        exists c. split; [reflexivity | exact Hc].
      * destruct Hop.
    + (* common: a new object, filled by the children from an empty frontier at the node's start *)
      destruct (common_node_object _ _ _ _ _ _ _ _ _ _ _ _ _ Ei H) as [-> [c1 [E1 ->]]].
      split; [|split; [reflexivity | apply Hpure; reflexivity]].
      destruct (each_ok pn true (tend (NT n kids)) (tpos (NT n kids)) kids (tpos (NT n kids)) _ _ IH Hkwf Hpl Hch HE ltac:(lia) E1)
        as [c1' [Ec [_ Hv]]].
      { eexists. split; [reflexivity|]. split; [lia | apply init_attrs_good]. }
      inversion Ec; subst c1'. apply good_obj. repeat split; try lia. exact Hv.
    + (* abstract: the value of one child, or a string *)
      rewrite pnode_NT, Ei in H. apply abstract_step_inv in H as [[x [Hx Ex]]|[[s ->] ->]].
      * rewrite Forall_forall in IH, Hkwf. rewrite forallb_forall in Hpl.
        destruct (IH x Hx false top v top' (Hkwf x Hx) (Hpl x Hx) Ex) as [Gv [Hp _]].
        specialize (Hp (placed_false_not_asgn x (Hpl x Hx))).
        destruct (wf_tree_nesting n kids x Hwf Hx) as [A B].
        split; [exact (good_mono v _ _ _ _ Gv A B)|]. split; [intros _; exact Hp | exact (Hpure Hp)].
      * split; [exact I|]. split; [reflexivity | exact (Hpure eq_refl)].
    + rewrite pnode_NT, Ei in H. destruct (pmatch g input (NT n kids)) as [v0|e] eqn:Em; [|discriminate].
      inversion H; subst. split; [exact (pmatch_good _ _ _ _ Em)|]. split; [reflexivity | exact (Hpure eq_refl)].
    + rewrite pnode_NT, Ei in H. discriminate.
    + rewrite pnode_NT, Ei in H. discriminate.
Qed.

(* Nesting and list order for OBJECTS: for every grammar / metamodel table, input, oracle and option
   setting, if the parse tree is well formed and assignment nodes sit where the grammar compiler puts
   them, the value built for a node is [good] for the node's span: every object has a non-empty span,
   the objects held by its attributes lie inside it, and the objects of one list attribute are ordered
   and disjoint. *)
Theorem objects_nested_ordered t top v top' under :
  wf_tree t = true -> asg_placed mm under t = true -> pn t top = BOk (v, top') -> good (tpos t) (tend t) v.
Proof. intros Hwf Hpl H. exact (proj1 (pnode_obj_ok t under top v top' Hwf Hpl H)). Qed.

End Objects.

Lemma good_nxt_ge lo hi x : good lo hi x -> lo <= nxt lo x.
Proof. destruct x; cbn [nxt]; try lia. intro H. apply good_obj in H. lia. Qed.

Lemma good_list_lower l : forall lo hi c p e a, good lo hi (VList l) -> In (VObj c p e a) l -> lo <= p.
Proof.
  induction l as [|x l IH]; intros lo hi c p e a H Hin; [destruct Hin|].
  rewrite good_vlist_cons in H. destruct H as [A B]. destruct Hin as [->|Hin].
  - apply good_obj in A. lia.
  - pose proof (IH _ _ _ _ _ _ B Hin). pose proof (good_nxt_ge _ _ _ A). lia.
Qed.

Lemma good_list_order l1 : forall lo hi c1 p1 e1 a1 l2 c2 p2 e2 a2 l3,
  good lo hi (VList (l1 ++ VObj c1 p1 e1 a1 :: l2 ++ VObj c2 p2 e2 a2 :: l3)) -> e1 <= p2.
Proof.
  induction l1 as [|x l1 IH]; intros lo hi c1 p1 e1 a1 l2 c2 p2 e2 a2 l3 H.
  - cbn [app] in H. rewrite good_vlist_cons in H. destruct H as [_ B]. cbn [nxt] in B.
    apply (good_list_lower _ e1 hi c2 p2 e2 a2 B). apply in_or_app. right. left. reflexivity.
  - cbn [app] in H. rewrite good_vlist_cons in H. destruct H as [_ B]. apply (IH _ _ _ _ _ _ _ _ _ _ _ _ B).
Qed.
