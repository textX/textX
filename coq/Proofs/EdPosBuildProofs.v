(* The editor-support data of C34 on the parse trees of the builder model (Model/Build.v, C01/C06):
   keys of the position map are spans (tpos, tend) of common-rule nodes of the Peg parse tree,
   collected references are the children of reference assignments with their span, and every
   object / pending reference process_node (pnode) builds is one of them. *)
From TxV Require Import Core.Base Model.PegSyntax Model.Peg Model.Build Proofs.BuildProofs Proofs.BuildObjProofs.
From TxV Require Import Model.EdPosDefs Gen.SrcEdPos Model.EdPos Proofs.EdPosProofs Model.EdPosBuild.

(* the choices of the abstract-rule case, whatever is read off the chosen child *)
Lemma sel_nonmatch_cases {R} (rec : tree -> R) crash kind l r :
  sel_nonmatch R rec crash kind l = Some r -> r = crash \/ In r (map rec l).
Proof.
  induction l as [|x l IH]; cbn [sel_nonmatch map]; [discriminate|].
  assert (IH' : sel_nonmatch R rec crash kind l = Some r -> r = crash \/ rec x = r \/ In r (map rec l))
    by (intro H; destruct (IH H); [left | right; right]; assumption).
  destruct x as [n p len s|xn kids]; [exact IH'|].
  destruct (kind xn) as [[|]|]; [|exact IH'|]; intro H; injection H as <-.
  - right; left; reflexivity.
  - left; reflexivity.
Qed.

Lemma sel_nt_cases {R} (rec : tree -> R) crash hc l r :
  sel_nt R rec crash hc l = Some r -> r = crash \/ In r (map rec l).
Proof.
  induction l as [|x l IH]; cbn [sel_nt map]; [discriminate|].
  destruct x as [n p len s|xn kids].
  - intro H. destruct (IH H); [left | right; right]; assumption.
  - intro H. injection H as <-. destruct (hc xn); [right; left | left]; reflexivity.
Qed.

Section A.
Variable g : grammar.
Variable mm : list ninfo.
Notation ab := (abs g mm).

Lemma subtrees_kid n kids k t' : In k kids -> In t' (subtrees k) -> In t' (subtrees (NT n kids)).
Proof. intros Hk Ht. cbn [subtrees]. right. apply in_flat_map. exists k. split; assumption. Qed.

Lemma subtrees_self t : In t (subtrees t).
Proof. destruct t; cbn [subtrees]; left; reflexivity. Qed.

(* the abstraction node nd was made for the parse-tree node t' *)
Definition made (nd : node) (t' : tree) : Prop :=
  match nd with
  | NObj i s e _ => is_common mm t' /\ (s, e, i) = (fst (nspan t'), snd (nspan t'), tree_nid t')
  | NRef i s e _ => (s, e) = nspan t' /\ i = tree_nid t'
  | NTok s e => (s, e) = nspan t'
  end.

(* every node of ns, at any depth, was made for a node of t *)
Definition from (t : tree) (ns : list node) : Prop :=
  forall nd, In nd (flat_map subnodes ns) -> exists t', In t' (subtrees t) /\ made nd t'.

Lemma from_nil t : from t [].
Proof. intros nd []. Qed.

Lemma from_app t a b : from t a -> from t b -> from t (a ++ b).
Proof. intros Ha Hb nd H. rewrite flat_map_app in H. apply in_app_or in H as [H|H]; [apply Ha | apply Hb]; exact H. Qed.

Lemma from_flat_map {A} t (f : A -> list node) l : (forall a, In a l -> from t (f a)) -> from t (flat_map f l).
Proof.
  intros H nd Hnd. apply in_flat_map in Hnd as (x & Hx & Hnd). apply in_flat_map in Hx as (a & Ha & Hx).
  apply (H a Ha). apply in_flat_map. exists x. split; assumption.
Qed.

Lemma from_node t t' nd : In t' (subtrees t) -> made nd t' -> from t (kids_of nd) -> from t [nd].
Proof.
  intros Ht Hm Hk x Hx. cbn [flat_map] in Hx. rewrite app_nil_r in Hx.
  destruct nd; destruct Hx as [<-|Hx]; try (exists t'; split; assumption); try destruct Hx. apply Hk. exact Hx.
Qed.

Lemma from_kid n kids k ns : In k kids -> from k ns -> from (NT n kids) ns.
Proof.
  intros Hk H nd Hnd. destruct (H nd Hnd) as (t' & H1 & H2).
  exists t'. split; [eapply subtrees_kid; eassumption | exact H2].
Qed.

Lemma abs_nodes : forall t meta, from t (ab meta t).
Proof.
  induction t as [n p l s | n kids IH] using PegProofs.tree_ind2; intro meta.
  - apply (from_node _ (T n p l s)); [left; reflexivity | reflexivity | apply from_nil].
  - rewrite Forall_forall in IH.
    assert (Hkid : forall m k, In k kids -> from (NT n kids) (ab m k))
      by (intros m k Hk; apply (from_kid _ _ k); [exact Hk | apply IH; exact Hk]).
    (* the child of an assignment, preceded by its reference node if the attribute is a reference *)
    assert (Hasg : forall m a k, In k kids ->
              from (NT n kids) ((if is_refattr a m then [refnode k] else []) ++ ab m k)).
    { intros m a k Hk. apply from_app; [|apply Hkid; exact Hk].
      destruct (is_refattr a m); [|apply from_nil].
      apply (from_node _ k); [eapply subtrees_kid; [exact Hk | apply subtrees_self] | split; reflexivity | apply from_nil]. }
    cbn [abs]. destruct (info mm n) as [a op|k cls attrs|r gr|] eqn:Ei; try apply from_nil.
    + destruct op; try apply from_nil.
      * destruct kids as [|k rest]; [apply from_nil | apply Hasg; left; reflexivity].
      * apply from_flat_map. intros k Hk. destruct (is_sep_of g n k); [apply from_nil | apply Hasg; exact Hk].
    + destruct k.
      * apply (from_node _ (NT n kids)); [left; reflexivity | split; [exists cls, attrs; exact Ei | reflexivity]|].
        apply from_flat_map. intros k Hk. apply Hkid; exact Hk.
      * destruct kids as [|k [|k2 rest]]; [apply from_nil | apply Hkid; left; reflexivity|].
        assert (Hsel : forall r, r = [] \/ In r (map (ab meta) (k :: k2 :: rest)) -> from (NT n (k :: k2 :: rest)) r).
        { intros r [->|Hr]; [apply from_nil|]. apply in_map_iff in Hr as (y & <- & Hy). apply Hkid; exact Hy. }
        destruct (sel_nonmatch _ _ _ _ _) as [r|] eqn:E1; [apply Hsel, (sel_nonmatch_cases _ _ _ _ _ E1)|].
        destruct (sel_nt _ _ _ _ _) as [r|] eqn:E2; [apply Hsel, (sel_nt_cases _ _ _ _ _ E2) | apply from_nil].
      * apply (from_node _ (NT n kids)); [left; reflexivity | reflexivity | apply from_nil].
Qed.

(* every key of the position map of the abstracted tree is the span (tpos, tend) of a
   common-rule node of the parse tree, and its value is that node's rule *)
Theorem dict_key_is_node_span meta t nd s e i :
  In nd (ab meta t) -> In (s, e, i) (rule_dict nd) ->
  exists t', In t' (subtrees t) /\ is_common mm t' /\
             i = tree_nid t' /\ s = N.of_nat (Build.tpos t') /\ e = N.of_nat (Build.tend t').
Proof.
  intros Hnd Hd. apply dict_sound, obj_is_subnode in Hd as [ks Hd].
  destruct (abs_nodes t meta (NObj i s e ks)) as (t' & Ht & Hc & Hi).
  { apply in_flat_map. exists nd. split; assumption. }
  exists t'. split; [exact Ht|]. split; [exact Hc|].
  injection Hi as -> -> ->. repeat split; reflexivity.
Qed.

(* every collected reference is the child a reference assignment reads, with that node's span:
   ObjCrossRef.position / position_end = start / end of the reference node of the parse tree *)
Theorem ref_is_tree_node meta t nd x :
  In nd (ab meta t) -> In x (refs_pre nd) ->
  exists k, In k (subtrees t) /\ cstart x = N.of_nat (Build.tpos k) /\ cend x = N.of_nat (Build.tend k).
Proof.
  intros Hnd Hx. apply ref_is_node in Hx.
  destruct (abs_nodes t meta _ (proj2 (in_flat_map _ _ _) (ex_intro _ nd (conj Hnd Hx)))) as [k [Hk [Hs _]]].
  exists k. split; [exact Hk|]. injection Hs as -> ->. split; reflexivity.
Qed.
End A.

Lemma incl_step {A} (X B C O1 O2 : list A) :
  incl B (C ++ O1) -> incl X (B ++ O2) -> incl X (C ++ O1 ++ O2).
Proof.
  intros H1 H2. eapply incl_tran; [exact H2|]. rewrite app_assoc.
  apply incl_app; [apply incl_appl; exact H1 | apply incl_appr, incl_refl].
Qed.

Lemma oitems_app a b : oitems (a ++ b) = oitems a ++ oitems b.
Proof. unfold oitems. apply flat_map_app. Qed.

Lemma oitems_obj i s e ks : oitems [NObj i s e ks] = oitems ks ++ [IObj s e].
Proof. unfold oitems. cbn [flat_map nitems]. rewrite app_nil_r. reflexivity. Qed.

Lemma valitems_set a v l : incl (valitems (set_val a v l)) (valitems l ++ vitems v).
Proof.
  induction l as [|[k w] l IH]; cbn [set_val valitems flat_map].
  - rewrite app_nil_r. apply incl_refl.
  - destruct (str_eqb a k); cbn [flat_map]; rewrite <- app_assoc.
    + apply incl_app; [apply incl_appr, incl_appr, incl_refl | apply incl_appr, incl_appl, incl_refl].
    + apply incl_app; [apply incl_appl, incl_refl | apply incl_appr; exact IH].
Qed.

Lemma valitems_get a l w : get_val a l = Some w -> incl (vitems w) (valitems l).
Proof.
  induction l as [|[k u] l IH]; cbn [get_val valitems flat_map]; intro H; [discriminate|].
  destruct (str_eqb a k).
  - injection H as ->. apply incl_appl, incl_refl.
  - apply incl_appr. apply IH; exact H.
Qed.

(* storing X in an attribute of the object under construction adds the items of X at most *)
Lemma store_items a X c S :
  incl (topitems (Some c)) S -> incl (vitems X) S -> incl (topitems (Some (cur_set a X c))) S.
Proof. intros H1 H2. eapply incl_tran; [apply valitems_set|]. apply incl_app; assumption. Qed.

Lemma init_noitems auto attrs : valitems (init_attrs auto attrs) = [].
Proof.
  unfold init_attrs. induction attrs as [|a l IH]; [reflexivity|].
  cbn [map valitems flat_map]. fold (valitems (map (fun a0 => (a_name a0, init_attr auto a0)) l)). rewrite IH, app_nil_r.
  unfold init_attr. destruct (a_mult a); try reflexivity;
    destruct (is_base_type (a_cls a)); try reflexivity; destruct auto; try reflexivity; destruct (a_bool a); reflexivity.
Qed.

Section B.
Variable g : grammar.
Variable mm : list ninfo.
Variable input : list N.
Variable grp : nat -> nat -> option (nat * nat).
Variable auto use_grp : bool.
Notation pn := (pnode g mm input grp auto use_grp).
Notation ab := (abs g mm).

(* The builder's functions return results with many failing branches; what holds of a successful
   result is stated on the result itself (match .. with BOk .. => .. | BErr _ => True end), so
   that the failing branches close by computation. *)
Lemma term_value_noitems n p l :
  match term_value g mm input grp use_grp n p l with BOk v => vitems v = [] | BErr _ => True end.
Proof.
  unfold term_value. destruct use_grp; [|reflexivity].
  destruct (get_node g n) as [nd|]; [|reflexivity].
  destruct (n_kind nd); try reflexivity.
  destruct (info mm n) as [| |r [|[|gr]]|]; try reflexivity.
  destruct (grp _ p) as [[gs gl]|]; [reflexivity|].
  destruct (is_base5 _); [exact I | reflexivity].
Qed.

Lemma go_noitems l :
  Forall (fun t => match pmatch g input t with BOk v => vitems v = [] | BErr _ => True end) l ->
  match (fix go (l : list tree) : bres (list value) :=
           match l with
           | [] => BOk []
           | x :: l' => match pmatch g input x with
                        | BOk v => match go l' with BOk vs => BOk (v :: vs) | BErr e => BErr e end
                        | BErr e => BErr e
                        end
           end) l
  with BOk vs => flat_map vitems vs = [] | BErr _ => True end.
Proof.
  induction 1 as [|x l Hx _ IHl]; [exact eq_refl|]. lazy beta iota.
  revert Hx. destruct (pmatch g input x) as [w|]; [|intros _; exact I]. intro Hx.
  revert IHl. match goal with |- match ?G with _ => _ end -> _ => destruct G as [vs|] end; [|intros _; exact I].
  intro Hvs. cbn [flat_map]. rewrite Hx, Hvs. reflexivity.
Qed.

Lemma pmatch_noitems : forall t,
  match pmatch g input t with BOk v => vitems v = [] | BErr _ => True end.
Proof.
  induction t as [n p l s | n kids IH] using PegProofs.tree_ind2; cbn [pmatch]; [reflexivity|].
  destruct (is_base5 _); [exact I|].
  pose proof (go_noitems _ IH) as Hgo.
  destruct kids as [|k [|k2 rest]]; [exact I | |].
  - revert Hgo. lazy beta iota. destruct (pmatch g input k) as [w|]; [|intros _; exact I].
    cbn [flat_map vitems]. rewrite app_nil_r. exact (fun H => H).
  - revert Hgo. match goal with |- match ?G with _ => _ end -> _ => destruct G as [vs|] end; [|intros _; exact I].
    exact (fun H => H).
Qed.

(* the class table pnode reads from the stack top is the one abs was given *)
Definition meta_is (meta : list attr) (top : option cur) : Prop :=
  match top with Some c => c_meta c = meta | None => True end.

Lemma meta_frame meta top top' : same_frame top top' -> meta_is meta top -> meta_is meta top'.
Proof. destruct top, top'; cbn; try tauto. intros [_ [_ [_ H]]] <-. exact H. Qed.

(* a successful result (value and new top, or new top alone) holds no item beyond those of the old
   top and those of the nodes ns *)
Definition within (top : option cur) (ns : list node) (r : bres (value * option cur)) : Prop :=
  match r with
  | BOk (v, top') => incl (vitems v ++ topitems top') (topitems top ++ oitems ns)
  | BErr _ => True
  end.
Definition top_within (top : option cur) (ns : list node) (r : bres (option cur)) : Prop :=
  match r with
  | BOk top' => incl (topitems top') (topitems top ++ oitems ns)
  | BErr _ => True
  end.

Definition ok_rec (rec : tree -> option cur -> bres (value * option cur)) (t : tree) : Prop :=
  forall meta top, meta_is meta top -> within top (ab meta t) (rec t top).

Lemma each_objs rec l :
  Forall (ok_rec rec) l -> Forall (frame_ok rec) l ->
  forall meta top, meta_is meta top -> top_within top (flat_map (ab meta) l) (each_loop rec l top).
Proof.
  unfold top_within. induction l as [|k l IH]; intros HF HR meta top Hm; cbn [each_loop flat_map].
  - apply incl_appl, incl_refl.
  - pose proof (Forall_inv HF meta top Hm) as Hk. pose proof (Forall_inv HR top) as Rk. revert Hk Rk.
    destruct (rec k top) as [[v top1]|e]; [|intros; exact I]. intros Hk Rk.
    specialize (IH (Forall_inv_tail HF) (Forall_inv_tail HR) meta top1 (meta_frame _ _ _ (Rk _ _ eq_refl) Hm)).
    revert IH. destruct (each_loop rec l top1) as [top'|]; [|intros; exact I]. intro IH.
    rewrite oitems_app. eapply incl_step; [|exact IH]. apply incl_app_inv in Hk. apply Hk.
Qed.

(* the value a child contributes to a reference attribute is wrapped in a pending reference,
   for which the abstraction has a reference node *)
Lemma wrap_items (b : bool) cl meta k v0 v T T1 :
  v = (if b then VRef v0 (Build.tpos k) cl else v0) ->
  incl (vitems v0 ++ T1) (T ++ oitems (ab meta k)) ->
  incl (vitems v ++ T1) (T ++ oitems ((if b then [refnode k] else []) ++ ab meta k)).
Proof.
  intros -> H. destruct b; [|exact H]. rewrite oitems_app. cbn [vitems app].
  apply incl_cons; [apply in_or_app; right; left; reflexivity|].
  eapply incl_tran; [exact H|]. apply incl_app; [apply incl_appl | apply incl_appr, incl_appr]; apply incl_refl.
Qed.

Definition refcls_of (ma : attr) : option (list N) :=
  if (a_ref ma && negb (a_cont ma))%bool then Some (a_cls ma) else None.

Lemma lst_objs rec (is_sep : tree -> bool) a ma l :
  Forall (ok_rec rec) l -> Forall (frame_ok rec) l ->
  forall meta top, meta_is meta top ->
  top_within top (flat_map (fun k => if is_sep k then [] else
                              (if (a_ref ma && negb (a_cont ma))%bool then [refnode k] else []) ++ ab meta k) l)
             (lst_loop rec is_sep a (refcls_of ma) l top).
Proof.
  unfold top_within, refcls_of. set (b := (a_ref ma && negb (a_cont ma))%bool). set (cl := a_cls ma).
  induction l as [|k l IH]; intros HF HR meta top Hm; cbn [lst_loop flat_map].
  - apply incl_appl, incl_refl.
  - specialize (IH (Forall_inv_tail HF) (Forall_inv_tail HR) meta).
    destruct (is_sep k); [apply IH; exact Hm|].
    pose proof (Forall_inv HF meta top Hm) as Hk. pose proof (Forall_inv HR top) as Rk. revert Hk Rk.
    destruct (rec k top) as [[v0 top1]|e]; [|intros; exact I]. intros Hk Rk.
    destruct top1 as [c1|]; [|exact I].
    pose proof (meta_frame _ _ _ (Rk _ _ eq_refl) Hm) as Hm1.
    set (v := match (if b then Some cl else None) with Some cl' => VRef v0 (Build.tpos k) cl' | None => v0 end).
    apply (wrap_items b cl _ _ _ v) in Hk; [|destruct b; reflexivity].
    apply incl_app_inv in Hk as [Hv Hc1]. rewrite oitems_app.
    set (O := oitems ((if b then [refnode k] else []) ++ ab meta k)) in *.
    set (rest := flat_map _ l) in *.
    (* the loop goes on with the attribute set to some X made of its old value and v *)
    assert (Hgo : forall X, incl (vitems X) (topitems top ++ O) ->
              match lst_loop rec is_sep a (if b then Some cl else None) l (Some (cur_set a X c1)) with
              | BOk top' => incl (topitems top') (topitems top ++ O ++ oitems rest)
              | BErr _ => True
              end).
    { intros X HX. specialize (IH (Some (cur_set a X c1)) Hm1). revert IH.
      destruct (lst_loop rec is_sep a _ l (Some (cur_set a X c1))) as [top'|]; [|intros; exact I]. intro IH.
      eapply incl_step; [|exact IH]. apply store_items; assumption. }
    destruct (get_val a (c_vals c1)) as [[]|] eqn:Eg; try exact I; apply Hgo; cbn [vitems flat_map].
    + rewrite app_nil_r. exact Hv.
    + rewrite flat_map_app. cbn [flat_map]. rewrite app_nil_r.
      apply incl_app; [|exact Hv]. eapply incl_tran; [apply (valitems_get _ _ _ Eg) | exact Hc1].
Qed.

Lemma first_nonmatch_objs rec kind l meta top :
  Forall (ok_rec rec) l -> meta_is meta top ->
  match first_nonmatch rec kind l top with
  | None => sel_nonmatch (list node) (ab meta) [] kind l = None
  | Some r => exists ns, sel_nonmatch (list node) (ab meta) [] kind l = Some ns /\ within top ns r
  end.
Proof.
  induction l as [|x l IH]; intros HF Hm; cbn [first_nonmatch sel_nonmatch]; [reflexivity|].
  specialize (IH (Forall_inv_tail HF) Hm).
  destruct x as [n p len s|xn kids]; [exact IH|].
  destruct (kind xn) as [[|]|].
  - exists (ab meta (NT xn kids)). split; [reflexivity|]. apply (Forall_inv HF meta top Hm).
  - exact IH.
  - exists []. split; [reflexivity | exact I].
Qed.

Lemma first_nt_objs rec hc l meta top :
  Forall (ok_rec rec) l -> meta_is meta top ->
  match first_nt rec hc l top with
  | None => sel_nt (list node) (ab meta) [] hc l = None
  | Some r => exists ns, sel_nt (list node) (ab meta) [] hc l = Some ns /\ within top ns r
  end.
Proof.
  induction l as [|x l IH]; intros HF Hm; cbn [first_nt sel_nt]; [reflexivity|].
  destruct x as [n p len s|xn kids]; [exact (IH (Forall_inv_tail HF) Hm)|].
  destruct (hc xn).
  - exists (ab meta (NT xn kids)). split; [reflexivity|]. apply (Forall_inv HF meta top Hm).
  - exists []. split; [reflexivity | exact I].
Qed.

Lemma same_top_incl top v : vitems v = [] ->
  forall O, incl (vitems v ++ topitems top) (topitems top ++ O).
Proof. intros -> O. cbn [app]. apply incl_appl, incl_refl. Qed.

Lemma all_frames l : Forall (frame_ok pn) l.
Proof. apply Forall_forall. intros x _. apply pnode_frame. Qed.

Theorem pnode_objs : forall t, ok_rec pn t.
Proof.
  induction t as [n p l s | n kids IH] using PegProofs.tree_ind2; intros meta top Hm; unfold within.
  - cbn [pnode abs]. pose proof (term_value_noitems n p l) as Hv. revert Hv.
    destruct (term_value g mm input grp use_grp n p l) as [w|]; [|intros _; exact I].
    intro Hv. apply same_top_incl. exact Hv.
  - cbn [abs]. destruct (info mm n) as [a op|k cls attrs|r gr|] eqn:Ei;
      [| destruct k | rewrite pnode_NT, Ei; exact I | rewrite pnode_NT, Ei; exact I].
    + (* assignment: the child's value, wrapped if the attribute is a reference, goes into the attribute *)
      destruct (pn (NT n kids) top) as [[v top']|e] eqn:H; [|exact I].
      rewrite pnode_NT, Ei in H. apply asgn_step_inv in H as (-> & c & ma & -> & Ef & Hop).
      cbn [meta_is] in Hm. subst meta. unfold is_refattr. rewrite Ef.
      destruct op; [| | |destruct Hop].
      * destruct Hop as (av & k & rest & v0 & c1 & Eg & -> & E & ->).
        pose proof (Forall_inv IH (c_meta c) (Some c) eq_refl) as Hk. unfold within in Hk. rewrite E in Hk.
        apply (wrap_items (a_ref ma && negb (a_cont ma)) (a_cls ma) _ _ _ _ _ _ eq_refl) in Hk.
        apply incl_app_inv in Hk as [Hv Hc1]. apply store_items; [exact Hc1|].
        assert (Hav : incl (vitems av) (topitems (Some c) ++ oitems ((if (a_ref ma && negb (a_cont ma))%bool then [refnode k] else []) ++ ab (c_meta c) k)))
          by (apply incl_appl, (valitems_get _ _ _ Eg)).
        destruct av; try exact Hv.
        cbn [vitems] in *. rewrite flat_map_app. cbn [flat_map]. rewrite app_nil_r. apply incl_app; assumption.
      * subst top'. apply store_items; [apply incl_appl, incl_refl | intros x []].
      * pose proof (lst_objs pn (is_sep_of g n) a ma kids IH (all_frames kids) (c_meta c) (Some c) eq_refl) as Hl.
        unfold top_within, refcls_of in Hl. rewrite Hop in Hl. exact Hl.
    + (* common: the items of the new object are those its children left in it *)
      destruct (pn (NT n kids) top) as [[v top']|e] eqn:H; [|exact I].
      destruct (common_node_object _ _ _ _ _ _ _ _ _ _ _ _ _ Ei H) as (-> & c1 & E & ->).
      pose proof (each_objs pn kids IH (all_frames kids) attrs
                    (Some (mkCur cls attrs (Build.tpos (NT n kids)) (Build.tend (NT n kids)) (init_attrs auto attrs))) eq_refl) as Hk.
      unfold top_within in Hk. rewrite E in Hk. cbn [topitems c_vals] in Hk. rewrite init_noitems in Hk.
      rewrite oitems_obj. unfold nspan. cbn [fst snd vitems].
      apply incl_cons; [apply in_or_app; right; apply in_elt|].
      apply incl_app; [|apply incl_appl, incl_refl].
      eapply incl_tran; [exact Hk|]. apply incl_appr, incl_appl, incl_refl.
    + (* abstract: the child pnode picks is the child abs picks *)
      rewrite pnode_NT, Ei. unfold abstract_step.
      destruct kids as [|k rest]; [exact I|].
      destruct rest as [|k2 rest]; [apply (Forall_inv IH meta top Hm)|].
      pose proof (first_nonmatch_objs pn (nonmatch_class mm) (k :: k2 :: rest) meta top IH Hm) as H1. revert H1.
      destruct (first_nonmatch pn (nonmatch_class mm) (k :: k2 :: rest) top) as [r0|];
        [intros (ns & -> & H); exact H | intros ->].
      pose proof (first_nt_objs pn (has_class mm) (k :: k2 :: rest) meta top IH Hm) as H2. revert H2.
      destruct (first_nt pn (has_class mm) (k :: k2 :: rest) top) as [r|];
        [intros (ns & -> & H); exact H | intros ->].
      apply same_top_incl. reflexivity.
    + (* match *)
      rewrite pnode_NT, Ei.
      pose proof (pmatch_noitems (NT n kids)) as Hv. revert Hv.
      destruct (pmatch g input (NT n kids)) as [w|]; [|intros _; exact I].
      intro Hv. apply same_top_incl. exact Hv.
Qed.
End B.

(* items of the abstraction, read back *)
Lemma nitems_obj nd : forall s e, In (IObj s e) (nitems nd) -> exists i, In (s, e, i) (objs_post nd).
Proof.
  induction nd as [i s0 e0 kids IHk|i s0 e0 nm|s0 e0] using node_ind'; intros s e H; cbn [nitems] in H.
  - apply in_app_or in H as [H|[H|[]]].
    + apply in_flat_map in H as [k [Hk H]]. rewrite Forall_forall in IHk. destruct (IHk _ Hk _ _ H) as [j Hj].
      exists j. cbn [objs_post]. apply in_or_app; left. apply in_flat_map. exists k. split; assumption.
    + inversion H; subst. exists i. cbn [objs_post]. apply in_or_app; right. left. reflexivity.
  - destruct H as [H|[]]. discriminate.
  - destruct H.
Qed.

Lemma nitems_ref nd : forall s, In (IRef s) (nitems nd) -> exists x, In x (refs_pre nd) /\ cstart x = s.
Proof.
  induction nd as [i s0 e0 kids IHk|i s0 e0 nm|s0 e0] using node_ind'; intros s H; cbn [nitems] in H.
  - apply in_app_or in H as [H|[H|[]]]; [|discriminate].
    apply in_flat_map in H as [k [Hk H]]. rewrite Forall_forall in IHk. destruct (IHk _ Hk _ H) as [x [Hx1 Hx2]].
    exists x. split; [|exact Hx2]. cbn [refs_pre]. apply in_flat_map. exists k. split; assumption.
  - destruct H as [H|[]]. inversion H; subst. eexists. split; [cbn [refs_pre]; left; reflexivity | reflexivity].
  - destruct H.
Qed.

Lemma built_items g mm input grp auto use_grp t v top' :
  pnode g mm input grp auto use_grp t None = BOk (v, top') ->
  forall x, In x (vitems v) -> exists nd, In nd (abs g mm [] t) /\ In x (nitems nd).
Proof.
  intros H x Hin. pose proof (pnode_objs g mm input grp auto use_grp t [] None I) as Hi. rewrite H in Hi.
  apply in_flat_map. apply Hi. apply in_or_app; left; exact Hin.
Qed.

Theorem built_refs_are_collected g mm input grp auto use_grp t v top' :
  pnode g mm input grp auto use_grp t None = BOk (v, top') ->
  forall p, In (IRef (N.of_nat p)) (vitems v) ->
  exists nd x k, In nd (abs g mm [] t) /\ In x (refs_pre nd) /\ cstart x = N.of_nat p /\
                 In k (subtrees t) /\ p = Build.tpos k /\ cend x = N.of_nat (Build.tend k).
Proof.
  intros H p Hin. destruct (built_items _ _ _ _ _ _ _ _ _ H _ Hin) as (nd & Hnd & Hk).
  destruct (nitems_ref _ _ Hk) as (x & Hx1 & Hx2).
  destruct (ref_is_tree_node g mm [] t nd x Hnd Hx1) as (k & Hk1 & Hk2 & Hk3).
  exists nd, x, k. repeat split; try assumption.
  rewrite Hx2 in Hk2. apply Nat2N.inj. exact Hk2.
Qed.

(* "the keys of the position map are exactly the spans of the objects of the built value" does NOT
   hold: a rule referenced without an assignment inside a common rule (A: c=C B;) is processed
   (its object is created and registered in pos_rule_dict) and the result is dropped by the loop
   over the children (each_loop: `for n in node: process_node(n)`).  Witness: the table of
   `A: c=C B; C: 'c' n=ID; B: 'b' m=ID;` on the tree of "c x b y"; replayed on textX: the map is
   {(4,7): B, (0,3): C, (0,7): A} while the model contains only A and C. *)
Definition drop_mm : list ninfo :=
  [IRule RCommon [65]%N [mkAttr [99]%N M1 true false [67]%N false];   (* 0: A, attribute c *)
   IAsgn [99]%N OpPlain;                                               (* 1: c=C *)
   IRule RCommon [67]%N [];                                            (* 2: C *)
   IOther;                                                             (* 3: terminals *)
   IRule RCommon [66]%N []].                                           (* 4: B *)
Definition drop_tree : tree :=
  NT 0 [NT 1 [NT 2 [T 3 0 1 false; T 3 2 1 false]]; NT 4 [T 3 4 1 false; T 3 6 1 false]].
