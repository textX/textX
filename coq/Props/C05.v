(* C05 — containment links and the model navigation API are consistent.
   Model: Model/Nav.v (transcription of textx/model.py get_model, get_parent_of_type, get_children,
   get_children_of_type and of the `parent` assignment of process_node).  Hypotheses:
     uniq root            the model objects of the containment tree have distinct identities (Python id())
     no_parent_attr root  no grammar attribute is called `parent` (outside: known finding, see *_refuted) *)
From TxV Require Import Core.Base Gen.SrcNav Gen.SrcNavBody Model.Nav Model.NavSrc Model.NavCfg Model.NavParent Proofs.NavProofs Proofs.NavCfgProofs Proofs.NavParentProofs.

(* Tie to the source (Gen/SrcNav.v is regenerated from textx/model.py on every run): the entry of
   parser._inst_stack that process_node assigns to `parent` is the top of the stack — the instance
   that was being built when this node was entered — and nothing when the stack is empty; the
   assignment happens after the children were processed and the node was popped; and the model's
   parent assignment is that function. *)
Theorem C05_src_parent :
  (forall top rest, src_parent_of_stack (top :: rest) = Some top) /\
  src_parent_of_stack [] = None /\
  (src_parent_tuple_index = src_stack_entry_inst_pos /\ src_parent_guard_nonempty = true /\ src_parent_after_pop = true) /\
  (forall stack slots, find_slot s_parent slots = None ->
     parent_attr stack slots = option_map PObj (src_parent_of_stack stack)).
Proof.
  split; [exact src_parent_top|]. split; [reflexivity|].
  split; [repeat split | exact parent_attr_src].
Qed.
Print Assumptions C05_src_parent.

(* get_children descends only under `attr.cont`, and takes the single-value branch exactly for
   MULT_ONE and MULT_OPTIONAL (the two facts the model's follow_attrs transcribes). *)
Theorem C05_src_children :
  src_single_mults = [s_mult_one; s_mult_optional] /\ src_follow_guard = s_attr_cont.
Proof. exact src_children_facts. Qed.
Print Assumptions C05_src_children.

(* Tie of the function bodies (Gen/SrcNavBody.v is regenerated on every run): nav_tr.py matches the
   text of get_model / get_parent_of_type / get_children / get_children_of_type against the text the
   model transcribes and reports which alternative the source uses where the model hard-codes a
   choice (identity test on collected_ids, when the element is collected, `is not None` vs truth
   value in the single-valued and list branches, should_follow on the start object, loop test of
   get_model, whether get_parent_of_type tests the start object).  Model/NavCfg.v is the model with
   those choices as parameters; the main statements hold for the instance found in the source, for
   every truth-value and equality function of user objects. *)
Theorem C05_src_children_body : forall truthy eqv sel sf cf root,
  NoDup (map obj_id (walk sf cf root)) ->
  get_children_cfg src_gc_cfg truthy eqv sel root cf sf = filter sel (walk sf cf root).
Proof.
  intros truthy eqv sel sf cf root H. rewrite <- (get_children_walk sel sf cf root H).
  apply get_children_cfg_std.
Qed.
Print Assumptions C05_src_children_body.

Theorem C05_src_get_model_body : forall truthy_id root o fuel,
  uniq root -> no_parent_attr root = true -> In o (nodes root) -> length (nodes root) <= fuel ->
  get_model_cfg src_gm_loop truthy_id (heap_of root) fuel (obj_id o) = GObj (obj_id root).
Proof.
  intros. rewrite get_model_cfg_std by discriminate. apply get_model_every_object; assumption.
Qed.
Print Assumptions C05_src_get_model_body.

Theorem C05_src_parent_of_type_body : forall root o,
  uniq root -> no_parent_attr root = true -> In o (nodes root) ->
  exists l, up_chain o l /\ last l o = root /\
    forall typ fuel, length (nodes root) <= fuel ->
      pot_cfg src_pot_test_start (heap_of root) fuel typ (obj_id o) = pres_of (find (cls_is typ) l).
Proof.
  intros root o Hu Hn Ho. destruct (parent_of_type_every_object root o Hu Hn Ho) as [l [H1 [H2 H3]]].
  exists l. repeat split; try assumption. intros typ fuel Hf. rewrite <- (H3 typ fuel Hf). apply pot_cfg_std.
Qed.
Print Assumptions C05_src_parent_of_type_body.

(* the alternatives are not harmless: a truth-value test in the single-valued branch loses a falsy
   contained object; testing the start object makes get_parent_of_type return the object itself *)
Theorem C05_truthy_single_refuted :
  exists truthy root, uniq root /\
    get_children_cfg truthy_cfg truthy (fun _ _ => false) (fun _ => true) root false (fun _ => true)
    <> filter (fun _ => true) (walk (fun _ => true) false root).
Proof.
  exists (fun o => negb (N.eqb (obj_id o) 2)), ex_tree. split; [apply uniq_b_sound; vm_compute; reflexivity|].
  vm_compute. discriminate.
Qed.
Print Assumptions C05_truthy_single_refuted.

Theorem C05_parent_of_type_test_start_refuted :
  exists root typ, uniq root /\ no_parent_attr root = true /\
    pot_cfg true (heap_of root) 6 typ 4 = PFound 4 /\ get_parent_of_type (heap_of root) 6 typ 4 = PNone.
Proof.
  exists ex_tree, [65]%N. split; [apply uniq_b_sound; vm_compute; reflexivity|]. vm_compute. repeat split.
Qed.
Print Assumptions C05_parent_of_type_test_start_refuted.

(* The root has no parent; every object held by a containment attribute of an object of the
   tree has exactly that object as its parent. *)
Theorem C05_parent : forall root,
  is_node root = true -> uniq root -> no_parent_attr root = true ->
  lookup (obj_id root) (heap_of root) = Some {| hcls := obj_cls root; hparent := None |} /\
  forall p c, In p (nodes root) -> cont_child p c ->
    lookup (obj_id c) (heap_of root) = Some {| hcls := obj_cls c; hparent := Some (PObj (obj_id p)) |}.
Proof.
  intros root Hr Hu Hnp. split; [apply heap_root; assumption | intros p c; apply heap_child; assumption].
Qed.
Print Assumptions C05_parent.

(* get_model returns the root for every object of the tree (the loop ends within size-many steps). *)
Theorem C05_get_model : forall root o fuel,
  uniq root -> no_parent_attr root = true -> In o (nodes root) -> length (nodes root) <= fuel ->
  get_model (heap_of root) fuel (obj_id o) = GObj (obj_id root).
Proof. exact get_model_every_object. Qed.
Print Assumptions C05_get_model.

(* get_parent_of_type returns the nearest object of the chain of containers [l] of o (nearest
   first, ending in the root) whose class name is typ, and None if there is none. *)
Theorem C05_parent_of_type : forall root o,
  uniq root -> no_parent_attr root = true -> In o (nodes root) ->
  exists l, up_chain o l /\ last l o = root /\
    forall typ fuel, length (nodes root) <= fuel ->
      get_parent_of_type (heap_of root) fuel typ (obj_id o) = pres_of (find (cls_is typ) l).
Proof. exact parent_of_type_every_object. Qed.
Print Assumptions C05_parent_of_type.

(* get_children = the selected objects of the pre-order (children_first: post-order) walk of the
   containment tree pruned by should_follow, for every selector and should_follow, from every
   start object whose walked objects have distinct identities. *)
Theorem C05_children : forall sel sf cf root,
  NoDup (map obj_id (walk sf cf root)) ->
  get_children sel root cf sf = filter sel (walk sf cf root).
Proof. exact get_children_walk. Qed.
Print Assumptions C05_children.

(* ... hence exactly the objects reachable from root through containment links accepted by
   should_follow that satisfy the selector, each exactly once.  [reach] only follows
   containment slots: references never contribute. *)
Theorem C05_children_exact : forall sel sf cf root,
  uniq root ->
  NoDup (map obj_id (get_children sel root cf sf)) /\
  forall o, In o (get_children sel root cf sf) <-> reach sf root o /\ sel o = true.
Proof.
  intros sel sf cf root H. rewrite get_children_uniq by assumption. split.
  - apply NoDup_ids_filter, walk_nodup, H.
  - intro o. rewrite filter_In, walk_iff_reach. reflexivity.
Qed.
Print Assumptions C05_children_exact.

(* Order: if b is any object of the containment subtree of a (a <> b) and both are returned, a comes
   before b — with children_first, after b.  (In a tree with distinct identities a returned object
   below a can only have been reached through a: walked_descendant_reached.) *)
Theorem C05_children_order : forall sel sf cf root a b,
  uniq root -> In b (nodes a) -> a <> b ->
  In a (get_children sel root cf sf) -> In b (get_children sel root cf sf) ->
  exists l1 l2 l3,
    get_children sel root cf sf =
    if cf then l1 ++ b :: l2 ++ a :: l3 else l1 ++ a :: l2 ++ b :: l3.
Proof.
  intros sel sf cf root a b Hu Hd Hne Ha Hb. rewrite get_children_uniq in * by assumption.
  apply filter_In in Ha as [Ha Hsa]. apply filter_In in Hb as [Hb Hsb].
  assert (Hr : In b (walk sf cf a)) by (apply reach_walk; eapply walked_descendant_reached; eassumption).
  destruct (walk_order sf cf root a b Ha Hr Hne) as [l1 [l2 [l3 E]]]. rewrite E.
  exists (filter sel l1), (filter sel l2), (filter sel l3). destruct cf; apply filter_two; assumption.
Qed.
Print Assumptions C05_children_order.

Theorem C05_children_of_type : forall t sf cf root,
  uniq root ->
  get_children_of_type t root cf sf = filter (cls_is (typ_name t)) (walk sf cf root).
Proof. intros t sf cf root H. exact (get_children_uniq (cls_is (typ_name t)) sf cf root H). Qed.
Print Assumptions C05_children_of_type.

(* Emptying every reference attribute of the model changes nothing (no identity hypothesis). *)
Theorem C05_children_strip : forall sel sf cf root,
  (forall x, sel (strip x) = sel x) -> (forall x, sf (strip x) = sf x) ->
  get_children sel (strip root) cf sf = map strip (get_children sel root cf sf).
Proof. intros sel sf cf root H1 H2. exact (get_children_strip sel sf cf H1 H2 root). Qed.
Print Assumptions C05_children_strip.

(* Two models that differ only in their reference attributes yield the same objects. *)
Theorem C05_refs_irrelevant : forall (p q : head -> bool) cf r1 r2,
  strip r1 = strip r2 ->
  map head_of (get_children (fun o => p (head_of o)) r1 cf (fun o => q (head_of o))) =
  map head_of (get_children (fun o => p (head_of o)) r2 cf (fun o => q (head_of o))).
Proof.
  intros p q cf r1 r2 E.
  assert (H : forall r, map head_of (get_children (fun o => p (head_of o)) r cf (fun o => q (head_of o)))
                        = map head_of (get_children (fun o => p (head_of o)) (strip r) cf (fun o => q (head_of o)))).
  { intro r. rewrite get_children_strip by (intro x; rewrite strip_head; reflexivity).
    rewrite map_map. apply map_ext. intro a. symmetry; apply strip_head. }
  rewrite (H r1), (H r2), E. reflexivity.
Qed.
Print Assumptions C05_refs_irrelevant.

(* Without no_parent_attr the statement is false in the model as in the code: with a root-rule
   attribute `parent=INT`, get_model(root) is the attribute's value. *)
Theorem C05_get_model_parent_attr_refuted : exists root,
  is_node root = true /\ uniq root /\
  get_model (heap_of root) (S (length (nodes root))) (obj_id root) <> GObj (obj_id root).
Proof.
  exists ex_parent_attr. split; [reflexivity|]. split; [apply uniq_b_sound; vm_compute; reflexivity|].
  vm_compute. discriminate.
Qed.
Print Assumptions C05_get_model_parent_attr_refuted.

(* The known finding, stated over the model with Python's reading of an attribute called `parent`
   (Model/NavParent.v: getattr(elem, "parent") is what the heap holds, not the slot value).
   (1) Where no attribute is called `parent` that reading changes nothing: the traversal over the
   Python attributes is the tree recursion of Model/Nav.v, for any heap and any recursion limit
   above the size of the subtree — so the classifier's class is exactly where the tree model
   stops being the code. *)
Theorem C05_getattr_model_exact : forall root h sel sf cf elem,
  no_parent_attr elem = true ->
  forall fuel st, length (nodes elem) < fuel ->
    followp root h fuel sel sf cf elem st = FOk (follow sel sf cf elem st).
Proof. exact followp_follow. Qed.
Print Assumptions C05_getattr_model_exact.

(* (2) a containment attribute `parent=INT` of a nested rule: the traversal made on every load
   (from the root, nothing selected) exceeds Python's recursion limit — the model cannot be loaded
   (corpus/C05/parent_attr_nested.json: RecursionError) *)
Theorem C05_parent_attr_nested_refuted :
  uniq ex_parent_nested /\
  followp ex_parent_nested (heap_of ex_parent_nested) 1000 (fun _ => false) (fun _ => true) false
          ex_parent_nested ([], []) = FRecursion.
Proof.
  split; [apply uniq_b_sound; vm_compute; reflexivity | exact (proj1 (parent_nested_diverges 1000))].
Qed.
Print Assumptions C05_parent_attr_nested_refuted.

(* (3) a list attribute `parent+=R2` of a nested rule: get_children iterates over the container
   object (corpus/C05/parent_attr_list.json: TypeError "object is not iterable") *)
Theorem C05_parent_attr_list_refuted :
  uniq ex_parent_list /\
  followp ex_parent_list (heap_of ex_parent_list) 1000 (fun _ => false) (fun _ => true) false
          ex_parent_list ([], []) = FTypeError.
Proof. split; [apply uniq_b_sound; vm_compute; reflexivity | vm_compute; reflexivity]. Qed.
Print Assumptions C05_parent_attr_list_refuted.

(* (4) a reference `parent=[R1]`: the resolved reference replaces the container link, and two
   objects referring to each other make get_model run forever (every fuel is exhausted)
   (corpus/C05/parent_attr_reference.json) *)
Theorem C05_parent_attr_reference_refuted :
  uniq ex_parent_ref /\
  lookup 1 (heap_of ex_parent_ref) = Some {| hcls := [82;49]%N; hparent := Some (PObj 2) |} /\
  forall fuel, get_model (heap_of ex_parent_ref) fuel 1 = GFuel.
Proof.
  split; [apply uniq_b_sound; vm_compute; reflexivity|]. split; [vm_compute; reflexivity|].
  intro fuel. apply (get_model_cycle (heap_of ex_parent_ref) 1 2 [82;49]%N [82;49]%N); vm_compute; reflexivity.
Qed.
Print Assumptions C05_parent_attr_reference_refuted.

(* non-vacuity: a tree with nested containment and a back reference satisfies the hypotheses *)
Example C05_nonvacuous_hyps :
  uniq ex_tree /\ no_parent_attr ex_tree = true /\ map obj_id (nodes ex_tree) = [0; 1; 2; 3; 4]%N.
Proof. split; [apply uniq_b_sound; vm_compute; reflexivity | split; vm_compute; reflexivity]. Qed.
Print Assumptions C05_nonvacuous_hyps.

Example C05_nonvacuous_parent :
  map (fun id => lookup id (heap_of ex_tree)) [0; 2; 4]%N =
  [Some {| hcls := [77]; hparent := None |}; Some {| hcls := [73]; hparent := Some (PObj 1) |};
   Some {| hcls := [65]; hparent := Some (PObj 3) |}]%N.
Proof. vm_compute. reflexivity. Qed.
Print Assumptions C05_nonvacuous_parent.

Example C05_nonvacuous_up :
  get_model (heap_of ex_tree) 5 4 = GObj 0 /\
  get_parent_of_type (heap_of ex_tree) 5 [66]%N 4 = PFound 3 /\
  get_parent_of_type (heap_of ex_tree) 5 [65]%N 4 = PNone.
Proof. vm_compute. repeat split. Qed.
Print Assumptions C05_nonvacuous_up.

Example C05_nonvacuous_children :
  map obj_id (get_children (cls_is [65]%N) ex_tree false (fun _ => true)) = [1; 4]%N /\
  map obj_id (get_children (fun _ => true) ex_tree true (fun _ => true)) = [2; 1; 4; 3; 0]%N /\
  map obj_id (get_children (fun _ => true) ex_tree false (fun o => negb (cls_is [66]%N o))) = [0; 1; 2]%N.
Proof. vm_compute. repeat split. Qed.
Print Assumptions C05_nonvacuous_children.
