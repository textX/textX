(* C14 — user classes are constructed once with exactly the grammar attributes, and are left
   exactly as they were after loading, successful or not. *)
From TxV Require Import Core.Base Gen.SrcUserCls Model.UserCls Proofs.UserClsProofs Proofs.UserClsLogProofs Proofs.UserClsInitProofs Proofs.UserClsAccessProofs.

(* Restoration, for EVERY history of the load machine: any sequence of operations (any mix of
   main loads, imported models, loads started from callbacks while another load runs, and a
   failure at any operation), from a class that textX has not touched.  Whenever no load is
   running any more, the class is exactly as before: no `_tx_instrumented`, the dunder entries
   of its __dict__ are the original ones, no `_tx_real_*`, empty `_tx_obj_attrs`.
   The method-name tuples are those of the current source (Gen/SrcUserCls.v). *)
Theorem C14_restored : forall d0 ops,
  s_ctxs (run replace_names restore_names (init d0) ops) = [] ->
  cls_same d0 (s_cls (run replace_names restore_names (init d0) ops)).
Proof. exact (restored_after_any_history _ _ src_rep_nodup src_rep_in_res). Qed.
Print Assumptions C14_restored.

(* While loads run, `_tx_instrumented` is exactly the number of parsers that have replaced the
   methods and not yet restored them, and every key of `_tx_obj_attrs` belongs to a model that
   is still under construction. *)
Theorem C14_counted : forall d0 ops,
  let s := run replace_names restore_names (init d0) ops in
  k_count (s_cls s) = nrep (s_ctxs s) /\ (forall x, In x (k_store (s_cls s)) -> owned (s_ctxs s) x).
Proof. exact (counted_during_any_history _ _ src_rep_nodup src_rep_in_res). Qed.
Print Assumptions C14_counted.

(* one replace/restore round trip gives back the original methods, for every original __dict__ *)
Theorem C14_methods_roundtrip : forall d0,
  cls_same d0 (cls_restore restore_names (cls_replace replace_names (cls0 d0))).
Proof. exact (replace_restore_roundtrip _ _ src_rep_nodup src_rep_in_res). Qed.
Print Assumptions C14_methods_roundtrip.

(* __init__ receives exactly the collected attributes that are meta-attributes of the class,
   plus `parent` (the extra key of the source) *)
Theorem C14_init_args : forall (V : Type) tx_attrs (attrs : list (list N * V)) kv,
  In kv (init_kwargs tx_attrs attrs) <-> In kv attrs /\ (In (fst kv) tx_attrs \/ fst kv = init_extra_key).
Proof. intros V tx_attrs attrs kv. rewrite src_parent_key. apply init_kwargs_spec. Qed.
Print Assumptions C14_init_args.

(* ... and for the storage the loader fills (every meta-attribute initialised, the two position
   attributes, parent iff the object is contained): the rule's attributes in order, plus parent
   iff contained *)
Theorem C14_init_args_of_loaded_object : forall (V : Type) tx_attrs (vals : list (list N * V)) pos pos_end parent,
  (forall kv, In kv vals -> In (fst kv) tx_attrs) ->
  ~ In tx_pos_key tx_attrs -> ~ In tx_pos_end_key tx_attrs ->
  init_kwargs tx_attrs (collected vals pos pos_end parent)
  = vals ++ match parent with Some p => [(init_extra_key, p)] | None => [] end.
Proof. intros V tx_attrs vals pos pos_end parent. rewrite src_parent_key. apply init_kwargs_collected. Qed.
Print Assumptions C14_init_args_of_loaded_object.

(* In every running load of every history: whenever an __init__ event was recorded, the
   resolution of all references of the load had been recorded before it and no object processor
   of the load before it (the trace is newest first). *)
Theorem C14_init_after_resolution_before_processors : forall d0 ops c,
  In c (s_ctxs (run replace_names restore_names (init d0) ops)) -> trace_ok (c_trace c).
Proof. exact (init_order _ _). Qed.
Print Assumptions C14_init_after_resolution_before_processors.

(* Initialised at most once, in every history: the list of the objects whose __init__ was called
   (read off the event log) has no duplicates, and an initialised object is never pending again. *)
Theorem C14_init_at_most_once : forall d0 ops,
  let s := run replace_names restore_names (init d0) ops in
  NoDup (inited (s_log s)) /\ (forall x, In x (inited (s_log s)) -> ~ In x (pend (s_ctxs s))).
Proof. exact (init_at_most_once _ _). Qed.
Print Assumptions C14_init_at_most_once.

(* ... and exactly once in a load that succeeds: in every history, when the running load can
   return (all its models are ended, no object is pending: the guard of Finish), every user object
   it has allocated (c_objs, written by Alloc only) has been initialised. *)
Theorem C14_init_exactly_once_on_success : forall d0 ops c rest,
  let s := run replace_names restore_names (init d0) ops in
  s_ctxs s = c :: rest -> c_frames c = [] -> (c_phase c = Ending [] \/ c_phase c = Processing) ->
  forall x, In x (c_objs c) -> In x (inited (s_log s)).
Proof. exact (all_initialised_at_finish _ _). Qed.
Print Assumptions C14_init_exactly_once_on_success.

(* Attribute access DURING loading (the replacement functions of
   _replace_user_attr_methods_for_class, modelled by acting_set / acting_get / acting_del).
   In every state of every history - whatever loads are running, nested or not - setting,
   reading or deleting an attribute of an object that is not under construction (an initialised
   object, an object of an earlier or of a nested load, any other instance) is handled by exactly
   what the class defined before loading: its own __setattr__/__getattribute__/__delattr__ if it
   has one, else the inherited behaviour. *)
Theorem C14_own_accessors_during_load : forall d0 ops x hit,
  (forall a, d0 a <> TxFn) ->
  let k := s_cls (run replace_names restore_names (init d0) ops) in
  stored k x = false ->
  acting_set k x = of_slot (d0 n_setattr) /\
  acting_get k x hit = of_slot (d0 n_getattribute) /\
  acting_del k x hit = of_slot (d0 n_delattr).
Proof.
  intros d0 ops x hit H.
  exact (own_accessors_act _ _ src_rep_nodup src_rep_in_res d0 H ops x hit src_has_set src_has_get src_has_del).
Qed.
Print Assumptions C14_own_accessors_during_load.

(* ... while an object under construction (stored; by C14_counted it belongs to a model still
   under construction) of an instrumented class collects its attributes in the storage; a name
   it does not have yet is looked up the inherited way. *)
Theorem C14_storage_for_objects_under_construction : forall d0 ops x,
  (forall a, d0 a <> TxFn) ->
  let k := s_cls (run replace_names restore_names (init d0) ops) in
  stored k x = true -> k_count k <> 0 ->
  acting_set k x = ToStorage /\ acting_get k x true = ToStorage /\ acting_del k x true = ToStorage /\
  acting_get k x false = ToBase.
Proof.
  intros d0 ops x _.
  exact (storage_acts _ _ src_rep_nodup src_rep_in_res d0 ops x src_has_set src_has_get src_has_del).
Qed.
Print Assumptions C14_storage_for_objects_under_construction.

(* methods outside the replaced tuple (e.g. __getattr__) are never touched, at any time *)
Theorem C14_other_methods_untouched : forall d0 ops a,
  ~ In a replace_names -> k_dict (s_cls (run replace_names restore_names (init d0) ops)) a = d0 a.
Proof. exact (other_methods_untouched _ _ src_rep_nodup src_rep_in_res). Qed.
Print Assumptions C14_other_methods_untouched.

(* non-vacuity: two models being loaded (count 2), object 2 still stored, a nested load whose
   object 5 is initialised: its accessors are the class's own ones although the class is
   instrumented *)
Example C14_access_nonvacuous :
  let d0 := fun a => if str_eqb a n_setattr then UserFn 1 else Absent in
  let k := s_cls (run replace_names restore_names (init d0)
             [Begin true false true; Alloc; Begin true false true; Alloc; Complete; ResolveOk; EndModel; Init true]) in
  k_count k = 1 /\ stored k 2 = true /\ stored k 5 = false /\
  acting_set k 5 = ToUser 1 /\ acting_get k 5 false = ToBase /\ acting_set k 2 = ToStorage.
Proof. vm_compute. repeat split; reflexivity. Qed.
Print Assumptions C14_access_nonvacuous.

(* non-vacuity: a main model with an imported model and a failure, then a successful load *)
Example C14_nonvacuous :
  let ops := [Begin true false true; Alloc; Alloc; Complete; Complete; Begin false false true; Alloc; Complete; Fail;
              Begin true false true; Alloc; Complete; ResolveOk; EndModel; Init true; Proc true; Finish] in
  let s := run replace_names restore_names (init (fun _ => UserFn 7)) ops in
  s_ctxs s = [] /\ length (s_log s) = 9 /\
  k_count (s_cls (run replace_names restore_names (init (fun _ => UserFn 7)) (firstn 8 ops))) = 2 /\
  length (k_store (s_cls (run replace_names restore_names (init (fun _ => UserFn 7)) (firstn 8 ops)))) = 3.
Proof. vm_compute. repeat split; reflexivity. Qed.
Print Assumptions C14_nonvacuous.

(* non-vacuity of the order statement: a running load whose trace holds resolution, __init__ and
   a processor event *)
Example C14_order_nonvacuous :
  let s := run replace_names restore_names (init (fun _ => Absent))
             [Begin true false true; Alloc; Complete; ResolveOk; EndModel; Init true; Proc true] in
  map (fun c => map is_init (c_trace c)) (s_ctxs s) = [[false; true; false; false]].
Proof. vm_compute. reflexivity. Qed.
Print Assumptions C14_order_nonvacuous.

(* non-vacuity of the exactly-once statement: a load with three objects at the point where it can
   finish *)
Example C14_once_nonvacuous :
  let s := run replace_names restore_names (init (fun _ => Absent))
             [Begin true false true; Alloc; Alloc; Complete; Complete; Begin false false true; Alloc; Complete;
              ResolveOk; EndModel; Init true; Init true; EndModel; Init true] in
  map c_objs (s_ctxs s) = [[2; 3; 6]] /\ map c_frames (s_ctxs s) = [[]] /\ inited (s_log s) = [6; 2; 3].
Proof. vm_compute. repeat split; reflexivity. Qed.
Print Assumptions C14_once_nonvacuous.
