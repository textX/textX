(* What removes the "if the interpreter terminates" proviso from the refinement theorem (Props/C01.v
   C01_refinement_total): tables in the class wfg never crash the interpreter (no Abort 1); for terminating
   tables (Proofs/PegTerm.v) a computable fuel suffices (no Abort 0). *)
From TxV Require Import Proofs.PegTerm.
From TxV Require Import Core.Base Model.PegSyntax Model.Peg Model.Spec Proofs.SpecProofs Proofs.SpecSepProofs.
Require Import Lia.

Section NoCrash.
Variable g : grammar.
Variable input : list N.
Variable orc : nat -> nat -> option nat.
Variable pf : nat.
Hypothesis Hcmv : forall cm, g_comments g = Some cm -> valid g cm.
Hypothesis Hwf : forall nid nd, get_node g nid = Some nd -> node_ok g (prodb g pf) nd = true.

Notation parser := (nat -> bool -> st -> out) (only parsing).
(* Abort 0 is "out of fuel"; every other Abort is a crash of the interpreter on an ill-formed table *)
Definition nocrash (rec : parser) : Prop := forall nid psq s w, valid g nid -> rec nid psq s = Abort w -> w = 0.

Lemma seq_loop_nc rec psq kids : nocrash rec -> Forall (valid g) kids ->
  forall acc s w, seq_loop rec psq kids acc s = Abort w -> w = 0.
Proof.
  intros Hr. induction kids as [|c kids IH]; intros Hv acc s w H; cbn [seq_loop] in H; [discriminate|].
  inversion Hv as [|? ? Hc Hv']; subst.
  destruct (rec c psq s) as [r s1|s1|w1] eqn:E; try discriminate.
  - apply (IH Hv' _ _ _ H).
  - inversion H; subst. apply (Hr c psq s w Hc E).
Qed.

Lemma choice_loop_nc rec cp kids : nocrash rec -> Forall (valid g) kids ->
  forall s w, choice_loop rec cp kids s = Abort w -> w = 0.
Proof.
  intros Hr. induction kids as [|c kids IH]; intros Hv s w H; cbn [choice_loop] in H; [discriminate|].
  inversion Hv as [|? ? Hc Hv']; subst.
  destruct (rec c false s) as [r s1|s1|w1] eqn:E.
  - destruct (is_none r); [apply (IH Hv' _ _ H) | discriminate].
  - apply (IH Hv' _ _ H).
  - inversion H; subst. apply (Hr c false s w Hc E).
Qed.

Lemma rep_loop_nc rec e sep plus : nocrash rec -> valid g e -> (forall sp, sep = Some sp -> valid g sp) ->
  forall k first acc s w, rep_loop rec e sep plus k first acc s = Abort w -> w = 0.
Proof.
  intros Hr He Hs. induction k as [|k IH]; intros first acc s w H; [inversion H; reflexivity|].
  rewrite PegProofs.rep_loop_S in H.
  assert (Hel : forall c acc1 s1, PegProofs.rep_elem rec e sep plus k first c acc1 s1 = Abort w -> w = 0).
  { intros c acc1 s1 X. unfold PegProofs.rep_elem in X. destruct (rec e false s1) as [r s2|s2|w1] eqn:E.
    - destruct (truthy r); [apply (IH _ _ _ _ X) | discriminate].
    - destruct (plus && first)%bool; discriminate.
    - inversion X; subst. apply (Hr e false s1 w He E). }
  destruct sep as [sp|]; [|apply (Hel _ _ _ H)].
  destruct first; [apply (Hel _ _ _ H)|].
  destruct (rec sp false s) as [sr s1|s1|w1] eqn:E.
  - apply (Hel _ _ _ H).
  - destruct (plus && false)%bool; discriminate.
  - inversion H; subst. apply (Hr sp false s w (Hs sp eq_refl) E).
Qed.

Lemma cmt_loop_nc rec cm : nocrash rec -> valid g cm ->
  forall k s w, cmt_loop input rec cm k s = Abort w -> w = 0.
Proof.
  intros Hr Hc. induction k as [|k IH]; intros s w H; [inversion H; reflexivity|]. cbn [cmt_loop] in H.
  destruct (rec cm false s) as [r1 s1|s1|w1] eqn:E; try discriminate.
  - apply (IH _ _ H).
  - inversion H; subst. apply (Hr cm false s w Hc E).
Qed.

Lemma parse_nc : forall f, nocrash (parse g input orc false f).
Proof.
  induction f as [|f IH]; intros nid psq s w Hv H; [inversion H; reflexivity|].
  cbn [parse] in H. destruct (get_node g nid) as [nd|] eqn:En.
  2:{ exfalso. unfold get_node in En. apply nth_error_None in En. unfold valid in Hv. lia. }
  pose proof (Hwf _ _ En) as Hok. unfold node_ok in Hok.
  apply andb_true_iff in Hok as [Hok Hkind]. apply andb_true_iff in Hok as [Hok Hkids].
  apply andb_true_iff in Hok as [Hok _]. apply andb_true_iff in Hok as [Hsepok _].
  assert (Hval : Forall (valid g) (n_kids nd)).
  { apply Forall_forall. intros c Hc. rewrite forallb_forall in Hkids. specialize (Hkids c Hc). apply Nat.ltb_lt in Hkids. exact Hkids. }
  destruct (is_match_kind (n_kind nd)) eqn:Em.
  - (* the terminal itself never aborts; before it, only the Comment rule is called *)
    assert (HT : forall s0 w0, match term_parse input orc nid (n_kind nd) psq s0 with
                               | Ok r s2 => Ok (if n_suppress nd then RNone else r) s2
                               | o => o end = Abort w0 -> False).
    { intros s0 w0 X. destruct (n_kind nd) as [| | | | | | | | | |t o|o]; try discriminate; cbn [term_parse] in X.
      - destruct (Nat.eqb (length input) (pos s0)); discriminate.
      - destruct o as [o|]; [destruct (orc o (pos s0))|]; try discriminate.
        destruct (is_prefix t (skipn (pos s0) input)); discriminate.
      - destruct (orc o (pos s0)) as [l|]; [destruct (Nat.eqb l 0)|]; discriminate. }
    unfold match_pre, parse_comments in H. cbv zeta in H.
    destruct (if skipws (maybe_skip_ws input s) then lookup (pos (maybe_skip_ws input s)) (cpos (maybe_skip_ws input s)) else None) as [q|];
      [exfalso; apply (HT _ _ H)|].
    destruct (in_cmt (maybe_skip_ws input s)); [exfalso; apply (HT _ _ H)|].
    destruct (g_comments g) as [cm|] eqn:Hcm; [|exfalso; apply (HT _ _ H)].
    destruct (cmt_loop input (parse g input orc false f) cm f (set_in_cmt true (maybe_skip_ws input s))) as [r1 s1|s1|w1] eqn:E1.
    + exfalso. apply (HT _ _ H).
    + discriminate.
    + inversion H; subst. apply (cmt_loop_nc _ cm IH (Hcmv cm eq_refl) _ _ _ E1).
  - cbv iota in H.
    assert (Hsepv : forall sp, n_sep nd = Some sp -> n_kind nd = KStar \/ n_kind nd = KPlus -> valid g sp).
    { intros sp Es Ek. unfold sep_ok in Hsepok. rewrite Es in Hsepok. destruct Ek as [Ek|Ek]; rewrite Ek in Hsepok; apply Nat.ltb_lt in Hsepok; exact Hsepok. }
    assert (HB : forall w0, body (parse g input orc false f) f nd s = Abort w0 -> w0 = 0).
    { intros w0 X. unfold body in X. destruct (n_kind nd) eqn:Ek; try discriminate.
      - destruct (seq_loop (parse g input orc false f) true (n_kids nd) [] (enter_ws nd s)) as [r s1|s1|w1] eqn:E; try discriminate.
        + destruct r as [| |[|]]; discriminate.
        + inversion X; subst. apply (seq_loop_nc _ _ _ IH Hval _ _ _ E).
      - destruct (choice_loop (parse g input orc false f) (pos s) (n_kids nd) (enter_ws nd s)) as [r s1|s1|w1] eqn:E; try discriminate.
        + destruct (is_none r); discriminate.
        + inversion X; subst. apply (choice_loop_nc _ _ _ IH Hval _ _ E).
      - destruct (n_kids nd) as [|e rest]; [discriminate|]. inversion Hval; subst.
        destruct (parse g input orc false f e false s) as [r s1|s1|w1] eqn:E; try discriminate.
        inversion X; subst. apply (IH e false s w0); assumption.
      - destruct (n_kids nd) as [|e rest]; [discriminate|]. inversion Hval; subst.
        destruct (rep_loop (parse g input orc false f) e (n_sep nd) false f true [] (enter_eol nd s)) as [r s1|s1|w1] eqn:E; try discriminate.
        inversion X; subst. apply (rep_loop_nc _ e (n_sep nd) false IH) in E; [exact E | assumption|].
        intros sp Es. apply (Hsepv sp Es). left. reflexivity.
      - destruct (n_kids nd) as [|e rest]; [discriminate|]. inversion Hval; subst.
        destruct (rep_loop (parse g input orc false f) e (n_sep nd) true f true [] (enter_eol nd s)) as [r s1|s1|w1] eqn:E; try discriminate.
        inversion X; subst. apply (rep_loop_nc _ e (n_sep nd) true IH) in E; [exact E | assumption|].
        intros sp Es. apply (Hsepv sp Es). right. reflexivity.
      - destruct (seq_loop (parse g input orc false f) false (n_kids nd) [] s) as [r s1|s1|w1] eqn:E; try discriminate.
        inversion X; subst. apply (seq_loop_nc _ _ _ IH Hval _ _ _ E).
      - destruct (seq_loop (parse g input orc false f) false (n_kids nd) [] s) as [r s1|s1|w1] eqn:E; try discriminate.
        inversion X; subst. apply (seq_loop_nc _ _ _ IH Hval _ _ _ E). }
    destruct (body (parse g input orc false f) f nd s) as [r s1|s1|w1] eqn:Eb; try discriminate.
    inversion H; subst. apply HB. reflexivity.
Qed.

Lemma run_nc c fuel w : g_top g < length (g_nodes g) -> run g c orc false fuel input = Aborted w -> w = 0.
Proof.
  intros Htop H. unfold run in H.
  destruct (parse g input orc false fuel (g_top g) false (init_st c)) as [r s|s|w1] eqn:E; try discriminate.
  inversion H; subst. apply (parse_nc fuel (g_top g) false (init_st c) w Htop E).
Qed.
End NoCrash.

Lemma wfg_no_crash g pf c orc fuel input w :
  wfg g pf = true -> run g c orc false fuel input = Aborted w -> w = 0.
Proof.
  intros Hwf. destruct (wfg_parts g pf Hwf) as [Hnodes [Hcm Htop]].
  apply (run_nc g input orc pf); [|exact Hnodes | exact Htop]. intros cm X. rewrite Hcm in X. discriminate.
Qed.

(* a run that neither runs out of fuel nor crashes returns a verdict, so the proviso of the partial statement goes *)
Definition decides (g : grammar) (o : outcome) (rd rq : sres) : Prop :=
  (exists r ts p, o = Parsed r /\ rd = SOk ts p /\
                  (nosep g = true -> erase_all ts = flatten r) /\
                  exists tsq, rq = SOk tsq p /\ erase_all tsq = flatten r) \/
  (exists e, o = SyntaxErr e /\ rd = SFail).

Lemma refines_total g o rd rq :
  refines g o rd rq -> o <> Aborted 0 -> (forall w, o = Aborted w -> w = 0) -> decides g o rd rq.
Proof.
  intros HR NA NC. destruct o as [r|e|w].
  - left. destruct HR as [ts [p [Es [Hn Hq]]]]. exists r, ts, p. repeat split; assumption.
  - right. exists e. split; [reflexivity | exact HR].
  - exfalso. apply NA. f_equal. apply NC. reflexivity.
Qed.

(* a table oracle is sane and never matches emptily if its entries are; no literal of the table goes through the oracle *)
Lemma orc_of_In tbl o p l : orc_of tbl o p = Some l -> In ((o, p), l) tbl.
Proof.
  unfold orc_of. induction tbl as [|[[o' p'] v] m IH]; [discriminate|].
  destruct (Nat.eqb o o' && Nat.eqb p p')%bool eqn:E; [|intro H; right; exact (IH H)].
  intro H. inversion H; subst. apply andb_true_iff in E as [E1 E2].
  apply Nat.eqb_eq in E1. apply Nat.eqb_eq in E2. subst. left. reflexivity.
Qed.

Lemma orc_of_facts g input tbl :
  forallb (fun e => Nat.leb (snd (fst e) + snd e) (length input) && Nat.ltb 0 (snd e)) tbl = true ->
  forallb (fun nd => match n_kind nd with KStr _ (Some _) => false | _ => true end) (g_nodes g) = true ->
  orc_sane g input (orc_of tbl) /\ Spec.orc_pos (orc_of tbl).
Proof.
  intros Ht Hg.
  assert (H : forall o p l, orc_of tbl o p = Some l -> p + l <= length input /\ 0 < l).
  { intros o p l E. apply orc_of_In in E. rewrite forallb_forall in Ht. specialize (Ht _ E). cbn [fst snd] in Ht.
    apply andb_true_iff in Ht as [A B]. apply Nat.leb_le in A. apply Nat.ltb_lt in B. split; assumption. }
  split; [split|].
  - intros o p l E. apply (H o p l E).
  - intros nid nd t o p x Hn Hk. pose proof (nodes_forallb _ g Hg nid nd Hn) as X. cbv beta in X. rewrite Hk in X. discriminate.
  - intros o p l E. apply (H o p l E).
Qed.

Lemma rich_orc_facts : orc_sane g_rich in_rich (orc_of t_rich) /\ Spec.orc_pos (orc_of t_rich).
Proof. apply orc_of_facts; reflexivity. Qed.

(* boundaries of the class *)
(* Model: xs+=A[eolterm] 'end'; A[ws=' ']: 'a';  on "a a\nend": a rule-level ws inside an eolterm repetition is
   restored wrongly (the newline-stripped effective set becomes the real one), the newline before 'end' is
   no longer skipped *)
Definition g_eolws : grammar := (mkGrammar [mkNode KSeq [1;6] None false [77;111;100;101;108]%N true false None None;
  mkNode KSeq [2;5] None false [77;111;100;101;108]%N true false None None;
  mkNode KPlus [3] None true [95;95;97;115;103;110;95;111;110;101;111;114;109;111;114;101]%N true false None None;
  mkNode KSeq [4] None false [65]%N true false (Some [32]%N) None;
  mkNode (KStr [97]%N None) [] None false []%N false false None None;
  mkNode (KStr [101;110;100]%N None) [] None false []%N false false None None;
  mkNode KEOF [] None false [69;79;70]%N false false None None] 0 None).
(* the same repetition without the rule-level ws is inside the class and agrees *)
Definition g_eol : grammar := (mkGrammar [mkNode KSeq [1;6] None false [77;111;100;101;108]%N true false None None;
  mkNode KSeq [2;5] None false [77;111;100;101;108]%N true false None None;
  mkNode KPlus [3] None true [95;95;97;115;103;110;95;111;110;101;111;114;109;111;114;101]%N true false None None;
  mkNode KSeq [4] None false [65]%N true false None None;
  mkNode (KStr [97]%N None) [] None false []%N false false None None;
  mkNode (KStr [101;110;100]%N None) [] None false []%N false false None None;
  mkNode KEOF [] None false [69;79;70]%N false false None None] 0 None).
(* Model: a=A 'x'; A: &'x';  on "x": a predicate as a rule body - the rule matches the empty string *)
Definition g_predroot : grammar := (mkGrammar [mkNode KSeq [1;6] None false [77;111;100;101;108]%N true false None None;
  mkNode KSeq [2;5] None false [77;111;100;101;108]%N true false None None;
  mkNode KSeq [3] None false [95;95;97;115;103;110;95;112;108;97;105;110]%N true false None None;
  mkNode KAnd [4] None false [65]%N true false None None;
  mkNode (KStr [120]%N None) [] None false []%N false false None None;
  mkNode (KStr [120]%N None) [] None false []%N false false None None;
  mkNode KEOF [] None false [69;79;70]%N false false None None] 0 None).
