(* Proofs about Model/ErrLoc.v.  The line-end table is read through two functions of the text: the number of
   newlines before an offset and the position of the last of them.  Arpeggio's pos_to_linecol and the walk
   linecol_spec both compute (1 + that number, distance from that position), for every text and offset. *)
From TxV Require Import Core.Base Model.ErrLoc.
Require Import Lia.

(* number of "\n" among the first n characters; absolute index of the last one (t starts at offset off) *)
Fixpoint cnt (t : list N) (n : nat) : nat :=
  match n, t with
  | S n', c :: r => (if N.eqb c 10 then 1 else 0) + cnt r n'
  | _, _ => 0
  end.

Fixpoint lastnl (off : nat) (t : list N) (n : nat) : option nat :=
  match n, t with
  | S n', c :: r => match lastnl (S off) r n' with
                    | Some i => Some i
                    | None => if N.eqb c 10 then Some off else None
                    end
  | _, _ => None
  end.

Lemma line_ends_In : forall t off e, In e (line_ends_from off t) ->
  exists j, e = off + j /\ nth_error t j = Some 10%N.
Proof.
  induction t as [|c r IH]; intros off e H; cbn [line_ends_from] in H; [destruct H|].
  assert (R : In e (line_ends_from (S off) r) -> exists j, e = off + j /\ nth_error (c :: r) j = Some 10%N).
  { intro H'. apply IH in H' as (j & -> & B). exists (S j). split; [lia | exact B]. }
  destruct (N.eqb_spec c 10) as [->|_]; [destruct H as [<-|H]|]; auto.
  exists 0. split; [lia | reflexivity].
Qed.

Lemma bisect_small : forall t off x, x <= off -> bisect_left (line_ends_from off t) x = 0.
Proof.
  induction t as [|c r IH]; intros off x Hx; cbn [line_ends_from bisect_left]; [reflexivity|].
  destruct (N.eqb c 10).
  - cbn [bisect_left]. destruct (Nat.ltb_spec off x); [lia | reflexivity].
  - apply IH. lia.
Qed.

Lemma bisect_cnt : forall t off n, n <= length t ->
  bisect_left (line_ends_from off t) (off + n) = cnt t n.
Proof.
  induction t as [|c r IH]; intros off n Hn.
  - cbn in Hn. assert (n = 0) by lia. subst. reflexivity.
  - destruct n as [|n'].
    + cbn [cnt]. apply bisect_small. lia.
    + cbn [length] in Hn. cbn [line_ends_from cnt].
      replace (off + S n') with (S off + n') by lia.
      destruct (N.eqb c 10).
      * cbn [bisect_left]. destruct (Nat.ltb_spec off (S off + n')); [|lia].
        rewrite IH by lia. reflexivity.
      * rewrite IH by lia. reflexivity.
Qed.

Lemma cnt_lastnl_none : forall t off n, cnt t n = 0 <-> lastnl off t n = None.
Proof.
  induction t as [|c r IH]; intros off n.
  - destruct n; cbn; tauto.
  - destruct n as [|n']; [cbn; tauto|].
    cbn [cnt lastnl]. specialize (IH (S off) n').
    destruct (N.eqb c 10), (lastnl (S off) r n') eqn:E.
    + split; [lia | discriminate].
    + split; [lia | discriminate].
    + split; [intro H; apply IH; lia | discriminate].
    + split; [reflexivity | intros _; cbn; apply IH; reflexivity].
Qed.

Lemma nth_cnt_lastnl : forall t off n d, n <= length t -> 0 < cnt t n ->
  lastnl off t n = Some (nth (cnt t n - 1) (line_ends_from off t) d).
Proof.
  induction t as [|c r IH]; intros off n d Hn Hc.
  - destruct n; cbn in Hc; lia.
  - destruct n as [|n']; [cbn in Hc; lia|].
    cbn [length] in Hn. cbn [cnt lastnl line_ends_from] in *.
    destruct (N.eqb c 10).
    + destruct (cnt r n') as [|k] eqn:Ek.
      * rewrite (proj1 (cnt_lastnl_none r (S off) n') Ek). reflexivity.
      * specialize (IH (S off) n' d). rewrite Ek in IH.
        rewrite IH by lia. replace (1 + S k - 1) with (S k) by lia. cbn [nth].
        replace (S k - 1) with k by lia. reflexivity.
    + cbn [plus] in *. rewrite (IH (S off) n' d) by lia. reflexivity.
Qed.

Lemma lastnl_none : forall t off n, lastnl off t n = None ->
  forall q, q < n -> nth_error t q <> Some 10%N.
Proof.
  induction t as [|c r IH]; intros off n H q Hq; [destruct q; discriminate|].
  destruct n as [|n']; [lia|]. cbn [lastnl] in H.
  destruct (lastnl (S off) r n') eqn:E; [discriminate|]. destruct (N.eqb_spec c 10); [discriminate|].
  destruct q as [|q]; cbn [nth_error]; [congruence | apply (IH _ _ E); lia].
Qed.

(* the last newline among the first n characters: it is one, nothing after it is one *)
Lemma lastnl_some : forall t off n i, lastnl off t n = Some i ->
  exists j, i = off + j /\ j < n /\ nth_error t j = Some 10%N /\
            forall q, j < q < n -> nth_error t q <> Some 10%N.
Proof.
  induction t as [|c r IH]; intros off n i H; [destruct n; discriminate|].
  destruct n as [|n']; [discriminate|].
  cbn [lastnl] in H. destruct (lastnl (S off) r n') eqn:E.
  - inversion H; subst. apply IH in E as (j & -> & A & B & C).
    exists (S j). split; [lia|]. split; [lia|]. split; [exact B|].
    intros [|q] Hq; [lia|]. apply C. lia.
  - destruct (N.eqb_spec c 10) as [->|]; [|discriminate]. inversion H; subst.
    exists 0. split; [lia|]. split; [lia|]. split; [reflexivity|].
    intros [|q] Hq; [lia|]. apply (lastnl_none _ _ _ E). lia.
Qed.

Lemma advance_cnt : forall t off n line col, n <= length t ->
  advance t n line col =
  (line + cnt t n, match lastnl off t n with None => col + n | Some i => off + n - i end).
Proof.
  induction t as [|c r IH]; intros off n line col Hn.
  - cbn in Hn. assert (n = 0) by lia. subst. cbn. f_equal; lia.
  - destruct n as [|n'].
    + cbn. f_equal; lia.
    + cbn [length] in Hn. apply le_S_n in Hn. cbn [advance cnt lastnl].
      destruct (N.eqb c 10); rewrite (IH (S off)) by exact Hn; clear IH.
      * f_equal; try lia. destruct (lastnl (S off) r n'); lia.
      * f_equal; try lia. destruct (lastnl (S off) r n'); lia.
Qed.

(* the two computations of a location, in closed form *)
Definition linecol_of (t : list N) (pos : nat) : nat * nat :=
  (1 + cnt t pos, match lastnl 0 t pos with None => 1 + pos | Some i => pos - i end).

Lemma linecol_spec_closed : forall t pos, pos <= length t -> linecol_spec t pos = linecol_of t pos.
Proof. intros t pos H. exact (advance_cnt t 0 pos 1 1 H). Qed.

Lemma pos_to_linecol_closed : forall t pos, pos <= length t -> pos_to_linecol t pos = linecol_of t pos.
Proof.
  intros t pos H. unfold pos_to_linecol, linecol_of, line_ends.
  rewrite (bisect_cnt t 0 pos H : bisect_left _ pos = _).
  destruct (cnt t pos) as [|k] eqn:Ek.
  - rewrite (proj1 (cnt_lastnl_none t 0 pos) Ek). cbn. f_equal; lia.
  - pose proof (nth_cnt_lastnl t 0 pos 0 H) as L. rewrite Ek in L. specialize (L ltac:(lia)).
    rewrite L. cbn [Nat.ltb Nat.leb]. apply lastnl_some in L as (j & -> & L1 & L2 & _). cbn [Nat.add].
    rewrite (nth_error_nth _ _ _ L2). change (is_nl_cr 10) with true. cbv iota.
    f_equal; lia.
Qed.

Theorem pos_to_linecol_exact : forall t pos, pos <= length t ->
  pos_to_linecol t pos = linecol_spec t pos.
Proof. intros t pos H. rewrite linecol_spec_closed by exact H. apply pos_to_linecol_closed, H. Qed.

(* no truncated subtraction happens in the model: the line end looked up is before pos *)
Lemma pos_to_linecol_no_underflow : forall t pos, pos <= length t ->
  let line := bisect_left (line_ends t) pos in
  0 < line -> nth (line - 1) (line_ends t) 0 < pos.
Proof.
  intros t pos H line Hl. unfold line, line_ends in *.
  rewrite (bisect_cnt t 0 pos H : bisect_left _ pos = _) in *.
  pose proof (nth_cnt_lastnl t 0 pos 0 H Hl) as L.
  apply lastnl_some in L as (j & E & ? & _). lia.
Qed.

(* bisect_left: the linear definition is the binary search CPython performs, on ascending lists *)
Definition ascending (l : list nat) : Prop := forall i j, i < j -> j < length l -> nth i l 0 <= nth j l 0.

Lemma bisect_left_le_length : forall l x, bisect_left l x <= length l.
Proof. induction l as [|a r IH]; intro x; cbn [bisect_left length]; [lia|]. destruct (a <? x); [specialize (IH x)|]; lia. Qed.

Lemma ascending_tail a r : ascending (a :: r) -> ascending r.
Proof. intros H i j Hij Hj. apply (H (S i) (S j)); cbn; lia. Qed.

Lemma bisect_left_char : forall l x, ascending l ->
  (forall i, i < bisect_left l x -> nth i l 0 < x) /\
  (forall i, bisect_left l x <= i -> i < length l -> x <= nth i l 0).
Proof.
  induction l as [|a r IH]; intros x Ha.
  - split; intros i Hi; cbn in *; lia.
  - cbn [bisect_left]. destruct (Nat.ltb_spec a x) as [Hlt|Hge].
    + destruct (IH x (ascending_tail _ _ Ha)) as [I1 I2]. split.
      * intros [|i] Hi; cbn; [lia | apply I1; lia].
      * intros [|i] Hi Hl; [lia|]. cbn. apply I2; cbn in Hl; lia.
    + split; [intros i Hi; lia|].
      intros [|i] _ Hl; cbn; [lia|].
      specialize (Ha 0 (S i)). cbn in Ha. cbn in Hl. specialize (Ha ltac:(lia) ltac:(lia)). lia.
Qed.

Lemma bisect_bs_correct : forall fuel l x lo hi, ascending l ->
  lo <= bisect_left l x <= hi -> hi <= length l -> hi - lo <= fuel ->
  bisect_bs fuel l x lo hi = bisect_left l x.
Proof.
  induction fuel as [|f IH]; intros l x lo hi Ha Hb Hh Hf.
  - cbn. lia.
  - cbn [bisect_bs]. destruct (Nat.ltb_spec lo hi) as [Hlt|Hge]; [|lia].
    destruct (bisect_left_char l x Ha) as [C1 C2].
    assert (Hm : lo <= (lo + hi) / 2 < hi).
    { split; [apply Nat.div_le_lower_bound; lia | apply Nat.div_lt_upper_bound; lia]. }
    (* all that matters of the midpoint; the answer b lies on the side the comparison at mid says *)
    generalize dependent ((lo + hi) / 2). intros mid Hm. specialize (C1 mid). specialize (C2 mid).
    destruct (Nat.ltb_spec (nth mid l 0) x) as [Hx|Hx]; apply IH; try assumption; clear IH Ha; lia.
Qed.

Lemma line_ends_ascending : forall t off, ascending (line_ends_from off t).
Proof.
  induction t as [|c r IH]; intros off; cbn [line_ends_from].
  - intros i j _ Hj. cbn in Hj. lia.
  - destruct (N.eqb c 10); [|apply IH].
    intros i j Hij Hj. destruct j as [|j]; [lia|]. cbn in Hj.
    destruct i as [|i]; cbn.
    + destruct (line_ends_In r (S off) (nth j (line_ends_from (S off) r) 0)) as (? & ? & _); [apply nth_In|]; lia.
    + apply IH; lia.
Qed.

(* line/column determine the offset: different offsets of one text never share a location *)
Lemma cnt_mono : forall t n1 n2, n1 <= n2 -> cnt t n1 <= cnt t n2.
Proof.
  induction t as [|c r IH]; intros n1 n2 H; [destruct n1, n2; cbn; lia|].
  destruct n1 as [|n1]; [cbn; lia|]. destruct n2 as [|n2]; [lia|].
  cbn [cnt]. specialize (IH n1 n2 ltac:(lia)). lia.
Qed.

Lemma cnt_eq_lastnl : forall t off n1 n2, n1 <= n2 -> cnt t n1 = cnt t n2 -> lastnl off t n1 = lastnl off t n2.
Proof.
  induction t as [|c r IH]; intros off n1 n2 H E; [destruct n1, n2; reflexivity|].
  destruct n2 as [|n2]; [assert (n1 = 0) by lia; subst; reflexivity|].
  destruct n1 as [|n1].
  - cbn [cnt] in E. symmetry. apply cnt_lastnl_none. cbn [cnt]. lia.
  - cbn [cnt] in E. cbn [lastnl]. rewrite (IH (S off) n1 n2) by lia. reflexivity.
Qed.

Theorem linecol_injective : forall t p1 p2, p1 <= length t -> p2 <= length t ->
  linecol_spec t p1 = linecol_spec t p2 -> p1 = p2.
Proof.
  assert (W : forall t p1 p2, p1 <= p2 -> p2 <= length t -> linecol_spec t p1 = linecol_spec t p2 -> p1 = p2).
  { intros t p1 p2 H12 H2 E.
    rewrite !linecol_spec_closed in E by lia. unfold linecol_of in E.
    inversion E as [[Ec El]].
    rewrite (cnt_eq_lastnl t 0 p1 p2 H12 Ec) in El.
    destruct (lastnl 0 t p2) as [i|] eqn:L; [|lia].
    rewrite <- (cnt_eq_lastnl t 0 p1 p2 H12 Ec) in L. apply lastnl_some in L as (j & ? & ? & _). lia. }
  intros t p1 p2 H1 H2 E. destruct (Nat.le_ge_cases p1 p2); [apply (W t); assumption|].
  symmetry. apply (W t); try assumption. symmetry. exact E.
Qed.
