(* The failure position reported by the Peg interpreter lies inside the input (for EVERY grammar table,
   configuration, memoization setting and fuel; the oracle must stay inside the input: [orc_sane]).
   Invariant: every position stored in the state (pos, nm, comment_positions values, cache new
   positions) is <= length input. *)
From TxV Require Import Core.Base Model.PegSyntax Model.Peg Proofs.PegProofs Proofs.PegTerm Proofs.PegRel.

Section ErrPos.
Variable g : grammar.
Variable input : list N.
Variable orc : nat -> nat -> option nat.
Hypothesis Hsane : orc_sane g input orc.

Notation parser := (nat -> bool -> st -> out) (only parsing).
Notation len := (length input).

Definition Jinv (s : st) : Prop :=
  pos s <= len /\
  (forall nid p cr np, clookup nid p (cache s) = Some (cr, np) -> np <= len) /\
  (forall k v, lookup k (cpos s) = Some v -> v <= len) /\
  (forall q, nm s = Some q -> q <= len).

Definition Jout (o : out) : Prop := match o with Ok _ s1 | Fail s1 => Jinv s1 | Abort _ => True end.
Definition rec_J (rec : parser) : Prop := forall c psq s, Jinv s -> Jout (rec c psq s).

Lemma J_set_pos p s : Jinv s -> p <= len -> Jinv (set_pos p s).
Proof. intros (A & B & C & D) L. split; [exact L | split; [exact B | split; [exact C | exact D]]]. Qed.
Lemma J_set_nm p s : Jinv s -> p <= len -> Jinv (set_nm (Some p) s).
Proof.
  intros (A & B & C & D) L. split; [exact A | split; [exact B | split; [exact C|]]].
  cbn. intros q' Eq. injection Eq as <-. exact L.
Qed.
Lemma J_reg_fail p s : Jinv s -> p <= len -> Jinv (reg_fail p s).
Proof.
  intros J L. unfold reg_fail. destruct (nm s) as [q|].
  - destruct (in_cmt s); [exact J|]. destruct (Nat.ltb q p); [now apply J_set_nm | exact J].
  - now apply J_set_nm.
Qed.
Lemma J_raise p s : Jinv s -> p <= len -> Jout (nm_raise p s).
Proof. intros. now apply J_reg_fail. Qed.
Lemma J_same s s' : pos s' = pos s -> cache s' = cache s -> cpos s' = cpos s -> nm s' = nm s -> Jinv s -> Jinv s'.
Proof. intros P C K Nm (A & B & Cc & D). unfold Jinv. now rewrite P, C, K, Nm. Qed.
Lemma J_enter_ws nd s : Jinv s -> Jinv (enter_ws nd s).
Proof. apply J_same; unfold enter_ws; destruct (n_ws nd), (n_skipws nd); reflexivity. Qed.
Lemma J_leave_ws nd old s : Jinv s -> Jinv (leave_ws nd old s).
Proof. apply J_same; unfold leave_ws; destruct (n_ws nd), (n_skipws nd); reflexivity. Qed.
Lemma J_enter_eol nd s : Jinv s -> Jinv (enter_eol nd s).
Proof. apply J_same; unfold enter_eol; destruct (n_eolterm nd); reflexivity. Qed.
Lemma J_leave_eol nd old s : Jinv s -> Jinv (leave_eol nd old s).
Proof. apply J_same; unfold leave_eol; destruct (n_eolterm nd); reflexivity. Qed.
Lemma J_in_cmt b s : Jinv s -> Jinv (set_in_cmt b s).
Proof. apply J_same; reflexivity. Qed.

Lemma J_msw s : Jinv s -> Jinv (maybe_skip_ws input s).
Proof.
  intro J. unfold maybe_skip_ws, do_skip_ws. destruct (skipws s); [|exact J].
  pose proof (skip_ws_from_bounds (ws s) (skipn (pos s) input) (pos s)) as B. rewrite skipn_length in B.
  apply J_set_pos; [exact J|]. destruct J as (A & _). lia.
Qed.

Lemma J_upd k v s : Jinv s -> v <= len -> Jinv (set_cpos (upd k v (cpos s)) s).
Proof.
  intros (A & B & C & D) L. split; [exact A | split; [exact B | split; [|exact D]]]. cbn.
  intros k2 v2 E. destruct (Nat.eq_dec k2 k) as [->|Hne].
  - rewrite lookup_upd_same in E. injection E as <-. exact L.
  - rewrite lookup_upd_other in E by assumption. exact (C _ _ E).
Qed.

Lemma J_cput n p v np s : Jinv s -> np <= len -> Jinv (cput n p (v, np) s).
Proof.
  intros (A & B & C & D) L. split; [exact A | split; [|split; [exact C | exact D]]]. cbn.
  intros nid p2 cr np2 E. destruct (Nat.eqb nid n && Nat.eqb p2 p)%bool; [injection E as _ <-; exact L | exact (B _ _ _ _ E)].
Qed.

Section Helpers.
Variable rec : parser.
Hypothesis Hrec : rec_J rec.

Lemma cmt_loop_J cm k : forall s, Jinv s -> Jout (cmt_loop input rec cm k s).
Proof.
  induction k as [|k IH]; intros s J; cbn [cmt_loop]; [exact I|].
  pose proof (Hrec cm false s J) as G. destruct (rec cm false s) as [r s1|s1|w]; cbn in G; auto.
  apply IH. now apply J_msw.
Qed.

Lemma match_pre_J k s : Jinv s -> Jout (match_pre g input rec k s).
Proof.
  intro J. unfold match_pre, parse_comments. pose proof (J_msw s J) as J1.
  set (s1 := maybe_skip_ws input s) in *.
  destruct (if skipws s1 then lookup (pos s1) (cpos s1) else None) as [p'|] eqn:L.
  - destruct (skipws s1); [|discriminate]. cbn. apply J_set_pos; [exact J1|].
    destruct J1 as (_ & _ & C & _). exact (C _ _ L).
  - destruct (in_cmt s1); [exact J1|]. destruct (g_comments g) as [cm|].
    + pose proof (cmt_loop_J cm k (set_in_cmt true s1) (J_in_cmt true s1 J1)) as G.
      destruct (cmt_loop input rec cm k (set_in_cmt true s1)) as [r s2|s2|w]; [| exact G | exact I].
      exact (J_upd (pos s1) (pos s2) (set_in_cmt false s2) (J_in_cmt false s2 G) (proj1 G)).
    + exact (J_upd (pos s1) (pos s1) (set_in_cmt false (set_in_cmt true s1))
                   (J_in_cmt false _ (J_in_cmt true s1 J1)) (proj1 J1)).
Qed.

Lemma term_J nid nd psq s : get_node g nid = Some nd -> Jinv s -> Jout (term_parse input orc nid (n_kind nd) psq s).
Proof.
  intros Hn J. destruct Hsane as [S1 S2]. pose proof (proj1 J) as Ps.
  unfold term_parse. cbv zeta. destruct (n_kind nd) eqn:K; try exact I.
  - destruct (Nat.eqb len (pos s)); [exact J | now apply J_raise].
  - destruct oid as [o|].
    + destruct (orc o (pos s)) as [x|] eqn:E; [|now apply J_raise].
      cbn. apply J_set_pos; [exact J | exact (S2 nid nd s0 o (pos s) x Hn K E)].
    + destruct (is_prefix s0 (skipn (pos s) input)) eqn:E; [|now apply J_raise].
      apply is_prefix_len in E. rewrite skipn_length in E. cbn. apply J_set_pos; [exact J | lia].
  - destruct (orc oid (pos s)) as [l|] eqn:E; [|now apply J_raise].
    destruct (Nat.eqb l 0); [exact J|]. cbn. apply J_set_pos; [exact J | exact (S1 _ _ _ E)].
Qed.

Lemma body_J k nd s : Jinv s -> Jout (body rec k nd s).
Proof.
  intro J.
  assert (B : forall o, Jout o <-> inv_out Jinv Jinv (fun _ => True) o) by (intros [r s1|s1|w]; cbn; tauto).
  apply B.
  apply (body_inv Jinv Jinv (fun _ => True) (fun p => p <= len) (fun _ => True)); try exact I; try exact J.
  - intros s0 J0. exact (proj1 J0).
  - intros s0 J0. exact J0.
  - intros p s0 L J0. exact (J_set_pos p s0 J0 L).
  - intros p s0 L J0. exact (J_reg_fail p s0 J0 L).
  - intros nd0 s0 _. apply J_enter_ws.
  - intros nd0 old s0 _ _. apply J_leave_ws.
  - intros nd0 s0 _. apply J_enter_eol.
  - intros nd0 old s0 _ _. apply J_leave_eol.
  - intros nd0 old s0 _ _. apply J_leave_eol.
  - intros l _. exact I.
  - intros c psq s0 J0. apply B, Hrec, J0.
Qed.

End Helpers.

Theorem parse_posbound m f : rec_J (parse g input orc m f).
Proof.
  induction f as [|f IH]; intros nid psq s J; cbn [parse]; [exact I|].
  destruct (get_node g nid) as [nd|] eqn:Hn; [|exact I]. pose proof (proj1 J) as Ps.
  destruct (is_match_kind (n_kind nd)).
  - pose proof (match_pre_J _ IH f s J) as G0.
    destruct (match_pre g input (parse g input orc m f) f s) as [r0 s0|s0|w0]; cbn in G0; auto.
    pose proof (term_J nid nd psq s0 Hn G0) as G.
    destruct (term_parse input orc nid (n_kind nd) psq s0); cbn in G |- *; auto.
  - cbn zeta. destruct (if m then clookup nid (pos s) (cache s) else None) as [[cr np]|] eqn:L.
    + destruct m; [|discriminate]. pose proof (proj1 (proj2 J) _ _ _ _ L) as B.
      destruct cr; cbn; now apply J_set_pos.
    + pose proof (body_J _ IH f nd s J) as G.
      destruct (body (parse g input orc m f) f nd s) as [r s1|s1|w]; cbn in G |- *; auto.
      * destruct m; [apply J_cput; [exact G | exact (proj1 G)] | exact G].
      * destruct m; [apply J_cput; [now apply J_set_pos | exact Ps] | now apply J_set_pos].
Qed.

End ErrPos.

(* the error position of a rejected input lies inside the input *)
Theorem run_syntaxerr_in_text g c orc m f input p :
  orc_sane g input orc -> run g c orc m f input = SyntaxErr p -> p <= length input.
Proof.
  intros Hs E. unfold run in E.
  assert (J0 : Jinv input (init_st c)).
  { split; [cbn; lia | split; [intros nid q cr np L; discriminate L | split; [intros k v L; discriminate L | intros q L; discriminate L]]]. }
  pose proof (parse_posbound g input orc Hs m f (g_top g) false (init_st c) J0) as G.
  destruct (parse g input orc m f (g_top g) false (init_st c)) as [r s1|s1|w]; try discriminate E.
  injection E as <-. cbn in G. unfold nm_pos. destruct (nm s1) as [q|] eqn:Eq; [|lia].
  exact (proj2 (proj2 (proj2 G)) q Eq).
Qed.
