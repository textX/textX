(* C22 - model construction (Model/Build.v, read-only import) commutes with the position shift of an
   insertion: building the shifted parse tree on the mutated input gives the object graph of the
   original, with _tx_position moved by phi and _tx_position_end by phie and nothing else changed.
   The condition on the tree under which this holds ([fits]) is then derived from the grammar table and the oracle. *)
From TxV Require Import Core.Base Model.PegSyntax Model.Peg Model.Build Model.PegWsDefs Model.BuildShiftDefs
     Proofs.BuildProofs Proofs.BuildRel Proofs.PegInv Proofs.PegWs Proofs.PegWsSim.
Require Import Lia.

Section Shift.
Variables k n : nat.
Notation sv := (shift_val k n).
Notation sht := (shift_tree k n).
Notation ph := (phi k n).
Notation phe := (phie k n).

Definition shift_vals (l : list (list N * value)) : list (list N * value) :=
  (fix go (l : list (list N * value)) : list (list N * value) :=
     match l with [] => [] | (a, x) :: l' => (a, sv x) :: go l' end) l.
Definition shift_cur (c : cur) : cur :=
  mkCur (c_cls c) (c_meta c) (ph (c_pos c)) (phe (c_end c)) (shift_vals (c_vals c)).
Definition shift_top (t : option cur) : option cur := option_map shift_cur t.

Lemma sv_obj cls p e attrs : sv (VObj cls p e attrs) = VObj cls (ph p) (phe e) (shift_vals attrs).
Proof. reflexivity. Qed.

Lemma str_nonempty_sv : forall v, str_nonempty (sv v) = str_nonempty v.
Proof.
  fix IH 1. intros [| | | | |r ps|r x|cls p e attrs|nm p cl|l]; simpl; try reflexivity.
  - induction ps as [|x ps IHp]; simpl; [reflexivity|]. rewrite IH, IHp. reflexivity.
  - apply IH.
Qed.

Lemma val_truthy_sv v : val_truthy (sv v) = val_truthy v.
Proof.
  induction v as [| | | | |r ps|r x IH|cls p e attrs|nm _ p cl|l]; simpl; try reflexivity.
  - (* a join is truthy when its string is non-empty *) exact (str_nonempty_sv (VJoin r ps)).
  - exact IH.
  - destruct l; reflexivity.
Qed.

Lemma is_vlist_sv v : is_vlist (sv v) = is_vlist v.
Proof. destruct v; reflexivity. Qed.

Lemma sv_snoc l v : VList (map sv l ++ [sv v]) = sv (VList (l ++ [v])).
Proof. simpl. rewrite map_app. reflexivity. Qed.

Lemma get_val_shift a l : get_val a (shift_vals l) = option_map sv (get_val a l).
Proof.
  induction l as [|[b x] l IH]; simpl; [reflexivity|]. destruct (str_eqb a b); [reflexivity | exact IH].
Qed.

Lemma set_val_shift a v l : set_val a (sv v) (shift_vals l) = shift_vals (set_val a v l).
Proof.
  induction l as [|[b x] l IH]; simpl; [reflexivity|].
  destruct (str_eqb a b); simpl; [reflexivity|]. f_equal. exact IH.
Qed.

Lemma cur_set_shift a v c : cur_set a (sv v) (shift_cur c) = shift_cur (cur_set a v c).
Proof. unfold cur_set, shift_cur. simpl. rewrite set_val_shift. reflexivity. Qed.

Lemma name_ok_shift l : name_ok (shift_vals l) = name_ok l.
Proof.
  unfold name_ok. rewrite get_val_shift. destruct (get_val s_name l) as [[| | | | | | | | |[|x vs]]|]; reflexivity.
Qed.

Lemma many_ok_shift meta l : many_ok meta (shift_vals l) = many_ok meta l.
Proof.
  unfold many_ok. induction meta as [|ma meta IH]; simpl; [reflexivity|]. rewrite IH, get_val_shift.
  destruct (get_val (a_name ma) l) as [[]|]; reflexivity.
Qed.

End Shift.

Section Trees.
Variable g : grammar.
Variable mm : list ninfo.
Variables a ins b : list N.
Variables grp grp' : nat -> nat -> option (nat * nat).
Variable auto : bool.
Let k := length a.
Let n := length ins.
Notation s0 := (a ++ b).
Notation s1 := (a ++ ins ++ b).
Notation sv := (shift_val k n).
Notation sht := (shift_tree k n).
Notation ph := (phi k n).
Notation phe := (phie k n).
Notation stop := (shift_top k n).
(* use_regexp_group = False (the default): the group oracle is not consulted *)
Notation pn := (pnode g mm s0 grp auto false).
Notation pn' := (pnode g mm s1 grp' auto false).

Definition spair (r : bres (value * option cur)) : bres (value * option cur) :=
  map_bres (fun vt => (sv (fst vt), stop (snd vt))) r.

Lemma slice_shift p len : p + len <= k \/ k <= p -> slice s1 (ph p) len = slice s0 p len.
Proof.
  unfold slice, phi. fold k n. intros [H|H].
  - destruct (Nat.ltb_spec p k) as [Hlt|Hge].
    + (* inside a *)
      rewrite !skipn_app_le by exact (Nat.lt_le_incl _ _ Hlt). rewrite !firstn_app, skipn_length. fold k.
      replace (len - (k - p)) with 0 by lia. reflexivity.
    + replace len with 0 by lia. reflexivity.
  - (* inside b *)
    rewrite (proj2 (Nat.ltb_ge p k) H), (skipn_app_ge a b p H).
    rewrite (skipn_app_ge a) by exact (Nat.le_trans _ _ _ H (Nat.le_add_r p n)).
    rewrite (skipn_app_ge ins) by (fold k n; lia).
    do 2 f_equal. fold k n. lia.
Qed.

Lemma fits_T nid p len s : fits k (T nid p len s) = true -> ~ (len = 0 /\ p = k) /\ (p + len <= k \/ k <= p).
Proof.
  simpl. intro H. apply andb_true_iff in H as [H2 H1]. apply negb_true_iff in H1. split.
  - intros [-> ->]. rewrite !Nat.eqb_refl in H1. discriminate.
  - apply orb_true_iff in H2 as [H2|H2]; [right; apply Nat.leb_le, H2 | left; apply Nat.leb_le, H2].
Qed.

(* induction on a tree that fits: the children of a NonTerminal fit too *)
Lemma fits_ind (P : tree -> Prop) :
  (forall nid p len s, fits k (T nid p len s) = true -> P (T nid p len s)) ->
  (forall nid kids, fits k (NT nid kids) = true -> Forall (fun t => fits k t = true /\ P t) kids -> P (NT nid kids)) ->
  forall t, fits k t = true -> P t.
Proof.
  intros HT HNT. apply (PegProofs.tree_ind2 (fun t => fits k t = true -> P t)); [exact HT|].
  intros nid kids IH Hf. apply (HNT nid kids Hf). simpl in Hf. apply andb_true_iff in Hf as [_ Hf].
  rewrite forallb_forall in Hf. rewrite Forall_forall in *.
  intros x Hx. split; [apply Hf, Hx | apply IH; [exact Hx | apply Hf, Hx]].
Qed.

Lemma tpos_sht : forall t, fits k t = true -> tpos (sht t) = ph (tpos t).
Proof.
  apply fits_ind; [reflexivity|]. intros nid [|x kids] Hf HP.
  - (* an empty NonTerminal sits at 0, left of the insertion point *)
    simpl in Hf. rewrite andb_true_r in Hf. simpl. unfold phi. rewrite Hf. reflexivity.
  - exact (proj2 (Forall_inv HP)).
Qed.

Lemma tend_sht : forall t, fits k t = true -> tend (sht t) = phe (tend t).
Proof.
  apply fits_ind.
  - intros nid p len s Hf. destruct (fits_T _ _ _ _ Hf) as [Hl Hp]. simpl. unfold phi, phie.
    destruct (Nat.ltb_spec p k), (Nat.leb_spec (p + len) k); lia.
  - intros nid [|x kids] _ HP; [reflexivity|].
    revert x HP. induction kids as [|y kids IHk]; intros x HP.
    + exact (proj2 (Forall_inv HP)).
    + cbn [shift_tree map]. rewrite !tend_cons. exact (IHk y (Forall_inv_tail HP)).
Qed.

Lemma term_text_shift nid p len : p + len <= k \/ k <= p ->
  term_text g s1 nid (ph p) len = term_text g s0 nid p len.
Proof.
  intro H. unfold term_text. destruct (get_node g nid) as [nd|]; [|reflexivity].
  destruct (n_kind nd); try reflexivity. apply slice_shift, H.
Qed.

Lemma tree_text_sht t : fits k t = true -> tree_text g s1 (sht t) = tree_text g s0 t.
Proof.
  destruct t as [nid p len s|nid kids]; [|reflexivity]. intro Hf.
  destruct (fits_T _ _ _ _ Hf) as [_ Hp]. simpl. apply term_text_shift, Hp.
Qed.

Lemma pmatch_parts_sht l :
  Forall (fun t => fits k t = true /\ pmatch g s1 (sht t) = map_bres sv (pmatch g s0 t)) l ->
  pmatch_parts g s1 (map sht l) = map_bres (map sv) (pmatch_parts g s0 l).
Proof.
  induction 1 as [|x l [_ Hx] _ IH]; [reflexivity|]. cbn [map pmatch_parts]. rewrite Hx, IH.
  destruct (pmatch g s0 x); [|reflexivity]. destruct (pmatch_parts g s0 l); reflexivity.
Qed.

Lemma pmatch_sht : forall t, fits k t = true ->
  pmatch g s1 (sht t) = map_bres sv (pmatch g s0 t).
Proof.
  apply fits_ind.
  - intros nid p len s Hf. destruct (fits_T _ _ _ _ Hf) as [_ Hp]. simpl. rewrite term_text_shift by exact Hp. reflexivity.
  - intros nid kids _ HP. change (sht (NT nid kids)) with (NT nid (map sht kids)). rewrite !pmatch_NT.
    destruct (is_base5 (rule_of g nid)); [reflexivity|].
    destruct kids as [|x [|y rest]]; [reflexivity | |].
    + cbn [map]. rewrite (proj2 (Forall_inv HP)). destruct (pmatch g s0 x); reflexivity.
    + rewrite (pmatch_parts_sht _ HP). destruct (pmatch_parts g s0 (x :: y :: rest)); reflexivity.
Qed.

Lemma is_sep_of_sht asg t : is_sep_of g asg (sht t) = is_sep_of g asg t.
Proof. destruct t; reflexivity. Qed.

Lemma init_attrs_shift l : shift_vals k n (init_attrs auto l) = init_attrs auto l.
Proof.
  induction l as [|x l IH]; [reflexivity|]. unfold init_attrs in *. simpl. rewrite IH. f_equal. f_equal.
  unfold init_attr. destruct (a_mult x); try reflexivity;
    (destruct (is_base_type (a_cls x)); [destruct auto; [reflexivity | destruct (a_bool x); reflexivity] | reflexivity]).
Qed.

Lemma concat_text_sht l : (forall x, In x l -> fits k x = true) ->
  List.concat (map (tree_text g s1) (map sht l)) = List.concat (map (tree_text g s0) l).
Proof.
  induction l as [|x l IH]; intro H; [reflexivity|]. simpl.
  rewrite (tree_text_sht x (H x (or_introl eq_refl))), IH; [reflexivity | intros y Hy; apply H; right; exact Hy].
Qed.

(* "is the shifted one", as a relation: an instance of the lifting theorem of Proofs/BuildRel.v *)
Definition is_sv (v v' : value) : Prop := v' = sv v.
Definition is_sc (c c' : cur) : Prop := c' = shift_cur k n c.

Lemma opt_rel_map {A} (h : A -> A) o : opt_rel (fun x x' => x' = h x) o (option_map h o).
Proof. destruct o; reflexivity. Qed.
Lemma opt_rel_map_inv {A} (h : A -> A) o o' : opt_rel (fun x x' => x' = h x) o o' -> o' = option_map h o.
Proof. destruct o, o'; cbn; intro H; try contradiction; [subst|]; reflexivity. Qed.

Lemma pnode_sht : forall t, fits k t = true -> forall top, pn' (sht t) (stop top) = spair (pn t top).
Proof.
  intros t Hf top.
  assert (L : rrel is_sv is_sc (pn t top) (pn' (sht t) (stop top))).
  { apply (pnode_lift g g mm s0 s1 grp grp' auto false sht (fun t => fits k t = true) is_sv is_sc);
      unfold is_sv, is_sc; try reflexivity; try exact Hf; try apply opt_rel_map.
    - intros nid p len s. exists (ph p), s. reflexivity.
    - apply is_sep_of_sht.
    - intros nid kids x H Hx. simpl in H. apply andb_true_iff in H as [_ H]. rewrite forallb_forall in H. exact (H x Hx).
    - intros x v v' cl Hx ->. rewrite (tpos_sht x Hx). reflexivity.
    - intros v v' ->. split; [apply val_truthy_sv | apply is_vlist_sv].
    - intros av av' w w' -> ->. destruct av; try reflexivity. apply sv_snoc.
    - intros o o' v v' Ho ->. rewrite (opt_rel_map_inv _ _ _ Ho).
      destruct o as [[| | | | | | | | |vs]|]; try exact I; [reflexivity | apply sv_snoc].
    - intros c c' ->. reflexivity.
    - intros at_ c c' ->. cbn [shift_cur c_vals]. rewrite get_val_shift. apply opt_rel_map.
    - intros at_ v v' c c' -> ->. apply cur_set_shift.
    - intros c c' ->. cbn [shift_cur c_vals c_meta c_cls c_pos c_end]. rewrite name_ok_shift, many_ok_shift. repeat split.
    - intros x cls attrs Hx. unfold shift_cur. cbn [c_cls c_meta c_pos c_end c_vals].
      rewrite (tpos_sht x Hx), (tend_sht x Hx), init_attrs_shift. reflexivity.
    - intros nid p len s Hx top0 top0' Ho. rewrite (opt_rel_map_inv _ _ _ Ho).
      destruct (fits_T _ _ _ _ Hx) as [_ Hp].
      cbn [shift_tree pnode]. unfold term_value. rewrite term_text_shift by exact Hp. split; [reflexivity | apply opt_rel_map].
    - intros x Hx. rewrite (pmatch_sht x Hx). destruct (pmatch g s0 x); reflexivity.
    - intros nid kids H. simpl in H. apply andb_true_iff in H as [_ H]. rewrite forallb_forall in H.
      rewrite (concat_text_sht kids H). reflexivity. }
  destruct (brel_case L) as [[v o] [v' o'] [Hv Ho]|e]; [|reflexivity].
  cbn [fst snd] in Hv, Ho. unfold is_sv in Hv. subst v'. rewrite (opt_rel_map_inv _ _ _ Ho). reflexivity.
Qed.

Theorem build_sht r : fits_res k r = true ->
  build g mm s1 grp' auto false (shift_res k n r) = map_bres sv (build g mm s0 grp auto false r).
Proof.
  intro Hf. destruct r as [|[nid p len s|nid kids]|l]; try reflexivity.
  destruct kids as [|t rest]; [reflexivity|]. simpl in Hf. simpl.
  pose proof (pnode_sht t Hf None) as H. simpl stop in H. rewrite H.
  destruct (pn t None) as [[v top]|e]; reflexivity.
Qed.

End Trees.

Lemma erase_shift k n : forall v, erase_val (shift_val k n v) = erase_val v.
Proof.
  fix IH 1. intros [| | | | |r ps|r x|cls p e attrs|nm p cl|l]; simpl; try reflexivity; f_equal; try apply IH.
  - induction ps as [|x ps IHp]; simpl; [reflexivity|]. rewrite (IH x), IHp. reflexivity.
  - induction attrs as [|[a0 x] attrs IHa]; simpl; [reflexivity|]. rewrite (IH x), IHa. reflexivity.
  - induction l as [|x l IHl]; simpl; [reflexivity|]. rewrite (IH x), IHl. reflexivity.
Qed.

Definition models_shifted (k n : nat) (m m' : bres value) : Prop := m' = map_bres (shift_val k n) m.

(* a parse outcome that is the shifted one builds the shifted model *)
Lemma model_of_shifted_outcome g mm a ins b grp grp' auto r o' :
  outcome_shifted (length a) (length ins) (Parsed r) o' -> fits_res (length a) r = true ->
  exists r', o' = Parsed r' /\
             models_shifted (length a) (length ins)
               (build g mm (a ++ b) grp auto false r) (build g mm (a ++ ins ++ b) grp' auto false r').
Proof.
  destruct o' as [r'|p|w]; simpl; try contradiction. intros -> Hf.
  exists (shift_res (length a) (length ins) r). split; [reflexivity | apply build_sht, Hf].
Qed.

(* The tree condition [fits] from hypotheses on the grammar table and the oracle only, with the terminal
   invariant of the whole interpreter (Proofs/PegInv.v): every terminal of an accepted parse satisfies a
   predicate that every terminal match satisfies. *)
(* what a successful terminal returns: a terminal node at the current position whose length is the matched
   one (nothing for a regex that matches the empty string); only EOF and an empty literal give length 0 *)
Lemma term_parse_tmatch input orc nid kd psq x r x' :
  term_parse input orc nid kd psq x = Ok r x' ->
  r = RNone \/
  exists len sup, r = RTree (T nid (pos x) len sup) /\ is_match_kind kd = true /\
                  tmatch input orc kd (pos x) = Some len /\
                  (len = 0 -> length input = pos x \/ exists o, kd = KStr [] o).
Proof.
  destruct kd as [| | | | | | | | | |t [o|]|o]; simpl; try discriminate.
  - destruct (Nat.eqb (length input) (pos x)) eqn:EQ; [|discriminate]. intro E. injection E as <- _.
    right. exists 0, true. repeat split. intros _. left. apply Nat.eqb_eq, EQ.
  - destruct (orc o (pos x)); [|discriminate]. intro E. injection E as <- _.
    right. exists (length t), psq. repeat split. intro H0. right. exists (Some o). destruct t; [reflexivity | discriminate].
  - destruct (is_prefix t (skipn (pos x) input)); [|discriminate]. intro E. injection E as <- _.
    right. exists (length t), psq. repeat split. intro H0. right. exists None. destruct t; [reflexivity | discriminate].
  - destruct (orc o (pos x)) as [l|]; [|discriminate].
    destruct (Nat.eqb l 0) eqn:E0; intro E; injection E as <- _; [left; reflexivity|].
    right. exists l, false. repeat split. intros ->. discriminate.
Qed.

Section Fits.
Variable g : grammar.
Variables a ins b : list N.
Variables orc orc' : nat -> nat -> option nat.
Let k := length a.

Definition ptk (nid p len : nat) : bool :=
  ((Nat.leb k p || Nat.leb (p + len) k) && negb (Nat.eqb len 0 && Nat.eqb p k))%bool.

Hypothesis Hok : shift_okb g (a ++ b) orc (a ++ ins ++ b) orc' (length a) (length ins) = true.
Hypothesis Hlit : no_empty_lit g = true.
Hypothesis Hb : b <> [].

Lemma term_ok nid nd psq x r x' :
  get_node g nid = Some nd -> term_parse (a ++ b) orc nid (n_kind nd) psq x = Ok r x' -> res_okb ptk r = true.
Proof.
  intros EN E. unfold get_node in EN. apply nth_error_In in EN.
  destruct (term_parse_tmatch _ _ _ _ _ _ _ _ E) as [->|(len & sup & -> & EM & Et & H0)]; [reflexivity|].
  assert (Hk : k < length (a ++ b)) by (rewrite app_length; fold k; destruct b; [contradiction | simpl; lia]).
  simpl. unfold ptk. destruct (Nat.leb_spec k (pos x)) as [H|H]; simpl.
  - (* right of the insertion point: a zero-length terminal is EOF, at the end of the input *)
    destruct len; [|reflexivity]. simpl. destruct (H0 eq_refl) as [He|[o Ho]].
    + apply negb_true_iff, Nat.eqb_neq. lia.
    + pose proof Hlit as Hl. unfold no_empty_lit in Hl. rewrite forallb_forall in Hl. specialize (Hl nd EN).
      rewrite Ho in Hl. discriminate.
  - (* left of it: the shifted-oracle hypothesis keeps the match left of it *)
    pose proof Hok as Ht. unfold shift_okb in Ht. rewrite forallb_forall in Ht. specialize (Ht nd EN). rewrite EM in Ht.
    destruct (tok_spec a ins b orc orc' _ (pos x) Ht) as [_ Hs]; [lia|]. destruct (Hs len Et) as [_ Hs2].
    rewrite (proj2 (Nat.leb_le _ k) (Hs2 H)).
    replace (Nat.eqb (pos x) k) with false by (symmetry; apply Nat.eqb_neq; lia).
    rewrite andb_false_r. reflexivity.
Qed.

Lemma okb_fits : 0 < k -> forall t, tree_okb ptk t = true -> fits k t = true.
Proof.
  intro Hk. apply (PegProofs.tree_ind2 (fun t => tree_okb ptk t = true -> fits k t = true)).
  - intros nid p len s H. exact H.
  - intros nid kids IH H. simpl in *. replace (Nat.ltb 0 k) with true by (symmetry; apply Nat.ltb_lt, Hk).
    rewrite orb_true_r. simpl. rewrite forallb_forall in *. rewrite Forall_forall in IH. intros x Hx. apply IH; auto.
Qed.

(* every accepted parse of the original input satisfies the tree condition, for either memo setting *)
Theorem fits_of_run cfg memo fuel r :
  a <> [] -> run g cfg orc memo fuel (a ++ b) = Parsed r -> fits_res (length a) r = true.
Proof.
  intros Ha E.
  assert (Hk : 0 < k) by (unfold k; destruct a; [contradiction | simpl; lia]).
  pose proof (run_ok ptk g (a ++ b) orc memo term_ok cfg fuel r E) as H.
  destruct r as [|[nid p len s|nid kids]|l]; try reflexivity.
  destruct kids as [|t rest]; [reflexivity|]. simpl in H. apply andb_true_iff in H as [H _].
  simpl. apply okb_fits; assumption.
Qed.

End Fits.
