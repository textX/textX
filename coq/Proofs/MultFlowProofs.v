(* C02 — value flow: traces of assignment events against maxcount, the builder on such traces, and the traces that
   realise maxcount. *)
From Coq Require Import Permutation Lia.
From TxV Require Import Core.Base Model.MultBase Gen.SrcMult Model.Mult Proofs.MultProofs.

Lemma Forall2_Forall_l {A B} (R Q : A -> B -> Prop) l ts :
  Forall (fun x => forall t, R x t -> Q x t) l -> Forall2 R l ts -> Forall2 Q l ts.
Proof. rewrite Forall_forall. intros H F. apply (Forall2_impl_in _ _ _ _ F). intros x t Hx. exact (H x Hx t). Qed.

(* Sequence and unordered group both take one trace from every member; the group then reorders them. *)
Lemma emits_BSeq l t : emits (BSeq l) t <-> exists ts, Forall2 emits l ts /\ t = concat ts.
Proof.
  revert t. induction l as [|x l IH]; intro t.
  - split; [intros ->; exists []; split; [constructor | reflexivity] | intros [ts [F ->]]; inversion F; reflexivity].
  - change (emits (BSeq (x :: l)) t) with (exists t1 t2, t = t1 ++ t2 /\ emits x t1 /\ emits (BSeq l) t2). split.
    + intros [t1 [t2 [-> [H1 H2]]]]. apply IH in H2 as [ts [F ->]]. exists (t1 :: ts). split; [constructor; assumption | reflexivity].
    + intros [ts [F ->]]. inversion F as [|? t1 ? tr H1 Fr]; subst. exists t1, (concat tr).
      split; [reflexivity | split; [exact H1 | apply IH; exists tr; split; [exact Fr | reflexivity]]].
Qed.

Lemma emits_BSeq_cons x l t1 t2 : emits x t1 -> emits (BSeq l) t2 -> emits (BSeq (x :: l)) (t1 ++ t2).
Proof. intros H1 H2. exists t1, t2. auto. Qed.

Lemma emits_BAlt l t : emits (BAlt l) t <-> exists x, In x l /\ emits x t.
Proof.
  induction l as [|x l IH].
  - split; [intros [] | intros [x [[] _]]].
  - change (emits (BAlt (x :: l)) t) with (emits x t \/ emits (BAlt l) t). rewrite IH. split.
    + intros [H | [y [Hy H]]]; [exists x; split; [left; reflexivity | exact H] | exists y; split; [right; exact Hy | exact H]].
    + intros [y [[<- | Hy] H]]; [left; exact H | right; exists y; split; assumption].
Qed.

Lemma emits_members l ts :
  (fix go (l : list body) (ts : list (list ev)) : Prop :=
     match l, ts with
     | [], [] => True
     | x :: r, t1 :: tr => emits x t1 /\ go r tr
     | _, _ => False
     end) l ts <-> Forall2 emits l ts.
Proof.
  revert ts. induction l as [|x l IH]; intros [|t1 tr]; split; intro H; try contradiction; try (inversion H; fail).
  - constructor.
  - exact I.
  - constructor; [apply H | apply IH, H].
  - inversion H; subst. split; [assumption | apply IH; assumption].
Qed.

Lemma emits_BUnord l t :
  emits (BUnord l) t <-> exists ts ts', Permutation ts ts' /\ t = concat ts' /\ Forall2 emits l ts.
Proof.
  cbn [emits]. split; intros [ts [ts' [P [Et H]]]]; exists ts, ts'; (split; [exact P | split; [exact Et | apply emits_members; exact H]]).
Qed.

Lemma emits_seq_unord l t : emits (BSeq l) t -> emits (BUnord l) t.
Proof.
  intro H. apply emits_BSeq in H as [ts [F ->]]. apply emits_BUnord. exists ts, ts. split; [apply Permutation_refl | auto].
Qed.

Lemma weight_app a t1 t2 : weight a (t1 ++ t2) = weight a t1 + weight a t2.
Proof.
  unfold weight. rewrite map_app. apply list_sum_app.
Qed.

Lemma weight_concat a ts : weight a (concat ts) = list_sum (map (weight a) ts).
Proof.
  induction ts as [|t ts IH]; cbn [concat map list_sum fold_right]; [reflexivity|].
  rewrite weight_app, IH. reflexivity.
Qed.

Lemma weight_concat_perm a ts ts' : Permutation ts ts' -> weight a (concat ts) = weight a (concat ts').
Proof. intro P. rewrite !weight_concat. apply Permutation_list_sum, Permutation_map, P. Qed.

Section Flow.
  Variable a : nat.

  Lemma weight_members l ts :
    Forall2 (fun x t => cap2 (weight a t) <= maxcount a x) l ts ->
    cap2 (weight a (concat ts)) <= cap2 (list_sum (map (maxcount a) l)).
  Proof.
    induction 1 as [|x t l ts Hx _ IH]; cbn [concat map list_sum fold_right]; [apply le_n|].
    rewrite weight_app. apply cap2_add_mono; [exact Hx | etransitivity; [exact IH | apply cap2_le]].
  Qed.

  Lemma weight_iter c ts :
    Forall (fun t => cap2 (weight a t) <= c) ts -> cap2 (weight a (concat ts)) <= match c with 0 => 0 | _ => 2 end.
  Proof.
    destruct c; [|intros _; apply cap2_le2].
    induction 1 as [|t ts Ht _ IH]; cbn [concat]; [apply le_n|]. rewrite weight_app. exact (cap2_add_mono _ _ 0 0 Ht IH).
  Qed.

  (* the events a body can emit for a never weigh more than maxcount *)
  Lemma emits_weight b : forall t, emits b t -> cap2 (weight a t) <= maxcount a b.
  Proof.
    induction b as [|a' op|l IH|l IH|x IH|x IH|x IH|l IH] using body_ind'; intros t H; cbn [maxcount].
    - cbn [emits] in H. subst t. apply Nat.le_0_l.
    - cbn [emits] in H. destruct H as [[e [-> [Ha [Ho _]]]] | ->]; [|apply Nat.le_0_l].
      unfold weight, ev_weight. cbn [map list_sum fold_right]. rewrite Ha, Ho.
      destruct (Nat.eqb a a'); [destruct op|]; apply le_n.
    - apply emits_BSeq in H as [ts [F ->]]. apply weight_members, (Forall2_Forall_l _ _ _ _ IH F).
    - apply emits_BAlt in H as [x [Hin H]]. rewrite Forall_forall in IH.
      etransitivity; [apply (IH x Hin t H) | apply list_max_ub, in_map, Hin].
    - cbn [emits] in H. destruct H as [-> | H]; [apply Nat.le_0_l | apply IH, H].
    - cbn [emits] in H. destruct H as [ts [-> HF]]. apply weight_iter. eapply Forall_impl; [|exact HF]. exact IH.
    - cbn [emits] in H. destruct H as [ts [_ [-> HF]]]. apply weight_iter. eapply Forall_impl; [|exact HF]. exact IH.
    - apply emits_BUnord in H as [ts [ts' [P [-> F]]]]. rewrite <- (weight_concat_perm a ts ts' P).
      apply weight_members, (Forall2_Forall_l _ _ _ _ IH F).
  Qed.
End Flow.

(* every emitted event is a well-formed match of one of the body's assignments *)
Definition of_body (b : body) (e : ev) : Prop := In (ev_attr e, ev_op e) (asgs b) /\ ev_ok e.

Lemma events_members l ts :
  Forall2 (fun x t => Forall (of_body x) t) l ts -> Forall (fun e => In (ev_attr e, ev_op e) (flat_map asgs l) /\ ev_ok e) (concat ts).
Proof.
  induction 1 as [|x t l ts Hx _ IH]; cbn [concat flat_map]; [constructor|]. apply Forall_app. split.
  - eapply Forall_impl; [|exact Hx]. intros e [Hin Hok]. split; [apply in_or_app; left; exact Hin | exact Hok].
  - eapply Forall_impl; [|exact IH]. intros e [Hin Hok]. split; [apply in_or_app; right; exact Hin | exact Hok].
Qed.

Lemma emits_events b : forall t, emits b t -> Forall (of_body b) t.
Proof.
  unfold of_body.
  induction b as [|a' op|l IH|l IH|x IH|x IH|x IH|l IH] using body_ind'; intros t H; cbn [asgs].
  - cbn [emits] in H. subst t. constructor.
  - cbn [emits] in H. destruct H as [[e [-> [Ha [Ho Hok]]]] | ->]; [|constructor].
    constructor; [|constructor]. split; [left; rewrite Ha, Ho; reflexivity | exact Hok].
  - apply emits_BSeq in H as [ts [F ->]]. apply events_members, (Forall2_Forall_l _ _ _ _ IH F).
  - apply emits_BAlt in H as [x [Hin H]].
    rewrite Forall_forall in IH. eapply Forall_impl; [|apply (IH x Hin), H].
    intros e [He Hok]. split; [apply in_flat_map; exists x; split; assumption | exact Hok].
  - cbn [emits] in H. destruct H as [-> | H]; [constructor | apply IH, H].
  - cbn [emits] in H. destruct H as [ts [-> HF]]. apply Forall_concat. eapply Forall_impl; [|exact HF]. exact IH.
  - cbn [emits] in H. destruct H as [ts [_ [-> HF]]]. apply Forall_concat. eapply Forall_impl; [|exact HF]. exact IH.
  - apply emits_BUnord in H as [ts [ts' [P [-> F]]]].
    apply Forall_concat, (Permutation_Forall P), Forall_concat, events_members, (Forall2_Forall_l _ _ _ _ IH F).
Qed.

Section Build.
  Variable a : nat.

  Lemma build_weight0 t cur : weight a t = 0 -> build a cur t = Ok cur /\ values_of a t = [].
  Proof.
    revert cur. induction t as [|e t IH]; intros cur H; [split; reflexivity|].
    unfold weight in H. cbn [map list_sum fold_right] in H. fold (list_sum (map (ev_weight a) t)) in H. fold (weight a t) in H.
    assert (H0 : ev_weight a e = 0) by lia. assert (Ht : weight a t = 0) by lia.
    unfold ev_weight in H0. cbn [build values_of flat_map]. destruct (Nat.eqb a (ev_attr e)).
    - destruct (ev_op e); discriminate.
    - cbn [app]. apply IH, Ht.
  Qed.

  (* a single-valued attribute: at most one event, a `=` or a `?=`; it is stored, nothing is lost *)
  Lemma build_scalar t d :
    truthy d = false -> weight a t <= 1 -> Forall ev_ok t ->
    length (values_of a t) <= 1 /\
    build a (AScalar d) t = Ok (AScalar (match values_of a t with [] => d | v :: _ => v end)).
  Proof.
    intros Hd. induction t as [|e t IH]; intros Hw Hok; [split; [cbn; lia | reflexivity]|].
    inversion Hok as [|e' t' He Hokt]; subst e' t'.
    unfold weight in Hw. cbn [map list_sum fold_right] in Hw. fold (list_sum (map (ev_weight a) t)) in Hw. fold (weight a t) in Hw.
    cbn [build values_of flat_map]. fold (values_of a t). unfold ev_weight in Hw. destruct (Nat.eqb a (ev_attr e)) eqn:E.
    - unfold ev_ok in He. unfold assign, ev_values. destruct (ev_op e) eqn:Eo; try lia.
      + (* = *) destruct He as [v Hv]. rewrite Hv, Hd.
        destruct (build_weight0 t (AScalar v)) as [B V]; [lia|].
        rewrite B, V. split; [cbn; lia | reflexivity].
      + (* ?= *) destruct (build_weight0 t (AScalar (SBool true))) as [B V]; [lia|].
        rewrite B, V. split; [cbn; lia | reflexivity].
    - cbn [app]. apply IH; [lia | exact Hokt].
  Qed.

  (* a list attribute without `?=` events: every matched value is appended, in order *)
  Lemma build_list t l :
    Forall (fun e => Nat.eqb a (ev_attr e) = true -> ev_op e <> OpBool) t -> Forall ev_ok t ->
    build a (AList l) t = Ok (AList (l ++ values_of a t)).
  Proof.
    revert l. induction t as [|e t IH]; intros l Hnb Hok; cbn [build values_of flat_map].
    - rewrite app_nil_r. reflexivity.
    - fold (values_of a t). inversion Hnb as [|e1 t1 Hb Hnbt]; subst e1 t1. inversion Hok as [|e2 t2 He Hokt]; subst e2 t2.
      destruct (Nat.eqb a (ev_attr e)) eqn:E.
      + specialize (Hb eq_refl). unfold ev_ok in He. unfold assign, ev_values.
        destruct (ev_op e) eqn:Eo; [| contradiction | |].
        * destruct He as [v Hv]. rewrite Hv. rewrite IH by assumption. rewrite <- app_assoc. reflexivity.
        * destruct (ev_vals e) as [|v vs] eqn:Ev.
          -- cbn [app]. apply IH; assumption.
          -- rewrite IH by assumption. rewrite <- app_assoc. reflexivity.
        * destruct (ev_vals e) as [|v vs] eqn:Ev.
          -- cbn [app]. apply IH; assumption.
          -- rewrite IH by assumption. rewrite <- app_assoc. reflexivity.
      + cbn [app]. apply IH; assumption.
  Qed.
End Build.

Lemma rejected_is_list m : mult_mem m src_bool_rejected_mults = is_list m.
Proof. destruct m; reflexivity. Qed.

Lemma grammar_ok_bool_many b : grammar_ok b = true -> bool_many b = false.
Proof.
  unfold grammar_ok, grammar_error. destruct (bool_reuse [] (asgs b)); [discriminate|].
  destruct (bool_in_rep b src_walk_init); [discriminate|]. destruct (bool_many b); [discriminate | reflexivity].
Qed.

Lemma list_attr_not_bool b a :
  grammar_ok b = true -> is_list (infer b a) = true -> ~ In OpBool (ops_of a b).
Proof.
  intros Hg Hl Hin. apply grammar_ok_bool_many in Hg. unfold bool_many in Hg.
  assert (Ha : In a (attrs_of b)).
  { unfold ops_of in Hin. apply in_map_iff in Hin as [[a' op] [_ Hf]]. apply filter_In in Hf as [Hf E].
    cbn [fst] in E. apply Nat.eqb_eq in E. subst a'. unfold attrs_of. apply in_map_iff. exists (a, op). split; [reflexivity | exact Hf]. }
  assert (K : existsb (fun a0 => is_bool_attr a0 b && mult_mem (infer b a0) src_bool_rejected_mults) (attrs_of b) = true).
  { apply existsb_exists. exists a. split; [exact Ha|]. rewrite rejected_is_list, Hl, andb_true_r.
    unfold is_bool_attr. apply existsb_exists. exists OpBool. split; [exact Hin | reflexivity]. }
  rewrite K in Hg. discriminate.
Qed.

Theorem values_in_order b a t d :
  grammar_ok b = true -> emits b t -> truthy d = false ->
  build a (init_val (infer b a) d) t
  = Ok (if is_list (infer b a) then AList (values_of a t)
        else AScalar (match values_of a t with [] => d | v :: _ => v end))
  /\ (is_list (infer b a) = false -> length (values_of a t) <= 1).
Proof.
  intros Hg He Hd. pose proof (emits_events b t He) as Hev.
  assert (Hok : Forall ev_ok t) by (eapply Forall_impl; [|exact Hev]; intros e [_ H]; exact H).
  unfold init_val. destruct (is_list (infer b a)) eqn:El.
  - split; [|discriminate]. change (values_of a t) with ([] ++ values_of a t). apply build_list; [|exact Hok].
    eapply Forall_impl; [|exact Hev]. intros e [Hin _] Hfa Hb. apply Nat.eqb_eq in Hfa.
    apply (list_attr_not_bool b a Hg El). rewrite <- Hb. apply in_ops_of. rewrite Hfa. exact Hin.
  - assert (Hm : maxcount a b <= 1).
    { destruct (le_lt_dec 2 (maxcount a b)) as [L|L]; [|lia]. apply infer_list_iff in L. congruence. }
    pose proof (emits_weight a b t He) as Hw. assert (Hw1 : weight a t <= 1) by (unfold cap2 in Hw; lia).
    destruct (build_scalar a t d Hd Hw1 Hok) as [B1 B2]. split; [exact B2 | intros _; exact B1].
Qed.

(* When maxcount says "many", the body really allows a trace with two values, so a list is needed (the "exactly when"
   of the property, against the grammar-structure semantics).  One trace per body realises maxcount. *)
Lemma values_of_app a t1 t2 : values_of a (t1 ++ t2) = values_of a t1 ++ values_of a t2.
Proof. unfold values_of. apply flat_map_app. Qed.

Section Real.
  Variable a : nat.
  Notation nv t := (length (values_of a t)).

  Definition realised (b : body) : Prop := exists t, emits b t /\ cap2 (maxcount a b) <= nv t.

  Lemma real_members l :
    Forall (fun x => alts_nonempty x = true -> realised x) l -> forallb alts_nonempty l = true ->
    exists ts, Forall2 emits l ts /\ cap2 (list_sum (map (maxcount a) l)) <= nv (concat ts).
  Proof.
    induction 1 as [|x l Hx _ IH]; cbn [forallb]; intro Hne.
    - exists []. split; [constructor | apply Nat.le_0_l].
    - apply andb_true_iff in Hne as [Nx Nl]. destruct (Hx Nx) as [t [Ht Hn]]. destruct (IH Nl) as [ts [F Hs]].
      exists (t :: ts). split; [constructor; assumption|].
      cbn [concat map list_sum fold_right]. rewrite values_of_app, app_length.
      etransitivity; [apply cap2_add_sub | apply Nat.add_le_mono; assumption].
  Qed.

  (* two iterations of the trace that realises the operand of a repetition *)
  Lemma real_twice c t : cap2 c <= nv t -> cap2 (match c with 0 => 0 | _ => 2 end) <= nv (concat [t; t]).
  Proof.
    intro Hn. cbn [concat]. rewrite app_nil_r, values_of_app, app_length. unfold cap2 in *. destruct c; lia.
  Qed.

  Lemma realisable b : alts_nonempty b = true -> realised b.
  Proof.
    unfold realised.
    induction b as [|a' op|l IH|l IH|x IH|x IH|x IH|l IH] using body_ind'; cbn [alts_nonempty maxcount]; intro Hne.
    - exists []. split; [reflexivity | apply Nat.le_0_l].
    - destruct (Nat.eqb a a') eqn:Ea; [|exists []; split; [right; reflexivity | apply Nat.le_0_l]].
      exists [Ev a' op match op with OpPlain => [SInt 0] | OpBool => [] | _ => [SInt 0; SInt 1] end]. split.
      + left. eexists. repeat split. destruct op; cbn; eauto.
      + unfold values_of. cbn [flat_map ev_attr]. rewrite Ea. destruct op; apply le_n.
    - destruct (real_members l IH Hne) as [ts [F Hs]]. exists (concat ts).
      split; [apply emits_BSeq; exists ts; auto | etransitivity; [apply cap2_le | exact Hs]].
    - apply andb_true_iff in Hne as [Hnil Hne].
      assert (Hin : In (list_max (map (maxcount a) l)) (map (maxcount a) l))
        by (apply list_max_in; destruct l; [discriminate Hnil | discriminate]).
      apply in_map_iff in Hin as [x [Ex Hx]]. rewrite Forall_forall in IH. rewrite forallb_forall in Hne.
      destruct (IH x Hx (Hne x Hx)) as [t [Ht Hn]]. exists t.
      split; [apply emits_BAlt; exists x; auto | rewrite <- Ex; exact Hn].
    - destruct (IH Hne) as [t [Ht Hn]]. exists t. split; [right; exact Ht | exact Hn].
    - destruct (IH Hne) as [t [Ht Hn]]. exists (concat [t; t]).
      split; [exists [t; t]; split; [reflexivity | repeat constructor; exact Ht] | apply real_twice, Hn].
    - destruct (IH Hne) as [t [Ht Hn]]. exists (concat [t; t]).
      split; [exists [t; t]; split; [discriminate | split; [reflexivity | repeat constructor; exact Ht]] | apply real_twice, Hn].
    - destruct (real_members l IH Hne) as [ts [F Hs]]. exists (concat ts).
      split; [apply emits_seq_unord, emits_BSeq; exists ts; auto | etransitivity; [apply cap2_le | exact Hs]].
  Qed.

  Theorem many_realisable b :
    alts_nonempty b = true -> 2 <= maxcount a b -> exists t, emits b t /\ 2 <= length (values_of a t).
  Proof.
    intros Hne Hc. destruct (realisable b Hne) as [t [Ht Hn]]. exists t. split; [exact Ht | unfold cap2 in Hn; lia].
  Qed.
End Real.

Lemma values_weight a t : Forall ev_ok t -> cap2 (length (values_of a t)) <= cap2 (weight a t).
Proof.
  induction 1 as [|e t He Ht IH]; [apply le_n|].
  unfold weight. cbn [map list_sum fold_right values_of flat_map]. fold (list_sum (map (ev_weight a) t)). fold (weight a t).
  fold (values_of a t). rewrite app_length. apply cap2_add_mono; [|etransitivity; [exact IH | apply cap2_le]].
  unfold ev_weight, ev_values. unfold ev_ok in He.
  destruct (Nat.eqb a (ev_attr e)); [|apply le_n].
  destruct (ev_op e); [destruct He as [v ->]; apply le_n | apply le_n | apply cap2_le2 | apply cap2_le2].
Qed.

(* list-valued exactly when the rule body allows one object to collect two or more values *)
Theorem list_exactly_when b a :
  alts_nonempty b = true ->
  (is_list (infer b a) = true <-> exists t, emits b t /\ 2 <= length (values_of a t)).
Proof.
  intro Hne. rewrite infer_list_iff. split.
  - apply many_realisable, Hne.
  - intros [t [He Hn]]. pose proof (emits_weight a b t He) as Hw.
    pose proof (values_weight a t (Forall_impl _ (fun e H => proj2 H) (emits_events b t He))) as Hv. unfold cap2 in *. lia.
Qed.

(* the witness of the pre-repair defect *)
Definition witness_body := BSeq [BAlt [BAsg 0 OpPlain; BAsg 1 OpPlain]; BAsg 0 OpPlain].
Definition witness_trace (z : Z) := [Ev 0 OpPlain [SInt z]; Ev 0 OpPlain [SInt 2]].

Lemma emits_plain a v : emits (BAsg a OpPlain) [Ev a OpPlain [v]].
Proof. left. eexists. repeat split. exists v. reflexivity. Qed.

Lemma witness_emits z : emits witness_body (witness_trace z).
Proof.
  apply emits_BSeq. exists [[Ev 0 OpPlain [SInt z]]; [Ev 0 OpPlain [SInt 2]]]. split; [|reflexivity].
  constructor; [|constructor; [apply emits_plain | constructor]].
  apply emits_BAlt. exists (BAsg 0 OpPlain). split; [left; reflexivity | apply emits_plain].
Qed.
