(* C02 — separator nodes: the list-assignment handler stores exactly the element values, in order. *)
From TxV Require Import Core.Base Model.MultBase Gen.SrcMult Model.Mult Proofs.MultProofs Proofs.MultFlowProofs.

(* re-proved against the translated fact: fails when the handler tells separators by name or by position *)
Lemma src_sep_by_node : src_sep_mode = SepByNode.
Proof. reflexivity. Qed.

Lemma by_node_values hs idx cs :
  (hs = false -> forallb (fun c => negb (c_sep c)) cs = true) ->
  child_values_from SepByNode hs idx cs = elem_values cs.
Proof.
  revert idx. induction cs as [|c cs IH]; intros idx H; [reflexivity|].
  cbn [child_values_from kept]. unfold elem_values. cbn [filter].
  assert (Hr : hs = false -> forallb (fun c => negb (c_sep c)) cs = true).
  { intro E. specialize (H E). cbn [forallb] in H. apply andb_true_iff in H. apply H. }
  rewrite (IH (S idx) Hr). unfold elem_values.
  destruct hs.
  - cbn [andb]. destruct (c_sep c); reflexivity.
  - specialize (H eq_refl). cbn [forallb] in H. apply andb_true_iff in H as [H _]. rewrite H. reflexivity.
Qed.

Theorem separators_never_stored hs cs :
  (hs = false -> forallb (fun c => negb (c_sep c)) cs = true) ->
  child_values src_sep_mode hs cs = elem_values cs.
Proof. rewrite src_sep_by_node. unfold child_values. apply by_node_values. Qed.

(* the positional skip loses values and stores separator text as soon as one separator matched the empty string
   (no node): children 1 2 , 3  of  a+=INT[/,?/]  give [1; ","] instead of [1; 2; 3] *)
Definition sep_witness : list child :=
  [Child false false (SInt 1); Child false false (SInt 2); Child true true (SStr [44%N]); Child false false (SInt 3)].

Lemma values_of_nodes a ns :
  forallb node_wf ns = true ->
  values_of a (map (node_ev src_sep_mode) ns) = node_values a ns.
Proof.
  induction ns as [|n ns IH]; intro H; [reflexivity|].
  cbn [forallb] in H. apply andb_true_iff in H as [Hn Hns].
  cbn [map values_of node_values flat_map]. fold (values_of a (map (node_ev src_sep_mode) ns)). fold (node_values a ns).
  rewrite (IH Hns). f_equal.
  change (ev_attr (node_ev src_sep_mode n)) with (n_attr n). destruct (Nat.eqb a (n_attr n)); [|reflexivity].
  unfold ev_values, node_ev. cbn [ev_op ev_vals]. unfold node_wf in Hn.
  destruct (n_op n); try reflexivity.
  - apply separators_never_stored. intro E. rewrite E in Hn. exact Hn.
  - apply separators_never_stored. intro E. rewrite E in Hn. exact Hn.
Qed.

(* value flow stated on parse-tree nodes: every value matched by an element of an assignment (and nothing else, in
   particular no separator text) ends up in the attribute, once, in input order *)
Theorem values_in_order_nodes b a ns d :
  grammar_ok b = true -> forallb node_wf ns = true -> emits b (map (node_ev src_sep_mode) ns) -> truthy d = false ->
  build a (init_val (infer b a) d) (map (node_ev src_sep_mode) ns)
  = Ok (if is_list (infer b a) then AList (node_values a ns)
        else AScalar (match node_values a ns with [] => d | v :: _ => v end))
  /\ (is_list (infer b a) = false -> length (node_values a ns) <= 1).
Proof.
  intros Hg Hwf He Hd. rewrite <- (values_of_nodes a ns Hwf). apply values_in_order; assumption.
Qed.

Definition witness_nodes : list anode :=
  [ANode 0 OpPlain false [Child false false (SInt 0)];
   ANode 0 OpPlus true sep_witness].
Definition witness_body2 := BSeq [BAsg 0 OpPlain; BAsg 0 OpPlus].
