(* Proofs for C04: extent of the base-type regexes on written values, conversions, loading. *)
From Coq Require Import Decimal DecimalPos DecimalN DecimalZ.
From TxV Require Import Core.Base Model.Rx Gen.SrcRegex Gen.SrcBaseConv Model.BaseTypes Model.BaseLits Proofs.RxProofs.
Require Import Lia.

Section StringRx.
Variable E : rxenv.
Hypothesis Hic : e_ignorecase E = false.
Variable q : N.
Hypothesis Hq : q <> 92%N.

Definition str_body (g : nat) : rx := RGroup g (RAlt (RSeq (RChr 92) (RChr q)) (RSet true [IChar q])).
Definition str_rx (g1 g2 : nat) : rx :=
  RGroup g1 (RSeq (RChr q) (RSeq (RRep true 0 None (str_body g2)) (RChr q))).

Lemma ends_body g pre c t :
  ends E (str_body g) (pre, c :: t) =
  (if N.eqb c 92 then match t with
                      | d :: t' => if N.eqb d q then [(q :: 92%N :: pre, t')] else []
                      | [] => []
                      end else [])
  ++ (if N.eqb c q then [] else [(c :: pre, t)]).
Proof.
  unfold str_body. rewrite ends_group, ends_alt, ends_seq. apply f_equal2.
  - rewrite ends_chr by exact Hic. destruct (N.eqb c 92) eqn:Hc; [|reflexivity].
    apply N.eqb_eq in Hc. subst c. cbn [flat_map]. rewrite app_nil_r.
    destruct t as [|d t']; [reflexivity|]. rewrite ends_chr by exact Hic.
    destruct (N.eqb d q) eqn:Hd; [|reflexivity]. apply N.eqb_eq in Hd. subst d. reflexivity.
  - apply ends_notchr. exact Hic.
Qed.

Lemma ends_body_nil g pre : ends E (str_body g) (pre, []) = [].
Proof. reflexivity. Qed.

(* how one character of the string is written *)
Definition written (c : N) : list N := if N.eqb c q then [92; q]%N else [c].

Lemma esc_cons c s : esc q (c :: s) = written c ++ esc q s.
Proof. reflexivity. Qed.

(* the escaped text never starts with the quote *)
Lemma esc_head s : match esc q s with d :: _ => N.eqb d q = false | [] => True end.
Proof.
  destruct s as [|c s]; [exact I|]. rewrite esc_cons. unfold written. destruct (N.eqb c q) eqn:Hc; cbn [app].
  - apply N.eqb_neq. congruence.
  - exact Hc.
Qed.

Lemma ends_with_bs_tl c s : ends_with_bs (c :: s) = false -> ends_with_bs s = false.
Proof. destruct s; [reflexivity | exact (fun H => H)]. Qed.

(* a backslash that is part of the string and not its last character is not followed by the quote *)
Lemma bs_next s rest : ends_with_bs (92%N :: s) = false ->
  match esc q s ++ q :: rest with d :: _ => N.eqb d q = false | [] => True end.
Proof.
  destruct s as [|c s]; [discriminate|]. intros _. pose proof (esc_head (c :: s)) as H.
  rewrite esc_cons in *. unfold written in *. destruct (N.eqb c q); exact H.
Qed.

(* the body takes one written unit at a time: backslash-quote as a whole, anything but the quote alone *)
Lemma body_unit g c s pre rest : ends_with_bs (c :: s) = false ->
  hd_error (ends E (str_body g) (pre, written c ++ esc q s ++ q :: rest)) = Some (rev (written c) ++ pre, esc q s ++ q :: rest).
Proof.
  intros Hbs. unfold written. destruct (N.eqb c q) eqn:Hcq; cbn [app]; rewrite ends_body.
  - rewrite !N.eqb_refl. reflexivity.
  - rewrite Hcq. destruct (N.eqb c 92) eqn:Hc; [|reflexivity]. apply N.eqb_eq in Hc. subst c.
    pose proof (bs_next s rest Hbs) as Hn. destruct (esc q s ++ q :: rest) as [|d t]; [reflexivity|].
    rewrite Hn. reflexivity.
Qed.

(* the greedy walk over the escaped text stops exactly at the closing quote *)
Lemma string_star g : forall s pre rest fuel,
  ends_with_bs s = false -> length (esc q s ++ q :: rest) < fuel ->
  hd_error (rep_loop (ends E (str_body g)) true 0 None fuel (pre, esc q s ++ q :: rest))
  = Some (rev (esc q s) ++ pre, q :: rest).
Proof.
  induction s as [|c s IH]; intros pre rest fuel Hbs Hfuel; (destruct fuel as [|f]; [inversion Hfuel|]).
  - apply star_first_stop. cbn [esc flat_map app]. rewrite ends_body, (proj2 (N.eqb_neq q 92) Hq), N.eqb_refl. reflexivity.
  - rewrite esc_cons, <- app_assoc in *. rewrite app_length in Hfuel.
    assert (Hu : 0 < length (written c)) by (unfold written; destruct (N.eqb c q); cbn; lia).
    eapply star_first_step; [apply body_unit, Hbs | cbn [snd]; rewrite (app_length (written c)); lia |].
    rewrite IH; [| exact (ends_with_bs_tl c s Hbs) | lia].
    rewrite rev_app_distr, app_assoc. reflexivity.
Qed.

Lemma eats_str_rx g1 g2 s pre rest : ends_with_bs s = false -> eats E (str_rx g1 g2) pre (quote q s) rest.
Proof.
  intros Hbs. unfold str_rx, quote. apply eats_group.
  apply (eats_seq E _ _ pre [q] (esc q s ++ [q])); [apply eats_chr, Hic|].
  apply eats_seq; [|apply eats_chr, Hic].
  unfold eats, rx_first. cbn [ends snd Nat.add app]. apply string_star; [exact Hbs | lia].
Qed.

(* a string regex cannot start on another character *)
Lemma ends_str_rx_other g1 g2 c t pre : c <> q -> ends E (str_rx g1 g2) (pre, c :: t) = [].
Proof.
  intros Hc. unfold str_rx. rewrite ends_group. apply ends_seq_nil_l.
  rewrite ends_chr by exact Hic. apply N.eqb_neq in Hc. rewrite Hc. reflexivity.
Qed.

End StringRx.

Lemma rx_STRING_shape : rx_STRING = RAlt (str_rx 34 1 2) (str_rx 39 3 4).
Proof. reflexivity. Qed.

Lemma src_env_ic u : e_ignorecase (src_env u) = false.
Proof. reflexivity. Qed.

(* STRING matches exactly the written string, whatever precedes and follows *)
Lemma string_match u q s pre rest :
  q = 34%N \/ q = 39%N -> ends_with_bs s = false ->
  rx_match (src_env u) rx_STRING pre (quote q s ++ rest) = Some (length (quote q s)).
Proof.
  intros Hq Hbs. rewrite rx_STRING_shape. apply rx_match_eats. destruct Hq as [-> | ->].
  - apply eats_alt_l, eats_str_rx; [apply src_env_ic | discriminate | exact Hbs].
  - apply eats_alt_r; [|apply eats_str_rx; [apply src_env_ic | discriminate | exact Hbs]].
    apply ends_str_rx_other; [apply src_env_ic | discriminate].
Qed.

Lemma is_prefix_q_esc q s : q <> 92%N -> is_prefix [q] (esc q s) = false.
Proof.
  intros Hq. pose proof (esc_head q Hq s) as Hh. destruct (esc q s) as [|d t]; [reflexivity|].
  cbn [is_prefix]. rewrite N.eqb_sym, Hh. reflexivity.
Qed.

Lemma replace_go_esc q : q <> 92%N -> forall s, replace_go [92%N; q] [q] 0 (esc q s) = s.
Proof.
  intros Hq. induction s as [|c s IH]; [reflexivity|].
  rewrite esc_cons. unfold written. destruct (N.eqb c q) eqn:Hcq.
  - apply N.eqb_eq in Hcq. subst c. cbn [app replace_go is_prefix length Nat.pred]. rewrite !N.eqb_refl. cbn [andb app].
    rewrite IH. reflexivity.
  - cbn [app replace_go]. destruct (N.eqb c 92) eqn:Hc.
    + apply N.eqb_eq in Hc. subst c.
      change (is_prefix [92%N; q] (92%N :: esc q s)) with (N.eqb 92 92 && is_prefix [q] (esc q s))%bool.
      rewrite is_prefix_q_esc by exact Hq. rewrite andb_false_r. rewrite IH. reflexivity.
    + cbn [is_prefix]. rewrite N.eqb_sym, Hc. cbn [andb]. rewrite IH. reflexivity.
Qed.

Lemma string_conv_quote q s : q = 34%N \/ q = 39%N -> string_conv (quote q s) = s.
Proof.
  intros Hq. unfold string_conv, quote. cbn [tl]. rewrite removelast_last.
  destruct Hq as [-> | ->].
  - change (N.eqb 34 conv_string_test) with true. cbn iota.
    change conv_string_then with [([92%N; 34%N], [34%N])].
    cbn [replace_chain fold_left fst snd replace]. apply replace_go_esc. discriminate.
  - change (N.eqb 39 conv_string_test) with false. cbn iota.
    change conv_string_else with [([92%N; 39%N], [39%N])].
    cbn [replace_chain fold_left fst snd replace]. apply replace_go_esc. discriminate.
Qed.

Lemma skip_ws_app w : forall pre rest,
  forallb is_ws w = true -> match rest with c :: _ => is_ws c = false | [] => True end ->
  skip_ws pre (w ++ rest) = (rev w ++ pre, rest).
Proof.
  induction w as [|c w IH]; intros pre rest Hw Hrest.
  - cbn [app rev]. destruct rest as [|c rest]; [reflexivity|]. cbn [skip_ws]. rewrite Hrest. reflexivity.
  - cbn [forallb] in Hw. apply andb_true_iff in Hw as [Hc Hw].
    cbn [app skip_ws]. rewrite Hc. rewrite IH by assumption. cbn [rev]. rewrite <- app_assoc. reflexivity.
Qed.

Lemma take_rev_app lit : forall pre rest, take_rev (length lit) pre (lit ++ rest) = (rev lit ++ pre, rest).
Proof.
  induction lit as [|c lit IH]; intros pre rest.
  - cbn. destruct rest; reflexivity.
  - cbn [length app take_rev]. rewrite IH. cbn [rev]. rewrite <- app_assoc. reflexivity.
Qed.

Lemma firstn_length_app {A} (l r : list A) : firstn (length l) (l ++ r) = l.
Proof. induction l as [|x l IH]; [reflexivity|]. cbn. rewrite IH. reflexivity. Qed.

Definition starts_nonws (lit : list N) : Prop :=
  match lit with c :: _ => is_ws c = false | [] => False end.

(* no terminal matches at the end of the text: a match of length 0 is no match *)
Lemma leaf_match_nil E t pre : leaf_match E t pre [] = None.
Proof.
  unfold leaf_match, rx_match. destruct (bt_rx t) as [r|]; [|reflexivity].
  destruct (ends E r (pre, [])); reflexivity.
Qed.

Lemma bt_match_nil E t pre : bt_match E t pre [] = None.
Proof.
  assert (Hn : number_match E pre [] = None).
  { unfold number_match. change choice_NUMBER with [4; 2]%nat.
    cbn [first_some code_leaf_match bt_of_code]. rewrite !leaf_match_nil. reflexivity. }
  destruct t; cbn [bt_match]; try apply leaf_match_nil; [exact Hn|].
  unfold basetype_match. change choice_BASETYPE with [6; 3; 1; 0; 5]%nat.
  cbn [first_some bt_of_code]. rewrite Hn, !leaf_match_nil. reflexivity.
Qed.

Lemma load_step E t f pre w lit rest leaf :
  forallb is_ws w = true -> starts_nonws lit ->
  bt_match E t (rev w ++ pre) (lit ++ rest) = Some (leaf, length lit) ->
  load_many_go E t (S f) pre (w ++ lit ++ rest) =
  match load_many_go E t f (rev lit ++ rev w ++ pre) rest with
  | Some vs => Some (convert leaf lit :: vs)
  | None => None
  end.
Proof.
  intros Hw Hlit Hm. cbn [load_many_go].
  rewrite skip_ws_app; [| exact Hw | destruct lit; [contradiction | exact Hlit]].
  rewrite Hm. rewrite take_rev_app. rewrite firstn_length_app. reflexivity.
Qed.

Lemma load_end E t f pre w : forallb is_ws w = true -> load_many_go E t (S f) pre w = Some [].
Proof.
  intros Hw. cbn [load_many_go]. rewrite <- (app_nil_r w) at 1.
  rewrite skip_ws_app; [| exact Hw | exact I]. rewrite bt_match_nil. reflexivity.
Qed.

(* The loop over a sequence of written items b: the literal `lit b`, then whitespace `sep b`.  Each literal
   is matched in full and converted to `val b` whenever what follows it is in P; P holds of what follows
   every item (`conts`).  Then the text loads as exactly the values. *)
Section Load.
Context {B : Type} (E : rxenv) (t : bt) (lit sep : B -> list N) (val : B -> value) (P : list N -> Prop).

Definition written_ok (b : B) : Prop :=
  forallb is_ws (sep b) = true /\ starts_nonws (lit b) /\
  forall pre rest, P rest ->
    exists leaf, bt_match E t pre (lit b ++ rest) = Some (leaf, length (lit b)) /\ convert leaf (lit b) = val b.

Fixpoint conts (items : list B) : Prop :=
  match items with
  | [] => True
  | b :: tl => P (sep b ++ flat_map (fun b => lit b ++ sep b) tl) /\ conts tl
  end.

Lemma load_seq : forall items, (forall b, In b items -> written_ok b) -> conts items ->
  forall w0 pre fuel, forallb is_ws w0 = true -> length (w0 ++ flat_map (fun b => lit b ++ sep b) items) < fuel ->
  load_many_go E t fuel pre (w0 ++ flat_map (fun b => lit b ++ sep b) items) = Some (map val items).
Proof.
  induction items as [|b tl IH]; intros Hitems Hconts w0 pre fuel Hw0 Hfuel; (destruct fuel as [|f]; [inversion Hfuel|]).
  - cbn [flat_map map]. rewrite app_nil_r. apply load_end, Hw0.
  - destruct (Hitems b (or_introl eq_refl)) as (Hw & Hlit & Hm). destruct Hconts as [HP Hconts].
    destruct (Hm (rev w0 ++ pre) _ HP) as (leaf & Hbm & Hcv).
    cbn [flat_map map]. rewrite <- app_assoc, (load_step E t f pre w0 _ _ leaf Hw0 Hlit Hbm).
    rewrite IH; [rewrite Hcv; reflexivity | | exact Hconts | exact Hw |].
    + intros b' Hin. apply Hitems. right. exact Hin.
    + cbn [flat_map] in Hfuel. rewrite <- app_assoc, !app_length in Hfuel. rewrite app_length.
      destruct (lit b); [contradiction|]. cbn [length] in Hfuel. lia.
Qed.
End Load.

Lemma string_bt_match u q s pre rest :
  q = 34%N \/ q = 39%N -> ends_with_bs s = false ->
  bt_match (src_env u) TSTRING pre (quote q s ++ rest) = Some (TSTRING, length (quote q s)).
Proof.
  intros Hq Hbs. cbn [bt_match]. unfold leaf_match. cbn [bt_rx].
  rewrite string_match by assumption. reflexivity.
Qed.

Definition str_items_text (items : list (N * list N * list N)) : list N :=
  flat_map (fun it => match it with (q, s, w) => quote q s ++ w end) items.

Definition str_item_ok (it : N * list N * list N) : Prop :=
  match it with (q, s, w) => (q = 34%N \/ q = 39%N) /\ ends_with_bs s = false /\ forallb is_ws w = true end.

Lemma is_dig_not c k : is_dig c = true -> is_dig k = false -> N.eqb c k = false.
Proof. intros Hc Hk. apply N.eqb_neq. intros ->. congruence. Qed.

Definition next_not (k : N) (rest : list N) : Prop :=
  match rest with c :: _ => N.eqb c k = false | [] => True end.

Lemma all_digits_cons c ds : all_digits (c :: ds) = true -> is_dig c = true /\ all_digits ds = true.
Proof. apply andb_true_iff. Qed.

Lemma digits_next_not k ds t : ds <> [] -> all_digits ds = true -> is_dig k = false -> next_not k (ds ++ t).
Proof.
  intros Hne Hds Hk. destruct ds as [|c ds']; [contradiction|]. apply all_digits_cons in Hds as [Hc _].
  exact (is_dig_not c k Hc Hk).
Qed.

Section Plain.
Variable E : rxenv.
Hypothesis Hic : e_ignorecase E = false.

Definition digit_range : list citem := [IRange 48 57].
Definition digit_cat : list citem := [ICat false CDigit].
Definition sign_mp : list citem := [IChar 45; IChar 43].   (* INT: [-+] *)
Definition sign_pm : list citem := [IChar 43; IChar 45].   (* FLOAT: [+-] *)

Lemma mem_digit_range c : set_mem E c digit_range = is_dig c.
Proof. rewrite set_mem_plain by exact Hic. cbn. apply orb_false_r. Qed.

Lemma mem_digit_cat c : set_mem E c digit_cat = is_digit E c.
Proof.
  rewrite set_mem_plain by exact Hic. cbn [digit_cat existsb item_match cat_match].
  rewrite xorb_false_l, orb_false_r. reflexivity.
Qed.

Lemma is_dig_lt128 c : is_dig c = true -> N.ltb c 128 = true.
Proof. unfold is_dig, in_range. intros H. apply andb_true_iff in H as [_ H]. apply N.leb_le in H. apply N.ltb_lt. lia. Qed.

Lemma is_digit_ascii c : is_dig c = true -> is_digit E c = true.
Proof. intros H. unfold is_digit. rewrite (is_dig_lt128 c H). exact H. Qed.

Lemma is_word_ascii_digit c : is_dig c = true -> is_word E c = true.
Proof. intros H. unfold is_word. rewrite (is_dig_lt128 c H). unfold is_dig in H. rewrite H. reflexivity. Qed.

Lemma mem_sign_mp c : set_mem E c sign_mp = (N.eqb c 45 || N.eqb c 43)%bool.
Proof. rewrite set_mem_plain by exact Hic. cbn. rewrite orb_false_r. reflexivity. Qed.

Lemma mem_sign_pm c : set_mem E c sign_pm = (N.eqb c 45 || N.eqb c 43)%bool.
Proof. rewrite set_mem_plain by exact Hic. cbn. rewrite orb_false_r. apply orb_comm. Qed.

Lemma sign_set_stop items pre body :
  (forall c, set_mem E c items = (N.eqb c 45 || N.eqb c 43)%bool) -> next_not 45 body -> next_not 43 body ->
  ends E (RSet false items) (pre, body) = [].
Proof.
  intros Hmem H45 H43. destruct body as [|c t]; [reflexivity|]. cbn [next_not] in *.
  rewrite ends_set, Hmem, H45, H43. reflexivity.
Qed.

Lemma sign_char b : exists c, sign_chars (Some b) = [c] /\ (N.eqb c 45 || N.eqb c 43)%bool = true.
Proof. destruct b; eexists; split; reflexivity. Qed.

(* an optional sign, written or not, followed by something that is not a sign *)
Lemma eats_opt_sign items so pre body :
  (forall c, set_mem E c items = (N.eqb c 45 || N.eqb c 43)%bool) -> next_not 45 body -> next_not 43 body ->
  eats E (RRep true 0 (Some 1) (RSet false items)) pre (sign_chars so) body.
Proof.
  intros Hmem H45 H43. destruct so as [b|].
  - destruct (sign_char b) as (c & -> & Hc). apply eats_opt_take; [discriminate|].
    apply eats_set. rewrite xorb_false_l, Hmem. exact Hc.
  - apply eats_opt_skip, sign_set_stop; assumption.
Qed.

(* every way of taking the optional sign *)
Lemma ends_opt_sign items so pre body :
  (forall c, set_mem E c items = (N.eqb c 45 || N.eqb c 43)%bool) -> next_not 45 body -> next_not 43 body ->
  ends E (RRep true 0 (Some 1) (RSet false items)) (pre, sign_chars so ++ body)
  = match so with
    | None => [(pre, body)]
    | Some _ => [(rev (sign_chars so) ++ pre, body); (pre, sign_chars so ++ body)]
    end.
Proof.
  intros Hmem H45 H43. rewrite ends_opt. destruct so as [b|].
  - destruct (sign_char b) as (c & -> & Hc). cbn [app]. rewrite ends_set, Hmem, Hc.
    cbn [xorb flat_map snd length app]. rewrite (proj2 (Nat.ltb_lt _ _)) by lia. reflexivity.
  - cbn [sign_chars app]. rewrite sign_set_stop by assumption. reflexivity.
Qed.

Lemma all_digits_range ds : all_digits ds = true ->
  forallb (fun c => xorb false (set_mem E c digit_range)) ds = true.
Proof. intros H. rewrite <- H. apply forallb_ext. intros c. rewrite xorb_false_l. apply mem_digit_range. Qed.

Lemma all_digits_cat ds : all_digits ds = true ->
  forallb (fun c => xorb false (set_mem E c digit_cat)) ds = true.
Proof.
  intros H. unfold all_digits in H. rewrite forallb_forall in H. apply forallb_forall. intros c Hc.
  rewrite xorb_false_l, mem_digit_cat. apply is_digit_ascii. apply H. exact Hc.
Qed.

Lemma stops_range rest : not_digit_next rest -> stops (fun c => xorb false (set_mem E c digit_range)) rest.
Proof. destruct rest as [|c t]; [exact (fun _ => I)|]. cbn [stops not_digit_next]. rewrite xorb_false_l, mem_digit_range. auto. Qed.

(* INT on sign? digits+ *)
Lemma eats_int so ds pre rest :
  ds <> [] -> all_digits ds = true -> not_digit_next rest ->
  eats E rx_INT pre (sign_chars so ++ ds) rest.
Proof.
  intros Hne Hds Hrest. unfold rx_INT. apply eats_seq.
  - apply (eats_opt_sign sign_mp); [exact mem_sign_mp | apply digits_next_not; auto..].
  - destruct ds as [|c ds']; [contradiction|].
    apply (first_plus_set E false digit_range c ds'); [apply all_digits_range; exact Hds | apply stops_range; exact Hrest].
Qed.

End Plain.

(* int(): Horner value of Coq's decimal numerals *)
Fixpoint uval (acc : Z) (d : uint) : Z :=
  match d with
  | Nil => acc
  | D0 d => uval (acc * 10 + 0) d | D1 d => uval (acc * 10 + 1) d | D2 d => uval (acc * 10 + 2) d
  | D3 d => uval (acc * 10 + 3) d | D4 d => uval (acc * 10 + 4) d | D5 d => uval (acc * 10 + 5) d
  | D6 d => uval (acc * 10 + 6) d | D7 d => uval (acc * 10 + 7) d | D8 d => uval (acc * 10 + 8) d
  | D9 d => uval (acc * 10 + 9) d
  end.

Lemma digits_val_uint d : forall acc, digits_val acc (uint_chars d) = Some (uval acc d).
Proof.
  induction d; intros acc; cbn [uint_chars digits_val uval]; try reflexivity;
    match goal with |- context [digit_val ?c] => change (digit_val c) with (Some (Z.of_N (c - 48))) end;
    cbn [N.sub Z.of_N]; apply IHd.
Qed.

Lemma of_uint_acc_uval d : forall acc, Z.pos (Pos.of_uint_acc d acc) = uval (Z.pos acc) d.
Proof.
  induction d; intros acc; cbn [Pos.of_uint_acc uval]; try reflexivity; rewrite IHd; apply (f_equal (fun z => uval z d)); lia.
Qed.

Lemma of_uint_uval d : uval 0 d = Z.of_N (Pos.of_uint d).
Proof.
  induction d; cbn [uval Pos.of_uint]; try reflexivity; try exact IHd;
    change (0 * 10 + ?k)%Z with k; symmetry; apply (of_uint_acc_uval d).
Qed.

Lemma uint_chars_digits d : all_digits (uint_chars d) = true.
Proof. induction d; cbn [uint_chars all_digits forallb]; try reflexivity; exact IHd. Qed.

Lemma uint_chars_nonnil d : d <> Nil -> uint_chars d <> [].
Proof. destruct d; intros H; try discriminate. contradiction. Qed.

Lemma digits_val_pos p : digits_val 0 (uint_chars (Pos.to_uint p)) = Some (Z.pos p).
Proof. rewrite digits_val_uint, of_uint_uval, DecimalPos.Unsigned.of_to. reflexivity. Qed.

Lemma int_of_text_digits ds : ds <> [] -> all_digits ds = true -> int_of_text ds = digits_val 0 ds.
Proof.
  intros Hne Hds. destruct ds as [|c t]; [contradiction|]. apply all_digits_cons in Hds as [Hc _].
  unfold int_of_text. rewrite (is_dig_not c 45 Hc eq_refl), (is_dig_not c 43 Hc eq_refl). reflexivity.
Qed.

Lemma dec_text_shape z : exists so ds, dec_text z = sign_chars so ++ ds /\ ds <> [] /\ all_digits ds = true.
Proof.
  assert (Hp : forall p, uint_chars (Pos.to_uint p) <> [] /\ all_digits (uint_chars (Pos.to_uint p)) = true).
  { intros p. split; [apply uint_chars_nonnil, DecimalPos.Unsigned.to_uint_nonnil | apply uint_chars_digits]. }
  unfold dec_text. destruct z as [|p|p]; cbn [Z.to_int].
  - exists None, [48%N]. repeat split. discriminate.
  - exists None, (uint_chars (Pos.to_uint p)). split; [reflexivity | apply Hp].
  - exists (Some false), (uint_chars (Pos.to_uint p)). split; [reflexivity | apply Hp].
Qed.

Lemma int_of_dec_text z : int_of_text (dec_text z) = Some z.
Proof.
  assert (Hne : forall p, uint_chars (Pos.to_uint p) <> []).
  { intros p. apply uint_chars_nonnil, DecimalPos.Unsigned.to_uint_nonnil. }
  unfold dec_text. destruct z as [|p|p]; cbn [Z.to_int].
  - reflexivity.
  - rewrite int_of_text_digits; [apply digits_val_pos | apply Hne | apply uint_chars_digits].
  - unfold int_of_text. cbn [N.eqb Pos.eqb]. specialize (Hne p).
    destruct (uint_chars (Pos.to_uint p)) as [|c t] eqn:Hu; [contradiction|].
    rewrite <- Hu, digits_val_pos. reflexivity.
Qed.

(* "+" form and leading zeros also convert to the same integer value *)
Lemma int_of_plus_text ds : ds <> [] -> all_digits ds = true -> int_of_text (43%N :: ds) = digits_val 0 ds.
Proof. intros Hne _. unfold int_of_text. cbn [N.eqb Pos.eqb]. destruct ds; [contradiction|reflexivity]. Qed.

(* a terminal whose first success takes the non-empty literal matches it as a leaf *)
Lemma leaf_match_eats E t r pre lit rest :
  bt_rx t = Some r -> lit <> [] -> eats E r pre lit rest -> leaf_match E t pre (lit ++ rest) = Some (t, length lit).
Proof.
  intros Hr Hne He. unfold leaf_match. rewrite Hr, (rx_match_eats _ _ _ _ _ He).
  destruct lit; [contradiction | reflexivity].
Qed.

Lemma sign_digits_nonnil so ds : ds <> [] -> sign_chars so ++ ds <> [].
Proof. intros Hne H. apply app_eq_nil in H as [_ H]. contradiction. Qed.

Lemma int_bt_match u so ds pre rest :
  ds <> [] -> all_digits ds = true -> not_digit_next rest ->
  bt_match (src_env u) TINT pre ((sign_chars so ++ ds) ++ rest) = Some (TINT, length (sign_chars so ++ ds)).
Proof.
  intros Hne Hds Hrest. apply (leaf_match_eats _ TINT rx_INT); [reflexivity | apply sign_digits_nonnil, Hne|].
  apply eats_int; [apply src_env_ic | assumption..].
Qed.

Theorem int_roundtrip u z pre rest :
  not_digit_next rest ->
  bt_match (src_env u) TINT pre (dec_text z ++ rest) = Some (TINT, length (dec_text z))
  /\ convert TINT (dec_text z) = VInt z.
Proof.
  intros Hrest. split.
  - destruct (dec_text_shape z) as (so & ds & -> & Hne & Hds). apply int_bt_match; assumption.
  - cbn [convert]. rewrite int_of_dec_text. reflexivity.
Qed.

Definition bool_alts : rx :=
  match rx_BOOL with RSeq a _ => a | _ => REps end.

Lemma rx_BOOL_shape : rx_BOOL = RSeq bool_alts (RWordB false).
Proof. reflexivity. Qed.

(* the table of spellings, entry by entry: the alternation takes the spelling, which ends in a word character,
   and the processor gives its value *)
Lemma bool_spelling u sp b : In (sp, b) bool_spellings ->
  (forall pre rest, eats (src_env u) bool_alts pre sp rest)
  /\ (exists c l, rev sp = c :: l /\ is_word (src_env u) c = true)
  /\ convert TBOOL sp = VBool b /\ starts_nonws sp.
Proof.
  assert (H : Forall (fun sb : list N * bool =>
                (forall pre rest, eats (src_env u) bool_alts pre (fst sb) rest)
                /\ (exists c l, rev (fst sb) = c :: l /\ is_word (src_env u) c = true)
                /\ convert TBOOL (fst sb) = VBool (snd sb) /\ starts_nonws (fst sb)) bool_spellings).
  { repeat (constructor;
            [split; [intros pre rest; reflexivity | split; [eexists _, _; split; reflexivity | split; reflexivity]]|]).
    constructor. }
  intros Hin. exact (proj1 (Forall_forall _ _) H (sp, b) Hin).
Qed.

Lemma starts_nonws_nonnil lit : starts_nonws lit -> lit <> [].
Proof. intros H ->. exact H. Qed.

Theorem bool_roundtrip u sp b pre rest :
  In (sp, b) bool_spellings -> not_word_next (src_env u) rest ->
  bt_match (src_env u) TBOOL pre (sp ++ rest) = Some (TBOOL, length sp) /\ convert TBOOL sp = VBool b.
Proof.
  intros Hin Hrest. destruct (bool_spelling u sp b Hin) as (Halts & (c & l & Hrev & Hc) & Hconv & Hst).
  split; [|exact Hconv].
  apply (leaf_match_eats _ TBOOL rx_BOOL); [reflexivity | apply starts_nonws_nonnil, Hst|].
  rewrite rx_BOOL_shape. apply eats_seq_nil_r; [apply Halts|].
  (* the word boundary: a word character before, none after *)
  rewrite Hrev. unfold eats, rx_first. cbn [app ends rev]. unfold word_boundary. cbn [fst snd]. rewrite Hc.
  destruct rest as [|c' t]; [reflexivity|]. cbn [not_word_next] in Hrest. rewrite Hrest. reflexivity.
Qed.

Lemma mant_ok_inv m : mant_ok m = true ->
  match m with
  | MDot ds1 ds2 => ds1 <> [] /\ all_digits ds1 = true /\ all_digits ds2 = true
  | MLead ds | MInt ds => ds <> [] /\ all_digits ds = true
  end.
Proof.
  assert (Hne : forall ds : list N, negb (Nat.eqb (length ds) 0) = true -> ds <> []) by (intros ds H ->; discriminate).
  destruct m; cbn [mant_ok]; intros H; apply andb_true_iff in H as [H H2].
  - apply andb_true_iff in H as [H0 H1]. auto.
  - auto.
  - auto.
Qed.

Lemma exp_ok_inv up so ds : exp_ok (Some (up, so, ds)) = true -> ds <> [] /\ all_digits ds = true.
Proof. cbn [exp_ok]. intros H. apply andb_true_iff in H as [Hne Hds]. split; [intros ->; discriminate | exact Hds]. Qed.

Lemma is_ws_cases c : is_ws c = true -> c = 9%N \/ c = 10%N \/ c = 13%N \/ c = 32%N.
Proof.
  unfold is_ws. change src_ws with [9; 10; 13; 32]%N. cbn [existsb]. intros H.
  repeat (apply orb_true_iff in H as [H | H]; [apply N.eqb_eq in H; auto |]). discriminate H.
Qed.

Lemma is_dig_not_ws c : is_dig c = true -> is_ws c = false.
Proof.
  intros H. destruct (is_ws c) eqn:Hw; [|reflexivity]. apply is_ws_cases in Hw as [-> | [-> | [-> | ->]]]; discriminate H.
Qed.

Lemma starts_digits ds t : ds <> [] -> all_digits ds = true -> starts_nonws (ds ++ t).
Proof.
  intros Hne Hds. destruct ds as [|c ds']; [contradiction|]. cbn [app starts_nonws].
  cbn in Hds. apply andb_true_iff in Hds as [Hc _]. apply is_dig_not_ws. exact Hc.
Qed.

Lemma starts_dec_text z : starts_nonws (dec_text z).
Proof.
  destruct (dec_text_shape z) as (so & ds & -> & Hne & Hds). destruct so as [[|]|]; [reflexivity | reflexivity |].
  cbn [sign_chars app]. rewrite <- (app_nil_r ds). apply starts_digits; assumption.
Qed.

Lemma starts_float_chars so m eo : mant_ok m = true -> starts_nonws (float_chars so m eo).
Proof.
  intros Hm. apply mant_ok_inv in Hm. unfold float_chars.
  destruct so as [[|]|]; cbn [sign_chars app]; [reflexivity | reflexivity |].
  destruct m; cbn [mant_chars]; [rewrite <- app_assoc | reflexivity |]; apply starts_digits; apply Hm.
Qed.

Definition nd (E : rxenv) (rest : list N) : Prop :=
  match rest with [] => True | c :: _ => is_digit E c = false end.

Definition DPLUS : rx := RRep true 1 None (RSet false digit_cat).
Definition DSTAR : rx := RRep true 0 None (RSet false digit_cat).
Definition SIGN : rx := RRep true 0 (Some 1) (RSet false sign_pm).
Definition EE : list citem := [IChar 101; IChar 69].
Definition EXP : rx := RSeq (RSet false EE) (RSeq SIGN DPLUS).
Definition WD : list citem := [ICat false CWord; IChar 46].
Definition TAIL : rx := RSeq (RLookBehind false 1 (RSet false WD)) (RLookAhead true (RSet false WD)).
Definition FA : rx := RSeq DPLUS (RRep true 0 (Some 1) (RGroup 2 (RSeq (RChr 46) DSTAR))).
Definition FB : rx := RSeq (RChr 46) DPLUS.
Definition SA : rx := RSeq DPLUS (RSeq (RChr 46) (RRep true 0 (Some 1) (RGroup 4 DSTAR))).
Definition ALT1 : rx := RGroup 2 (RSeq (RGroup 3 (RAlt SA FB)) (RRep true 0 (Some 1) (RGroup 5 EXP))).
Definition ALT2 : rx := RGroup 6 (RSeq (RGroup 7 DPLUS) (RGroup 8 EXP)).

Lemma rx_FLOAT_shape :
  rx_FLOAT = RSeq SIGN (RSeq (RGroup 1 (RAlt FA FB)) (RSeq (RRep true 0 (Some 1) (RGroup 3 EXP)) TAIL)).
Proof. reflexivity. Qed.

Lemma rx_STRICTFLOAT_shape :
  rx_STRICTFLOAT = RSeq SIGN (RSeq (RGroup 1 (RAlt ALT1 ALT2)) TAIL).
Proof. reflexivity. Qed.

Section Floats.
Variable E : rxenv.
Hypothesis Hic : e_ignorecase E = false.

Lemma stops_cat rest : nd E rest -> stops (fun c => xorb false (set_mem E c digit_cat)) rest.
Proof.
  destruct rest as [|c t]; [exact (fun _ => I)|]. cbn [stops nd].
  rewrite xorb_false_l, (mem_digit_cat E Hic). auto.
Qed.

Lemma eats_dplus ds pre tail : ds <> [] -> all_digits ds = true -> nd E tail -> eats E DPLUS pre ds tail.
Proof.
  intros Hne Hds Htail. destruct ds as [|c ds']; [contradiction|].
  apply (first_plus_set E false digit_cat c ds'); [apply (all_digits_cat E Hic); exact Hds | apply stops_cat; exact Htail].
Qed.

Lemma eats_dstar ds pre tail : all_digits ds = true -> nd E tail -> eats E DSTAR pre ds tail.
Proof.
  intros Hds Htail.
  apply (first_star_set E false digit_cat); [apply (all_digits_cat E Hic); exact Hds | apply stops_cat; exact Htail].
Qed.

Lemma dplus_nil pre tail : nd E tail -> ends E DPLUS (pre, tail) = [].
Proof. intros H. apply ends_plus_set_nil. apply stops_cat. exact H. Qed.

Lemma is_dig_nd c t : is_dig c = false -> N.ltb c 128 = true -> nd E (c :: t).
Proof. intros H Hlt. cbn [nd]. unfold is_digit. rewrite Hlt. exact H. Qed.

(* after any way of matching \d+ on a digit run, a continuation that can start neither on a digit
   nor on what follows the run fails *)
Lemma dplus_seq_nil r ds pre tail :
  all_digits ds = true -> nd E tail ->
  (forall pre', ends E r (pre', tail) = []) ->
  (forall pre' c t, is_dig c = true -> ends E r (pre', c :: t) = []) ->
  ends E (RSeq DPLUS r) (pre, ds ++ tail) = [].
Proof.
  intros Hds Htail Hr1 Hr2. rewrite ends_seq. apply flat_map_nil. intros st' Hin.
  unfold DPLUS in Hin.
  rewrite (ends_plus_set E false digit_cat ds pre tail) in Hin;
    [| apply (all_digits_cat E Hic); exact Hds | apply stops_cat; exact Htail].
  destruct ds as [|c ds']; [destruct Hin|]. apply all_digits_cons in Hds as [_ Hds].
  destruct (prefix_states_next is_dig _ _ _ _ Hds Hin) as [Hs | (c' & t & Hs & Hc')];
    destruct st' as [p s]; cbn [snd] in Hs; subst s; auto.
Qed.

Lemma mem_EE c : set_mem E c EE = (N.eqb c 101 || N.eqb c 69)%bool.
Proof. rewrite set_mem_plain by exact Hic. cbn. rewrite orb_false_r. reflexivity. Qed.

Lemma mem_WD c : set_mem E c WD = (is_word E c || N.eqb c 46)%bool.
Proof.
  rewrite set_mem_plain by exact Hic. cbn [WD existsb item_match cat_match].
  rewrite xorb_false_l, orb_false_r. reflexivity.
Qed.

Lemma chr_stop k pre rest : next_not k rest -> ends E (RChr k) (pre, rest) = [].
Proof. destruct rest as [|c t]; [reflexivity|]. cbn [next_not]. intros H. rewrite ends_chr, H by exact Hic. reflexivity. Qed.

Lemma delimited_nd rest : delimited E rest -> nd E rest.
Proof. destruct rest as [|c t]; [auto|]. intros (_ & H & _). exact H. Qed.

Lemma delimited_next_not k rest : is_word E k = true \/ k = 46%N -> delimited E rest -> next_not k rest.
Proof.
  destruct rest as [|c t]; [exact (fun _ _ => I)|]. intros Hk (Hw & _ & Hdot). apply N.eqb_neq. intros ->.
  destruct Hk as [Hk | Hk]; [rewrite Hk in Hw; discriminate | contradiction].
Qed.

Lemma delimited_not_digit_next rest : delimited E rest -> not_digit_next rest.
Proof.
  destruct rest as [|c t]; [auto|]. intros (_ & H & _). cbn [not_digit_next].
  destruct (is_dig c) eqn:Hc; [|reflexivity]. rewrite (is_digit_ascii E c Hc) in H. discriminate.
Qed.

(* the exponent  [eE][+-]?\d+ *)
Lemma eats_EXP up so ds pre rest :
  ds <> [] -> all_digits ds = true -> nd E rest -> eats E EXP pre (exp_chars (Some (up, so, ds))) rest.
Proof.
  intros Hne Hds Hrest. unfold EXP. cbn [exp_chars].
  apply (eats_seq E _ _ pre [_] (sign_chars so ++ ds)).
  - apply eats_set. rewrite xorb_false_l, mem_EE. destruct up; reflexivity.
  - apply eats_seq; [|apply eats_dplus; assumption].
    apply (eats_opt_sign E sign_pm); [exact (mem_sign_pm E Hic) | apply digits_next_not; auto..].
Qed.

Lemma EXP_nil pre rest : next_not 101 rest -> next_not 69 rest -> ends E EXP (pre, rest) = [].
Proof.
  intros H1 H2. apply ends_seq_nil_l. destruct rest as [|c t]; [reflexivity|]. cbn [next_not] in *.
  rewrite ends_set, mem_EE, H1, H2. reflexivity.
Qed.

(* the optional exponent, written or not *)
Lemma eats_opt_exp g eo pre rest :
  exp_ok eo = true -> delimited E rest -> eats E (RRep true 0 (Some 1) (RGroup g EXP)) pre (exp_chars eo) rest.
Proof.
  intros Hok Hrest. destruct eo as [[[up so] ds]|].
  - apply exp_ok_inv in Hok as [Hne Hds].
    apply eats_opt_take; [discriminate | apply eats_group, eats_EXP; [..| apply delimited_nd]; assumption].
  - apply eats_opt_skip, EXP_nil; apply delimited_next_not; auto.
Qed.

Lemma exp_tail_nd eo rest : nd E rest -> nd E (exp_chars eo ++ rest).
Proof. intros H. destruct eo as [[[[|] so] ds]|]; [reflexivity | reflexivity | exact H]. Qed.

Lemma exp_tail_not_dot eo rest : next_not 46 rest -> next_not 46 (exp_chars eo ++ rest).
Proof. intros H. destruct eo as [[[[|] so] ds]|]; [reflexivity | reflexivity | exact H]. Qed.

Lemma mant_next_not k m t : mant_ok m = true -> is_dig k = false -> k <> 46%N -> next_not k (mant_chars m ++ t).
Proof.
  intros Hm Hk Hdot. apply mant_ok_inv in Hm. destruct m; cbn [mant_chars]; [rewrite <- app_assoc | |];
    try (apply digits_next_not; [apply Hm.. | exact Hk]).
  apply N.eqb_neq. congruence.
Qed.

Lemma eats_FB ds pre tail : ds <> [] -> all_digits ds = true -> nd E tail -> eats E FB pre (46%N :: ds) tail.
Proof. intros Hne Hds Hnd. apply (eats_seq E _ _ pre [_] ds); [apply eats_chr, Hic | apply eats_dplus; assumption]. Qed.

(* an alternative that starts with \d+ fails on ".5" *)
Lemma dplus_first_nil r pre t : ends E (RSeq DPLUS r) (pre, 46%N :: t) = [].
Proof. apply ends_seq_nil_l, dplus_nil. reflexivity. Qed.

(* FLOAT mantissa  (\d+(\.\d* )?|\.\d+) ; after "12" there must be no dot *)
Lemma eats_mant_float m pre tail :
  mant_ok m = true -> nd E tail -> next_not 46 tail ->
  eats E (RGroup 1 (RAlt FA FB)) pre (mant_chars m) tail.
Proof.
  intros Hok Hnd Hdot. apply mant_ok_inv in Hok. apply eats_group.
  destruct m as [ds1 ds2 | ds2 | ds1]; cbn [mant_chars].
  - destruct Hok as (Hne & Hds1 & Hds2). apply eats_alt_l, eats_seq; [apply eats_dplus; [exact Hne | exact Hds1 | reflexivity]|].
    apply eats_opt_take; [discriminate|].
    apply eats_group, (eats_seq E _ _ _ [_] ds2); [apply eats_chr, Hic | apply eats_dstar; assumption].
  - destruct Hok as (Hne & Hds2). apply eats_alt_r; [apply dplus_first_nil | apply eats_FB; assumption].
  - destruct Hok as (Hne & Hds1). apply eats_alt_l, eats_seq_nil_r; [apply eats_dplus; assumption|].
    apply eats_opt_skip. rewrite ends_group. apply ends_seq_nil_l, chr_stop, Hdot.
Qed.

(* STRICTFLOAT mantissa with a dot  (\d+\.(\d* )?|\.\d+) *)
Lemma eats_mant_strict m pre tail :
  mant_ok m = true -> nd E tail -> (forall ds, m <> MInt ds) ->
  eats E (RGroup 3 (RAlt SA FB)) pre (mant_chars m) tail.
Proof.
  intros Hok Hnd Hm. apply mant_ok_inv in Hok. apply eats_group.
  destruct m as [ds1 ds2 | ds2 | ds1]; cbn [mant_chars].
  - destruct Hok as (Hne & Hds1 & Hds2). apply eats_alt_l, eats_seq; [apply eats_dplus; [exact Hne | exact Hds1 | reflexivity]|].
    apply (eats_seq E _ _ _ [_] ds2); [apply eats_chr, Hic|].
    destruct ds2 as [|d ds2'].
    + (* "12." : the only success of \d* is the empty one, which the optional group does not count as an iteration *)
      apply eats_opt_empty. rewrite ends_group.
      apply (ends_star_set E false digit_cat [] _ tail); [reflexivity | apply stops_cat; exact Hnd].
    + apply eats_opt_take; [discriminate | apply eats_group, eats_dstar; assumption].
  - destruct Hok as (Hne & Hds2). apply eats_alt_r; [apply dplus_first_nil | apply eats_FB; assumption].
  - destruct (Hm ds1 eq_refl).
Qed.

(* on a run of digits not followed by a dot, the dotted alternatives of STRICTFLOAT fail *)
Lemma dotted_nil ds pre tail :
  all_digits ds = true -> nd E tail -> next_not 46 tail ->
  ends E (RGroup 3 (RAlt SA FB)) (pre, ds ++ tail) = [].
Proof.
  intros Hds Hnd Hdot. rewrite ends_group. apply ends_alt_nil.
  - unfold SA. apply dplus_seq_nil; [exact Hds | exact Hnd | |].
    + intros pre'. apply ends_seq_nil_l, chr_stop, Hdot.
    + intros pre' c t Hc. apply ends_seq_nil_l, chr_stop. exact (is_dig_not c 46 Hc eq_refl).
  - unfold FB. apply ends_seq_nil_l, chr_stop. destruct ds as [|c ds']; [exact Hdot|].
    apply all_digits_cons in Hds as [Hc _]. exact (is_dig_not c 46 Hc eq_refl).
Qed.

(* what the final look-behind of FLOAT and STRICTFLOAT asks of the literal: its last character is a digit or the dot *)
Definition last_ok (l : list N) : Prop := exists c l', rev l = c :: l' /\ (is_dig c = true \/ c = 46%N).

Lemma last_ok_app a b : last_ok b -> last_ok (a ++ b).
Proof. intros (c & l & Hr & Hc). exists c, (l ++ rev a). rewrite rev_app_distr, Hr. split; [reflexivity | exact Hc]. Qed.

Lemma last_ok_digits ds : ds <> [] -> all_digits ds = true -> last_ok ds.
Proof.
  intros Hne Hds. destruct (exists_last Hne) as (ds' & c & ->). exists c, (rev ds').
  split; [apply rev_unit|]. left.
  unfold all_digits in Hds. rewrite forallb_app in Hds. apply andb_true_iff in Hds as [_ Hc].
  cbn in Hc. apply andb_true_iff in Hc as [Hc _]. exact Hc.
Qed.

Lemma mant_exp_last m eo : mant_ok m = true -> exp_ok eo = true -> last_ok (mant_chars m ++ exp_chars eo).
Proof.
  intros Hm He. destruct eo as [[[up so] ds]|].
  - apply exp_ok_inv in He as [Hne Hds]. cbn [exp_chars].
    apply last_ok_app, (last_ok_app (_ :: sign_chars so)), last_ok_digits; assumption.
  - rewrite app_nil_r. apply mant_ok_inv in Hm. destruct m as [ds1 ds2 | ds2 | ds1]; cbn [mant_chars].
    + destruct Hm as (_ & _ & Hds2). apply last_ok_app. destruct ds2 as [|d ds2'].
      * exists 46%N, []. split; [reflexivity | right; reflexivity].
      * apply (last_ok_app [_]), last_ok_digits; [discriminate | exact Hds2].
    + apply (last_ok_app [_]), last_ok_digits; apply Hm.
    + apply last_ok_digits; apply Hm.
Qed.

Lemma eats_TAIL lit pre rest : last_ok lit -> delimited E rest -> eats E TAIL (rev lit ++ pre) [] rest.
Proof.
  intros (c & l & -> & Hc) Hrest. cbn [app]. unfold TAIL. apply eats_seq_nil_r; unfold eats, rx_first; cbn [app rev].
  - rewrite ends_lookbehind1_set; [reflexivity|].
    rewrite mem_WD. destruct Hc as [Hc | ->]; [rewrite (is_word_ascii_digit E c Hc); reflexivity | apply orb_true_r].
  - rewrite ends_lookahead_neg_set; [reflexivity|].
    destruct rest as [|c' t]; [exact I|]. cbn [stops]. rewrite mem_WD.
    destruct Hrest as (Hw & _ & Hdot). rewrite Hw. apply N.eqb_neq in Hdot. rewrite Hdot. reflexivity.
Qed.

Lemma eats_float_sign so m t pre : mant_ok m = true -> eats E SIGN pre (sign_chars so) (mant_chars m ++ t).
Proof.
  intros Hm. apply (eats_opt_sign E sign_pm); [exact (mem_sign_pm E Hic) | apply mant_next_not; [exact Hm | reflexivity | discriminate]..].
Qed.

(* FLOAT matches every float literal (and plain integers) in full *)
Lemma eats_float so m eo pre rest :
  mant_ok m = true -> exp_ok eo = true -> delimited E rest ->
  eats E rx_FLOAT pre (float_chars so m eo) rest.
Proof.
  intros Hm He Hrest. rewrite rx_FLOAT_shape. unfold float_chars.
  apply eats_seq; [rewrite <- app_assoc; apply eats_float_sign, Hm|].
  apply eats_seq.
  { apply eats_mant_float; [exact Hm | apply exp_tail_nd, delimited_nd, Hrest|].
    apply exp_tail_not_dot, delimited_next_not; auto. }
  apply eats_seq_nil_r; [apply eats_opt_exp; assumption|].
  rewrite app_assoc, <- rev_app_distr. apply eats_TAIL; [apply mant_exp_last; assumption | exact Hrest].
Qed.

(* STRICTFLOAT matches every literal with a '.' or an exponent in full *)
Lemma eats_strictfloat so m eo pre rest :
  mant_ok m = true -> exp_ok eo = true -> is_float_form m eo = true -> delimited E rest ->
  eats E rx_STRICTFLOAT pre (float_chars so m eo) rest.
Proof.
  intros Hm He Hform Hrest. rewrite rx_STRICTFLOAT_shape. unfold float_chars.
  apply eats_seq; [rewrite <- app_assoc; apply eats_float_sign, Hm|].
  apply eats_seq_nil_r; [|apply eats_TAIL; [apply mant_exp_last; assumption | exact Hrest]].
  apply eats_group.
  assert (Hdotted : (forall ds, m <> MInt ds) -> eats E ALT1 (rev (sign_chars so) ++ pre) (mant_chars m ++ exp_chars eo) rest).
  { intros Hdot. apply eats_group, eats_seq; [|apply eats_opt_exp; assumption].
    apply eats_mant_strict; [exact Hm | apply exp_tail_nd, delimited_nd, Hrest | exact Hdot]. }
  destruct m as [ds1 ds2 | ds2 | ds]; [apply eats_alt_l, Hdotted; discriminate.. |].
  (* digits and an exponent: the dotted alternative fails, the second one takes it *)
  destruct eo as [[[up so'] ds3]|]; [|discriminate].
  apply mant_ok_inv in Hm as [Hne Hds]. apply exp_ok_inv in He as [Hne3 Hds3]. cbn [mant_chars].
  apply eats_alt_r.
  - rewrite <- app_assoc. unfold ALT1. rewrite ends_group. apply ends_seq_nil_l.
    apply dotted_nil; [exact Hds | destruct up; reflexivity | destruct up; reflexivity].
  - apply eats_group, eats_seq.
    + apply eats_group, eats_dplus; [exact Hne | exact Hds | destruct up; reflexivity].
    + apply eats_group, eats_EXP; [exact Hne3 | exact Hds3 | apply delimited_nd, Hrest].
Qed.

(* STRICTFLOAT does not match any part of a plain integer *)
Lemma strictfloat_int_nil so ds pre rest :
  ds <> [] -> all_digits ds = true -> delimited E rest ->
  ends E rx_STRICTFLOAT (pre, sign_chars so ++ ds ++ rest) = [].
Proof.
  intros Hne Hds Hrest. rewrite rx_STRICTFLOAT_shape. rewrite ends_seq.
  assert (Hbody : forall pre', ends E (RSeq (RGroup 1 (RAlt ALT1 ALT2)) TAIL) (pre', ds ++ rest) = []).
  { intros pre'. apply ends_seq_nil_l. rewrite ends_group. apply ends_alt_nil.
    - unfold ALT1. rewrite ends_group. apply ends_seq_nil_l.
      apply dotted_nil; [exact Hds | apply delimited_nd, Hrest | apply delimited_next_not; auto].
    - unfold ALT2. rewrite ends_group. rewrite ends_seq, ends_group. fold (ends E (RSeq DPLUS (RGroup 8 EXP)) (pre', ds ++ rest)).
      apply dplus_seq_nil; [exact Hds | apply delimited_nd, Hrest | |].
      + intros p. rewrite ends_group. apply EXP_nil; apply delimited_next_not; auto.
      + intros p c t Hc. rewrite ends_group. apply EXP_nil; [exact (is_dig_not c 101 Hc eq_refl) | exact (is_dig_not c 69 Hc eq_refl)]. }
  unfold SIGN. rewrite (ends_opt_sign E sign_pm so pre (ds ++ rest) (mem_sign_pm E Hic)) by (apply digits_next_not; auto).
  destruct so as [b|]; cbn [flat_map]; rewrite Hbody; [|reflexivity]. cbn [app]. rewrite app_nil_r.
  (* a sign taken back: the number part cannot start on the sign *)
  destruct (sign_char b) as (s & -> & Hs). cbn [app].
  assert (Hnds : nd E (s :: ds ++ rest) /\ next_not 46 (s :: ds ++ rest)).
  { apply orb_true_iff in Hs as [Hs | Hs]; apply N.eqb_eq in Hs; subst s; split; reflexivity. }
  destruct Hnds as [Hnds Hndot].
  apply ends_seq_nil_l. rewrite ends_group. apply ends_alt_nil.
  + unfold ALT1. rewrite ends_group. apply ends_seq_nil_l. rewrite ends_group. apply ends_alt_nil.
    * unfold SA. apply ends_seq_nil_l. apply dplus_nil. exact Hnds.
    * unfold FB. apply ends_seq_nil_l, chr_stop, Hndot.
  + unfold ALT2. rewrite ends_group. apply ends_seq_nil_l. rewrite ends_group. apply dplus_nil. exact Hnds.
Qed.

End Floats.

Lemma choice_NUMBER_shape : choice_NUMBER = [4; 2]%nat.
Proof. reflexivity. Qed.

(* FLOAT, STRICTFLOAT and NUMBER match a literal with '.' or exponent in full; NUMBER takes it as STRICTFLOAT *)
Theorem float_extent u so m eo pre rest :
  mant_ok m = true -> exp_ok eo = true -> is_float_form m eo = true -> delimited (src_env u) rest ->
  bt_match (src_env u) TFLOAT pre (float_chars so m eo ++ rest) = Some (TFLOAT, length (float_chars so m eo))
  /\ bt_match (src_env u) TSTRICTFLOAT pre (float_chars so m eo ++ rest) = Some (TSTRICTFLOAT, length (float_chars so m eo))
  /\ bt_match (src_env u) TNUMBER pre (float_chars so m eo ++ rest) = Some (TSTRICTFLOAT, length (float_chars so m eo)).
Proof.
  intros Hm He Hform Hrest. pose proof (starts_nonws_nonnil _ (starts_float_chars so m eo Hm)) as Hne.
  assert (HS : leaf_match (src_env u) TSTRICTFLOAT pre (float_chars so m eo ++ rest)
               = Some (TSTRICTFLOAT, length (float_chars so m eo))).
  { apply (leaf_match_eats _ _ rx_STRICTFLOAT); [reflexivity | exact Hne |].
    apply eats_strictfloat; [apply src_env_ic | assumption..]. }
  split; [|split].
  - apply (leaf_match_eats _ TFLOAT rx_FLOAT); [reflexivity | exact Hne |].
    apply eats_float; [apply src_env_ic | assumption..].
  - exact HS.
  - cbn [bt_match]. unfold number_match. rewrite choice_NUMBER_shape. cbn [first_some code_leaf_match bt_of_code].
    rewrite HS. reflexivity.
Qed.

(* NUMBER on a plain integer literal: STRICTFLOAT matches no part of it, INT takes all of it *)
Theorem number_int_choice u so ds pre rest :
  ds <> [] -> all_digits ds = true -> delimited (src_env u) rest ->
  rx_match (src_env u) rx_STRICTFLOAT pre ((sign_chars so ++ ds) ++ rest) = None
  /\ bt_match (src_env u) TNUMBER pre ((sign_chars so ++ ds) ++ rest) = Some (TINT, length (sign_chars so ++ ds)).
Proof.
  intros Hne Hds Hrest.
  assert (HN : rx_match (src_env u) rx_STRICTFLOAT pre ((sign_chars so ++ ds) ++ rest) = None).
  { apply rx_match_nil. rewrite <- app_assoc. apply strictfloat_int_nil; [apply src_env_ic | assumption..]. }
  split; [exact HN|].
  cbn [bt_match]. unfold number_match. rewrite choice_NUMBER_shape. cbn [first_some code_leaf_match bt_of_code].
  unfold leaf_match at 1. cbn [bt_rx]. rewrite HN.
  pose proof (int_bt_match u so ds pre rest Hne Hds (delimited_not_digit_next (src_env u) rest Hrest)) as Hi.
  cbn [bt_match] in Hi. rewrite Hi. reflexivity.
Qed.

Theorem number_int_roundtrip u z pre rest :
  delimited (src_env u) rest ->
  bt_match (src_env u) TNUMBER pre (dec_text z ++ rest) = Some (TINT, length (dec_text z))
  /\ convert TINT (dec_text z) = VInt z.
Proof.
  intros Hrest. split.
  - destruct (dec_text_shape z) as (so & ds & -> & Hne & Hds).
    apply (number_int_choice u so ds pre rest Hne Hds Hrest).
  - cbn [convert]. rewrite int_of_dec_text. reflexivity.
Qed.

Lemma is_ws_delimited u w rest : forallb is_ws w = true -> w <> [] -> delimited (src_env u) (w ++ rest).
Proof.
  intros Hw Hne. destruct w as [|c w']; [contradiction|]. cbn [app delimited].
  cbn [forallb] in Hw. apply andb_true_iff in Hw as [Hc _].
  apply is_ws_cases in Hc as [-> | [-> | [-> | ->]]]; repeat split; discriminate.
Qed.

Definition numlit_value (n : numlit) : value :=
  match n with NLInt z => VInt z | NLFloat so m eo => VFloat (float_chars so m eo) end.

(* Items separated by non-empty whitespace: whitespace delimits a number or a word, so each item only has to
   match in full and convert to its value before a delimiter. *)
Lemma load_written {A} u t (text : A -> list N) (val : A -> value) (ok : A -> Prop) :
  (forall a, ok a -> starts_nonws (text a) /\
     forall pre rest, delimited (src_env u) rest ->
       exists leaf, bt_match (src_env u) t pre (text a ++ rest) = Some (leaf, length (text a)) /\ convert leaf (text a) = val a) ->
  forall (items : list (A * list N)) w0,
  (forall a w, In (a, w) items -> ok a /\ forallb is_ws w = true) -> seps_ok items -> forallb is_ws w0 = true ->
  load_many (src_env u) t (w0 ++ items_text text items) = Some (map (fun it => val (fst it)) items).
Proof.
  intros Hok items w0 Hitems Hseps Hw0. unfold load_many, items_text.
  apply (load_seq _ _ (fun it => text (fst it)) snd _ (delimited (src_env u))); [| | exact Hw0 | lia].
  - intros [a w] Hin. destruct (Hitems a w Hin) as [Ha Hw]. split; [exact Hw | exact (Hok a Ha)].
  - clear Hok. induction items as [|[a w] tl IH]; [exact I|]. cbn [conts snd]. split.
    + destruct tl as [|it tl'].
      * cbn [flat_map]. rewrite app_nil_r. destruct w as [|c w']; [exact I|].
        rewrite <- (app_nil_r (c :: w')). apply is_ws_delimited; [apply (Hitems a); left; reflexivity | discriminate].
      * destruct Hseps as [Hne _]. apply is_ws_delimited; [apply (Hitems a); left; reflexivity | exact Hne].
    + apply IH; [intros a' w' Hin; apply (Hitems a'); right; exact Hin|].
      cbn [seps_ok] in Hseps. destruct tl as [|it tl']; [exact I | apply Hseps].
Qed.

Lemma numlit_ok_float so m eo : numlit_ok (NLFloat so m eo) = true ->
  mant_ok m = true /\ exp_ok eo = true /\ is_float_form m eo = true.
Proof. cbn [numlit_ok]. rewrite !andb_true_iff. tauto. Qed.

Definition bool_value (sp : list N) : bool := bool_conv sp.

(* a float match always ends at a delimiter *)
Definition float_end_ok (E : rxenv) (rest : list N) : Prop :=
  match rest with [] => True | c :: _ => is_word E c = false /\ c <> 46%N end.

Lemma tail_in_delimited E (Hic : e_ignorecase E = false) st st' :
  In st' (ends E TAIL st) -> st' = st /\ float_end_ok E (snd st).
Proof.
  unfold TAIL. intros Hin. apply ends_seq_in in Hin as (mid & Hmid & Hin).
  apply ends_lookahead_neg_in in Hin as [-> Hstop].
  assert (Hms : mid = st).
  { cbn [ends] in Hmid. destruct (back 1 st); [apply in_guard in Hmid; exact Hmid | destruct Hmid]. }
  subst mid. split; [reflexivity|]. destruct (snd st) as [|c t]; [exact I|]. cbn [stops float_end_ok] in *.
  rewrite (mem_WD E Hic) in Hstop. apply orb_false_iff in Hstop as [Hw Hd]. split; [exact Hw | apply N.eqb_neq; exact Hd].
Qed.

(* a sequence whose last member is the look-around pair *)
Fixpoint ends_in_TAIL (r : rx) : Prop :=
  match r with RSeq _ b => b = TAIL \/ ends_in_TAIL b | _ => False end.

Lemma ends_in_TAIL_ok E (Hic : e_ignorecase E = false) r : ends_in_TAIL r ->
  forall st st', In st' (ends E r st) -> float_end_ok E (snd st').
Proof.
  induction r; try contradiction. intros [-> | Hb] st st' Hin; apply ends_seq_in in Hin as (mid & _ & Hin).
  - apply (tail_in_delimited E Hic) in Hin as [-> Hok]. exact Hok.
  - apply (IHr2 Hb mid st' Hin).
Qed.

Lemma leaf_match_inv E t pre rest t' n : leaf_match E t pre rest = Some (t', n) ->
  exists r, bt_rx t = Some r /\ rx_match E r pre rest = Some n.
Proof.
  unfold leaf_match. destruct (bt_rx t) as [r|]; [|discriminate]. exists r.
  destruct (rx_match E r pre rest) as [[|k]|]; try discriminate. injection H as _ <-. split; reflexivity.
Qed.
