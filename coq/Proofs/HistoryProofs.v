(* Proofs about Model/History.v: the canonical-state invariant and history independence. *)
From TxV Require Import Core.Base Model.History.

Lemma iter_swap {A} (g : A -> A) k a : Nat.iter k g (g a) = g (Nat.iter k g a).
Proof. induction k as [|k IH]; [reflexivity|]. unfold Nat.iter in *. cbn. rewrite IH. reflexivity. Qed.

(* a class listed k times receives the effect k times *)
Lemma map_classes_iter ids g : forall cl id,
  map_classes ids g cl id = Nat.iter (count_occ Nat.eq_dec ids id) g (cl id).
Proof.
  unfold map_classes. induction ids as [|x ids IH]; intros cl id; cbn [fold_left count_occ].
  - reflexivity.
  - rewrite IH. unfold upd. destruct (Nat.eq_dec x id) as [->|Hne].
    + rewrite Nat.eqb_refl. cbn [Nat.iter]. apply iter_swap.
    + destruct (Nat.eqb id x) eqn:E; [apply Nat.eqb_eq in E; congruence | reflexivity].
Qed.

(* what an effect does not change, the table keeps *)
Lemma map_classes_keeps {B} (f : ucls -> B) ids g cl id :
  (forall u, f (g u) = f u) -> f (map_classes ids g cl id) = f (cl id).
Proof.
  intro Hg. rewrite map_classes_iter.
  induction (count_occ Nat.eq_dec ids id) as [|k IH]; [reflexivity|]. cbn. rewrite Hg. exact IH.
Qed.

Lemma leak_classes_keeps {B} (f : ucls -> B) ids ns cl id :
  (forall u n, f {| u_instr := u_instr u; u_store := u_store u + n; u_owner := u_owner u; u_gram := u_gram u |} = f u) ->
  f (leak_classes ids ns cl id) = f (cl id).
Proof.
  intro Hf. unfold leak_classes. generalize (combine ids ns) as ps. intro ps. revert cl.
  induction ps as [|[x n] ps IH]; intro cl; cbn [fold_left]; [reflexivity|].
  rewrite IH. unfold upd. cbn [fst snd]. destruct (Nat.eqb id x) eqn:E; [|reflexivity].
  apply Nat.eqb_eq in E. subst x. apply Hf.
Qed.

Section Inv.
  Variable F : facts.
  Variable create_out : cfg -> gview -> cres.
  Variable load_out : cfg -> nat -> view -> lres.
  Variable cls_gram : nat -> nat.     (* the grammar each user class is written for *)

  Notation step := (step F create_out load_out).
  Notation run := (run F create_out load_out).
  Notation final := (final F create_out load_out).
  Notation result := (result F create_out load_out).

  (* a configuration uses a user class only with the grammar the class is written for *)
  Definition wf_cfg (c : cfg) : Prop := forall id, In id (c_classes c) -> cls_gram id = c_gram c.
  Definition wf_op (o : op) : Prop := match o with New _ c => wf_cfg c | _ => True end.

  Record inv (st : pst) : Prop := {
    i_gp_cache : forall a b gp, gparsers st a b = Some gp -> gp_cache gp = [];
    i_gp_key : forall a b gp, gparsers st a b = Some gp -> f_gp_key_memo F = true -> gp_memo gp = b;
    i_base : base_cache st = [];
    i_slot : forall s m, slots st s = Some m ->
               m_bp_dirty m = false /\ m_cache m = [] /\ m_stale m = false /\ wf_cfg (m_cfg m) /\
               (forall id, In id (c_classes (m_cfg m)) -> u_gram (classes st id) = Some (cls_gram id)) /\
               (exists b, k_kind (create_out (m_cfg m) {| gv_memo := b; gv_cache := [] |}) = COk /\
                          (f_gp_key_memo F = true -> b = c_memo (m_cfg m)));
    i_instr : forall id, u_instr (classes st id) = 0;
    i_gram : forall id, u_gram (classes st id) = None \/ u_gram (classes st id) = Some (cls_gram id)
  }.

  (* The invariant without the clause on the instrumentation counters, which are 1 for the classes of
     a load in progress: this is what the steps of a load preserve one by one. *)
  Definition slot_ok (cl : nat -> ucls) (m : mm) : Prop :=
    m_bp_dirty m = false /\ m_cache m = [] /\ m_stale m = false /\ wf_cfg (m_cfg m) /\
    (forall id, In id (c_classes (m_cfg m)) -> u_gram (cl id) = Some (cls_gram id)) /\
    (exists b, k_kind (create_out (m_cfg m) {| gv_memo := b; gv_cache := [] |}) = COk /\
               (f_gp_key_memo F = true -> b = c_memo (m_cfg m))).

  Record inv0 (st : pst) : Prop := {
    j_gp_cache : forall a b gp, gparsers st a b = Some gp -> gp_cache gp = [];
    j_gp_key : forall a b gp, gparsers st a b = Some gp -> f_gp_key_memo F = true -> gp_memo gp = b;
    j_base : base_cache st = [];
    j_slot : forall s m, slots st s = Some m -> slot_ok (classes st) m;
    j_gram : forall id, u_gram (classes st id) = None \/ u_gram (classes st id) = Some (cls_gram id)
  }.

  Lemma inv_to0 st : inv st -> inv0 st.
  Proof. intros [A B C D E G]. constructor; assumption. Qed.

  Lemma inv_of0 st : inv0 st -> (forall id, u_instr (classes st id) = 0) -> inv st.
  Proof. intros [A B C D G] E. constructor; assumption. Qed.

  Lemma inv_init : inv init.
  Proof.
    constructor; cbn; try discriminate; try reflexivity; intros; try discriminate; auto.
  Qed.

  (* a metamodel keeps its configuration, and what was clean in it stays clean *)
  Definition stays_clean (m m' : mm) : Prop :=
    m_cfg m' = m_cfg m /\ (m_bp_dirty m = false -> m_bp_dirty m' = false) /\
    (m_cache m = [] -> m_cache m' = []) /\ (m_stale m = false -> m_stale m' = false).

  Lemma upd_stays_clean (sl : nat -> option mm) s m m' :
    sl s = Some m -> stays_clean m m' ->
    forall s0 m0, upd sl s (Some m') s0 = Some m0 -> exists m1, sl s0 = Some m1 /\ stays_clean m1 m0.
  Proof.
    intros Em Hc s0 m0. unfold upd. destruct (Nat.eqb s0 s) eqn:E.
    - apply Nat.eqb_eq in E. subst s0. intros [= <-]. exists m. split; assumption.
    - intro E0. exists m0. split; [exact E0|]. repeat split; auto.
  Qed.

  (* the frame of a load step: the grammar-parser cache is not touched, the base cache is empty
     again, no class changes owner, every metamodel stays clean *)
  Lemma inv0_frame st st' :
    inv0 st -> gparsers st' = gparsers st -> base_cache st' = [] ->
    (forall id, u_gram (classes st' id) = u_gram (classes st id)) ->
    (forall s m', slots st' s = Some m' -> exists m, slots st s = Some m /\ stays_clean m m') ->
    inv0 st'.
  Proof.
    intros [Igc Igk Ib Is Ig] Egp Eb Egr Hs. constructor.
    - rewrite Egp. exact Igc.
    - rewrite Egp. exact Igk.
    - exact Eb.
    - intros s m' E. destruct (Hs s m' E) as (m & Em & Ec & Hd & Hc & Hst).
      destruct (Is s m Em) as (H1 & H2 & H3 & H4 & H5 & H6). unfold slot_ok. rewrite Ec.
      refine (conj (Hd H1) (conj (Hc H2) (conj (Hst H3) (conj H4 (conj _ H6))))).
      intros id Hin. rewrite Egr. apply H5, Hin.
    - intro id. rewrite Egr. apply Ig.
  Qed.

  Hypothesis Fgood : good F = true.

  Lemma good_parts : f_clear_in_finally F = true /\ f_loads_use_clone F = true /\ f_clone_resets F = true /\
                     f_except_restores F = true /\ f_end_restores F = true /\ f_restore_on_primitive F = true /\
                     f_restore_on_immutable F = true /\ f_restore_guarded F = true.
  Proof.
    unfold good in Fgood. repeat (apply andb_true_iff in Fgood as [Fgood ?]). repeat split; assumption.
  Qed.

  Lemma after_parse_nil memo tok : after_parse F memo tok [] = [].
  Proof.
    destruct good_parts as [Hc _]. unfold after_parse. rewrite Hc. destruct memo; reflexivity.
  Qed.

  (* with all restores in place a load leaves every class as it found it, whatever the outcome;
     split at the provider calls: replaced before, restored after *)
  Lemma class_effect_id r u : class_effect F r u = u.
  Proof.
    destruct good_parts as (_ & _ & _ & He & Hn & Hp & Him & Hgd).
    unfold class_effect. rewrite He, Hn, Hp, Him, Hgd. unfold when. cbn [negb].
    destruct u as [n st0 ow g]. destruct (l_kind r); reflexivity.
  Qed.

  Lemma finish_effect_restores r u : finish_effect F r u = restore_u u.
  Proof.
    destruct good_parts as (_ & _ & _ & He & Hn & Hp & Him & Hgd).
    unfold finish_effect. rewrite He, Hn, Hp, Him, Hgd. unfold when. cbn [negb].
    destruct (l_kind r); reflexivity.
  Qed.

  (* the class table after a load, read through a field that neither the effect nor the storage touches *)
  Lemma loaded_classes_keep {B} (f : ucls -> B) g c r cl id :
    (forall u, f (g u) = f u) ->
    (forall u n, f {| u_instr := u_instr u; u_store := u_store u + n; u_owner := u_owner u; u_gram := u_gram u |} = f u) ->
    f (leak_classes (c_classes c) (l_leak r) (map_classes (c_classes c) g cl) id) = f (cl id).
  Proof. intros Hg Hf. rewrite leak_classes_keeps, map_classes_keeps by assumption. reflexivity. Qed.

  Lemma loaded_stays_clean c i r m repo :
    c = m_cfg m ->
    stays_clean m {| m_cfg := c; m_ser := m_ser m;
                     m_bp_dirty := m_bp_dirty m || negb (f_loads_use_clone F) || negb (f_clone_resets F);
                     m_cache := after_parse F (c_memo c) i (m_cache m); m_repo := repo;
                     m_stale := m_stale m || (match l_kind r with LImportSyntax => true | _ => false end
                                              && negb (f_restore_guarded F) && c_repo c && c_root_user c) |}.
  Proof.
    destruct good_parts as (_ & Hl & Hr & _ & _ & _ & _ & Hgd). intros ->.
    split; [reflexivity|]. cbn [m_bp_dirty m_cache m_stale]. rewrite Hl, Hr, Hgd. repeat split.
    - intros ->. reflexivity.
    - intros ->. apply after_parse_nil.
    - intros ->. rewrite andb_false_r. reflexivity.
  Qed.

  Lemma base_after_parse st (b memo : bool) i :
    base_cache st = [] -> (if b then after_parse F memo i (base_cache st) else base_cache st) = [].
  Proof. intros ->. destruct b; [apply after_parse_nil | reflexivity]. Qed.

  Lemma step_load_inv0 st s i : inv0 st -> inv0 (fst (step st (Load s i))).
  Proof.
    intros I. cbn [History.step]. unfold step_load. destruct (slots st s) as [m|] eqn:Em; [|exact I].
    apply (inv0_frame st); cbn [fst gparsers base_cache slots classes]; [exact I | reflexivity | | |].
    - apply base_after_parse, (j_base st I).
    - intro id. apply loaded_classes_keep; [|reflexivity]. intro u. rewrite class_effect_id. reflexivity.
    - apply (upd_stays_clean _ _ m _ Em), loaded_stays_clean. reflexivity.
  Qed.

  Lemma step_load_classes_instr st s i id :
    u_instr (classes (fst (step st (Load s i))) id) = u_instr (classes st id).
  Proof.
    cbn [History.step]. unfold step_load. destruct (slots st s) as [m|]; [|reflexivity]. cbn [fst classes].
    apply loaded_classes_keep; [|reflexivity]. intro u. rewrite class_effect_id. reflexivity.
  Qed.

  Lemma step_load_inv st s i : inv st -> inv (fst (step st (Load s i))).
  Proof.
    intro I. apply inv_of0; [apply step_load_inv0, inv_to0, I|].
    intro id. rewrite step_load_classes_instr. apply (i_instr st I).
  Qed.

  (* re-initialised classes belong to this metamodel's grammar, which is theirs; the others are not touched *)
  Lemma reown_gram c ser cl id : wf_cfg c ->
    u_gram (map_classes (c_classes c) (reown_u ser (c_gram c)) cl id) =
    if in_dec Nat.eq_dec id (c_classes c) then Some (cls_gram id) else u_gram (cl id).
  Proof.
    intro Hwf. rewrite map_classes_iter. destruct (in_dec Nat.eq_dec id (c_classes c)) as [Hin|Hn].
    - rewrite (Hwf id Hin). apply (count_occ_In Nat.eq_dec) in Hin.
      destruct (count_occ Nat.eq_dec (c_classes c) id); [lia | reflexivity].
    - apply (count_occ_not_In Nat.eq_dec) in Hn. rewrite Hn. reflexivity.
  Qed.

  (* the grammar parser a creation uses: the cached one, or a new one with this metamodel's flag *)
  Definition used_gp (st : pst) (c : cfg) : gparser :=
    match gparsers st (c_debug c) (gp_km F c) with
    | Some gp => gp
    | None => {| gp_memo := c_memo c; gp_cache := [] |}
    end.

  Lemma used_gp_ok st c : inv st ->
    gp_cache (used_gp st c) = [] /\ (f_gp_key_memo F = true -> gp_memo (used_gp st c) = c_memo c).
  Proof.
    intro I. unfold used_gp. destruct (gparsers st (c_debug c) (gp_km F c)) eqn:E.
    - split; [exact (i_gp_cache st I _ _ _ E)|]. intro Hk.
      rewrite (i_gp_key st I _ _ _ E Hk). unfold gp_km. rewrite Hk. reflexivity.
    - split; reflexivity.
  Qed.

  (* the class table after a creation with outcome k: `_init_class` ran unless the grammar did not parse *)
  Definition new_classes (st : pst) (c : cfg) (k : ckind) : nat -> ucls :=
    match k with
    | CSyntax => classes st
    | _ => map_classes (c_classes c) (reown_u (next_ser st) (c_gram c)) (classes st)
    end.

  Lemma new_classes_instr st c k id : u_instr (new_classes st c k id) = u_instr (classes st id).
  Proof. destruct k; try reflexivity; apply map_classes_keeps; reflexivity. Qed.

  Lemma new_classes_gram st c k id : wf_cfg c ->
    u_gram (new_classes st c k id) = u_gram (classes st id) \/ u_gram (new_classes st c k id) = Some (cls_gram id).
  Proof.
    intro Hwf. destruct k; [left; reflexivity | |]; cbn [new_classes];
      rewrite (reown_gram c _ _ id Hwf); destruct (in_dec Nat.eq_dec id (c_classes c)); auto.
  Qed.

  Lemma new_classes_own st c id : wf_cfg c -> In id (c_classes c) ->
    u_gram (new_classes st c COk id) = Some (cls_gram id).
  Proof.
    intros Hwf Hin. cbn [new_classes]. rewrite (reown_gram c _ _ id Hwf).
    destruct (in_dec Nat.eq_dec id (c_classes c)); [reflexivity | contradiction].
  Qed.

  Lemma step_new_inv st s c : wf_cfg c -> inv st -> inv (fst (step st (New s c))).
  Proof.
    intros Hwf I. destruct (used_gp_ok st c I) as [Hgpc Hgpk]. destruct I as [Igc Igk Ib Is Ii Ig].
    cbn [History.step]. unfold step_new. cbv zeta. fold (used_gp st c).
    set (r := create_out c {| gv_memo := gp_memo (used_gp st c); gv_cache := gp_cache (used_gp st c) |}).
    fold (new_classes st c (k_kind r)).
    assert (Hold : forall s0 m0, slots st s0 = Some m0 -> slot_ok (new_classes st c (k_kind r)) m0).
    { intros s0 m0 E. destruct (Is s0 m0 E) as (H1 & H2 & H3 & H4 & H5 & H6).
      refine (conj H1 (conj H2 (conj H3 (conj H4 (conj _ H6))))).
      intros id Hin. destruct (new_classes_gram st c (k_kind r) id Hwf) as [->| ->]; [apply H5, Hin | reflexivity]. }
    constructor; cbn [fst gparsers base_cache slots classes].
    - intros a b gp0. unfold upd2. destruct (Bool.eqb a (c_debug c) && Bool.eqb b (gp_km F c))%bool; [|apply Igc].
      intros [= <-]. cbn. rewrite Hgpc. apply after_parse_nil.
    - intros a b gp0. unfold upd2.
      destruct (Bool.eqb a (c_debug c) && Bool.eqb b (gp_km F c))%bool eqn:Ek; [|apply Igk].
      intros [= <-] Hk. cbn. apply andb_true_iff in Ek as [_ Ek].
      apply Bool.eqb_prop in Ek. rewrite Ek, (Hgpk Hk). unfold gp_km. rewrite Hk. reflexivity.
    - exact Ib.
    - intros s0 m0. destruct (k_kind r) eqn:Ek; try apply Hold.
      unfold upd. destruct (Nat.eqb s0 s); [|apply Hold].
      (* the metamodel just created *)
      intros [= <-]. cbn. repeat split; auto.
      + intros id. apply new_classes_own, Hwf.
      + exists (gp_memo (used_gp st c)). split; [|exact Hgpk].
        unfold r in Ek. rewrite Hgpc in Ek. exact Ek.
    - intro id. rewrite new_classes_instr. apply Ii.
    - intro id. destruct (new_classes_gram st c (k_kind r) id Hwf) as [->| ->]; [apply Ig | right; reflexivity].
  Qed.

  Lemma begin_inv0 st s m i : inv0 st -> slots st s = Some m -> inv0 (begin_load F st s m i).
  Proof.
    intros I Em. apply (inv0_frame st); unfold begin_load; cbn [gparsers base_cache slots classes];
      [exact I | reflexivity | | |].
    - apply base_after_parse, (j_base st I).
    - intro id. apply map_classes_keeps. reflexivity.
    - apply (upd_stays_clean _ _ m _ Em).
      destruct (loaded_stays_clean (m_cfg m) i (load_out (m_cfg m) i (view_of st m)) m (m_repo m) eq_refl)
        as (H1 & H2 & H3 & _).
      repeat split; auto.
  Qed.

  Lemma finish_inv0 st s c r : inv0 st -> inv0 (finish_load F st s c r).
  Proof.
    intros I. apply (inv0_frame st); unfold finish_load; cbn [gparsers base_cache slots classes];
      [exact I | reflexivity | apply (j_base st I) | |].
    - intro id. apply loaded_classes_keep; [|reflexivity]. intro u. rewrite finish_effect_restores. reflexivity.
    - destruct (slots st s) as [m|] eqn:Em.
      + apply (upd_stays_clean _ _ m _ Em). repeat split; auto.
      + intros s0 m0 E. exists m0. split; [exact E|]. repeat split; auto.
  Qed.

  Lemma iter_replace_instr k u : u_instr (Nat.iter k replace_u u) = k + u_instr u.
  Proof.
    induction k as [|k IH]; [reflexivity|].
    change (Nat.iter (S k) replace_u u) with (replace_u (Nat.iter k replace_u u)). cbn [u_instr replace_u].
    rewrite IH. reflexivity.
  Qed.

  Lemma iter_finish_instr r k u : u_instr (Nat.iter k (finish_effect F r) u) = u_instr u - k.
  Proof.
    induction k as [|k IH]; [cbn; lia|].
    change (Nat.iter (S k) (finish_effect F r) u) with (finish_effect F r (Nat.iter k (finish_effect F r) u)).
    rewrite finish_effect_restores. cbn [u_instr restore_u]. rewrite IH. lia.
  Qed.

  (* the counters a load started by a provider of the load (s, m) sees: one per occurrence in the outer class list *)
  Definition held (m : mm) (id : nat) : nat := count_occ Nat.eq_dec (c_classes (m_cfg m)) id.

  Lemma begin_instr st s m i id : (forall id, u_instr (classes st id) = 0) ->
    u_instr (classes (begin_load F st s m i) id) = held m id.
  Proof.
    intro H0. unfold begin_load, held. cbn [classes]. rewrite map_classes_iter, iter_replace_instr, H0. lia.
  Qed.

  Lemma step_nested_inv st s i ph s' i' : inv st -> inv (fst (step st (Nested s i ph s' i'))).
  Proof.
    intro I. cbn [History.step]. unfold step_nested. destruct (slots st s) as [m|] eqn:Em; [|exact I].
    destruct ph.
    - (* provider phase: the inner load runs between the two halves of the outer one *)
      pose proof (step_load_inv0 (begin_load F st s m i) s' i' (begin_inv0 st s m i (inv_to0 st I) Em)) as I2.
      pose proof (step_load_classes_instr (begin_load F st s m i) s' i') as E2.
      cbn [History.step] in I2, E2. destruct (step_load F load_out (begin_load F st s m i) s' i') as [st2 o2].
      cbn [fst] in *. apply inv_of0; [apply finish_inv0, I2|].
      intro id. unfold finish_load. cbn [classes]. rewrite leak_classes_keeps by reflexivity.
      rewrite map_classes_iter, iter_finish_instr, E2, (begin_instr st s m i id (i_instr st I)).
      unfold held. lia.
    - (* after the outer load has restored: two loads in a row *)
      pose proof (step_load_inv _ s' i' (step_load_inv st s i I)) as I2. cbn [History.step] in I2.
      destruct (step_load F load_out (fst (step_load F load_out st s i)) s' i') as [st2 o2]. exact I2.
  Qed.

  Lemma step_inv st o : wf_op o -> inv st -> inv (fst (step st o)).
  Proof.
    destruct o as [s c|s i|s i ph s' i']; intros Hwf I;
      [apply step_new_inv; assumption | apply step_load_inv; assumption | apply step_nested_inv; assumption].
  Qed.

  Lemma run_fst st ops : forall o, fst (run st (o :: ops)) = fst (run (fst (step st o)) ops).
  Proof.
    intro o. cbn [History.run]. destruct (step st o) as [st1 x]. cbn [fst].
    destruct (run st1 ops) as [st2 xs]. reflexivity.
  Qed.

  Lemma run_inv ops : forall st, Forall wf_op ops -> inv st -> inv (fst (run st ops)).
  Proof.
    induction ops as [|o ops IH]; intros st Hwf I.
    - exact I.
    - rewrite run_fst. inversion Hwf; subst. apply IH; [assumption | apply step_inv; assumption].
  Qed.

  Lemma final_inv ops : Forall wf_op ops -> inv (final ops).
  Proof. intro H. unfold final, History.final. apply run_inv; [exact H | apply inv_init]. Qed.

  Definition set_instr (v : view) (l : list nat) : view :=
    {| v_memo := v_memo v; v_bp_dirty := v_bp_dirty v; v_caches := v_caches v; v_instr := l; v_cgram := v_cgram v;
       v_repo := v_repo v; v_stale := v_stale v |}.

  (* the fresh view, except for the counters *)
  Lemma view_inv0 st s m : inv0 st -> slots st s = Some m ->
    view_of st m = set_instr (fresh_view (m_cfg m) (if c_repo (m_cfg m) then m_repo m else []))
                             (map (fun id => u_instr (classes st id)) (c_classes (m_cfg m))).
  Proof.
    intros [_ _ Jb Js _] Em. destruct (Js s m Em) as (Hd & Hmc & Hst & Hwf & Hgr & _).
    unfold view_of, fresh_view, set_instr. cbn [v_memo v_bp_dirty v_caches v_instr v_cgram v_repo v_stale].
    rewrite Hd, Hmc, Hst, Jb. f_equal.
    - destruct (c_base (m_cfg m)); reflexivity.
    - apply map_ext_in. intros id Hin. rewrite (Hgr id Hin), (Hwf id Hin). reflexivity.
  Qed.

  Lemma view_canonical st s m : inv st -> slots st s = Some m ->
    view_of st m = fresh_view (m_cfg m) (if c_repo (m_cfg m) then m_repo m else []).
  Proof.
    intros I Em. rewrite (view_inv0 st s m (inv_to0 st I) Em). unfold set_instr, fresh_view.
    cbn [v_memo v_bp_dirty v_caches v_instr v_cgram v_repo v_stale]. f_equal.
    apply map_ext. intro id. apply (i_instr st I).
  Qed.

  Lemma load_result st s m i : inv st -> slots st s = Some m ->
    result st (Load s i) = OLoad (load_out (m_cfg m) i (fresh_view (m_cfg m) (if c_repo (m_cfg m) then m_repo m else []))).
  Proof.
    intros I Em. unfold result, History.result. cbn [History.step]. unfold step_load. rewrite Em. cbn [snd].
    rewrite (view_canonical st s m I Em). reflexivity.
  Qed.

  (* attribute access on objects that are not under construction does not depend on whether their class is
     instrumented (what the delegation to the class's own methods achieves) *)
  Definition instr_blind : Prop := forall c i v l, load_out c i (set_instr v l) = load_out c i v.

  Lemma nested_provider_view st s m i s' m' : inv st -> slots st s = Some m ->
    slots (begin_load F st s m i) s' = Some m' ->
    view_of (begin_load F st s m i) m'
    = set_instr (fresh_view (m_cfg m') (if c_repo (m_cfg m') then m_repo m' else [])) (map (held m) (c_classes (m_cfg m'))).
  Proof.
    intros I Em Em'. rewrite (view_inv0 _ s' m' (begin_inv0 st s m i (inv_to0 st I) Em) Em'). f_equal.
    apply map_ext. intro id. apply begin_instr, (i_instr st I).
  Qed.

  (* the first half of the outer load leaves every metamodel its configuration and its repository *)
  Lemma begin_slot st s m i s' m' : slots st s = Some m -> slots st s' = Some m' ->
    exists mb, slots (begin_load F st s m i) s' = Some mb /\ m_cfg mb = m_cfg m' /\ m_repo mb = m_repo m'.
  Proof.
    intros Em Em'. unfold begin_load. cbn [slots]. unfold upd. destruct (Nat.eqb s' s) eqn:Es.
    - apply Nat.eqb_eq in Es. subst s'. rewrite Em in Em'. injection Em' as <-.
      eexists. split; [reflexivity|]. split; reflexivity.
    - exists m'. split; [exact Em'|]. split; reflexivity.
  Qed.

  (* the inner load answers exactly what the same load answers at top level in the state the outer load started from *)
  Theorem nested_provider_inner st s m i s' m' i' : inv st -> instr_blind ->
    slots st s = Some m -> slots st s' = Some m' ->
    snd (step st (Nested s i PhProvider s' i'))
    = ONest (load_out (m_cfg m) i (fresh_view (m_cfg m) (if c_repo (m_cfg m) then m_repo m else []))) (result st (Load s' i')).
  Proof.
    intros I Hb Em Em'. destruct (begin_slot st s m i s' m' Em Em') as (mb & Eb & Ec & Er).
    rewrite (load_result st s' m' i' I Em').
    cbn [History.step]. unfold step_nested. rewrite Em, (view_canonical st s m I Em).
    unfold step_load. rewrite Eb. cbn [snd].
    rewrite (nested_provider_view st s m i s' mb I Em Eb), Hb, Ec, Er. reflexivity.
  Qed.

  Lemma create_result st s c : inv st ->
    exists b, result st (New s c) = OCreate (create_out c {| gv_memo := b; gv_cache := [] |}) /\
              (f_gp_key_memo F = true -> b = c_memo c).
  Proof.
    intro I. destruct (used_gp_ok st c I) as [Hc Hk]. exists (gp_memo (used_gp st c)).
    split; [|exact Hk]. rewrite <- Hc. reflexivity.
  Qed.

  (* memo-transparency of the textX-grammar parser: from empty caches, building a metamodel gives
     the same outcome whether or not the cached grammar parser memoizes *)
  Definition grammar_memo_transparent : Prop :=
    forall c b, create_out c {| gv_memo := b; gv_cache := [] |} = create_out c (fresh_gview c).

  Definition cache_ok : Prop := f_gp_key_memo F = true \/ grammar_memo_transparent.

  Lemma create_fresh st s c : cache_ok -> inv st -> result st (New s c) = OCreate (create_out c (fresh_gview c)).
  Proof.
    intros Hc I. destruct (create_result st s c I) as (b & Hr & Hb). rewrite Hr. f_equal.
    destruct Hc as [Hk|Ht]; [rewrite (Hb Hk); reflexivity | apply Ht].
  Qed.

  Lemma create_independent ops s c : cache_ok -> Forall wf_op ops ->
    result (final ops) (New s c) = result init (New s c).
  Proof.
    intros Hc Hwf. rewrite (create_fresh _ s c Hc (final_inv ops Hwf)), (create_fresh _ s c Hc inv_init). reflexivity.
  Qed.

  Lemma fresh_slot s c : k_kind (create_out c (fresh_gview c)) = COk ->
    slots (final [New s c]) s = Some {| m_cfg := c; m_ser := 1; m_bp_dirty := false; m_cache := []; m_repo := []; m_stale := false |}.
  Proof.
    intro Hk. unfold final, History.final. cbn. unfold fresh_gview in Hk. rewrite Hk. cbn. unfold upd. rewrite Nat.eqb_refl. reflexivity.
  Qed.

  (* the reference run: a metamodel that some history created successfully is created successfully on a
     fresh process, and its first load sees the fresh view *)
  Lemma fresh_load s c i : cache_ok -> wf_cfg c ->
    (exists b, k_kind (create_out c {| gv_memo := b; gv_cache := [] |}) = COk /\ (f_gp_key_memo F = true -> b = c_memo c)) ->
    result (final [New s c]) (Load s i) = OLoad (load_out c i (fresh_view c [])).
  Proof.
    intros Hc Hwf (b & Hb & Hbk).
    assert (Hok : k_kind (create_out c (fresh_gview c)) = COk).
    { destruct Hc as [Hk|Ht]; [rewrite (Hbk Hk) in Hb; exact Hb | rewrite <- (Ht c b); exact Hb]. }
    assert (Hwf1 : Forall wf_op [New s c]) by (repeat constructor; exact Hwf).
    rewrite (load_result _ s _ i (final_inv _ Hwf1) (fresh_slot s c Hok)). cbn [m_cfg m_repo].
    destruct (c_repo c); reflexivity.
  Qed.

  (* the headline: after ANY history, a load answers what the same configuration answers on a fresh process *)
  Theorem history_independent ops s m i : cache_ok -> Forall wf_op ops ->
    slots (final ops) s = Some m -> c_repo (m_cfg m) = false ->
    result (final ops) (Load s i) = result (final [New s (m_cfg m)]) (Load s i).
  Proof.
    intros Hc Hwf Em Hrepo. pose proof (final_inv ops Hwf) as I.
    destruct (i_slot _ I s m Em) as (_ & _ & _ & Hw & _ & Hok).
    rewrite (load_result _ s m i I Em), (fresh_load s (m_cfg m) i Hc Hw Hok), Hrepo. reflexivity.
  Qed.

  (* with a global repository the view differs from the fresh one only in the cached files *)
  Definition set_repo (v : view) (r : list nat) : view :=
    {| v_memo := v_memo v; v_bp_dirty := v_bp_dirty v; v_caches := v_caches v; v_instr := v_instr v; v_cgram := v_cgram v; v_repo := r; v_stale := v_stale v |}.
  (* returning a cached model is not observable in the structural dump (unchanged files, idempotent processors) *)
  Definition repo_blind : Prop :=
    forall c i v r, l_kind (load_out c i (set_repo v r)) = l_kind (load_out c i v) /\
                    l_dump (load_out c i (set_repo v r)) = l_dump (load_out c i v).

  Definition out_obs (o : out) : option (lkind * nat) :=
    match o with OLoad r => Some (l_kind r, l_dump r) | _ => None end.

  Theorem history_independent_repo ops s m i : cache_ok -> repo_blind -> Forall wf_op ops ->
    slots (final ops) s = Some m ->
    out_obs (result (final ops) (Load s i)) = out_obs (result (final [New s (m_cfg m)]) (Load s i)).
  Proof.
    intros Hc Hb Hwf Em. pose proof (final_inv ops Hwf) as I.
    destruct (i_slot _ I s m Em) as (_ & _ & _ & Hw & _ & Hok).
    rewrite (load_result _ s m i I Em), (fresh_load s (m_cfg m) i Hc Hw Hok). cbn [out_obs].
    destruct (Hb (m_cfg m) i (fresh_view (m_cfg m) []) (if c_repo (m_cfg m) then m_repo m else [])) as [H1 H2].
    change (set_repo (fresh_view (m_cfg m) []) (if c_repo (m_cfg m) then m_repo m else []))
      with (fresh_view (m_cfg m) (if c_repo (m_cfg m) then m_repo m else [])) in H1, H2.
    rewrite H1, H2. reflexivity.
  Qed.
End Inv.

(* Necessity: the variants of the facts that Props/C16.v refutes, with the oracles and histories of the
   witnesses, and the same runs under the facts of the fixed code. *)
Definition good_facts : facts := {| f_gp_key_memo := false; f_clear_in_finally := true; f_loads_use_clone := true;
  f_clone_resets := true; f_except_restores := true; f_end_restores := true; f_restore_on_primitive := true; f_restore_on_immutable := true; f_restore_guarded := true |}.

(* the code before the fix: a primitive model leaves the user classes instrumented *)
Definition prefix_facts : facts := {| f_gp_key_memo := false; f_clear_in_finally := true; f_loads_use_clone := true;
  f_clone_resets := true; f_except_restores := true; f_end_restores := true; f_restore_on_primitive := false; f_restore_on_immutable := false; f_restore_guarded := true |}.

Definition wit_cfg : cfg := {| c_gram := 0; c_memo := false; c_debug := false; c_base := true; c_classes := [7]; c_repo := false; c_root_user := false; c_opts := 0 |}.
Definition wit_create (_ : cfg) (_ : gview) : cres := {| k_kind := COk; k_dump := 0 |}.
(* input 0 is a primitive model; the dump of any other input shows whether a user class was instrumented when the load began *)
Definition wit_load (_ : cfg) (i : nat) (v : view) : lres :=
  match i with
  | 0 => {| l_kind := LOkPrim; l_dump := 0; l_leak := []; l_files := [] |}
  | _ => {| l_kind := LOk; l_dump := fold_left Nat.add (v_instr v) 0 + length (v_caches v); l_leak := []; l_files := [] |}
  end.

Lemma prim_leak_fixed :
  result good_facts wit_create wit_load (final good_facts wit_create wit_load [New 0 wit_cfg; Load 0 0]) (Load 0 1)
  = result good_facts wit_create wit_load (final good_facts wit_create wit_load [New 0 wit_cfg]) (Load 0 1).
Proof. vm_compute. reflexivity. Qed.

(* a restore limited to int/float/str/bool models (`type(model) in PRIMITIVE_PYTHON_TYPES`): a root value of another
   immutable type (a match rule converted to Decimal, a tuple ...) leaves the classes instrumented *)
Definition primonly_facts : facts := {| f_gp_key_memo := false; f_clear_in_finally := true; f_loads_use_clone := true;
  f_clone_resets := true; f_except_restores := true; f_end_restores := true; f_restore_on_primitive := true;
  f_restore_on_immutable := false; f_restore_guarded := true |}.
(* input 0: a primitive model, input 2: a non-primitive immutable model; other inputs show the counters they start from *)
Definition wit_load_imm (c : cfg) (i : nat) (v : view) : lres :=
  match i with
  | 2 => {| l_kind := LOkImm; l_dump := 0; l_leak := []; l_files := [] |}
  | _ => wit_load c i v
  end.

Lemma immutable_model_primitive_ok :
  result primonly_facts wit_create wit_load_imm (final primonly_facts wit_create wit_load_imm [New 0 wit_cfg; Load 0 0]) (Load 0 1)
  = result primonly_facts wit_create wit_load_imm (final primonly_facts wit_create wit_load_imm [New 0 wit_cfg]) (Load 0 1).
Proof. vm_compute. reflexivity. Qed.

(* without the clearing in `finally`, a memoizing load leaves entries that the next load of the metamodel reads *)
Definition noclear_facts : facts := {| f_gp_key_memo := false; f_clear_in_finally := false; f_loads_use_clone := true;
  f_clone_resets := true; f_except_restores := true; f_end_restores := true; f_restore_on_primitive := true; f_restore_on_immutable := true; f_restore_guarded := true |}.
Definition wit_cfg_memo : cfg := {| c_gram := 0; c_memo := true; c_debug := false; c_base := true; c_classes := []; c_repo := false; c_root_user := false; c_opts := 0 |}.

(* the code before the second fix: the except path of a nested load (an imported file that fails to
   parse) un-instruments the classes of the enclosing load; the half-built model stays in the global
   repository and the next load of the file sees it *)
Definition unguarded_facts : facts := {| f_gp_key_memo := false; f_clear_in_finally := true; f_loads_use_clone := true;
  f_clone_resets := true; f_except_restores := true; f_end_restores := true; f_restore_on_primitive := true; f_restore_on_immutable := true; f_restore_guarded := false |}.
Definition wit_cfg_repo : cfg := {| c_gram := 3; c_memo := false; c_debug := false; c_base := false; c_classes := [5]; c_repo := true;
                                    c_root_user := true; c_opts := 0 |}.
(* input 3 imports a file that does not parse; a stale repository entry turns the error into a "model" *)
Definition wit_load_repo (_ : cfg) (i : nat) (v : view) : lres :=
  if v_stale v then {| l_kind := LOk; l_dump := 99; l_leak := []; l_files := [] |}
  else {| l_kind := LImportSyntax; l_dump := 1; l_leak := [1]; l_files := [3; 4] |}.

Lemma unguarded_restore_fixed :
  result good_facts wit_create wit_load_repo (final good_facts wit_create wit_load_repo [New 0 wit_cfg_repo; Load 0 3]) (Load 0 3)
  = result good_facts wit_create wit_load_repo (final good_facts wit_create wit_load_repo [New 0 wit_cfg_repo]) (Load 0 3).
Proof. vm_compute. reflexivity. Qed.

(* the grammar-parser cache is keyed by the debug flag only: if memoization of the GRAMMAR parser were
   observable, metamodel creation would depend on which metamodel was created first *)
Definition flip_memo (c : cfg) : cfg :=
  {| c_gram := c_gram c; c_memo := negb (c_memo c); c_debug := c_debug c; c_base := c_base c; c_classes := [];
     c_repo := c_repo c; c_root_user := false; c_opts := c_opts c |}.

(* with an outcome that reads the counters a load started from a scope provider differs from the same load
   at top level (Props/C16.v); started from a processor, after the outer load has restored its classes, it does not *)
Lemma nested_after_ok :
  let st := final good_facts wit_create wit_load [New 0 wit_cfg] in
  snd (step good_facts wit_create wit_load st (Nested 0 1 PhAfter 0 1))
  = ONest (wit_load wit_cfg 1 (fresh_view wit_cfg [])) (result good_facts wit_create wit_load st (Load 0 1)).
Proof. vm_compute. reflexivity. Qed.
