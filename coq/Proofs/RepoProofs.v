(* Proofs about the multi-file loading model (C17/C18).  The load phase is followed for the loader with an external
   cache (load_file_x; the single-language loader is the instance without cache), a top-level load is specified on the
   un-collected function (RawSpec) and the statements about the observed loads are read off that specification. *)
From TxV Require Import Core.Base Model.RepoDefs Gen.SrcRepo Model.Repo.

(* facts from the source (Gen/SrcRepo.v) *)
Lemma src_register_before : register_before_imports = true. Proof. reflexivity. Qed.
Lemma src_cleanup_outer : cleanup_construction_failure = true. Proof. reflexivity. Qed.
Lemma src_cleanup_inner : cleanup_resolution_failure = true. Proof. reflexivity. Qed.
Lemma src_mp_on_cached : model_processors_on_cached = false. Proof. reflexivity. Qed.
Lemma src_cleanup_mp : cleanup_model_processor_failure = true. Proof. reflexivity. Qed.
Lemma src_lookup_order : lookup_order = [SOwn; SLocal; SBuiltin]. Proof. reflexivity. Qed.

Notation keys s := (map fst (allm s)).
Notation vals s := (map snd (allm s)).

Lemma mem_In x l : mem x l = true <-> In x l.
Proof. apply existsb_nat_In. Qed.
Lemma mem_false x l : mem x l = false <-> ~ In x l.
Proof. apply existsb_nat_false. Qed.

Section Dict.
  Context {A : Type}.
  Implicit Types (l : list (nat * A)).

  Lemma dget_dset_same k v l : dget k (dset k v l) = Some v.
  Proof.
    induction l as [|[k' v'] t IH]; cbn.
    - rewrite Nat.eqb_refl. reflexivity.
    - destruct (Nat.eqb k k') eqn:E; cbn; rewrite ?Nat.eqb_refl, ?E; auto.
  Qed.
  Lemma dget_dset_other k k' v l : k <> k' -> dget k' (dset k v l) = dget k' l.
  Proof.
    intro Hn. induction l as [|[k2 v2] t IH]; cbn.
    - destruct (Nat.eqb k' k) eqn:E; [apply Nat.eqb_eq in E; congruence | reflexivity].
    - destruct (Nat.eqb k k2) eqn:E; cbn.
      + apply Nat.eqb_eq in E. subst k2.
        destruct (Nat.eqb k' k) eqn:E2; [apply Nat.eqb_eq in E2; congruence | reflexivity].
      + destruct (Nat.eqb k' k2); auto.
  Qed.
  Lemma dget_None_notin k l : dget k l = None <-> ~ In k (map fst l).
  Proof.
    induction l as [|[k' v'] t IH]; cbn; [tauto|].
    destruct (Nat.eqb k k') eqn:E.
    - apply Nat.eqb_eq in E. subst. split; [discriminate | intro H; exfalso; apply H; auto].
    - apply Nat.eqb_neq in E. rewrite IH. split; intro H; [intros [H1|H1]; [congruence | tauto] | tauto].
  Qed.
  Lemma dget_In k v l : dget k l = Some v -> In (k, v) l.
  Proof.
    induction l as [|[k' v'] t IH]; cbn; [discriminate|].
    destruct (Nat.eqb k k') eqn:E.
    - apply Nat.eqb_eq in E. intro H. inversion H. subst. auto.
    - auto.
  Qed.
  Lemma In_dget k v l : NoDup (map fst l) -> In (k, v) l -> dget k l = Some v.
  Proof.
    induction l as [|[k' v'] t IH]; cbn; [tauto|]. intros Hnd [H|H].
    - inversion H. subst. rewrite Nat.eqb_refl. reflexivity.
    - inversion Hnd as [|? ? Hni Hnd']. subst. destruct (Nat.eqb k k') eqn:E.
      + apply Nat.eqb_eq in E. subst. exfalso. apply Hni. apply in_map_iff. exists (k', v). auto.
      + auto.
  Qed.
  Lemma dhas_true k l : dhas k l = true <-> In k (map fst l).
  Proof.
    unfold dhas. destruct (dget k l) eqn:E.
    - split; [|reflexivity]. intros _. apply dget_In in E. apply in_map_iff. exists (k, a). auto.
    - split; [discriminate|]. intro H. apply dget_None_notin in E. tauto.
  Qed.
  Lemma dhas_false k l : dhas k l = false <-> ~ In k (map fst l).
  Proof.
    rewrite <- dhas_true. destruct (dhas k l); split; intro H; try reflexivity; try discriminate.
    exfalso; apply H; reflexivity.
  Qed.
  Lemma dset_same k v l : dget k l = Some v -> dset k v l = l.
  Proof.
    induction l as [|[k' v'] t IH]; cbn; [discriminate|].
    destruct (Nat.eqb k k') eqn:E.
    - apply Nat.eqb_eq in E. intro H. inversion H. subst. reflexivity.
    - intro H. rewrite IH; auto.
  Qed.
  Lemma dset_fresh k v l : dget k l = None -> dset k v l = l ++ [(k, v)].
  Proof.
    induction l as [|[k' v'] t IH]; cbn; [reflexivity|].
    destruct (Nat.eqb k k'); [discriminate|]. intro H. rewrite IH; auto.
  Qed.
  Lemma keys_dset_in k v l : In k (map fst l) -> map fst (dset k v l) = map fst l.
  Proof.
    induction l as [|[k' v'] t IH]; cbn; [tauto|]. intros H.
    destruct (Nat.eqb k k') eqn:E; cbn.
    - apply Nat.eqb_eq in E. subst. reflexivity.
    - apply Nat.eqb_neq in E. destruct H as [H|H]; [congruence|]. rewrite IH; auto.
  Qed.
  Lemma keys_dset_notin k v l : ~ In k (map fst l) -> map fst (dset k v l) = map fst l ++ [k].
  Proof. intro H. apply dget_None_notin in H. rewrite dset_fresh by exact H. rewrite map_app. reflexivity. Qed.
  Lemma keys_dset_cases k v l :
    (In k (map fst l) /\ map fst (dset k v l) = map fst l) \/ (~ In k (map fst l) /\ map fst (dset k v l) = map fst l ++ [k]).
  Proof.
    destruct (in_dec Nat.eq_dec k (map fst l)) as [H|H]; [left | right]; split; auto using keys_dset_in, keys_dset_notin.
  Qed.
  Lemma In_ddel kv k l : In kv (ddel k l) -> In kv l.
  Proof.
    induction l as [|[k' v'] t IH]; cbn; [tauto|]. destruct (Nat.eqb k k'); cbn; intuition.
  Qed.
End Dict.

Lemma allm_set_local m g v s : allm (set_local m g v s) = allm s. Proof. reflexivity. Qed.
Lemma reads_set_local m g v s : reads (set_local m g v s) = reads s. Proof. reflexivity. Qed.
Lemma heap_set_local m g v s : heap (set_local m g v s) = heap s. Proof. reflexivity. Qed.
Lemma constr_set_local m g v s : constr (set_local m g v s) = constr s. Proof. reflexivity. Qed.
Lemma allm_set_all g v s : allm (set_all g v s) = dset g v (allm s). Proof. reflexivity. Qed.
Lemma reads_set_all g v s : reads (set_all g v s) = reads s. Proof. reflexivity. Qed.
Lemma heap_set_all g v s : heap (set_all g v s) = heap s. Proof. reflexivity. Qed.
Lemma constr_set_all g v s : constr (set_all g v s) = constr s. Proof. reflexivity. Qed.
Lemma locals_set_all g v s : locals (set_all g v s) = locals s. Proof. reflexivity. Qed.
Lemma allm_alloc g fc s : allm (alloc g fc s) = allm s. Proof. reflexivity. Qed.
Lemma reads_alloc g fc s : reads (alloc g fc s) = reads s. Proof. reflexivity. Qed.
Lemma heap_alloc g fc s : heap (alloc g fc s) = heap s ++ [mkMinfo g (curop s) fc]. Proof. reflexivity. Qed.
Lemma constr_alloc g fc s : constr (alloc g fc s) = length (heap s) :: constr s. Proof. reflexivity. Qed.
Lemma locals_alloc g fc s : locals (alloc g fc s) = locals s. Proof. reflexivity. Qed.
Lemma allm_with_reads s r : allm (with_reads s r) = allm s. Proof. reflexivity. Qed.
Lemma reads_with_reads s r : reads (with_reads s r) = r. Proof. reflexivity. Qed.
Lemma heap_with_reads s r : heap (with_reads s r) = heap s. Proof. reflexivity. Qed.
Lemma constr_with_reads s r : constr (with_reads s r) = constr s. Proof. reflexivity. Qed.
Lemma locals_with_reads s r : locals (with_reads s r) = locals s. Proof. reflexivity. Qed.

(* The state updates are record updates, so their projections compute; st_proj does in one conversion step what
   rewriting with the equations above does one occurrence at a time. *)
Ltac st_proj := cbn [allm reads heap constr locals set_local set_all alloc with_reads with_allm with_heap with_constr with_locals].
Tactic Notation "st_proj" "in" hyp(H) :=
  cbn [allm reads heap constr locals set_local set_all alloc with_reads with_allm with_heap with_constr with_locals] in H.

(* remove_from_repos rewrites all_models and local_models only: every other component of the state is untouched *)
Lemma remove_from_repos_proj {A} (p : state -> A) :
  (forall s a l, p (with_locals (with_allm s a) l) = p s) -> forall models rem s, p (remove_from_repos models rem s) = p s.
Proof.
  intros Hp models rem. unfold remove_from_repos. induction models as [|x t IH]; intro s; cbn [fold_left]; [reflexivity|].
  rewrite IH. apply Hp.
Qed.
Lemma reads_remove_from_repos models rem s : reads (remove_from_repos models rem s) = reads s.
Proof. apply (remove_from_repos_proj reads). reflexivity. Qed.
Lemma heap_remove_from_repos models rem s : heap (remove_from_repos models rem s) = heap s.
Proof. apply (remove_from_repos_proj heap). reflexivity. Qed.
Lemma constr_remove_from_repos models rem s : constr (remove_from_repos models rem s) = constr s.
Proof. apply (remove_from_repos_proj constr). reflexivity. Qed.
Lemma targets_remove_from_repos models rem s : targets (remove_from_repos models rem s) = targets s.
Proof. apply (remove_from_repos_proj targets). reflexivity. Qed.
Lemma curop_remove_from_repos models rem s : curop (remove_from_repos models rem s) = curop s.
Proof. apply (remove_from_repos_proj curop). reflexivity. Qed.
Lemma handler_proj {A} (p : state -> A) :
  (forall s a l, p (with_locals (with_allm s a) l) = p s) -> forall m s, p (handler m s) = p s.
Proof. intros Hp m s. unfold handler. destruct cleanup_construction_failure; [apply remove_from_repos_proj, Hp | reflexivity]. Qed.
Lemma reads_handler m s : reads (handler m s) = reads s.
Proof. apply (handler_proj reads). reflexivity. Qed.
Lemma heap_handler m s : heap (handler m s) = heap s.
Proof. apply (handler_proj heap). reflexivity. Qed.
Lemma constr_handler m s : constr (handler m s) = constr s.
Proof. apply (handler_proj constr). reflexivity. Qed.

Lemma reads_update_in_repo m mf s : reads (update_in_repo m mf s) = reads s.
Proof. unfold update_in_repo. destruct (dhas mf (allm s)); reflexivity. Qed.
Lemma keys_update_in_repo m mf s :
  In mf (keys (update_in_repo m mf s)) /\ incl (keys s) (keys (update_in_repo m mf s)) /\
  (keys (update_in_repo m mf s) = keys s \/ (~ In mf (keys s) /\ keys (update_in_repo m mf s) = keys s ++ [mf])).
Proof.
  unfold update_in_repo. destruct (dhas mf (allm s)) eqn:E.
  - apply dhas_true in E. repeat split; auto using incl_refl.
  - apply dhas_false in E. st_proj. rewrite keys_dset_notin by exact E. repeat split.
    + apply in_or_app. right. left. reflexivity.
    + apply incl_appl, incl_refl.
    + right. auto.
Qed.


Lemma cached_load_returns_cached_raw fs c f s m :
  cglobal c = true -> dget f (allm s) = Some m ->
  fst (load_main_raw fs c f s) = inr m /\ reads (snd (load_main_raw fs c f s)) = [] /\ allm (snd (load_main_raw fs c f s)) = allm s.
Proof.
  intros Hg Hc. unfold load_main_raw, begin_op. rewrite Hg. cbn [allm with_reads].
  rewrite Hc, src_mp_on_cached. cbn. auto.
Qed.

Lemma load_model_cong ld1 ld2 m g s : (forall g' s', ld1 g' s' = ld2 g' s') -> load_model ld1 m g s = load_model ld2 m g s.
Proof. intro H. unfold load_model. rewrite H. reflexivity. Qed.
Lemma load_files_cong ld1 ld2 m gs : (forall g' s', ld1 g' s' = ld2 g' s') -> forall s, load_files ld1 m gs s = load_files ld2 m gs s.
Proof.
  intro H. induction gs as [|g gs IH]; intro s; cbn [load_files]; [reflexivity|].
  rewrite (load_model_cong ld1 ld2 m g s H). destruct (load_model ld2 m g s) as [[e|] s1]; [reflexivity | apply IH].
Qed.
Lemma load_stmts_cong ld1 ld2 m mf stmts : (forall g' s', ld1 g' s' = ld2 g' s') -> forall s, load_stmts ld1 m mf stmts s = load_stmts ld2 m mf stmts s.
Proof.
  intro H. induction stmts as [|gs rest IH]; intro s; cbn [load_stmts]; [reflexivity|].
  destruct gs as [|g0 gs0]; [reflexivity|].
  rewrite (load_files_cong ld1 ld2 m (g0 :: gs0) H). destruct (load_files ld2 m (g0 :: gs0) _) as [[e|] s2]; [reflexivity | apply IH].
Qed.

Lemma load_file_x_none fs c fuel : forall main g s,
  load_file_x (fun _ => None) fs c fuel main g s = load_file fs c fuel main g s.
Proof.
  induction fuel as [|k IH]; intros main g s; [reflexivity|]. cbn [load_file_x load_file].
  destruct (nth_error fs g) as [fc|]; [|reflexivity]. destruct (fsyn fc); [reflexivity|].
  rewrite (load_stmts_cong (with_ext (fun _ => None) (load_file_x (fun _ => None) fs c k false)) (load_file fs c k false));
    [reflexivity|]. intros g' s'. unfold with_ext. apply IH.
Qed.

(* Fuel bound, and each file is read once. *)
Section Once.
  Variable fs : list file.
  Variable c : cfg.
  Let n := length fs.

  (* the key set of all_models is duplicate free; fk counts the registered FILES (keys below |files|; the invented
     names of string-loaded models are above) *)
  Definition K (s : state) : Prop := NoDup (keys s).
  Definition fk (s : state) : nat := length (filter (fun x => Nat.ltb x n) (keys s)).

  Lemma filter_lt_incl_seq l : incl (filter (fun x => Nat.ltb x n) l) (seq 0 n).
  Proof. intros k Hk. apply filter_In in Hk as [_ Hk]. apply Nat.ltb_lt in Hk. apply in_seq. lia. Qed.
  Lemma K_length s : K s -> fk s <= n.
  Proof.
    intros Hnd. unfold fk.
    pose proof (NoDup_incl_length (NoDup_filter (fun x => Nat.ltb x n) Hnd) (filter_lt_incl_seq (keys s))) as H.
    rewrite seq_length in H. exact H.
  Qed.
  Lemma K_fresh_length s g : K s -> g < n -> ~ In g (keys s) -> fk s + 1 <= n.
  Proof.
    intros Hnd Hg Hni. unfold fk.
    assert (H : length (g :: filter (fun x => Nat.ltb x n) (keys s)) <= length (seq 0 n)).
    { apply NoDup_incl_length.
      - constructor; [intro H; apply filter_In in H; tauto | apply NoDup_filter; exact Hnd].
      - intros k [Hk|Hk]; [subst; apply in_seq; lia | apply filter_lt_incl_seq in Hk; exact Hk]. }
    rewrite seq_length in H. cbn [length] in H. lia.
  Qed.
  Lemma fk_mono s s' : K s -> incl (keys s) (keys s') -> fk s <= fk s'.
  Proof.
    intros Hnd Hi. unfold fk. apply NoDup_incl_length; [apply NoDup_filter; exact Hnd|].
    intros k Hk. apply filter_In in Hk as [Hk1 Hk2]. apply filter_In. split; [apply Hi; exact Hk1 | exact Hk2].
  Qed.
  Lemma fk_snoc_file l g : g < n ->
    length (filter (fun x => Nat.ltb x n) (l ++ [g])) = length (filter (fun x => Nat.ltb x n) l) + 1.
  Proof.
    intro Hg. rewrite filter_app, app_length. cbn [filter]. apply Nat.ltb_lt in Hg. rewrite Hg. reflexivity.
  Qed.
  Lemma K_dset s g v : K s -> K (set_all g v s).
  Proof.
    intros Hnd. unfold K. st_proj.
    destruct (keys_dset_cases g v (allm s)) as [[Hin ->]|[Hni ->]]; [exact Hnd | apply NoDup_snoc; assumption].
  Qed.
  Lemma K_update s m mf : K s -> K (update_in_repo m mf s).
  Proof. intros HK. unfold update_in_repo. destruct (dhas mf (allm s)); [exact HK | apply K_dset; assumption]. Qed.

  (* specification of a loader for imported files, at a given fuel *)
  Definition loader_ok (k : nat) (ld : nat -> state -> (err + nat) * state) : Prop :=
    forall g s r s', K s -> ~ In g (keys s) -> n + 1 <= k + fk s ->
      NoDup (reads s) -> incl (reads s) (keys s) -> ld g s = (r, s') ->
      r <> inl EFuel /\ NoDup (reads s') /\
      (forall m, r = inr m -> K s' /\ incl (keys s) (keys s') /\ incl (reads s') (keys s')).

  Lemma load_model_once k ld m g s r s' :
    loader_ok k ld -> K s -> n + 1 <= k + fk s -> NoDup (reads s) -> incl (reads s) (keys s) ->
    load_model ld m g s = (r, s') ->
    r <> Some EFuel /\ NoDup (reads s') /\
    (r = None -> K s' /\ incl (keys s) (keys s') /\ incl (reads s') (keys s')).
  Proof.
    intros Hld HK Hf Hnd Hinc. unfold load_model.
    destruct (dhas g (local_of m s)).
    { intro H. inversion H; subst. split; [discriminate|]. split; [exact Hnd|]. intros _.
      split; [exact HK|]. split; [apply incl_refl | exact Hinc]. }
    destruct (dget g (allm s)) as [m'|] eqn:Eg.
    { intro H. inversion H; subst. st_proj. split; [discriminate|]. split; [exact Hnd|]. intros _.
      split; [exact HK|]. split; [apply incl_refl | exact Hinc]. }
    apply dget_None_notin in Eg.
    destruct (ld g s) as [[e|m'] s1] eqn:El; destruct (Hld g s _ s1 HK Eg Hf Hnd Hinc El) as [Hnf [Hnd' Hok]].
    - intro H. inversion H; subst. split; [congruence|]. split; [exact Hnd' | discriminate].
    - intro H. inversion H; subst. destruct (Hok m' eq_refl) as [HK1 [Hi1 Hr1]].
      split; [discriminate|]. split; [st_proj; exact Hnd'|]. intros _.
      split; [apply K_dset; exact HK1|]. st_proj.
      destruct (keys_dset_cases g m' (allm s1)) as [[_ ->]|[_ ->]]; [split; assumption|].
      split; [apply incl_appl; exact Hi1 | apply incl_appl; exact Hr1].
  Qed.

  Lemma load_files_once k ld m gs : forall s r s',
    loader_ok k ld -> K s -> n + 1 <= k + fk s -> NoDup (reads s) -> incl (reads s) (keys s) ->
    load_files ld m gs s = (r, s') ->
    r <> Some EFuel /\ NoDup (reads s') /\
    (r = None -> K s' /\ incl (keys s) (keys s') /\ incl (reads s') (keys s')).
  Proof.
    induction gs as [|g gs IH]; intros s r s' Hld HK Hf Hnd Hinc; cbn.
    - intro H. inversion H; subst. split; [discriminate|]. split; [exact Hnd|]. intros _.
      split; [exact HK|]. split; [apply incl_refl | exact Hinc].
    - destruct (load_model ld m g s) as [r1 s1] eqn:E1.
      destruct (load_model_once _ _ _ _ _ _ _ Hld HK Hf Hnd Hinc E1) as [Hnf [Hnd1 Hok]].
      destruct r1 as [e|].
      + intro H. inversion H; subst. split; [exact Hnf|]. split; [exact Hnd1 | discriminate].
      + destruct (Hok eq_refl) as [HK1 [Hi1 Hr1]]. intro H.
        assert (Hlen : fk s <= fk s1) by (apply fk_mono; assumption).
        destruct (IH s1 r s' Hld HK1 ltac:(lia) Hnd1 Hr1 H) as [Hnf2 [Hnd2 Hok2]].
        split; [exact Hnf2|]. split; [exact Hnd2|]. intro Hr. destruct (Hok2 Hr) as [HK2 [Hi2 Hr2]].
        split; [exact HK2|]. split; [eapply incl_tran; eassumption | exact Hr2].
  Qed.

  Lemma load_stmts_once k ld m mf stmts : forall s r s',
    loader_ok k ld -> K s ->
    n + 1 <= k + fk (update_in_repo m mf s) ->
    NoDup (reads s) -> (forall x, In x (reads s) -> In x (keys s) \/ x = mf) ->
    load_stmts ld m mf stmts s = (r, s') ->
    r <> Some EFuel /\ NoDup (reads s') /\
    (r = None -> K s' /\ incl (keys s) (keys s') /\ (forall x, In x (reads s') -> In x (keys s') \/ x = mf)).
  Proof.
    induction stmts as [|gs rest IH]; intros s r s' Hld HK Hf Hnd Hinc; cbn.
    - intro H. inversion H; subst. split; [discriminate|]. split; [exact Hnd|]. intros _.
      split; [exact HK|]. split; [apply incl_refl | exact Hinc].
    - pose proof (K_update s m mf HK) as HK1.
      destruct (keys_update_in_repo m mf s) as [Hin1 [Hi1 _]].
      assert (Hr1 : incl (reads (update_in_repo m mf s)) (keys (update_in_repo m mf s))).
      { rewrite reads_update_in_repo. intros x Hx. destruct (Hinc x Hx) as [H|H]; [apply Hi1; exact H | subst; exact Hin1]. }
      assert (Hnd1 : NoDup (reads (update_in_repo m mf s))) by (rewrite reads_update_in_repo; exact Hnd).
      destruct gs as [|g0 gs0].
      + intro H. inversion H; subst. split; [discriminate|]. split; [exact Hnd1 | discriminate].
      + destruct (load_files ld m (g0 :: gs0) (update_in_repo m mf s)) as [r2 s2] eqn:E2.
        destruct (load_files_once _ _ _ _ _ _ _ Hld HK1 Hf Hnd1 Hr1 E2) as [Hnf2 [Hnd2 Hok2]].
        destruct r2 as [e|].
        * intro H. inversion H; subst. split; [exact Hnf2|]. split; [exact Hnd2 | discriminate].
        * destruct (Hok2 eq_refl) as [HK2 [Hi2 Hr2]]. intro H.
          assert (Hlen : fk (update_in_repo m mf s) <= fk s2) by (apply fk_mono; assumption).
          assert (Hin2 : In mf (keys s2)) by (apply Hi2; exact Hin1).
          assert (Hf2 : n + 1 <= k + fk (update_in_repo m mf s2)).
          { destruct (keys_update_in_repo m mf s2) as [_ [Hi3 _]].
            assert (fk s2 <= fk (update_in_repo m mf s2)) by (apply fk_mono; assumption). lia. }
          destruct (IH s2 r s' Hld HK2 Hf2 Hnd2 ltac:(intros x Hx; left; apply Hr2; exact Hx) H) as [Hnf3 [Hnd3 Hok3]].
          split; [exact Hnf3|]. split; [exact Hnd3|]. intro Hr. destruct (Hok3 Hr) as [HK3 [Hi3 Hr3]].
          split; [exact HK3|]. split; [|exact Hr3]. eapply incl_tran; [exact Hi1|]. eapply incl_tran; eassumption.
  Qed.

  Lemma load_imports_once k ld m mf fc s r s' :
    loader_ok k ld -> K s -> n + 1 <= k + fk (update_in_repo m mf s) ->
    NoDup (reads s) -> (forall x, In x (reads s) -> In x (keys s) \/ x = mf) ->
    (if (clazy c && is_nil (frefs fc))%bool then (None, s) else load_stmts ld m mf (fimports fc) s) = (r, s') ->
    r <> Some EFuel /\ NoDup (reads s') /\
    (r = None -> K s' /\ incl (keys s) (keys s') /\ (forall x, In x (reads s') -> In x (keys s') \/ x = mf)).
  Proof.
    intros Hld HK Hf Hnd Hinc. destruct (clazy c && is_nil (frefs fc))%bool; [|exact (load_stmts_once k ld m mf (fimports fc) s r s' Hld HK Hf Hnd Hinc)].
    intro H. inversion H; subst. split; [discriminate|]. split; [exact Hnd|]. intros _. split; [exact HK|]. split; [apply incl_refl | exact Hinc].
  Qed.

  (* the fuel never runs out as long as fuel + |registered files| exceeds the number of files; a file served by the
     external cache is not read at all *)
  Lemma load_file_x_once xc fuel : forall main g s r s',
    K s -> ~ In g (keys s) -> n + 1 <= fuel + fk s ->
    NoDup (reads s) -> incl (reads s) (keys s) ->
    load_file_x xc fs c fuel main g s = (r, s') ->
    r <> inl EFuel /\ NoDup (reads s') /\
    (forall m, r = inr m ->
       K s' /\ incl (keys s) (keys s') /\ (main = false -> In g (keys s') /\ incl (reads s') (keys s'))).
  Proof.
    induction fuel as [|k IH]; intros main g s r s' HK Hg Hf Hnd Hinc.
    { exfalso. pose proof (K_length s HK). (* fuel 0: n + 1 <= fk <= n *) lia. }
    cbn [load_file_x].
    destruct (nth_error fs g) as [fc|] eqn:Efc.
    2:{ intro H. inversion H; subst. split; [discriminate|]. split; [exact Hnd | discriminate]. }
    assert (Hgn : g < n) by (apply nth_error_Some; congruence).
    assert (Hfresh : ~ In g (reads s)) by (intro H; apply Hg, Hinc, H).
    assert (Hnd1 : NoDup (reads s ++ [g])) by (apply NoDup_snoc; assumption).
    destruct (fsyn fc).
    { intro H. inversion H; subst. split; [discriminate|]. split; [exact Hnd1 | discriminate]. }
    rewrite src_register_before.
    set (s1 := with_reads s (reads s ++ [g])).
    set (mid := length (heap s1)).
    set (s2 := alloc g fc s1).
    set (s3 := if (main && negb (cglobal c))%bool then s2 else set_all g mid s2).
    assert (HK3 : K s3).
    { subst s3. destruct (main && negb (cglobal c))%bool; [exact HK | apply K_dset; exact HK]. }
    assert (Hkeys3 : (keys s3 = keys s /\ (main && negb (cglobal c))%bool = true) \/
                     (keys s3 = keys s ++ [g] /\ (main && negb (cglobal c))%bool = false)).
    { subst s3. destruct (main && negb (cglobal c))%bool; [left; split; reflexivity|]. right. split; [|reflexivity].
      st_proj. apply keys_dset_notin. exact Hg. }
    assert (Hreads3 : reads s3 = reads s ++ [g]).
    { subst s3. destruct (main && negb (cglobal c))%bool; reflexivity. }
    assert (Hld : loader_ok k (with_ext xc (load_file_x xc fs c k false))).
    { intros g' s0 r0 s0' HK' Hg' Hf' Hnd' Hinc'. unfold with_ext. destruct (xc g').
      { intro H. inversion H; subst. split; [discriminate|]. split; [exact Hnd'|]. intros m0 _. split; [exact HK'|]. split; [apply incl_refl | exact Hinc']. }
      intro E. destruct (IH false g' s0 r0 s0' HK' Hg' Hf' Hnd' Hinc' E) as [A [B C]].
      split; [exact A|]. split; [exact B|]. intros m Hm. destruct (C m Hm) as [C1 [C2 C3]]. destruct (C3 eq_refl) as [_ D2]. auto. }
    assert (Hpre3 : forall x, In x (reads s3) -> In x (keys s3) \/ x = g).
    { rewrite Hreads3. intros x Hx. apply in_app_or in Hx as [Hx|[Hx|[]]]; [left|right; auto].
      destruct Hkeys3 as [[-> _]|[-> _]]; [apply Hinc, Hx | apply in_or_app; left; apply Hinc, Hx]. }
    assert (Hf3 : n + 1 <= k + fk (update_in_repo mid g s3)).
    { destruct (keys_update_in_repo mid g s3) as [Hin [Hi Hc]].
      destruct Hkeys3 as [[E _]|[E _]].
      - destruct Hc as [Hc|[Hni Hc]].
        + exfalso. rewrite Hc, E in Hin. tauto.
        + unfold fk in *. rewrite Hc, E, fk_snoc_file by exact Hgn. lia.
      - assert (H : fk s3 <= fk (update_in_repo mid g s3)) by (apply fk_mono; assumption).
        unfold fk in *. rewrite E, fk_snoc_file in H by exact Hgn. lia. }
    assert (Hnd3 : NoDup (reads s3)) by (rewrite Hreads3; exact Hnd1).
    destruct (if (clazy c && is_nil (frefs fc))%bool then (None, s3)
              else load_stmts (with_ext xc (load_file_x xc fs c k false)) mid g (fimports fc) s3) as [r4 s4] eqn:E4.
    destruct (load_imports_once _ _ _ _ _ _ _ _ Hld HK3 Hf3 Hnd3 Hpre3 E4) as [Hnf [Hnd4 Hok]].
    destruct r4 as [e|].
    { intro H. inversion H; subst. split; [congruence|]. split; [rewrite reads_handler; exact Hnd4 | discriminate]. }
    destruct (Hok eq_refl) as [HK4 [Hi4 Hr4]].
    assert (Hincl : incl (keys s) (keys s4)).
    { eapply incl_tran; [|exact Hi4]. destruct Hkeys3 as [[-> _]|[-> _]]; [apply incl_refl | apply incl_appl, incl_refl]. }
    assert (Hmainfalse : main = false -> In g (keys s4) /\ incl (reads s4) (keys s4)).
    { intro Hm. subst main. destruct Hkeys3 as [[_ E]|[E _]].
      - discriminate E.
      - assert (Hg4 : In g (keys s4)) by (apply Hi4; rewrite E; apply in_or_app; right; left; reflexivity).
        split; [exact Hg4|]. intros x Hx. destruct (Hr4 x Hx) as [H|H]; [exact H | subst; exact Hg4]. }
    destruct main.
    - intro H. inversion H; subst. split; [discriminate|]. split; [exact Hnd4|]. intros m _. split; [exact HK4|]. split; [exact Hincl | discriminate].
    - destruct (fmp fc); intro H; inversion H; subst.
      + split; [discriminate|]. split; [exact Hnd4 | discriminate].
      + split; [discriminate|]. split; [exact Hnd4|]. intros m _. split; [exact HK4|]. split; [exact Hincl | exact Hmainfalse].
  Qed.
  Lemma load_file_loader_ok k : loader_ok k (load_file fs c k false).
  Proof.
    intros g s r s' HK Hg Hf Hnd Hinc E. rewrite <- load_file_x_none in E.
    destruct (load_file_x_once (fun _ => None) k false g s r s' HK Hg Hf Hnd Hinc E) as [A [B C]].
    split; [exact A|]. split; [exact B|]. intros m Hm. destruct (C m Hm) as [C1 [C2 C3]]. destruct (C3 eq_refl) as [_ D2]. auto.
  Qed.
End Once.

(* resolution does not touch the repositories *)
Lemma resolve_all_frame c models : forall s s', resolve_all c models s = inr s' ->
  reads s' = reads s /\ allm s' = allm s /\ heap s' = heap s /\ locals s' = locals s /\ constr s' = constr s.
Proof.
  induction models as [|x t IH]; intros s s'; cbn.
  - intro H. inversion H. auto.
  - destruct (resolve_refs c s x (refs_of x s)); [|discriminate]. intro H. apply IH in H. cbn in H. exact H.
Qed.

Notation ltn n := (fun x : nat => Nat.ltb x n).
Notation keyltn n := (fun kv : nat * list (option (nat * nat)) => Nat.ltb (fst kv) n).

Lemma targets_handler m s : targets (handler m s) = targets s.
Proof. apply (handler_proj targets). reflexivity. Qed.
Lemma curop_handler m s : curop (handler m s) = curop s.
Proof. apply (handler_proj curop). reflexivity. Qed.

Lemma filter_dset_high {A} n x (v : A) l : n <= x ->
  filter (fun kv => Nat.ltb (fst kv) n) (dset x v l) = filter (fun kv => Nat.ltb (fst kv) n) l.
Proof.
  intro Hx. assert (Hf : Nat.ltb x n = false) by (apply Nat.ltb_ge; exact Hx).
  induction l as [|[k w] l IH]; cbn [dset filter fst].
  - rewrite Hf. reflexivity.
  - destruct (Nat.eqb x k) eqn:E; cbn [filter fst].
    + apply Nat.eqb_eq in E. subst k. rewrite Hf. reflexivity.
    + rewrite IH. reflexivity.
Qed.

Lemma resolve_all_old c n models : forall s s', (forall x, In x models -> n <= x) -> resolve_all c models s = inr s' ->
  filter (keyltn n) (targets s') = filter (keyltn n) (targets s) /\ curop s' = curop s.
Proof.
  induction models as [|x t IH]; intros s s' Hm; cbn.
  - intro H. inversion H. auto.
  - destruct (resolve_refs c s x (refs_of x s)) as [tg|]; [|discriminate]. intro H.
    apply IH in H; [|intros y Hy; apply Hm; right; exact Hy]. destruct H as [H1 H2]. split; [|exact H2].
    etransitivity; [exact H1|]. cbn [targets with_targets]. apply filter_dset_high. apply Hm. left. reflexivity.
Qed.

Lemma filter_filter_low n (p : nat -> bool) l : (forall x, x < n -> p x = true) -> filter (ltn n) (filter p l) = filter (ltn n) l.
Proof.
  intro H. induction l as [|a l IH]; cbn [filter]; [reflexivity|].
  destruct (Nat.ltb a n) eqn:E.
  - pose proof E as E'. apply Nat.ltb_lt in E'. rewrite (H a E'). cbn [filter]. rewrite E, IH. reflexivity.
  - destruct (p a); cbn [filter]; rewrite ?E; exact IH.
Qed.

Lemma resolve_all_nofuel c models : forall s e, resolve_all c models s = inl e -> e <> EFuel.
Proof.
  induction models as [|x t IH]; intros s e; cbn; [discriminate|].
  destruct (resolve_refs c s x (refs_of x s)); [apply IH|]. intro H. inversion H. discriminate.
Qed.
Lemma first_obj_fail_nofuel models s e : first_obj_fail models s = Some e -> e <> EFuel.
Proof.
  induction models as [|x t IH]; cbn; [discriminate|]. destruct (flag_of fobj x s); [|exact IH].
  intro H. inversion H. discriminate.
Qed.

(* The end of a top-level load, once: resolution and _end_model_construction lead from s1 to a state s3 that differs
   from s1 in the construction marks of the models of this load and in their reference targets only; the result is
   s3, or s3 after one of the cleanups, which only remove entries from the repositories. *)
Lemma finish_main_cases c f m cached s1 r s' :
  finish_main c f m cached s1 = (r, s') ->
  exists s3,
    (reads s3 = reads s1 /\ allm s3 = allm s1 /\ heap s3 = heap s1 /\ locals s3 = locals s1 /\ curop s3 = curop s1) /\
    (constr s3 = constr s1 \/ constr s3 = filter (fun x => negb (mem x (filter (fun x => mem x (constr s1)) (included m s1)))) (constr s1)) /\
    (forall n, (forall x, In x (filter (fun x => mem x (constr s1)) (included m s1)) -> n <= x) -> filter (keyltn n) (targets s3) = filter (keyltn n) (targets s1)) /\
    ((exists e, r = inl e /\ e <> EFuel /\ s' = handler m (remove_from_repos (filter (fun x => mem x (constr s1)) (included m s1)) (filter (fun x => mem x (constr s1)) (included m s1)) s3)) \/
     (r = inl (EMp f) /\
      s' = remove_from_repos (filter (fun x => negb (mem x cached)) (included m s3)) (filter (fun x => negb (mem x cached)) (included m s3)) s3) \/
     (r = inr m /\ s' = s3 /\ constr s3 = filter (fun x => negb (mem x (filter (fun x => mem x (constr s1)) (included m s1)))) (constr s1))).
Proof.
  unfold finish_main. rewrite src_cleanup_inner, src_cleanup_mp. set (models := filter (fun x => mem x (constr s1)) (included m s1)).
  destruct (resolve_all c models s1) as [e1|s2] eqn:Er.
  { intro H. inversion H; subst. exists s1. split; [auto|]. split; [auto|]. split; [auto|]. left. exists e1.
    split; [reflexivity|]. split; [exact (resolve_all_nofuel _ _ _ _ Er) | reflexivity]. }
  destruct (resolve_all_old c 0 models s1 s2 (fun x _ => Nat.le_0_l x) Er) as [_ Eo].
  pose proof (fun n H => proj1 (resolve_all_old c n models s1 s2 H Er)) as Et.
  apply resolve_all_frame in Er. destruct Er as [Erd [Ea [Eh [El Ec]]]].
  set (s3 := with_constr s2 (filter (fun x => negb (mem x models)) (constr s2))).
  assert (Ec3 : constr s3 = filter (fun x => negb (mem x models)) (constr s1)) by (subst s3; cbn [constr with_constr]; rewrite Ec; reflexivity).
  intro H. exists s3. split; [auto|]. split; [auto|]. split; [exact Et|].
  destruct (first_obj_fail models s3) as [e|] eqn:Eo'.
  { inversion H; subst. left. exists e. split; [reflexivity|]. split; [exact (first_obj_fail_nofuel _ _ _ Eo') | reflexivity]. }
  destruct (flag_of fmp m s3); inversion H; subst; auto.
Qed.

Lemma reads_finish_main c f m cached s : reads (snd (finish_main c f m cached s)) = reads s.
Proof.
  destruct (finish_main c f m cached s) as [r s'] eqn:E.
  destruct (finish_main_cases _ _ _ _ _ _ _ E) as [s3 [[Er _] [_ [_ [[e [_ [_ ->]]]|[[_ ->]|[_ [-> _]]]]]]]]; cbn [snd];
    rewrite ?reads_handler, ?reads_remove_from_repos; exact Er.
Qed.
Lemma fst_finish_main_nofuel c f m cached s : fst (finish_main c f m cached s) <> inl EFuel.
Proof.
  destruct (finish_main c f m cached s) as [r s'] eqn:E.
  destruct (finish_main_cases _ _ _ _ _ _ _ E) as [s3 [_ [_ [_ [[e [-> [He _]]]|[[-> _]|[-> _]]]]]]]; cbn [fst];
    [congruence | discriminate | discriminate].
Qed.

(* C17, first part: a top-level load never runs out of its fuel |files|+1, and opens no file twice - whatever
   the other languages' repositories hold. *)
Theorem load_main_x_once_raw x xvals fs c f s :
  K (begin_op c s) ->
  fst (load_main_x_raw x xvals fs c f s) <> inl EFuel /\ NoDup (reads (snd (load_main_x_raw x xvals fs c f s))).
Proof.
  intro HK. unfold load_main_x_raw.
  set (s0 := begin_op c s) in *.
  assert (Hr0 : reads s0 = []) by reflexivity.
  destruct (if cglobal c then dget f (allm s0) else None) as [m|] eqn:Ec.
  { destruct (model_processors_on_cached && flag_of fmp m s0)%bool; cbn [fst snd]; rewrite Hr0; split; try discriminate; constructor. }
  assert (Hf : ~ In f (keys s0)).
  { destruct (cglobal c) eqn:Eg; [apply dget_None_notin; exact Ec|]. subst s0. unfold begin_op. rewrite Eg. cbn. tauto. }
  destruct (load_file_x x fs c (S (length fs)) true f s0) as [r1 s1] eqn:E1.
  destruct (load_file_x_once fs c x (S (length fs)) true f s0 r1 s1 HK Hf ltac:(lia)
              ltac:(rewrite Hr0; constructor) ltac:(rewrite Hr0; intros y []) E1) as [A [B _]].
  destruct r1 as [e|m]; cbn [fst snd] in *.
  - split; assumption.
  - split; [apply fst_finish_main_nofuel | rewrite reads_finish_main; exact B].
Qed.

Lemma load_main_x_raw_none fs c f s : load_main_x_raw (fun _ => None) [] fs c f s = load_main_raw fs c f s.
Proof. unfold load_main_x_raw, load_main_raw. rewrite load_file_x_none, app_nil_r. reflexivity. Qed.

Theorem load_main_once_raw fs c f s :
  K (begin_op c s) ->
  fst (load_main_raw fs c f s) <> inl EFuel /\ NoDup (reads (snd (load_main_raw fs c f s))).
Proof. rewrite <- load_main_x_raw_none. apply load_main_x_once_raw. Qed.

Lemma last_key_of_None v l : ~ In v (map snd l) -> last_key_of v l = None.
Proof.
  induction l as [|[k v'] t IH]; cbn; [reflexivity|]. intro H.
  rewrite IH by tauto. destruct (Nat.eqb v' v) eqn:E; [apply Nat.eqb_eq in E; subst; tauto | reflexivity].
Qed.
Lemma last_key_of_In v l k : last_key_of v l = Some k -> In k (map fst l).
Proof.
  induction l as [|[k' v'] t IH]; cbn; [discriminate|].
  destruct (last_key_of v t) as [k2|].
  - intro H. inversion H. subst. right. apply IH. reflexivity.
  - destruct (Nat.eqb v' v); [|discriminate]. intro H. inversion H. auto.
Qed.
Lemma last_key_of_val v l k : last_key_of v l = Some k -> In v (map snd l).
Proof.
  revert k. induction l as [|[k' v'] t IH]; intros k; cbn; [discriminate|].
  destruct (last_key_of v t) as [k2|].
  - intros _. right. eapply IH. reflexivity.
  - destruct (Nat.eqb v' v) eqn:E; [|discriminate]. apply Nat.eqb_eq in E. auto.
Qed.
Definition keep_not (v : nat) (kv : nat * nat) : bool := negb (Nat.eqb (snd kv) v).
Definition keep_none (rem : list nat) (kv : nat * nat) : bool := negb (mem (snd kv) rem).

Lemma remove_model_absent v l : ~ In v (map snd l) -> remove_model v l = l.
Proof. intro H. unfold remove_model. rewrite last_key_of_None by exact H. reflexivity. Qed.

Lemma remove_model_filter v l : NoDup (map fst l) -> NoDup (map snd l) -> remove_model v l = filter (keep_not v) l.
Proof.
  induction l as [|[k v'] t IH]; [reflexivity|]. cbn [map fst snd]. intros Hk Hv.
  inversion Hk as [|? ? Hkn Hk']; inversion Hv as [|? ? Hvn Hv']; subst.
  unfold remove_model. cbn [last_key_of filter]. unfold keep_not at 1. cbn [snd].
  destruct (last_key_of v t) as [k2|] eqn:El.
  - assert (Hk2 : In k2 (map fst t)) by (eapply last_key_of_In; eassumption).
    assert (Hne : v' <> v).
    { intro; subst v'. apply Hvn. eapply last_key_of_val. eassumption. }
    apply Nat.eqb_neq in Hne. rewrite Hne. cbn [negb ddel].
    destruct (Nat.eqb k2 k) eqn:E; [apply Nat.eqb_eq in E; subst; tauto|].
    f_equal. specialize (IH Hk' Hv'). unfold remove_model in IH. rewrite El in IH. exact IH.
  - destruct (Nat.eqb v' v) eqn:E; cbn [negb].
    + cbn [ddel]. rewrite Nat.eqb_refl. apply Nat.eqb_eq in E. subst v'.
      symmetry. apply filter_all. intros [a b] Hin. unfold keep_not. cbn [snd].
      destruct (Nat.eqb b v) eqn:E2; [|reflexivity]. apply Nat.eqb_eq in E2. subst. exfalso. apply Hvn.
      apply in_map_iff. exists (a, v). auto.
    + f_equal. specialize (IH Hk' Hv'). unfold remove_model in IH. rewrite El in IH. exact IH.
Qed.

Lemma remove_models_filter rem : forall l, NoDup (map fst l) -> NoDup (map snd l) ->
  remove_models rem l = filter (keep_none rem) l.
Proof.
  unfold remove_models. induction rem as [|v rem IH]; intros l Hk Hv; cbn [fold_left].
  - symmetry. apply filter_all. intros; reflexivity.
  - rewrite remove_model_filter by assumption. rewrite IH by (apply NoDup_map_filter; assumption).
    clear. induction l as [|[a b] t IHl]; [reflexivity|]. cbn [filter]. unfold keep_not at 1, keep_none at 2. cbn [snd mem existsb].
    rewrite (Nat.eqb_sym b v). destruct (Nat.eqb v b) eqn:E; cbn [negb orb].
    + exact IHl.
    + cbn [filter]. unfold keep_none at 1. cbn [snd]. fold (mem b rem). destruct (mem b rem); cbn [negb]; [exact IHl | f_equal; exact IHl].
Qed.
Lemma remove_models_absent rem : forall l, (forall v, In v rem -> ~ In v (map snd l)) -> remove_models rem l = l.
Proof.
  unfold remove_models. induction rem as [|v rem IH]; intros l H; cbn [fold_left]; [reflexivity|].
  rewrite remove_model_absent by (apply H; left; reflexivity). apply IH. intros; apply H; right; assumption.
Qed.
Lemma filter_filter_same {A} (f : A -> bool) l : filter f (filter f l) = filter f l.
Proof. apply filter_all. intros x Hx. apply filter_In in Hx. tauto. Qed.

Lemma local_of_dset x y l s : local_of x (with_locals s (dset y l (locals s))) = if Nat.eqb y x then l else local_of x s.
Proof.
  unfold local_of. cbn [locals with_locals]. destruct (Nat.eqb y x) eqn:E.
  - apply Nat.eqb_eq in E. subst. rewrite dget_dset_same. reflexivity.
  - apply Nat.eqb_neq in E. rewrite dget_dset_other by exact E. reflexivity.
Qed.

(* remove_models_from_repositories on a well-formed all_models *)
Lemma remove_from_repos_allm models rem : forall s, NoDup (keys s) -> NoDup (vals s) -> models <> [] ->
  allm (remove_from_repos models rem s) = filter (keep_none rem) (allm s).
Proof.
  unfold remove_from_repos. induction models as [|x t IH]; intros s Hk Hv Hne; [congruence|]. cbn [fold_left].
  set (s1 := with_locals _ _).
  assert (E1 : allm s1 = filter (keep_none rem) (allm s)) by (subst s1; cbn; apply remove_models_filter; assumption).
  destruct t as [|y t']; [exact E1|].
  rewrite IH; [|rewrite E1; apply NoDup_map_filter; assumption | rewrite E1; apply NoDup_map_filter; assumption | discriminate].
  rewrite E1. apply filter_filter_same.
Qed.
Lemma remove_from_repos_local models rem x : forall s,
  (forall v, In v rem -> ~ In v (map snd (local_of x s))) ->
  local_of x (remove_from_repos models rem s) = local_of x s.
Proof.
  unfold remove_from_repos. induction models as [|y t IH]; intros s H; [reflexivity|]. cbn [fold_left].
  set (s1 := with_locals _ _).
  assert (E1 : local_of x s1 = local_of x s).
  { subst s1. rewrite (local_of_dset x y _ (with_allm s (remove_models rem (allm s)))).
    destruct (Nat.eqb y x) eqn:E; [|reflexivity]. apply Nat.eqb_eq in E. subst y.
    apply remove_models_absent. exact H. }
  rewrite IH; [exact E1 | rewrite E1; exact H].
Qed.

Lemma In_remove_models rem : forall l kv, In kv (remove_models rem l) -> In kv l.
Proof.
  unfold remove_models. induction rem as [|v rem IH]; intros l kv; cbn [fold_left]; [auto|].
  intro H. apply IH in H. unfold remove_model in H. destruct (last_key_of v l); [eapply In_ddel; eassumption | exact H].
Qed.

Lemma In_dset_inv {A} (g : nat) (v : A) l g' t : In (g', t) (dset g v l) -> (g' = g /\ t = v) \/ In (g', t) l.
Proof.
  induction l as [|[a b] l IH]; cbn.
  - intros [H|[]]. inversion H. auto.
  - destruct (Nat.eqb g a); cbn.
    + intros [H|H]; [inversion H; auto | right; right; exact H].
    + intros [H|H]; [right; left; exact H|]. destruct (IH H) as [H1|H1]; [left; exact H1 | right; right; exact H1].
Qed.

Lemma included_nonempty m s : included m s <> [].
Proof.
  unfold included. destruct (mem m (vals s)) eqn:E.
  - apply mem_In in E. intro H. rewrite H in E. destruct E.
  - intro H. apply app_eq_nil in H as [_ H]. discriminate.
Qed.
Lemma In_included x m s : In x (included m s) <-> In x (vals s) \/ x = m.
Proof.
  unfold included. destruct (mem m (vals s)) eqn:E.
  - apply mem_In in E. split; [auto|]. intros [H | ->]; assumption.
  - rewrite in_app_iff. cbn. intuition.
Qed.

Lemma remove_from_repos_loc_sub models rem : forall s x g t,
  In (g, t) (local_of x (remove_from_repos models rem s)) -> In (g, t) (local_of x s).
Proof.
  unfold remove_from_repos. induction models as [|y ys IH]; intros s x g t; cbn [fold_left]; [auto|].
  intro H. apply IH in H. rewrite (local_of_dset x y _ (with_allm s (remove_models rem (allm s)))) in H.
  destruct (Nat.eqb y x) eqn:E; [|exact H]. apply Nat.eqb_eq in E. subst y. eapply In_remove_models. exact H.
Qed.

Lemma local_of_ext s s' x : locals s' = locals s -> local_of x s' = local_of x s.
Proof. unfold local_of. intros ->. reflexivity. Qed.

Lemma set_all_same g m s : dget g (allm s) = Some m -> allm (set_all g m s) = allm s.
Proof. intro H. st_proj. apply dset_same. exact H. Qed.

Lemma m_lt_heap s m (mi : minfo) : nth_error (heap s) m = Some mi -> m < length (heap s).
Proof. intro H. apply nth_error_Some. congruence. Qed.

Definition Pres (s s' : state) : Prop := forall k v, dget k (allm s) = Some v -> dget k (allm s') = Some v.
Lemma Pres_refl s : Pres s s. Proof. intros k v H; exact H. Qed.
Lemma Pres_trans s s1 s2 : Pres s s1 -> Pres s1 s2 -> Pres s s2. Proof. intros A B k v H. auto. Qed.

(* The whole load phase is followed once, for the loader with an external cache x (the other languages' global
   repositories: file -> cached model); the single-language loader is x = fun _ => None (load_file_x_none). *)
Section Clean.
  Variable fs : list file.
  Variable c : cfg.
  Variable n0 : nat.     (* number of model objects that existed when the top-level load began *)
  Variable x : nat -> option nat.
  Notation ltn0 := (fun y : nat => Nat.ltb y n0).

  Definition is_old (kv : nat * nat) : bool := Nat.ltb (snd kv) n0.
  Definition old (s : state) : list (nat * nat) := filter is_old (allm s).
  Definition file_ok (s : state) : Prop :=
    forall k v, In (k, v) (allm s) -> exists mi, nth_error (heap s) v = Some mi /\ mfile mi = k.

  Record Inv (s : state) : Prop := mkInv {
    inv_n0 : n0 <= length (heap s);
    inv_keys : NoDup (keys s);
    inv_vals : NoDup (vals s);
    inv_file : file_ok s;
    inv_old : forall k v, In (k, v) (allm s) -> v < n0 -> ~ In v (constr s);
    inv_new : forall k v, In (k, v) (allm s) -> n0 <= v -> In v (constr s);
    inv_oldloc : forall y g t, y < n0 -> In (g, t) (local_of y s) -> t < n0;
    inv_loc : forall y g t, In (g, t) (local_of y s) -> y < length (heap s) /\ t < length (heap s) }.

  (* entries handed out by the cache *)
  Definition from_x (l : list (nat * nat)) : Prop := forall kv, In kv l -> x (fst kv) = Some (snd kv).

  (* What a stretch of the load phase does to the state it started from.  The entries of earlier models are never
     lost and never reordered; the only ones that can be ADDED are models taken from the cache (st_old).  Without a
     cache that clause says old s' = old s, which is what makes a failed load restore all_models exactly. *)
  Record Step (s s' : state) : Prop := mkStep {
    st_inv : Inv s';
    st_old : exists l, old s' = old s ++ l /\ from_x l;
    st_loc : forall y, y < n0 -> local_of y s' = local_of y s;
    st_heap : forall v mi, nth_error (heap s) v = Some mi -> nth_error (heap s') v = Some mi;
    st_constr : incl (constr s) (constr s');
    st_cold : filter ltn0 (constr s') = filter ltn0 (constr s);
    st_tgt : targets s' = targets s;
    st_curop : curop s' = curop s }.
  Arguments st_inv {s s'} _. Arguments st_old {s s'} _. Arguments st_loc {s s'} _. Arguments st_heap {s s'} _.
  Arguments st_constr {s s'} _. Arguments st_cold {s s'} _. Arguments st_tgt {s s'} _. Arguments st_curop {s s'} _.

  (* the cache hands out models that existed before the load, are complete, and are models of that file *)
  Definition ext_ok (s : state) : Prop :=
    forall g m', x g = Some m' ->
      m' < n0 /\ ~ In m' (constr s) /\ exists mi, nth_error (heap s) m' = Some mi /\ mfile mi = g.

  Lemma Inv_ext s s' : heap s' = heap s -> allm s' = allm s -> constr s' = constr s -> locals s' = locals s -> Inv s -> Inv s'.
  Proof.
    intros Eh Ea Ec El [A B C D E F G H]. constructor; unfold file_ok in *; rewrite ?Eh, ?Ea, ?Ec; auto.
    - intros y g t. rewrite (local_of_ext s s' y El). apply G.
    - intros y g t. rewrite (local_of_ext s s' y El). apply H.
  Qed.
  Lemma old_same s s' : old s' = old s -> exists l, old s' = old s ++ l /\ from_x l.
  Proof. intro E. exists []. rewrite app_nil_r. split; [exact E | intros kv []]. Qed.
  Lemma Step_refl s : Inv s -> Step s s.
  Proof. intro H. constructor; auto using incl_refl, old_same. Qed.
  Lemma Step_trans s s1 s2 : Step s s1 -> Step s1 s2 -> Step s s2.
  Proof.
    intros [A [l [B Bx]] C D E F G H] [A' [l' [B' Bx']] C' D' E' F' G' H']. constructor.
    - exact A'.
    - exists (l ++ l'). split; [rewrite B', B, app_assoc; reflexivity|].
      intros kv Hin. apply in_app_or in Hin as [Hin|Hin]; auto.
    - intros y Hy. rewrite C', C; auto.
    - auto.
    - eapply incl_tran; eassumption.
    - congruence.
    - congruence.
    - congruence.
  Qed.
  Lemma Step_ext s s1 s2 : Step s s1 -> heap s2 = heap s1 -> allm s2 = allm s1 -> constr s2 = constr s1 -> locals s2 = locals s1 ->
    targets s2 = targets s1 -> curop s2 = curop s1 -> Step s s2.
  Proof.
    intros [A B C D E F G H] Eh Ea Ec El Et Eo. constructor.
    - eapply Inv_ext; eassumption.
    - unfold old in *. rewrite Ea. exact B.
    - intros y Hy. rewrite (local_of_ext s1 s2 y El). auto.
    - rewrite Eh. exact D.
    - rewrite Ec. exact E.
    - rewrite Ec. exact F.
    - rewrite Et. exact G.
    - rewrite Eo. exact H.
  Qed.
  Lemma Step_prov s s' kv : Step s s' -> In kv (old s') -> In kv (old s) \/ x (fst kv) = Some (snd kv).
  Proof. intros [_ [l [E Hx]] _ _ _ _ _ _]. rewrite E. intro Hin. apply in_app_or in Hin as [Hin|Hin]; auto. Qed.

  Lemma all_old_eq s : (forall kv, In kv (allm s) -> is_old kv = true) -> old s = allm s.
  Proof. apply filter_all. Qed.
  Lemma old_all_old s kv : In kv (old s) -> is_old kv = true.
  Proof. intro H. apply filter_In in H as [_ H]. exact H. Qed.
  Lemma old_old s : filter is_old (old s) = old s.
  Proof. unfold old. apply filter_filter_same. Qed.

  Lemma ext_ok_step s s' : Step s s' -> ext_ok s -> ext_ok s'.
  Proof.
    intros Hst HX g m' Hx. destruct (HX g m' Hx) as [Hlt [Hc [mi [Hh Hf]]]].
    split; [exact Hlt|]. split.
    - intro Hin. apply Hc.
      assert (H : In m' (filter ltn0 (constr s'))) by (apply filter_In; split; [exact Hin | apply Nat.ltb_lt; exact Hlt]).
      rewrite (st_cold Hst) in H. apply filter_In in H. tauto.
    - exists mi. split; [apply (st_heap Hst); exact Hh | exact Hf].
  Qed.

  Lemma Step_set_local s m g v : Inv s -> n0 <= m -> m < length (heap s) -> v < length (heap s) -> Step s (set_local m g v s).
  Proof.
    intros HI Hm Hml Hv.
    assert (Hloc : forall y, y <> m -> local_of y (set_local m g v s) = local_of y s).
    { intros y Hy. unfold set_local. rewrite local_of_dset. destruct (Nat.eqb m y) eqn:E; [apply Nat.eqb_eq in E; congruence | reflexivity]. }
    assert (Hlm : forall g' t, In (g', t) (local_of m (set_local m g v s)) -> In (g', t) (local_of m s) \/ t = v).
    { intros g' t. unfold set_local. rewrite local_of_dset, Nat.eqb_refl. intro Hin. apply In_dset_inv in Hin. tauto. }
    destruct HI as [A B C D E F G H].
    constructor; [constructor; auto| apply old_same; reflexivity | | auto | apply incl_refl | reflexivity | reflexivity | reflexivity].
    - intros y g' t Hy. rewrite Hloc by lia. apply G. exact Hy.
    - intros y g' t. destruct (Nat.eq_dec y m) as [->|Hne].
      + intro Hin. apply Hlm in Hin as [Hin| ->]; [eapply H; eassumption | split; [exact Hml | exact Hv]].
      + rewrite Hloc by exact Hne. apply H.
    - intros y Hy. apply Hloc. lia.
  Qed.

  Lemma Step_alloc s g fc : Inv s -> Step s (alloc g fc s).
  Proof.
    intros [A B C D E F G H].
    assert (Hh : forall v mi, nth_error (heap s) v = Some mi -> nth_error (heap s ++ [mkMinfo g (curop s) fc]) v = Some mi).
    { intros v mi Hv. rewrite nth_error_app1; [exact Hv | apply nth_error_Some; congruence]. }
    constructor; [constructor| apply old_same; reflexivity | reflexivity | exact Hh | | | reflexivity | reflexivity];
      cbn [heap constr allm alloc with_heap with_constr].
    - rewrite app_length. lia.
    - exact B.
    - exact C.
    - intros k v Hin. destruct (D k v Hin) as [mi [H1 H2]]. exists mi. split; [apply Hh; exact H1 | exact H2].
    - intros k v Hin Hv [Hc|Hc]; [lia | eapply E; eassumption].
    - intros k v Hin Hv. right. eapply F; eassumption.
    - exact G.
    - intros y g' t Hin. rewrite app_length. destruct (H y g' t Hin). split; lia.
    - apply incl_tl, incl_refl.
    - cbn [filter]. replace (Nat.ltb (length (heap s)) n0) with false; [reflexivity|]. symmetry. apply Nat.ltb_ge. exact A.
  Qed.

  (* registering model m for file g, where g has no entry and m none either: m is a model of this load under
     construction (fresh), or an earlier complete model handed out by the cache *)
  Lemma Step_set_all_new s g m mi :
    Inv s -> dget g (allm s) = None -> nth_error (heap s) m = Some mi -> mfile mi = g ->
    (n0 <= m /\ In m (constr s) /\ ~ In m (vals s)) \/ (m < n0 /\ ~ In m (constr s) /\ x g = Some m) ->
    Step s (set_all g m s) /\ Pres s (set_all g m s) /\ dget g (allm (set_all g m s)) = Some m.
  Proof.
    intros [A B C D E F G H] Hg Hh Hf Hm.
    assert (Ea : allm (set_all g m s) = allm s ++ [(g, m)]) by (st_proj; apply dset_fresh; exact Hg).
    assert (Hv : ~ In m (vals s)).
    { destruct Hm as [[_ [_ Hv]]|_]; [exact Hv|].
      (* a registered model is registered under its own file *)
      intro Hin. apply in_map_iff in Hin as [[k v] [Hv Hin]]. cbn in Hv. subst v.
      destruct (D k m Hin) as [mi' [H1 H2]]. rewrite Hh in H1. inversion H1; subst mi'.
      apply dget_None_notin in Hg. apply Hg. apply in_map_iff. exists (k, m). split; [cbn; congruence | exact Hin]. }
    split; [|split].
    - constructor; [constructor|..]; rewrite ?Ea; cbn [heap constr targets curop set_all with_allm]; auto using incl_refl.
      + rewrite map_app. apply NoDup_snoc; [exact B | apply dget_None_notin; exact Hg].
      + rewrite map_app. apply NoDup_snoc; [exact C | exact Hv].
      + intros k v Hin. try rewrite Ea in Hin. apply in_app_or in Hin as [Hin|[Hin|[]]]; [apply D; exact Hin|].
        inversion Hin; subst. exists mi. auto.
      + intros k v Hin Hlt. try rewrite Ea in Hin. apply in_app_or in Hin as [Hin|[Hin|[]]]; [eapply E; eassumption|].
        inversion Hin; subst. destruct Hm as [[Hm _]|[_ [Hc _]]]; [lia | exact Hc].
      + intros k v Hin Hge. try rewrite Ea in Hin. apply in_app_or in Hin as [Hin|[Hin|[]]]; [eapply F; eassumption|].
        inversion Hin; subst. destruct Hm as [[_ [Hc _]]|[Hm _]]; [exact Hc | lia].
      + unfold old. rewrite Ea, filter_app. cbn [filter]. destruct Hm as [[Hm _]|[Hm [_ Hx]]].
        * exists []. replace (is_old (g, m)) with false by (symmetry; unfold is_old; cbn [snd]; apply Nat.ltb_ge; exact Hm).
          split; [reflexivity | intros kv []].
        * exists [(g, m)]. replace (is_old (g, m)) with true by (symmetry; unfold is_old; cbn [snd]; apply Nat.ltb_lt; exact Hm).
          split; [reflexivity | intros kv [<-|[]]; exact Hx].
    - intros k v Hk. st_proj. destruct (Nat.eq_dec g k) as [->|Hne]; [congruence | rewrite dget_dset_other; assumption].
    - st_proj. apply dget_dset_same.
  Qed.

  (* the handlers' removal, stated on the facts it needs *)
  Lemma cleanup_spec s models rem :
    NoDup (keys s) -> NoDup (vals s) -> models <> [] ->
    (forall kv, In kv (allm s) -> keep_none rem kv = is_old kv) ->
    (forall y v, y < n0 -> In v rem -> ~ In v (map snd (local_of y s))) ->
    allm (remove_from_repos models rem s) = old s /\
    (forall y, y < n0 -> local_of y (remove_from_repos models rem s) = local_of y s).
  Proof.
    intros Hk Hv Hne Hf Hl. split.
    - rewrite remove_from_repos_allm by assumption. unfold old. apply filter_ext_in. exact Hf.
    - intros y Hy. apply remove_from_repos_local. intros v Hin. apply Hl; assumption.
  Qed.

  (* any of the cleanups, applied to a state that differs from a load-phase state only in the construction marks:
     exactly the earlier models stay registered *)
  Lemma cleanup_any s1 s3 mods rem :
    Inv s1 -> heap s3 = heap s1 -> allm s3 = allm s1 -> locals s3 = locals s1 -> incl (constr s3) (constr s1) ->
    mods <> [] -> (forall kv, In kv (allm s1) -> keep_none rem kv = is_old kv) -> (forall v, In v rem -> n0 <= v) ->
    Inv (remove_from_repos mods rem s3) /\ allm (remove_from_repos mods rem s3) = old s1 /\
    (forall y, y < n0 -> local_of y (remove_from_repos mods rem s3) = local_of y s1).
  Proof.
    intros HI Eh Ea El Ec Hne Hk Hr.
    assert (Hloc3 : forall y, local_of y s3 = local_of y s1) by (intro y; apply local_of_ext; exact El).
    destruct (cleanup_spec s3 mods rem) as [Ha Hl].
    { rewrite Ea. apply (inv_keys _ HI). } { rewrite Ea. apply (inv_vals _ HI). } { exact Hne. }
    { rewrite Ea. exact Hk. }
    { intros y v Hy Hv Hin. rewrite Hloc3 in Hin. apply in_map_iff in Hin as [[g t] [<- Hin]]. apply Hr in Hv. cbn in Hv.
      pose proof (inv_oldloc _ HI y g t Hy Hin). lia. }
    assert (Ha' : allm (remove_from_repos mods rem s3) = old s1) by (rewrite Ha; unfold old; rewrite Ea; reflexivity).
    assert (Hsub : forall kv, In kv (allm (remove_from_repos mods rem s3)) -> In kv (allm s1) /\ is_old kv = true).
    { intros kv. rewrite Ha'. unfold old. intro H. apply filter_In in H. exact H. }
    split; [|split; [exact Ha'|]].
    - constructor; rewrite ?heap_remove_from_repos, ?constr_remove_from_repos, ?Eh.
      + apply (inv_n0 _ HI).
      + rewrite Ha'. apply NoDup_map_filter. apply (inv_keys _ HI).
      + rewrite Ha'. apply NoDup_map_filter. apply (inv_vals _ HI).
      + intros k v Hin. apply Hsub in Hin as [Hin _]. destruct (inv_file _ HI k v Hin) as [mi Hmi]. exists mi.
        rewrite heap_remove_from_repos, Eh. exact Hmi.
      + intros k v Hin Hlt Hc. apply Hsub in Hin as [Hin _]. apply Ec in Hc. eapply (inv_old _ HI); eassumption.
      + intros k v Hin Hge. apply Hsub in Hin as [_ Ho]. unfold is_old in Ho. cbn in Ho. apply Nat.ltb_lt in Ho. lia.
      + intros y g t Hy Hin. rewrite Hl, Hloc3 in Hin by exact Hy. eapply (inv_oldloc _ HI); eassumption.
      + intros y g t Hin. apply remove_from_repos_loc_sub in Hin. rewrite Hloc3 in Hin. eapply (inv_loc _ HI); eassumption.
    - intros y Hy. rewrite Hl by exact Hy. apply Hloc3.
  Qed.

  (* the models under construction among those included with m: all created by this load, and all the new entries *)
  Lemma constr_rem_facts s1 m : Inv s1 -> n0 <= m ->
    let rem := filter (fun y => mem y (constr s1)) (included m s1) in
    (forall kv, In kv (allm s1) -> keep_none rem kv = is_old kv) /\ (forall v, In v rem -> n0 <= v).
  Proof.
    intros HI Hm rem.
    assert (Hrem : forall v, In v rem -> n0 <= v).
    { intros v Hv. apply filter_In in Hv as [Hi Hc]. apply mem_In in Hc. apply In_included in Hi as [Hi | ->]; [|exact Hm].
      apply in_map_iff in Hi as [[k v'] [<- Hin]]. cbn. destruct (Nat.lt_ge_cases v' n0) as [Hlt|Hge]; [|exact Hge].
      exfalso. eapply (inv_old _ HI); eassumption. }
    split; [|exact Hrem].
    intros [k v] Hin. unfold keep_none, is_old. cbn [snd]. destruct (Nat.ltb v n0) eqn:E.
    - apply Nat.ltb_lt in E. apply negb_true_iff, mem_false. intro Hr. apply Hrem in Hr. lia.
    - apply Nat.ltb_ge in E. apply negb_false_iff, mem_In. apply filter_In. split.
      + apply In_included. left. apply in_map_iff. exists (k, v). auto.
      + apply mem_In. eapply (inv_new _ HI); eassumption.
  Qed.

  (* _remove_all_affected_models_in_construction during a load: exactly the earlier models stay *)
  Lemma handler_clean s m : Inv s -> n0 <= m ->
    Step s (handler m s) /\ allm (handler m s) = old s.
  Proof.
    intros HI Hm. unfold handler. rewrite src_cleanup_outer.
    destruct (constr_rem_facts s m HI Hm) as [Hk Hr].
    destruct (cleanup_any s s (included m s) _ HI eq_refl eq_refl eq_refl (incl_refl _) (included_nonempty m s) Hk Hr) as [HI' [Ha Hl]].
    split; [|exact Ha].
    constructor; rewrite ?heap_remove_from_repos, ?constr_remove_from_repos, ?targets_remove_from_repos, ?curop_remove_from_repos;
      auto using incl_refl.
    apply old_same. unfold old at 1. rewrite Ha. apply old_old.
  Qed.

  (* The loader, by mutual induction: load_model / load_files / load_stmts over an arbitrary loader for imported
     files that meets loader_cl, load_file_x by induction on the fuel *)
  Definition loader_cl (ld : nat -> state -> (err + nat) * state) : Prop :=
    forall g s, Inv s -> ext_ok s -> dget g (allm s) = None ->
      Step s (snd (ld g s)) /\
      (forall m, fst (ld g s) = inr m ->
         Pres s (snd (ld g s)) /\
         (dget g (allm (snd (ld g s))) = Some m \/ (snd (ld g s) = s /\ x g = Some m))).

  Lemma load_model_cl ld m mi g s r s' :
    loader_cl ld -> Inv s -> ext_ok s -> n0 <= m -> nth_error (heap s) m = Some mi -> load_model ld m g s = (r, s') ->
    Step s s' /\ (r = None -> Pres s s').
  Proof.
    intros Hld HI HX Hm Hh. unfold load_model.
    pose proof (m_lt_heap s m mi Hh) as Hml.
    destruct (dhas g (local_of m s)).
    { intro H. inversion H; subst. split; [apply Step_refl; exact HI | intros _; apply Pres_refl]. }
    destruct (dget g (allm s)) as [m'|] eqn:Eg.
    { intro H. inversion H; subst. split; [|intros _ k v Hk; exact Hk].
      apply Step_set_local; auto. apply dget_In in Eg. destruct (inv_file s HI g m' Eg) as [mi' [Hmi _]].
      eapply m_lt_heap; eassumption. }
    destruct (Hld g s HI HX Eg) as [Hst Hok].
    destruct (ld g s) as [[e|m'] s1]; cbn [fst snd] in *.
    { intro H. inversion H; subst. split; [exact Hst | discriminate]. }
    intro H. inversion H; subst. destruct (Hok m' eq_refl) as [Hp Hreg].
    (* either way m' ends up registered for g, by a step that keeps every entry *)
    assert (H1 : Step s (set_all g m' s1) /\ Pres s (set_all g m' s1) /\ m' < length (heap s1)).
    { destruct Hreg as [Hg1|[Es Hx]].
      - destruct (inv_file s1 (st_inv Hst) g m' (dget_In _ _ _ Hg1)) as [mi' [Hmi _]].
        split; [|split; [|eapply m_lt_heap; eassumption]].
        + eapply Step_ext; [exact Hst | reflexivity | apply set_all_same; exact Hg1 | reflexivity..].
        + intros k v Hk. rewrite set_all_same by exact Hg1. apply Hp. exact Hk.
      - subst s1. destruct (HX g m' Hx) as [Hlt [Hc [mi' [Hmi Hf]]]].
        destruct (Step_set_all_new s g m' mi' HI Eg Hmi Hf (or_intror (conj Hlt (conj Hc Hx)))) as [A [B _]].
        split; [exact A|]. split; [exact B | eapply m_lt_heap; eassumption]. }
    destruct H1 as [Hst1 [Hp1 Hm']].
    split; [|intros _; exact Hp1].
    eapply Step_trans; [exact Hst1|]. apply Step_set_local; [apply (st_inv Hst1) | exact Hm | | exact Hm'].
    st_proj. eapply m_lt_heap. apply (st_heap Hst). exact Hh.
  Qed.

  Lemma load_files_cl ld m mi gs : forall s r s',
    loader_cl ld -> Inv s -> ext_ok s -> n0 <= m -> nth_error (heap s) m = Some mi -> load_files ld m gs s = (r, s') ->
    Step s s' /\ (r = None -> Pres s s').
  Proof.
    induction gs as [|g gs IH]; intros s r s' Hld HI HX Hm Hh; cbn.
    - intro H. inversion H; subst. split; [apply Step_refl; exact HI | intros _; apply Pres_refl].
    - destruct (load_model ld m g s) as [r1 s1] eqn:E1.
      destruct (load_model_cl _ _ _ _ _ _ _ Hld HI HX Hm Hh E1) as [Hst1 Hp1].
      destruct r1 as [e|].
      + intro H. inversion H; subst. split; [exact Hst1 | discriminate].
      + intro H. destruct (IH s1 r s' Hld (st_inv Hst1) (ext_ok_step _ _ Hst1 HX) Hm (st_heap Hst1 m mi Hh) H) as [Hst2 Hp2].
        split; [eapply Step_trans; eassumption|]. intro Hr. eapply Pres_trans; [apply Hp1; reflexivity | apply Hp2; exact Hr].
  Qed.

  Lemma update_in_repo_cl s m mf mi :
    Inv s -> n0 <= m -> In m (constr s) -> nth_error (heap s) m = Some mi -> mfile mi = mf ->
    Step s (update_in_repo m mf s) /\ Pres s (update_in_repo m mf s).
  Proof.
    intros HI Hm Hc Hh Hf. unfold update_in_repo. destruct (dhas mf (allm s)) eqn:E.
    - split; [apply Step_refl; exact HI | apply Pres_refl].
    - assert (Hg : dget mf (allm s) = None) by (unfold dhas in E; destruct (dget mf (allm s)); [discriminate | reflexivity]).
      assert (Hv : ~ In m (vals s)).
      { intro Hin. apply in_map_iff in Hin as [[k v] [Hv Hin]]. cbn in Hv. subst v.
        destruct (inv_file s HI k m Hin) as [mi' [H1 H2]]. rewrite Hh in H1. inversion H1; subst mi'.
        apply dget_None_notin in Hg. apply Hg. apply in_map_iff. exists (k, m). split; [cbn; congruence | exact Hin]. }
      destruct (Step_set_all_new s mf m mi HI Hg Hh Hf (or_introl (conj Hm (conj Hc Hv)))) as [A [B _]]. auto.
  Qed.

  Lemma load_stmts_cl ld m mf mi stmts : forall s r s',
    loader_cl ld -> Inv s -> ext_ok s -> n0 <= m -> In m (constr s) -> nth_error (heap s) m = Some mi -> mfile mi = mf ->
    load_stmts ld m mf stmts s = (r, s') ->
    Step s s' /\ (r = None -> Pres s s').
  Proof.
    induction stmts as [|gs rest IH]; intros s r s' Hld HI HX Hm Hc Hh Hf; cbn.
    - intro H. inversion H; subst. split; [apply Step_refl; exact HI | intros _; apply Pres_refl].
    - destruct (update_in_repo_cl s m mf mi HI Hm Hc Hh Hf) as [Hst1 Hp1].
      destruct gs as [|g0 gs0].
      + intro H. inversion H; subst. split; [exact Hst1 | discriminate].
      + destruct (load_files ld m (g0 :: gs0) (update_in_repo m mf s)) as [r2 s2] eqn:E2.
        destruct (load_files_cl _ _ _ _ _ _ _ Hld (st_inv Hst1) (ext_ok_step _ _ Hst1 HX) Hm (st_heap Hst1 m mi Hh) E2) as [Hst2 Hp2].
        assert (Hst12 : Step s s2) by (eapply Step_trans; eassumption).
        destruct r2 as [e|].
        * intro H. inversion H; subst. split; [exact Hst12 | discriminate].
        * intro H.
          destruct (IH s2 r s' Hld (st_inv Hst12) (ext_ok_step _ _ Hst12 HX) Hm (st_constr Hst12 m Hc) (st_heap Hst12 m mi Hh) Hf H) as [Hst3 Hp3].
          split; [eapply Step_trans; eassumption|]. intro Hr.
          eapply Pres_trans; [exact Hp1|]. eapply Pres_trans; [apply Hp2; reflexivity | apply Hp3; exact Hr].
  Qed.

  (* a loader that meets the specification whenever it runs still meets it behind the cache *)
  Lemma with_ext_cl ld :
    (forall g s, Inv s -> ext_ok s -> dget g (allm s) = None ->
       Step s (snd (ld g s)) /\ (forall m, fst (ld g s) = inr m -> Pres s (snd (ld g s)) /\ dget g (allm (snd (ld g s))) = Some m)) ->
    loader_cl (with_ext x ld).
  Proof.
    intros H g s HI HX Hg. unfold with_ext. destruct (x g) as [m0|] eqn:Ex.
    - cbn [fst snd]. split; [apply Step_refl; exact HI|]. intros m' Hm'. inversion Hm'; subst m'.
      split; [apply Pres_refl | right; auto].
    - destruct (H g s HI HX Hg) as [A B]. split; [exact A|]. intros m' Hm'. destruct (B m' Hm') as [B1 B2]. auto.
  Qed.

  (* the part of load_file_x after the syntax check, shared with the string main model: allocate the model, register
     it (reg) or not, follow the imports; what the state looks like when that ends *)
  Lemma load_body_cl ld g fc (skip : bool) s r s4 :
    let m := length (heap s) in
    let s2 := alloc g fc s in
    loader_cl ld -> Inv s -> ext_ok s -> (skip = false -> dget g (allm s) = None) ->
    (if (clazy c && is_nil (frefs fc))%bool then (None, if skip then s2 else set_all g m s2)
     else load_stmts ld m g (fimports fc) (if skip then s2 else set_all g m s2)) = (r, s4) ->
    n0 <= m /\ Step s s4 /\ In m (constr s4) /\
    (r = None -> Pres s s4 /\ (skip = false -> dget g (allm s4) = Some m)).
  Proof.
    intros m s2 Hld HI HX Hg E4.
    assert (Hst2 : Step s s2) by (apply Step_alloc; exact HI).
    assert (Hm : n0 <= m) by apply (inv_n0 s HI).
    assert (Hc2 : In m (constr s2)) by (subst s2; st_proj; left; reflexivity).
    assert (Hh2 : nth_error (heap s2) m = Some (mkMinfo g (curop s) fc)).
    { subst s2 m. st_proj. rewrite nth_error_app2 by lia. rewrite Nat.sub_diag. reflexivity. }
    assert (Hv2 : ~ In m (vals s2)).
    { intro Hin. apply in_map_iff in Hin as [[k' v] [Hv Hin]]. cbn in Hv. subst v.
      destruct (inv_file s HI k' m Hin) as [mi' [H1 _]]. apply m_lt_heap in H1. subst m. lia. }
    set (s3 := if skip then s2 else set_all g m s2) in *.
    assert (H3 : Step s s3 /\ Pres s s3 /\ (skip = false -> dget g (allm s3) = Some m) /\ In m (constr s3) /\
                 nth_error (heap s3) m = Some (mkMinfo g (curop s) fc)).
    { subst s3. destruct skip.
      - split; [exact Hst2|]. split; [intros k v Hk; exact Hk|]. split; [discriminate | auto].
      - destruct (Step_set_all_new s2 g m _ (st_inv Hst2) (Hg eq_refl) Hh2 eq_refl (or_introl (conj Hm (conj Hc2 Hv2)))) as [A [B C]].
        split; [eapply Step_trans; eassumption|]. split; [exact B|]. split; [intros _; exact C | auto]. }
    destruct H3 as [Hst3 [Hp3 [Hreg3 [Hc3 Hh3]]]].
    assert (H4 : Step s3 s4 /\ (r = None -> Pres s3 s4)).
    { destruct (clazy c && is_nil (frefs fc))%bool.
      - inversion E4; subst. split; [apply Step_refl; apply (st_inv Hst3) | intros _; apply Pres_refl].
      - exact (load_stmts_cl _ _ _ _ _ _ _ _ Hld (st_inv Hst3) (ext_ok_step _ _ Hst3 HX) Hm Hc3 Hh3 eq_refl E4). }
    destruct H4 as [Hst4 Hp4].
    split; [exact Hm|]. split; [eapply Step_trans; eassumption|]. split; [apply (st_constr Hst4); exact Hc3|].
    intro Hr. split; [eapply Pres_trans; [exact Hp3 | apply Hp4; exact Hr]|].
    intro Hreg. apply Hp4; [exact Hr | apply Hreg3; exact Hreg].
  Qed.

  Lemma load_file_x_cl fuel : forall main g s r s',
    Inv s -> ext_ok s -> dget g (allm s) = None -> load_file_x x fs c fuel main g s = (r, s') ->
    Step s s' /\
    (forall m, r = inr m -> Pres s s' /\ n0 <= m /\ In m (constr s') /\ (main = false -> dget g (allm s') = Some m)) /\
    (forall e, r = inl e -> main = true -> (forall kv, In kv (allm s) -> is_old kv = true) ->
       forall kv, In kv (allm s') -> is_old kv = true).
  Proof.
    induction fuel as [|k IH]; intros main g s r s' HI HX Hg.
    { intro H. inversion H; subst. split; [apply Step_refl; exact HI|]. split; [discriminate | auto]. }
    cbn [load_file_x].
    destruct (nth_error fs g) as [fc|] eqn:Efc.
    2:{ intro H. inversion H; subst. split; [apply Step_refl; exact HI|]. split; [discriminate | auto]. }
    assert (Hst1 : Step s (with_reads s (reads s ++ [g]))).
    { eapply Step_ext; [apply Step_refl; exact HI | reflexivity..]. }
    destruct (fsyn fc).
    { intro H. inversion H; subst. split; [exact Hst1|]. split; [discriminate | auto]. }
    rewrite src_register_before.
    set (s1 := with_reads s (reads s ++ [g])) in *.
    assert (Hld : loader_cl (with_ext x (load_file_x x fs c k false))).
    { apply with_ext_cl. intros g' s0 HI' HX' Hg'. destruct (load_file_x x fs c k false g' s0) as [r0 s0'] eqn:E0.
      destruct (IH false g' s0 r0 s0' HI' HX' Hg' E0) as [A [B _]]. split; [exact A|].
      intros m Hm'. destruct (B m Hm') as [B1 [_ [_ B3]]]. auto. }
    set (mid := length (heap s1)). set (s2 := alloc g fc s1).
    destruct (if (clazy c && is_nil (frefs fc))%bool then (None, if (main && negb (cglobal c))%bool then s2 else set_all g mid s2)
              else load_stmts (with_ext x (load_file_x x fs c k false)) mid g (fimports fc)
                     (if (main && negb (cglobal c))%bool then s2 else set_all g mid s2)) as [r4 s4] eqn:E4.
    destruct (load_body_cl _ g fc _ s1 r4 s4 Hld (st_inv Hst1) (ext_ok_step _ _ Hst1 HX) (fun _ => Hg) E4) as [Hmid [Hst14 [Hc4 Hok]]].
    assert (Hst04 : Step s s4) by (eapply Step_trans; eassumption).
    destruct r4 as [e|].
    { intro H. inversion H; subst. destruct (handler_clean s4 mid (st_inv Hst04) Hmid) as [Hh Ha].
      split; [eapply Step_trans; eassumption|]. split; [discriminate|].
      intros e' _ _ _ kv. rewrite Ha. apply old_all_old. }
    destruct (Hok eq_refl) as [Hp4 Hg4'].
    assert (Hg4 : main = false -> dget g (allm s4) = Some mid) by (intro Hmain; apply Hg4'; subst main; reflexivity).
    destruct main.
    - intro H. inversion H; subst. split; [exact Hst04|]. split; [|discriminate]. intros m Hm. inversion Hm; subst m. auto.
    - destruct (fmp fc); intro H; inversion H; subst.
      + split; [exact Hst04|]. split; discriminate.
      + split; [exact Hst04|]. split; [|discriminate]. intros m Hm. inversion Hm; subst m. auto.
  Qed.

  (* Local models are the registered models: every local_models entry of a model created by this load is the
     all_models entry of its file *)
  Definition LR (s : state) : Prop :=
    forall y g t, In (g, t) (local_of y s) -> n0 <= y -> dget g (allm s) = Some t.

  Lemma LR_pres s s' : LR s -> Pres s s' -> locals s' = locals s -> LR s'.
  Proof. intros H Hp El y g t Hin Hy. rewrite (local_of_ext s s' y El) in Hin. apply Hp. apply (H y g t Hin Hy). Qed.

  Lemma LR_set_local s m g v : LR s -> dget g (allm s) = Some v -> LR (set_local m g v s).
  Proof.
    intros H Hg y g' t Hin Hy. rewrite allm_set_local in *. unfold set_local in Hin. rewrite local_of_dset in Hin.
    destruct (Nat.eqb m y) eqn:E.
    - apply Nat.eqb_eq in E. subst y. apply In_dset_inv in Hin as [[-> ->]|Hin]; [exact Hg | apply (H m g' t Hin Hy)].
    - apply (H y g' t Hin Hy).
  Qed.

  Definition loader_lr (ld : nat -> state -> (err + nat) * state) : Prop :=
    forall g s, Inv s -> ext_ok s -> LR s -> dget g (allm s) = None -> forall m, fst (ld g s) = inr m -> LR (snd (ld g s)).

  Lemma load_model_lr ld m mi g s s' :
    loader_cl ld -> loader_lr ld -> Inv s -> ext_ok s -> LR s -> n0 <= m -> nth_error (heap s) m = Some mi ->
    load_model ld m g s = (None, s') -> LR s'.
  Proof.
    intros Hcl Hlr HI HX HL Hm Hh. unfold load_model.
    destruct (dhas g (local_of m s)). { intro H; inversion H; subst; exact HL. }
    destruct (dget g (allm s)) as [m'|] eqn:Eg.
    { intro H; inversion H; subst. apply LR_set_local; assumption. }
    destruct (Hcl g s HI HX Eg) as [Hst Hok]. specialize (Hlr g s HI HX HL Eg).
    destruct (ld g s) as [[e|m'] s1]; cbn [fst snd] in *; [discriminate|].
    intro H; inversion H; subst. destruct (Hok m' eq_refl) as [Hp [Hg1|[Es Hx]]]; specialize (Hlr m' eq_refl).
    - apply LR_set_local; [|rewrite set_all_same by exact Hg1; exact Hg1].
      eapply LR_pres; [exact Hlr | | reflexivity]. intros k v Hk. rewrite set_all_same by exact Hg1. exact Hk.
    - subst s1. destruct (HX g m' Hx) as [Hlt [Hc [mi' [Hmi Hf]]]].
      destruct (Step_set_all_new s g m' mi' HI Eg Hmi Hf (or_intror (conj Hlt (conj Hc Hx)))) as [_ [Hp1 Hg1]].
      apply LR_set_local; [|exact Hg1]. eapply LR_pres; [exact HL | exact Hp1 | reflexivity].
  Qed.

  Lemma load_files_lr ld m mi gs : forall s s',
    loader_cl ld -> loader_lr ld -> Inv s -> ext_ok s -> LR s -> n0 <= m -> nth_error (heap s) m = Some mi ->
    load_files ld m gs s = (None, s') -> LR s'.
  Proof.
    induction gs as [|g gs IH]; intros s s' Hcl Hlr HI HX HL Hm Hh; cbn.
    - intro H; inversion H; subst; exact HL.
    - destruct (load_model ld m g s) as [r1 s1] eqn:E1.
      destruct (load_model_cl _ _ _ _ _ _ _ Hcl HI HX Hm Hh E1) as [Hst1 _].
      destruct r1 as [e|]; [discriminate|].
      assert (HL1 : LR s1) by (eapply load_model_lr; eassumption).
      intro H. exact (IH s1 s' Hcl Hlr (st_inv Hst1) (ext_ok_step _ _ Hst1 HX) HL1 Hm (st_heap Hst1 m mi Hh) H).
  Qed.

  Lemma load_stmts_lr ld m mf mi stmts : forall s s',
    loader_cl ld -> loader_lr ld -> Inv s -> ext_ok s -> LR s -> n0 <= m -> In m (constr s) ->
    nth_error (heap s) m = Some mi -> mfile mi = mf ->
    load_stmts ld m mf stmts s = (None, s') -> LR s'.
  Proof.
    induction stmts as [|gs rest IH]; intros s s' Hcl Hlr HI HX HL Hm Hc Hh Hf; cbn.
    - intro H; inversion H; subst; exact HL.
    - destruct (update_in_repo_cl s m mf mi HI Hm Hc Hh Hf) as [Hst1 Hp1].
      assert (HL1 : LR (update_in_repo m mf s)).
      { eapply LR_pres; [exact HL | exact Hp1|]. unfold update_in_repo. destruct (dhas mf (allm s)); reflexivity. }
      destruct gs as [|g0 gs0]; [discriminate|].
      destruct (load_files ld m (g0 :: gs0) (update_in_repo m mf s)) as [r2 s2] eqn:E2.
      pose proof (ext_ok_step _ _ Hst1 HX) as HX1.
      destruct (load_files_cl _ _ _ _ _ _ _ Hcl (st_inv Hst1) HX1 Hm (st_heap Hst1 m mi Hh) E2) as [Hst2 _].
      destruct r2 as [e|]; [discriminate|].
      pose proof (load_files_lr _ _ _ _ _ _ Hcl Hlr (st_inv Hst1) HX1 HL1 Hm (st_heap Hst1 m mi Hh) E2) as HL2.
      pose proof (Step_trans _ _ _ Hst1 Hst2) as Hst12.
      intro H. exact (IH s2 s' Hcl Hlr (st_inv Hst12) (ext_ok_step _ _ Hst12 HX) HL2 Hm (st_constr Hst12 m Hc) (st_heap Hst12 m mi Hh) Hf H).
  Qed.

  Lemma load_body_lr ld g fc (skip : bool) s s4 :
    let m := length (heap s) in
    let s2 := alloc g fc s in
    loader_cl ld -> loader_lr ld -> Inv s -> ext_ok s -> LR s -> (skip = false -> dget g (allm s) = None) ->
    (if (clazy c && is_nil (frefs fc))%bool then (None, if skip then s2 else set_all g m s2)
     else load_stmts ld m g (fimports fc) (if skip then s2 else set_all g m s2)) = (None, s4) ->
    LR s4.
  Proof.
    intros m s2 Hcl Hlr HI HX HL Hg E4.
    assert (Hst2 : Step s s2) by (apply Step_alloc; exact HI).
    assert (Hm : n0 <= m) by apply (inv_n0 s HI).
    assert (Hc2 : In m (constr s2)) by (subst s2; st_proj; left; reflexivity).
    assert (Hh2 : nth_error (heap s2) m = Some (mkMinfo g (curop s) fc)).
    { subst s2 m. st_proj. rewrite nth_error_app2 by lia. rewrite Nat.sub_diag. reflexivity. }
    assert (Hv2 : ~ In m (vals s2)).
    { intro Hin. apply in_map_iff in Hin as [[k' v] [Hv Hin]]. cbn in Hv. subst v.
      destruct (inv_file s HI k' m Hin) as [mi' [H1 _]]. apply m_lt_heap in H1. subst m. lia. }
    assert (HL2 : LR s2) by (eapply LR_pres; [exact HL | intros k' v' Hk; exact Hk | reflexivity]).
    set (s3 := if skip then s2 else set_all g m s2) in *.
    assert (H3 : Step s2 s3 /\ LR s3).
    { subst s3. destruct skip; [split; [apply Step_refl; apply (st_inv Hst2) | exact HL2]|].
      destruct (Step_set_all_new s2 g m _ (st_inv Hst2) (Hg eq_refl) Hh2 eq_refl (or_introl (conj Hm (conj Hc2 Hv2)))) as [A [B _]].
      split; [exact A | eapply LR_pres; [exact HL2 | exact B | reflexivity]]. }
    destruct H3 as [Hst23 HL3].
    destruct (clazy c && is_nil (frefs fc))%bool; [inversion E4; subst; exact HL3|].
    pose proof (Step_trans _ _ _ Hst2 Hst23) as Hst3.
    exact (load_stmts_lr ld m g _ (fimports fc) s3 s4 Hcl Hlr (st_inv Hst23) (ext_ok_step _ _ Hst3 HX) HL3 Hm
             (st_constr Hst23 m Hc2) (st_heap Hst23 m _ Hh2) eq_refl E4).
  Qed.

  Lemma load_file_x_lr fuel : forall main g s m s',
    Inv s -> ext_ok s -> LR s -> dget g (allm s) = None -> load_file_x x fs c fuel main g s = (inr m, s') -> LR s'.
  Proof.
    induction fuel as [|k IH]; intros main g s m s' HI HX HL Hg; [discriminate|].
    cbn [load_file_x].
    destruct (nth_error fs g) as [fc|] eqn:Efc; [|discriminate].
    assert (Hst1 : Step s (with_reads s (reads s ++ [g]))) by (eapply Step_ext; [apply Step_refl; exact HI | reflexivity..]).
    destruct (fsyn fc); [discriminate|].
    rewrite src_register_before.
    set (s1 := with_reads s (reads s ++ [g])) in *.
    assert (Hcl : loader_cl (with_ext x (load_file_x x fs c k false))).
    { apply with_ext_cl. intros g' s0 HI' HX' Hg'. destruct (load_file_x x fs c k false g' s0) as [r0 s0'] eqn:E0.
      destruct (load_file_x_cl k false g' s0 r0 s0' HI' HX' Hg' E0) as [A [B _]]. split; [exact A|].
      intros m' Hm'. destruct (B m' Hm') as [B1 [_ [_ B3]]]. auto. }
    assert (Hlr : loader_lr (with_ext x (load_file_x x fs c k false))).
    { intros g' s0 HI' HX' HL' Hg' m' Hm'. unfold with_ext in *. destruct (x g'); [cbn [snd]; exact HL'|].
      destruct (load_file_x x fs c k false g' s0) as [r0 s0'] eqn:E0. cbn [fst snd] in *. subst r0.
      exact (IH false g' s0 m' s0' HI' HX' HL' Hg' E0). }
    set (mid := length (heap s1)). set (s2 := alloc g fc s1).
    destruct (if (clazy c && is_nil (frefs fc))%bool then (None, if (main && negb (cglobal c))%bool then s2 else set_all g mid s2)
              else load_stmts (with_ext x (load_file_x x fs c k false)) mid g (fimports fc)
                     (if (main && negb (cglobal c))%bool then s2 else set_all g mid s2)) as [r s4] eqn:E4.
    assert (HL4 : r = None -> LR s4).
    { intro Hr. subst r. apply (load_body_lr _ g fc _ s1 s4 Hcl Hlr (st_inv Hst1) (ext_ok_step _ _ Hst1 HX)) with (2 := fun _ => Hg) (3 := E4).
      eapply LR_pres; [exact HL | intros k' v' Hk; exact Hk | reflexivity]. }
    destruct r as [e|]; [discriminate|].
    destruct main; [|destruct (fmp fc); [discriminate|]]; intro H; inversion H; subst; apply HL4; reflexivity.
  Qed.
End Clean.
Arguments st_inv {n0 x s s'} _. Arguments st_old {n0 x s s'} _. Arguments st_loc {n0 x s s'} _. Arguments st_heap {n0 x s s'} _.
Arguments st_constr {n0 x s s'} _. Arguments st_cold {n0 x s s'} _. Arguments st_tgt {n0 x s s'} _. Arguments st_curop {n0 x s s'} _.

Lemma ext_ok_none n0 s : ext_ok n0 (fun _ => None) s.
Proof. intros g m' H. discriminate. Qed.
Lemma from_none l : from_x (fun _ => None) l -> l = [].
Proof. destruct l as [|kv l]; [reflexivity|]. intro H. specialize (H kv (or_introl eq_refl)). discriminate. Qed.
Lemma Step_none_old n0 s s' : Step n0 (fun _ => None) s s' -> old n0 s' = old n0 s.
Proof. intro H. destruct (st_old H) as [l [E Hl]]. rewrite (from_none l Hl), app_nil_r in E. exact E. Qed.

(* the single-language loader for imported files meets the loader specifications *)
Lemma load_file_cl_none fs c n0 k : loader_cl n0 (fun _ => None) (load_file fs c k false).
Proof.
  intros g s HI HX Hg. rewrite <- load_file_x_none. destruct (load_file_x _ fs c k false g s) as [r s'] eqn:E.
  destruct (load_file_x_cl fs c n0 _ k false g s r s' HI HX Hg E) as [A [B _]]. split; [exact A|].
  intros m Hm. destruct (B m Hm) as [B1 [_ [_ B3]]]. auto.
Qed.
Lemma load_file_lr_none fs c n0 k : loader_lr n0 (fun _ => None) (load_file fs c k false).
Proof.
  intros g s HI HX HL Hg m. rewrite <- load_file_x_none. destruct (load_file_x _ fs c k false g s) as [r s'] eqn:E.
  cbn [fst snd]. intros ->. exact (load_file_x_lr fs c n0 _ k false g s m s' HI HX HL Hg E).
Qed.

(* The state between two loads. *)
Definition Stable (s : state) : Prop :=
  NoDup (keys s) /\ NoDup (vals s) /\ file_ok s /\ (forall v, In v (vals s) -> ~ In v (constr s)) /\
  (forall x g t, In (g, t) (local_of x s) -> x < length (heap s) /\ t < length (heap s)).

Lemma Stable_Inv s : Stable s ->
  Inv (length (heap s)) s /\ (forall kv, In kv (allm s) -> is_old (length (heap s)) kv = true).
Proof.
  intros [A [B [C [D E]]]].
  assert (Hlt : forall k v, In (k, v) (allm s) -> v < length (heap s)).
  { intros k v Hin. destruct (C k v Hin) as [mi [H _]]. eapply m_lt_heap. exact H. }
  split.
  - constructor; auto.
    + intros k v Hin _. apply D. apply in_map_iff. exists (k, v). auto.
    + intros k v Hin Hge. specialize (Hlt k v Hin). lia.
    + intros x g t _ Hin. apply (E x g t Hin).
  - intros [k v] Hin. unfold is_old. cbn. apply Nat.ltb_lt. eapply Hlt. exact Hin.
Qed.

Lemma Inv_old_Stable n0 s : Inv n0 s -> (forall kv, In kv (allm s) -> is_old n0 kv = true) -> Stable s.
Proof.
  intros HI Ho. split; [apply (inv_keys _ _ HI)|]. split; [apply (inv_vals _ _ HI)|]. split; [apply (inv_file _ _ HI)|].
  split; [|apply (inv_loc _ _ HI)].
  intros v Hin. apply in_map_iff in Hin as [[k v'] [<- Hin]]. cbn. eapply (inv_old _ _ HI); [exact Hin|].
  specialize (Ho _ Hin). unfold is_old in Ho. cbn in Ho. apply Nat.ltb_lt. exact Ho.
Qed.

Lemma Stable_begin_op c s : Stable s -> Stable (begin_op c s).
Proof.
  intros [A [B [C [D E]]]]. unfold begin_op. destruct (cglobal c).
  - split; [exact A|]. split; [exact B|]. split; [exact C|]. split; [exact D | exact E].
  - split; [constructor|]. split; [constructor|]. split; [intros k v []|]. split; [intros v []|]. exact E.
Qed.

Lemma begin_op_frame c s :
  heap (begin_op c s) = heap s /\ locals (begin_op c s) = locals s /\ constr (begin_op c s) = constr s /\
  targets (begin_op c s) = targets s /\ curop (begin_op c s) = curop s.
Proof. unfold begin_op. destruct (cglobal c); auto. Qed.
Lemma local_of_begin_op c s y : local_of y (begin_op c s) = local_of y s.
Proof. apply local_of_ext. unfold begin_op. destruct (cglobal c); reflexivity. Qed.

Lemma begin_op_Inv c s : Stable s ->
  Inv (length (heap s)) (begin_op c s) /\ (forall kv, In kv (allm (begin_op c s)) -> is_old (length (heap s)) kv = true) /\
  LR (length (heap s)) (begin_op c s).
Proof.
  intro HS. apply (Stable_begin_op c) in HS. destruct (begin_op_frame c s) as [Eh _]. rewrite <- Eh.
  destruct (Stable_Inv _ HS) as [A B]. split; [exact A|]. split; [exact B|].
  intros y g t Hin Hy. destruct HS as [_ [_ [_ [_ E]]]]. destruct (E y g t Hin). lia.
Qed.

(* finish_main after a successful load phase.  `cached` is any list of earlier models that covers the earlier
   entries (the repository before the load ++ the other languages' repositories): whichever of the three cleanups a
   failure runs, exactly the earlier entries stay. *)
Lemma finish_main_clean n0 c f m cached s1 e s' :
  Inv n0 s1 -> n0 <= m -> In m (constr s1) ->
  (forall kv, In kv (old n0 s1) -> In (snd kv) cached) -> (forall v, In v cached -> v < n0) ->
  finish_main c f m cached s1 = (inl e, s') ->
  Inv n0 s' /\ allm s' = old n0 s1 /\ (forall y, y < n0 -> local_of y s' = local_of y s1).
Proof.
  intros HI Hm Hc Hcov Hcached H.
  destruct (finish_main_cases _ _ _ _ _ _ _ H) as [s3 [[_ [Ea [Eh [El _]]]] [Hc3 [_ Hcase]]]]. clear H.
  set (models := filter (fun x => mem x (constr s1)) (included m s1)) in *.
  assert (Ec3 : incl (constr s3) (constr s1)).
  { destruct Hc3 as [->| ->]; [apply incl_refl | intros y Hy; apply filter_In in Hy; tauto]. }
  destruct Hcase as [[e1 [_ [_ ->]]]|[[_ ->]|[E _]]]; [| |discriminate E].
  - (* the inner handler removes the models under construction, the outer handler finds nothing left to remove *)
    assert (Hmm : In m models) by (apply filter_In; split; [apply In_included; auto | apply mem_In; exact Hc]).
    assert (Hne : models <> []) by (intro H; rewrite H in Hmm; destruct Hmm).
    destruct (constr_rem_facts n0 s1 m HI Hm) as [Hk Hr]. fold models in Hk, Hr.
    destruct (cleanup_any n0 s1 s3 models models HI Eh Ea El Ec3 Hne Hk Hr) as [HI3 [Ha3 Hl3]].
    destruct (handler_clean n0 (fun _ => None) _ m HI3 Hm) as [Hst Ha].
    split; [apply (st_inv Hst)|]. split.
    + rewrite Ha. unfold old at 1. rewrite Ha3. apply old_old.
    + intros y Hy. rewrite (st_loc Hst y Hy). apply Hl3. exact Hy.
  - set (loaded := filter (fun x => negb (mem x cached)) (included m s3)).
    assert (Hinc3 : included m s3 = included m s1) by (unfold included; rewrite Ea; reflexivity).
    assert (Hml : In m loaded).
    { apply filter_In. split; [rewrite Hinc3; apply In_included; auto|]. apply negb_true_iff, mem_false.
      intro Hin. apply Hcached in Hin. lia. }
    assert (Hlne : loaded <> []) by (intro H0; rewrite H0 in Hml; destruct Hml).
    (* the models counted as loaded by this call are the new ones: an earlier one that is registered is in `cached` *)
    assert (Hlr : forall v, In v loaded -> n0 <= v).
    { intros v Hv. apply filter_In in Hv as [Hi Hnc]. rewrite Hinc3 in Hi. apply negb_true_iff, mem_false in Hnc.
      apply In_included in Hi as [Hi | ->]; [|exact Hm].
      apply in_map_iff in Hi as [[k v'] [<- Hin]]. cbn. destruct (Nat.lt_ge_cases v' n0) as [Hlt|Hge]; [|exact Hge].
      exfalso. apply Hnc. apply (Hcov (k, v')). unfold old. apply filter_In. split; [exact Hin|]. unfold is_old. cbn. apply Nat.ltb_lt. exact Hlt. }
    assert (Hlk : forall kv, In kv (allm s1) -> keep_none loaded kv = is_old n0 kv).
    { intros [k v] Hin. unfold keep_none, is_old. cbn [snd]. destruct (Nat.ltb v n0) eqn:E0.
      - apply Nat.ltb_lt in E0. apply negb_true_iff, mem_false. intro Hl. apply Hlr in Hl. lia.
      - apply Nat.ltb_ge in E0. apply negb_false_iff, mem_In. apply filter_In. split.
        + rewrite Hinc3. apply In_included. left. apply in_map_iff. exists (k, v). auto.
        + apply negb_true_iff, mem_false. intro Hin'. apply Hcached in Hin'. lia. }
    exact (cleanup_any n0 s1 s3 loaded loaded HI Eh Ea El Ec3 Hlne Hlk Hlr).
Qed.

Lemma finish_main_ok_stable n0 c f m cached s1 m' s' :
  Inv n0 s1 -> In m (constr s1) -> finish_main c f m cached s1 = (inr m', s') ->
  m' = m /\ allm s' = allm s1 /\ heap s' = heap s1 /\ locals s' = locals s1 /\ Stable s'.
Proof.
  intros HI Hc H.
  destruct (finish_main_cases _ _ _ _ _ _ _ H) as [s3 [[_ [Ea [Eh [El _]]]] [_ [_ [[e [E _]]|[[E _]|[E [-> Ec3]]]]]]]];
    [discriminate E | discriminate E |]. inversion E; subst m'. clear H E.
  split; [reflexivity|]. split; [exact Ea|]. split; [exact Eh|]. split; [exact El|].
  unfold Stable, file_ok. rewrite Ea, Eh, Ec3.
  split; [apply (inv_keys _ _ HI)|]. split; [apply (inv_vals _ _ HI)|]. split; [apply (inv_file _ _ HI)|]. split.
  - intros v Hin Hf. apply filter_In in Hf as [Hf Hnm]. apply negb_true_iff, mem_false in Hnm. apply Hnm.
    apply filter_In. split; [apply In_included; left; exact Hin | apply mem_In; exact Hf].
  - intros x g t. rewrite (local_of_ext s1 s3 x El). apply (inv_loc _ _ HI).
Qed.

(* whatever the outcome, finish_main leaves the model objects and the marks, targets and operation counter of the
   earlier models alone: it only touches the models under construction, which are new *)
Lemma finish_main_frame n0 c f m cached s1 r s' :
  Inv n0 s1 -> n0 <= m -> finish_main c f m cached s1 = (r, s') ->
  heap s' = heap s1 /\ filter (ltn n0) (constr s') = filter (ltn n0) (constr s1) /\
  filter (keyltn n0) (targets s') = filter (keyltn n0) (targets s1) /\ curop s' = curop s1.
Proof.
  intros HI Hm H. destruct (constr_rem_facts n0 s1 m HI Hm) as [_ Hr].
  destruct (finish_main_cases _ _ _ _ _ _ _ H) as [s3 [[_ [_ [Eh [_ Eo]]]] [Hc3 [Et Hcase]]]]. clear H.
  assert (Ec : filter (ltn n0) (constr s3) = filter (ltn n0) (constr s1)).
  { destruct Hc3 as [->| ->]; [reflexivity|]. apply filter_filter_low. intros x Hx.
    apply negb_true_iff, mem_false. intro Hin. apply Hr in Hin. lia. }
  specialize (Et n0 Hr).
  destruct Hcase as [[e [_ [_ ->]]]|[[_ ->]|[_ [-> _]]]].
  - rewrite heap_handler, constr_handler, targets_handler, curop_handler,
      heap_remove_from_repos, constr_remove_from_repos, targets_remove_from_repos, curop_remove_from_repos. auto.
  - rewrite heap_remove_from_repos, constr_remove_from_repos, targets_remove_from_repos, curop_remove_from_repos. auto.
  - auto.
Qed.

(* served from the global repository, or loaded *)
Lemma load_main_x_raw_cases x xvals fs c f s :
  (exists m, dget f (allm (begin_op c s)) = Some m /\ cglobal c = true /\
             load_main_x_raw x xvals fs c f s = (inr m, begin_op c s)) \/
  (dget f (allm (begin_op c s)) = None /\
   load_main_x_raw x xvals fs c f s =
     match load_file_x x fs c (S (length fs)) true f (begin_op c s) with
     | (inl e, s1) => (inl e, s1)
     | (inr m, s1) => finish_main c f m (vals (begin_op c s) ++ xvals) s1
     end).
Proof.
  unfold load_main_x_raw. rewrite src_mp_on_cached. destruct (cglobal c) eqn:Eg.
  - destruct (dget f (allm (begin_op c s))) as [m|]; [left; exists m | right]; auto.
  - right. split; [|reflexivity]. unfold begin_op. rewrite Eg. reflexivity.
Qed.

(* the load phase of the main file, from the state after begin_op *)
Lemma load_main_x_phase x fs c f s :
  Stable s -> ext_ok (length (heap s)) x (begin_op c s) -> dget f (allm (begin_op c s)) = None ->
  let n0 := length (heap s) in
  let r := load_file_x x fs c (S (length fs)) true f (begin_op c s) in
  Step n0 x (begin_op c s) (snd r) /\
  (forall m, fst r = inr m -> Pres (begin_op c s) (snd r) /\ n0 <= m /\ In m (constr (snd r)) /\ LR n0 (snd r)) /\
  (forall e, fst r = inl e -> forall kv, In kv (allm (snd r)) -> is_old n0 kv = true).
Proof.
  intros HS HX Hg n0 r. destruct (begin_op_Inv c s HS) as [HI0 [Hold0 HL0]]. subst r.
  destruct (load_file_x x fs c (S (length fs)) true f (begin_op c s)) as [r s1] eqn:E. cbn [fst snd].
  destruct (load_file_x_cl fs c n0 x (S (length fs)) true f _ r s1 HI0 HX Hg E) as [Hst [Hok Hfail]].
  split; [exact Hst|]. split.
  - intros m Hm. destruct (Hok m Hm) as [Hp [Hm0 [Hc _]]]. split; [exact Hp|]. split; [exact Hm0|]. split; [exact Hc|].
    subst r. exact (load_file_x_lr fs c n0 x (S (length fs)) true f _ m s1 HI0 HX HL0 Hg E).
  - intros e He. apply (Hfail e He eq_refl Hold0).
Qed.

Lemma prefix_firstn {A} (l l' : list A) :
  (forall v a, nth_error l v = Some a -> nth_error l' v = Some a) -> firstn (length l) l' = l.
Proof.
  revert l'. induction l as [|a l IH]; intros l' H; [reflexivity|].
  destruct l' as [|b l']; [specialize (H 0 a eq_refl); discriminate|].
  pose proof (H 0 a eq_refl) as H0. cbn in H0. inversion H0; subst b. cbn. f_equal.
  apply IH. intros v x Hv. exact (H (S v) x Hv).
Qed.

(* what a stretch of the load phase leaves of the state s the top-level load began in *)
Lemma Step_frame_begin_op x c s s1 :
  Step (length (heap s)) x (begin_op c s) s1 ->
  firstn (length (heap s)) (heap s1) = heap s /\
  filter (ltn (length (heap s))) (constr s1) = filter (ltn (length (heap s))) (constr s) /\
  filter (keyltn (length (heap s))) (targets s1) = filter (keyltn (length (heap s))) (targets s) /\ curop s1 = curop s.
Proof.
  intro H. destruct (begin_op_frame c s) as [Eh0 [_ [Ec0 [Et0 Eo0]]]]. rewrite <- Ec0, <- Et0, <- Eo0.
  split; [rewrite <- Eh0; apply prefix_firstn; apply (st_heap H)|]. split; [apply (st_cold H)|].
  split; [rewrite (st_tgt H); reflexivity | apply (st_curop H)].
Qed.

Lemma finish_frame_begin_op x c k m cached s s4 r s' :
  Step (length (heap s)) x (begin_op c s) s4 -> length (heap s) <= m -> finish_main c k m cached s4 = (r, s') ->
  firstn (length (heap s)) (heap s') = heap s /\
  filter (ltn (length (heap s))) (constr s') = filter (ltn (length (heap s))) (constr s) /\
  filter (keyltn (length (heap s))) (targets s') = filter (keyltn (length (heap s))) (targets s) /\ curop s' = curop s.
Proof.
  intros Hst Hm Ef. destruct (finish_main_frame _ c k m cached s4 r s' (st_inv Hst) Hm Ef) as [Fh [Fc [Ft Fo]]].
  rewrite Fh, Fc, Ft, Fo. exact (Step_frame_begin_op x c s _ Hst).
Qed.

(* Every way of failing ends in a state s' holding exactly the earlier entries of a load-phase state s1: then
   all_models is what it was when the load began, followed by models taken from the cache. *)
Lemma failed_state_spec x c s s1 s' :
  Stable s -> Step (length (heap s)) x (begin_op c s) s1 -> Inv (length (heap s)) s' -> allm s' = old (length (heap s)) s1 ->
  (forall y, y < length (heap s) -> local_of y s' = local_of y s1) ->
  (exists l, allm s' = allm (begin_op c s) ++ l /\ from_x x l) /\
  (forall kv, In kv (allm s') -> is_old (length (heap s)) kv = true) /\
  (forall y, y < length (heap s) -> local_of y s' = local_of y s) /\ Stable s'.
Proof.
  intros HS H HI' Ha Hl. destruct (begin_op_Inv c s HS) as [_ [Hold0 _]]. set (n0 := length (heap s)) in *.
  assert (Hall : forall kv, In kv (allm s') -> is_old n0 kv = true) by (intros kv; rewrite Ha; apply old_all_old).
  split; [|split; [exact Hall|split; [|exact (Inv_old_Stable n0 s' HI' Hall)]]].
  - rewrite Ha. rewrite <- (all_old_eq n0 _ Hold0). apply (st_old H).
  - intros y Hy. rewrite (Hl y Hy), (st_loc H y Hy). apply local_of_begin_op.
Qed.

(* Whatever the outcome, a top-level load leaves what belongs to the earlier models as it was: the model objects,
   their construction marks and reference targets, and the operation counter. *)
Theorem load_main_x_raw_frame x xvals fs c f s :
  Stable s -> ext_ok (length (heap s)) x (begin_op c s) ->
  let n := length (heap s) in
  let s1 := snd (load_main_x_raw x xvals fs c f s) in
  firstn n (heap s1) = heap s /\ filter (ltn n) (constr s1) = filter (ltn n) (constr s) /\
  filter (keyltn n) (targets s1) = filter (keyltn n) (targets s) /\ curop s1 = curop s.
Proof.
  intros HS HX n s1. subst s1.
  destruct (load_main_x_raw_cases x xvals fs c f s) as [[m [_ [_ E]]]|[Hg E]]; rewrite E; clear E.
  { cbn [snd]. apply (Step_frame_begin_op x c s), Step_refl, (begin_op_Inv c s HS). }
  destruct (load_main_x_phase x fs c f s HS HX Hg) as [Hst [Hok _]]. fold n in Hst, Hok.
  destruct (load_file_x x fs c (S (length fs)) true f (begin_op c s)) as [[e|m] s1]; cbn [fst snd] in *;
    [exact (Step_frame_begin_op x c s _ Hst)|].
  destruct (Hok m eq_refl) as [_ [Hm _]].
  destruct (finish_main c f m (vals (begin_op c s) ++ xvals) s1) as [r s'] eqn:Ef. cbn [snd].
  exact (finish_frame_begin_op x c f m _ s s1 r s' Hst Hm Ef).
Qed.

(* C18 with an external cache: a failing load leaves all_models as it was when the load began, followed by earlier
   models taken from the cache (none without a cache); earlier models' local_models are untouched; the state is
   well formed again.  xvals lists the models of the other repositories. *)
Theorem load_main_x_failure_raw x xvals fs c f s e s' :
  Stable s -> ext_ok (length (heap s)) x (begin_op c s) ->
  (forall g m', x g = Some m' -> In m' xvals) -> (forall v, In v xvals -> v < length (heap s)) ->
  load_main_x_raw x xvals fs c f s = (inl e, s') ->
  (exists l, allm s' = allm (begin_op c s) ++ l /\ from_x x l) /\
  (forall kv, In kv (allm s') -> is_old (length (heap s)) kv = true) /\
  (forall y, y < length (heap s) -> local_of y s' = local_of y s) /\ Stable s'.
Proof.
  intros HS HX Hxv Hxb. destruct (begin_op_Inv c s HS) as [_ [Hold0 _]]. set (n0 := length (heap s)) in *.
  destruct (load_main_x_raw_cases x xvals fs c f s) as [[m [_ [_ E]]]|[Hg E]]; rewrite E; clear E; [discriminate|].
  destruct (load_main_x_phase x fs c f s HS HX Hg) as [Hst [Hok Hfail]]. fold n0 in Hst, Hok, Hfail.
  destruct (load_file_x x fs c (S (length fs)) true f (begin_op c s)) as [[e1|m] s1]; cbn [fst snd] in *.
  - intro H. inversion H; subst e1 s1. apply (failed_state_spec x c s s' s' HS Hst (st_inv Hst)); [|reflexivity].
    symmetry. apply all_old_eq. exact (Hfail e eq_refl).
  - destruct (Hok m eq_refl) as [_ [Hm [Hc _]]]. intro H.
    destruct (finish_main_clean n0 c f m (vals (begin_op c s) ++ xvals) s1 e s' (st_inv Hst) Hm Hc) with (3 := H) as [HI' [Ha' Hl']].
    + intros [k v] Hin. cbn [snd]. apply in_or_app. destruct (Step_prov n0 x _ _ _ Hst Hin) as [H0|H0].
      * left. apply filter_In in H0 as [H0 _]. apply in_map_iff. exists (k, v). auto.
      * right. apply (Hxv k v). exact H0.
    + intros v Hin. apply in_app_or in Hin as [Hin|Hin]; [|apply Hxb; exact Hin].
      apply in_map_iff in Hin as [[k v'] [<- Hin]]. specialize (Hold0 _ Hin). apply Nat.ltb_lt. exact Hold0.
    + exact (failed_state_spec x c s s1 s' HS Hst HI' Ha' Hl').
Qed.

(* A successful load: the state is well formed, nothing that was registered is lost, the earlier entries are those of
   before followed by models taken from the cache, earlier models keep their local models, and every local model of
   a model created by the load is the registered model of its file. *)
Theorem load_main_x_ok_raw x xvals fs c f s m s' :
  Stable s -> ext_ok (length (heap s)) x (begin_op c s) ->
  load_main_x_raw x xvals fs c f s = (inr m, s') ->
  Stable s' /\ Pres (begin_op c s) s' /\ LR (length (heap s)) s' /\
  (exists l, old (length (heap s)) s' = allm (begin_op c s) ++ l /\ from_x x l) /\
  (forall y, y < length (heap s) -> local_of y s' = local_of y s) /\
  (length (heap s) <= m \/ dget f (allm (begin_op c s)) = Some m).
Proof.
  intros HS HX. destruct (begin_op_Inv c s HS) as [HI0 [Hold0 HL0]]. set (n0 := length (heap s)) in *.
  pose proof (local_of_begin_op c s) as Hloc0.
  destruct (load_main_x_raw_cases x xvals fs c f s) as [[m0 [Hc [_ E]]]|[Hg E]]; rewrite E; clear E.
  { intro H. inversion H; subst m0 s'. split; [apply Stable_begin_op; exact HS|]. split; [apply Pres_refl|].
    split; [exact HL0|]. split; [rewrite <- (all_old_eq n0 _ Hold0); apply (old_same n0 x); reflexivity | auto]. }
  destruct (load_main_x_phase x fs c f s HS HX Hg) as [Hst [Hok _]]. fold n0 in Hst, Hok.
  destruct (load_file_x x fs c (S (length fs)) true f (begin_op c s)) as [[e1|m1] s1]; cbn [fst snd] in *; [discriminate|].
  destruct (Hok m1 eq_refl) as [Hp [Hm [Hc HL]]]. intro H.
  destruct (finish_main_ok_stable n0 c f m1 _ s1 m s' (st_inv Hst) Hc H) as [-> [Ea [_ [El HS']]]].
  split; [exact HS'|]. split; [intros k v Hk; rewrite Ea; apply Hp; exact Hk|].
  split; [eapply LR_pres; [exact HL | intros k v Hk; rewrite Ea; exact Hk | exact El]|].
  split; [unfold old; rewrite Ea; rewrite <- (all_old_eq n0 _ Hold0); apply (st_old Hst)|].
  split; [|left; exact Hm]. intros y Hy. rewrite (local_of_ext s1 s' y El), (st_loc Hst y Hy). apply Hloc0.
Qed.

Lemma Stable_init b : Stable (init_state b).
Proof. unfold Stable, init_state, file_ok, local_of. cbn. repeat split; try constructor; try tauto. Qed.

(* between two loads: the local models of every registered model are registered models *)
Definition LocReg (s : state) : Prop :=
  forall x g t, In (g, t) (local_of x s) -> In x (vals s) -> dget g (allm s) = Some t.

Lemma LocReg_init b : LocReg (init_state b).
Proof. intros x g t _ []. Qed.
Lemma LocReg_begin_op c s : LocReg s -> LocReg (begin_op c s).
Proof. intro HL. unfold begin_op. destruct (cglobal c); [exact HL|]. intros x g t _ []. Qed.

(* Without a cache the registered earlier models are those registered before, with the local models they had; so
   with LocReg before the load, LR (the models of this load) extends to every registered model. *)
Lemma registered_after n0 s0 s1 :
  LocReg s0 -> (forall y g t, y < n0 -> In (g, t) (local_of y s1) -> In (g, t) (local_of y s0)) ->
  old n0 s1 = allm s0 -> Pres s0 s1 -> LR n0 s1 ->
  forall y g t, In (g, t) (local_of y s1) -> In y (vals s1) \/ n0 <= y -> dget g (allm s1) = Some t.
Proof.
  intros HL0 Hloc Hold Hp HL y g t Hin Hy.
  destruct (Nat.lt_ge_cases y n0) as [Hlt|Hge]; [|apply (HL y g t Hin Hge)].
  destruct Hy as [Hy|Hy]; [|lia]. apply Hp, (HL0 y g t (Hloc y g t Hlt Hin)).
  apply in_map_iff in Hy as [[k v] [Hv Hk]]. cbn in Hv. subst v. rewrite <- Hold. apply in_map_iff. exists (k, y).
  split; [reflexivity|]. apply filter_In. split; [exact Hk | apply Nat.ltb_lt; exact Hlt].
Qed.

Lemma first_some_app {A B} (f : A -> option B) l1 l2 :
  first_some f (l1 ++ l2) = match first_some f l1 with Some b => Some b | None => first_some f l2 end.
Proof. induction l1 as [|a t IH]; cbn; [reflexivity|]. destruct (f a); [reflexivity | exact IH]. Qed.
Lemma first_some_none {A B} (f : A -> option B) l : (forall a, In a l -> f a = None) -> first_some f l = None.
Proof. induction l as [|a t IH]; cbn; [reflexivity|]. intro H. rewrite (H a (or_introl eq_refl)). apply IH. intros; apply H; right; assumption. Qed.

Lemma resolve_name_order c s x n :
  resolve_name c s x n = first_some (lookup_in s n) ([x] ++ map snd (local_of x s) ++ cbuiltins c).
Proof. unfold resolve_name, search_list. rewrite src_lookup_order. cbn [flat_map scope_models]. rewrite app_nil_r. reflexivity. Qed.

Lemma first_some_in {A B} (f : A -> option B) l b : first_some f l = Some b -> exists a, In a l /\ f a = Some b.
Proof.
  induction l as [|a t IH]; cbn; [discriminate|]. destruct (f a) eqn:E.
  - intro H. inversion H; subst. exists a. auto.
  - intro H. destruct (IH H) as [a' [H1 H2]]. exists a'. auto.
Qed.
Lemma find_elem_first n es i : find_elem n es = Some i ->
  nth_error es i = Some n /\ forall j, j < i -> nth_error es j <> Some n.
Proof.
  revert i. induction es as [|e l IH]; intros i; cbn [find_elem]; [discriminate|].
  destruct (N.eqb e n) eqn:E.
  - intro H. inversion H; subst. apply N.eqb_eq in E. subst. split; [reflexivity | intros j Hj; lia].
  - destruct (find_elem n l) as [k|]; [|discriminate]. cbn. intro H. inversion H; subst.
    destruct (IH k eq_refl) as [H1 H2]. split; [exact H1|]. intros [|j] Hj; cbn.
    + intro H0. inversion H0; subst. rewrite N.eqb_refl in E. discriminate.
    + apply H2. lia.
Qed.

Lemma resolve_name_in c s x n t i : resolve_name c s x n = Some (t, i) ->
  (t = x \/ In t (map snd (local_of x s)) \/ In t (cbuiltins c)) /\
  exists fc, cont_of t s = Some fc /\ nth_error (felems fc) i = Some n.
Proof.
  rewrite resolve_name_order. intro H. apply first_some_in in H as [a [Hin Hl]].
  unfold lookup_in in Hl. destruct (cont_of a s) as [fc|] eqn:Ec; [|discriminate].
  destruct (find_elem n (felems fc)) as [j|] eqn:Ef; [|discriminate]. cbn in Hl. inversion Hl; subst a j.
  split.
  - cbn in Hin. destruct Hin as [Hin|Hin]; [left; auto|]. apply in_app_or in Hin. tauto.
  - exists fc. split; [exact Ec | exact (proj1 (find_elem_first n (felems fc) i Ef))].
Qed.

(* The load as observed: the raw load followed by the garbage collection (tidy). *)
Lemma allm_tidy n s : allm (tidy n s) = allm s. Proof. reflexivity. Qed.
Lemma reads_tidy n s : reads (tidy n s) = reads s. Proof. reflexivity. Qed.
Lemma heap_tidy n s : heap (tidy n s) = firstn n (heap s). Proof. reflexivity. Qed.
Lemma length_heap_tidy n s : n <= length (heap s) -> length (heap (tidy n s)) = n.
Proof. intro H. rewrite heap_tidy, firstn_length. lia. Qed.

Lemma nth_error_firstn_lt {A} n (l : list A) v : v < n -> nth_error (firstn n l) v = nth_error l v.
Proof.
  revert l v. induction n as [|n IH]; intros l v Hv; [lia|].
  destruct l as [|a l]; [destruct v; reflexivity|]. destruct v as [|v]; [reflexivity|]. cbn. apply IH. lia.
Qed.

Lemma dget_tab (F : nat -> list (nat * nat)) k : forall a x,
  dget x (filter nonempty_entry (map (fun y => (y, F y)) (seq a k))) =
  if (Nat.leb a x && Nat.ltb x (a + k) && negb (is_nil (F x)))%bool then Some (F x) else None.
Proof.
  induction k as [|k IH]; intros a x; cbn [seq map filter].
  - cbn [dget]. rewrite Nat.add_0_r.
    destruct (Nat.leb a x) eqn:E1; [|reflexivity]. apply Nat.leb_le in E1.
    replace (Nat.ltb x a) with false by (symmetry; apply Nat.ltb_ge; exact E1). reflexivity.
  - unfold nonempty_entry at 1. cbn [snd].
    destruct (Nat.eq_dec x a) as [->|Hne].
    + replace (Nat.leb a a) with true by (symmetry; apply Nat.leb_refl).
      replace (Nat.ltb a (a + S k)) with true by (symmetry; apply Nat.ltb_lt; lia). cbn [andb].
      destruct (is_nil (F a)) eqn:En; cbn [negb].
      * rewrite IH. replace (Nat.leb (S a) a) with false by (symmetry; apply Nat.leb_gt; lia). reflexivity.
      * cbn [dget]. rewrite Nat.eqb_refl. reflexivity.
    + assert (Hrest : dget x (filter nonempty_entry (map (fun y => (y, F y)) (seq (S a) k))) =
                      if (Nat.leb a x && Nat.ltb x (a + S k) && negb (is_nil (F x)))%bool then Some (F x) else None).
      { rewrite IH. replace (Nat.ltb x (S a + k)) with (Nat.ltb x (a + S k)) by (f_equal; lia).
        replace (Nat.leb (S a) x) with (Nat.leb a x); [reflexivity|].
        destruct (Nat.leb a x) eqn:E1; symmetry; [apply Nat.leb_le; apply Nat.leb_le in E1; lia | apply Nat.leb_gt; apply Nat.leb_gt in E1; lia]. }
      destruct (negb (is_nil (F a))); [|exact Hrest].
      cbn [dget]. replace (Nat.eqb x a) with false by (symmetry; apply Nat.eqb_neq; exact Hne). exact Hrest.
Qed.

Lemma local_of_tidy n s x : local_of x (tidy n s) = if Nat.ltb x n then local_of x s else [].
Proof.
  unfold local_of at 1. cbn [locals tidy]. unfold norm_locals. rewrite (dget_tab (fun y => local_of y s) n 0 x).
  cbn [Nat.leb andb plus]. destruct (Nat.ltb x n); [|reflexivity].
  cbn [andb]. destruct (local_of x s) eqn:E; reflexivity.
Qed.
Lemma local_of_tidy_lt n s x : x < n -> local_of x (tidy n s) = local_of x s.
Proof. intro H. rewrite local_of_tidy. apply Nat.ltb_lt in H. rewrite H. reflexivity. Qed.
Lemma In_local_of_tidy n s x g t : In (g, t) (local_of x (tidy n s)) -> x < n /\ In (g, t) (local_of x s).
Proof. rewrite local_of_tidy. destruct (Nat.ltb x n) eqn:E; [apply Nat.ltb_lt in E; auto | intros []]. Qed.

Lemma Stable_tidy n s : Stable s -> n <= length (heap s) ->
  (forall k v, In (k, v) (allm s) -> v < n) ->
  (forall x g t, x < n -> In (g, t) (local_of x s) -> t < n) ->
  Stable (tidy n s).
Proof.
  intros [A [B [C [D E]]]] Hn Hv Hl. unfold Stable, file_ok. rewrite allm_tidy, (length_heap_tidy n s Hn).
  split; [exact A|]. split; [exact B|]. split; [|split].
  - intros k v Hin. destruct (C k v Hin) as [mi [H1 H2]]. exists mi. split; [|exact H2].
    rewrite heap_tidy, nth_error_firstn_lt; [exact H1 | eapply Hv; exact Hin].
  - intros v Hin Hc. cbn [constr tidy] in Hc. apply filter_In in Hc as [Hc _]. eapply D; eassumption.
  - intros x g t Hin. apply In_local_of_tidy in Hin as [Hx Hin]. split; [exact Hx | eapply Hl; eassumption].
Qed.

(* the observed state is in normal form *)
Definition Tidy (s : state) : Prop :=
  (forall x, In x (constr s) -> x < length (heap s)) /\
  (forall kv, In kv (targets s) -> fst kv < length (heap s)) /\
  locals s = norm_locals (length (heap s)) s.

Lemma norm_locals_ext n s s' : (forall x, x < n -> local_of x s' = local_of x s) -> norm_locals n s' = norm_locals n s.
Proof.
  intro H. unfold norm_locals. f_equal. apply map_ext_in. intros x Hx. apply in_seq in Hx. rewrite H by lia. reflexivity.
Qed.

Lemma tidy_Tidy n s : n <= length (heap s) -> Tidy (tidy n s).
Proof.
  intro Hn. unfold Tidy. rewrite (length_heap_tidy n s Hn). split; [|split].
  - intros x Hx. cbn [constr tidy] in Hx. apply filter_In in Hx as [_ Hx]. apply Nat.ltb_lt. exact Hx.
  - intros kv Hk. cbn [targets tidy] in Hk. apply filter_In in Hk as [_ Hk]. apply Nat.ltb_lt. exact Hk.
  - cbn [locals tidy]. symmetry. apply norm_locals_ext. intros x Hx. apply local_of_tidy_lt. exact Hx.
Qed.

Lemma Tidy_init b : Tidy (init_state b).
Proof.
  unfold Tidy, init_state. cbn [constr targets locals heap]. split; [intros x []|]. split; [intros kv []|].
  unfold norm_locals. symmetry. generalize (length (map (fun fc => mkMinfo 0 0 fc) b)). intro n. generalize 0.
  induction n as [|n IH]; intro a; cbn; [reflexivity|]. apply IH.
Qed.

Lemma Stable_vals_lt s k v : Stable s -> In (k, v) (allm s) -> v < length (heap s).
Proof. intros [_ [_ [C _]]] Hin. destruct (C k v Hin) as [mi [H _]]. eapply m_lt_heap. exact H. Qed.
Lemma In_allm_begin_op c s kv : In kv (allm (begin_op c s)) -> In kv (allm s).
Proof. unfold begin_op. destruct (cglobal c); [auto | intros []]. Qed.

(* A top-level load (of a file, of a string) is a raw load followed by the garbage collection.  What the raw
   loads establish about their result r from a state s; everything about the observed loads follows from this. *)
Record RawSpec (c : cfg) (s : state) (r : (err + nat) * state) : Prop := mkRawSpec {
  rs_frame : firstn (length (heap s)) (heap (snd r)) = heap s /\
             filter (ltn (length (heap s))) (constr (snd r)) = filter (ltn (length (heap s))) (constr s) /\
             filter (keyltn (length (heap s))) (targets (snd r)) = filter (keyltn (length (heap s))) (targets s) /\
             curop (snd r) = curop s;
  rs_stable : Stable (snd r);
  rs_fail : forall e, fst r = inl e ->
            allm (snd r) = allm (begin_op c s) /\ (forall x, x < length (heap s) -> local_of x (snd r) = local_of x s);
  rs_ok : forall m, fst r = inr m -> LocReg s ->
          forall x g t, In (g, t) (local_of x (snd r)) -> In x (vals (snd r)) \/ x = m -> dget g (allm (snd r)) = Some t }.

Section Observed.
  Variables (c : cfg) (s : state) (r : (err + nat) * state).
  Hypothesis HS : Stable s.
  Hypothesis HR : RawSpec c s r.
  Notation obs := (fst r, tidy (live_bound s r) (snd r)).

  Lemma obs_bound : live_bound s r <= length (heap (snd r)).
  Proof.
    unfold live_bound. destruct (fst r); [|apply le_n]. destruct (rs_frame _ _ _ HR) as [Hf _].
    apply (f_equal (@length _)) in Hf. rewrite firstn_length in Hf. lia.
  Qed.

  Lemma obs_stable : Stable (tidy (live_bound s r) (snd r)).
  Proof.
    pose proof (rs_stable _ _ _ HR) as HS1.
    apply Stable_tidy; [exact HS1 | exact obs_bound | |]; unfold live_bound; destruct (fst r) as [e|m] eqn:E.
    - intros k v Hin. destruct (rs_fail _ _ _ HR e E) as [Ha _]. rewrite Ha in Hin.
      exact (Stable_vals_lt s k v HS (In_allm_begin_op c s _ Hin)).
    - intros k v Hin. exact (Stable_vals_lt _ k v HS1 Hin).
    - intros x g t Hx Hin. destruct (rs_fail _ _ _ HR e E) as [_ Hl]. rewrite (Hl x Hx) in Hin.
      destruct HS as [_ [_ [_ [_ E5]]]]. apply (E5 x g t Hin).
    - intros x g t _ Hin. destruct HS1 as [_ [_ [_ [_ E5]]]]. apply (E5 x g t Hin).
  Qed.

  Lemma obs_Tidy : Tidy (tidy (live_bound s r) (snd r)).
  Proof. apply tidy_Tidy, obs_bound. Qed.

  Lemma obs_failure_clean e s' : obs = (inl e, s') ->
    allm s' = allm (begin_op c s) /\ (forall x, x < length (heap s) -> local_of x s' = local_of x s) /\ Stable s'.
  Proof.
    intro H. injection H as E Es. subst s'. destruct (rs_fail _ _ _ HR e E) as [Ha Hl].
    split; [exact Ha|]. split; [|exact obs_stable].
    intros x Hx. unfold live_bound. rewrite E. rewrite local_of_tidy_lt by exact Hx. apply Hl. exact Hx.
  Qed.

  (* the state after a failed load equals the state before it in every component but the file-open trace *)
  Lemma obs_restores e s' : Tidy s -> obs = (inl e, s') ->
    heap s' = heap s /\ allm s' = allm (begin_op c s) /\ locals s' = locals s /\ constr s' = constr s /\
    targets s' = targets s /\ curop s' = curop s.
  Proof.
    intros [T1 [T2 T3]] H. injection H as E Es. subst s'. destruct (rs_fail _ _ _ HR e E) as [Ha Hl].
    destruct (rs_frame _ _ _ HR) as [Fh [Fc [Ft Fo]]]. unfold live_bound. rewrite E.
    split; [exact Fh|]. split; [exact Ha|]. split; [|split; [|split]].
    - cbn [locals tidy]. rewrite T3. apply norm_locals_ext. exact Hl.
    - cbn [constr tidy]. rewrite Fc. apply filter_all. intros x Hx. apply Nat.ltb_lt. apply T1. exact Hx.
    - cbn [targets tidy]. rewrite Ft. apply filter_all. intros kv Hk. apply Nat.ltb_lt. apply T2. exact Hk.
    - exact Fo.
  Qed.

  Lemma obs_ok_registered m s' : LocReg s -> obs = (inr m, s') ->
    forall x g t, In (g, t) (local_of x s') -> (In x (vals s') \/ x = m) -> dget g (allm s') = Some t.
  Proof.
    intros HL H. injection H as E Es. subst s'. intros x g t Hin Hx. apply In_local_of_tidy in Hin as [_ Hin].
    exact (rs_ok _ _ _ HR m E HL x g t Hin Hx).
  Qed.

  Lemma obs_locreg : LocReg s -> LocReg (tidy (live_bound s r) (snd r)).
  Proof.
    intros HL x g t Hin Hx. destruct (fst r) as [e|m] eqn:E.
    - assert (H : obs = (inl e, tidy (live_bound s r) (snd r))) by (rewrite E; reflexivity).
      destruct (obs_failure_clean e _ H) as [Ha [Hl _]]. rewrite Ha in Hx |- *.
      assert (Hx' : In x (vals s)).
      { apply in_map_iff in Hx as [kv [Hv Hk]]. apply in_map_iff. exists kv. split; [exact Hv | apply (In_allm_begin_op c s kv Hk)]. }
      assert (Hlt : x < length (heap s)).
      { apply in_map_iff in Hx' as [[k v] [<- Hk]]. exact (Stable_vals_lt s k v HS Hk). }
      rewrite (Hl x Hlt) in Hin. specialize (HL x g t Hin Hx').
      (* the repository after begin_op is the one before, or empty - and then x is not registered *)
      revert Hx. unfold begin_op. destruct (cglobal c); [intros _; exact HL | intros []].
    - assert (H : obs = (inr m, tidy (live_bound s r) (snd r))) by (rewrite E; reflexivity).
      apply (obs_ok_registered m _ HL H x g t Hin). left. exact Hx.
  Qed.

  (* C17 identity: whatever a name resolves to from a model of the result is an element of the model itself, of a
     builtin model, or of THE model registered in all_models for the target's file *)
  Lemma obs_identity m s' x n t i : LocReg s -> obs = (inr m, s') ->
    In x (included m s') -> resolve_name c s' x n = Some (t, i) ->
    t = x \/ In t (cbuiltins c) \/ (dget (file_of t s') (allm s') = Some t).
  Proof.
    intros HL E Hx Hr. destruct (resolve_name_in c s' x n t i Hr) as [[H|[H|H]] _]; [left; exact H | | right; left; exact H].
    right. right. apply in_map_iff in H as [[g t'] [Ht Hin]]. cbn in Ht. subst t'.
    assert (Hreg : dget g (allm s') = Some t).
    { apply (obs_ok_registered m s' HL E x g t Hin). apply In_included in Hx. exact Hx. }
    pose proof obs_stable as HS'. injection E as _ Es. rewrite Es in HS'.
    destruct HS' as [_ [_ [C _]]]. destruct (C g t (dget_In _ _ _ Hreg)) as [mi [H1 H2]].
    unfold file_of. rewrite H1, H2. exact Hreg.
  Qed.
End Observed.

Lemma load_main_raw_spec fs c f s : Stable s -> RawSpec c s (load_main_raw fs c f s).
Proof.
  intro HS. rewrite <- load_main_x_raw_none. pose proof (ext_ok_none (length (heap s)) (begin_op c s)) as HX.
  pose proof (load_main_x_raw_frame _ [] fs c f s HS HX) as F.
  destruct (load_main_x_raw (fun _ => None) [] fs c f s) as [[e|m] s1] eqn:E.
  - destruct (load_main_x_failure_raw _ [] fs c f s e s1 HS HX) with (3 := E) as [[l [Ea Hl]] [_ [Hloc HS']]];
      [discriminate | intros v [] |].
    rewrite (from_none l Hl), app_nil_r in Ea. constructor; cbn [fst snd]; [exact F | exact HS' | auto | discriminate].
  - destruct (load_main_x_ok_raw _ [] fs c f s m s1 HS HX E) as [HS' [Hp [HLR [[l [Ho Hl]] [Hloc Hm]]]]].
    rewrite (from_none l Hl), app_nil_r in Ho.
    constructor; cbn [fst snd]; [exact F | exact HS' | discriminate |].
    intros m' Hm' HL x g t Hin Hx. inversion Hm'; subst m'.
    apply (registered_after (length (heap s)) (begin_op c s) s1 (LocReg_begin_op c s HL)) with (y := x); auto.
    + intros y g' t' Hy Hin'. rewrite (Hloc y Hy) in Hin'. rewrite local_of_begin_op. exact Hin'.
    + destruct Hx as [Hx | ->]; [left; exact Hx|]. destruct Hm as [Hm|Hm]; [right; exact Hm|].
      left. apply in_map_iff. exists (f, m). split; [reflexivity|]. apply dget_In, Hp. exact Hm.
Qed.

Theorem load_main_failure_clean_raw fs c f s e s' :
  Stable s -> load_main_raw fs c f s = (inl e, s') ->
  allm s' = allm (begin_op c s) /\ (forall x, x < length (heap s) -> local_of x s' = local_of x s) /\ Stable s'.
Proof.
  intros HS H. destruct (load_main_raw_spec fs c f s HS) as [_ HS' Hf _]. rewrite H in HS', Hf.
  destruct (Hf e eq_refl) as [Ha Hl]. auto.
Qed.

Theorem load_main_once fs c f s :
  K (begin_op c s) ->
  fst (load_main fs c f s) <> inl EFuel /\ NoDup (reads (snd (load_main fs c f s))).
Proof. intro H. unfold load_main. cbn [fst snd]. rewrite reads_tidy. apply load_main_once_raw. exact H. Qed.

Lemma cached_load_returns_cached fs c f s m :
  cglobal c = true -> dget f (allm s) = Some m ->
  fst (load_main fs c f s) = inr m /\ reads (snd (load_main fs c f s)) = [] /\ allm (snd (load_main fs c f s)) = allm s.
Proof.
  intros Hg Hc. unfold load_main. cbn [fst snd]. rewrite reads_tidy, allm_tidy. apply cached_load_returns_cached_raw; assumption.
Qed.

Theorem load_main_failure_clean fs c f s e s' :
  Stable s -> load_main fs c f s = (inl e, s') ->
  allm s' = allm (begin_op c s) /\ (forall x, x < length (heap s) -> local_of x s' = local_of x s) /\ Stable s'.
Proof. intro HS. exact (obs_failure_clean c s _ HS (load_main_raw_spec fs c f s HS) e s'). Qed.

Theorem load_main_stable fs c f s : Stable s -> Stable (snd (load_main fs c f s)).
Proof. intro HS. exact (obs_stable c s _ HS (load_main_raw_spec fs c f s HS)). Qed.

Theorem load_main_ok_registered fs c f s m s' :
  Stable s -> LocReg s -> load_main fs c f s = (inr m, s') ->
  forall x g t, In (g, t) (local_of x s') -> (In x (vals s') \/ x = m) -> dget g (allm s') = Some t.
Proof. intro HS. exact (obs_ok_registered c s _ (load_main_raw_spec fs c f s HS) m s'). Qed.

Theorem load_main_Tidy fs c f s : Stable s -> Tidy (snd (load_main fs c f s)).
Proof. intro HS. exact (obs_Tidy c s _ (load_main_raw_spec fs c f s HS)). Qed.

Theorem failed_load_restores_state fs c f s e s' :
  Stable s -> Tidy s -> load_main fs c f s = (inl e, s') ->
  heap s' = heap s /\ allm s' = allm (begin_op c s) /\ locals s' = locals s /\ constr s' = constr s /\
  targets s' = targets s /\ curop s' = curop s.
Proof. intro HS. exact (obs_restores c s _ (load_main_raw_spec fs c f s HS) e s'). Qed.

Lemma load_main_begin_op fs c f a b :
  begin_op c a = begin_op c b -> length (heap a) = length (heap b) -> load_main fs c f a = load_main fs c f b.
Proof.
  intros H Hl. unfold load_main, live_bound, load_main_raw. rewrite H, Hl. reflexivity.
Qed.

(* the load phase of a string main model, from the state s0 after begin_op: the body of load_file without
   registration, over the single-language loader *)
Lemma load_str_phase fs c n0 s0 k fc r s4 :
  Inv n0 s0 ->
  (if (clazy c && is_nil (frefs fc))%bool then (None, alloc k fc s0)
   else load_stmts (load_file fs c (S (length fs)) false) (length (heap s0)) k (fimports fc) (alloc k fc s0)) = (r, s4) ->
  Step n0 (fun _ => None) s0 s4 /\ n0 <= length (heap s0) /\ In (length (heap s0)) (constr s4) /\
  (r = None -> Pres s0 s4 /\ (LR n0 s0 -> LR n0 s4)).
Proof.
  intros HI E.
  assert (Hk : true = false -> dget k (allm s0) = None) by discriminate.
  destruct (load_body_cl c n0 _ _ k fc true s0 r s4 (load_file_cl_none fs c n0 _) HI (ext_ok_none _ _) Hk E) as [Hm [Hst [Hc Hok]]].
  split; [exact Hst|]. split; [exact Hm|]. split; [exact Hc|]. intro Hr. split; [apply Hok; exact Hr|]. intro HL. subst r.
  exact (load_body_lr c n0 _ _ k fc true s0 s4 (load_file_cl_none fs c n0 _) (load_file_lr_none fs c n0 _) HI (ext_ok_none _ _) HL Hk E).
Qed.

Lemma load_str_raw_spec fs c fc s : Stable s -> RawSpec c s (load_str_raw fs c fc s).
Proof.
  intro HS. destruct (begin_op_Inv c s HS) as [HI0 [Hold0 HLR0]]. unfold load_str_raw.
  set (s0 := begin_op c s) in *. set (n0 := length (heap s)) in *.
  destruct (fsyn fc).
  { constructor; cbn [fst snd]; [|exact (Stable_begin_op c s HS) | | discriminate].
    - apply (Step_frame_begin_op (fun _ => None) c s), Step_refl, HI0.
    - intros e _. split; [reflexivity | intros; apply local_of_begin_op]. }
  destruct (if (clazy c && is_nil (frefs fc))%bool then _ else _) as [r s4] eqn:E4.
  destruct (load_str_phase fs c n0 s0 (anon_key fs s0) fc r s4 HI0 E4) as [Hst [Hm [Hc Hok]]].
  assert (Hfail : forall s', Inv n0 s' -> allm s' = old n0 s4 -> (forall y, y < n0 -> local_of y s' = local_of y s4) ->
            Stable s' /\ allm s' = allm s0 /\ (forall y, y < n0 -> local_of y s' = local_of y s)).
  { intros s' HI' Ha Hl. destruct (failed_state_spec _ c s s4 s' HS Hst HI' Ha Hl) as [[l [Ea Hx]] [_ [Hloc HS']]].
    rewrite (from_none l Hx), app_nil_r in Ea. auto. }
  destruct r as [e1|].
  - destruct (handler_clean n0 (fun _ => None) s4 _ (st_inv Hst) Hm) as [Hh Ha].
    destruct (Hfail _ (st_inv Hh) Ha (st_loc Hh)) as [HS' [Ea Hloc]].
    constructor; cbn [fst snd]; [|exact HS' | auto | discriminate].
    apply (Step_frame_begin_op (fun _ => None) c s). eapply Step_trans; eassumption.
  - destruct (Hok eq_refl) as [Hp Hlr].
    assert (Hold : old n0 s4 = allm s0) by (rewrite (Step_none_old _ _ _ Hst); apply all_old_eq; exact Hold0).
    destruct (finish_main c (anon_key fs s0) (length (heap s0)) (vals s0) s4) as [[e|m] s'] eqn:Ef.
    + destruct (finish_main_clean n0 c (anon_key fs s0) (length (heap s0)) (vals s0) s4 e s' (st_inv Hst) Hm Hc) with (3 := Ef)
        as [HI' [Ha' Hl']].
      * intros kv Hin. rewrite Hold in Hin. apply in_map. exact Hin.
      * intros v Hin. apply in_map_iff in Hin as [[k' v'] [<- Hin]]. apply Nat.ltb_lt. exact (Hold0 _ Hin).
      * destruct (Hfail s' HI' Ha' Hl') as [HS' [Ea Hloc]].
        constructor; cbn [fst snd]; [exact (finish_frame_begin_op _ c _ _ _ s s4 _ s' Hst Hm Ef) | exact HS' | auto | discriminate].
    + destruct (finish_main_ok_stable n0 c _ _ _ s4 m s' (st_inv Hst) Hc Ef) as [Em [Ea [_ [El HS']]]].
      constructor; cbn [fst snd]; [exact (finish_frame_begin_op _ c _ _ _ s s4 _ s' Hst Hm Ef) | exact HS' | discriminate |].
      intros m' Hm' HL x g t Hin Hx. inversion Hm'; subst m' m.
      rewrite Ea in *. rewrite (local_of_ext s4 s' x El) in Hin.
      apply (registered_after n0 s0 s4 (LocReg_begin_op c s HL)) with (y := x); auto.
      * intros y g' t' Hy Hin'. rewrite (st_loc Hst y Hy) in Hin'. exact Hin'.
      * destruct Hx as [Hx | ->]; [left; exact Hx | right; exact Hm].
Qed.

Theorem load_str_failure_clean fs c fc s e s' :
  Stable s -> load_str fs c fc s = (inl e, s') ->
  allm s' = allm (begin_op c s) /\ (forall x, x < length (heap s) -> local_of x s' = local_of x s) /\ Stable s'.
Proof. intro HS. exact (obs_failure_clean c s _ HS (load_str_raw_spec fs c fc s HS) e s'). Qed.

Theorem load_str_stable fs c fc s : Stable s -> Stable (snd (load_str fs c fc s)).
Proof. intro HS. exact (obs_stable c s _ HS (load_str_raw_spec fs c fc s HS)). Qed.

Theorem load_str_Tidy fs c fc s : Stable s -> Tidy (snd (load_str fs c fc s)).
Proof. intro HS. exact (obs_Tidy c s _ (load_str_raw_spec fs c fc s HS)). Qed.

Theorem failed_load_str_restores_state fs c fc s e s' :
  Stable s -> Tidy s -> load_str fs c fc s = (inl e, s') ->
  heap s' = heap s /\ allm s' = allm (begin_op c s) /\ locals s' = locals s /\ constr s' = constr s /\
  targets s' = targets s /\ curop s' = curop s.
Proof. intro HS. exact (obs_restores c s _ (load_str_raw_spec fs c fc s HS) e s'). Qed.

Theorem load_str_locreg fs c fc s : Stable s -> LocReg s -> LocReg (snd (load_str fs c fc s)).
Proof. intro HS. exact (obs_locreg c s _ HS (load_str_raw_spec fs c fc s HS)). Qed.

Lemma load_str_begin_op fs c fc a b :
  begin_op c a = begin_op c b -> length (heap a) = length (heap b) -> load_str fs c fc a = load_str fs c fc b.
Proof. intros H Hl. unfold load_str, live_bound, load_str_raw. rewrite H, Hl. reflexivity. Qed.

(* whatever failed (a file load or a string load), whatever follows (a file load or a string load) is literally
   what it would have been without the failed attempt *)
Lemma restored_state_same_loads c s s' :
  heap s' = heap s /\ allm s' = allm (begin_op c s) /\ locals s' = locals s /\ constr s' = constr s /\
  targets s' = targets s /\ curop s' = curop s ->
  (forall fs' f', load_main fs' c f' s' = load_main fs' c f' s) /\
  (forall fs' fc', load_str fs' c fc' s' = load_str fs' c fc' s).
Proof.
  intros [Eh [Ea [El [Ec [Et Eo]]]]].
  assert (Eb : begin_op c s' = begin_op c s).
  { unfold begin_op in *. destruct s as [h a l co t r o], s' as [h' a' l' co' t' r' o']. cbn in *. subst.
    destruct (cglobal c); cbn in *; subst; reflexivity. }
  split; intros; [apply load_main_begin_op | apply load_str_begin_op]; try exact Eb; rewrite Eh; reflexivity.
Qed.

Theorem next_load_as_if_never_failed c s s' :
  Stable s -> Tidy s ->
  (exists fs f e, load_main fs c f s = (inl e, s')) \/ (exists fs fc e, load_str fs c fc s = (inl e, s')) ->
  (forall fs' f', load_main fs' c f' s' = load_main fs' c f' s) /\
  (forall fs' fc', load_str fs' c fc' s' = load_str fs' c fc' s).
Proof.
  intros HS HT [[fs [f [e H]]]|[fs [fc [e H]]]]; apply restored_state_same_loads.
  - exact (failed_load_restores_state fs c f s e s' HS HT H).
  - exact (failed_load_str_restores_state fs c fc s e s' HS HT H).
Qed.

(* C18, last clause: after a failed load, EVERY following load - on whatever the files have been rewritten to -
   is literally the load that would have happened had the failed attempt never taken place: same outcome, same
   file-open trace, same resulting state (repositories, local models, reference targets, model identities). *)
Theorem reload_as_if_never_failed fs c f s e s' :
  Stable s -> Tidy s -> load_main fs c f s = (inl e, s') ->
  forall fs' f', load_main fs' c f' s' = load_main fs' c f' s.
Proof. intros HS HT H. apply (next_load_as_if_never_failed c s s' HS HT). left. exists fs, f, e. exact H. Qed.

Theorem run_hist_stable_tidy c ops : forall fs s, Stable s -> Tidy s -> Stable (run_hist c fs s ops) /\ Tidy (run_hist c fs s ops).
Proof.
  induction ops as [|[f|f fc|fc] t IH]; intros fs s HS HT; cbn; [auto | | apply IH; assumption | ].
  - apply IH; [apply load_main_stable; exact HS | apply load_main_Tidy; exact HS].
  - apply IH; [apply load_str_stable; exact HS | apply load_str_Tidy; exact HS].
Qed.

Theorem run_hist_stable c ops : forall fs s, Stable s -> Stable (run_hist c fs s ops).
Proof.
  induction ops as [|[f|f fc|fc] t IH]; intros fs s HS; cbn; [exact HS | | apply IH; exact HS | ].
  - apply IH. apply load_main_stable. exact HS.
  - apply IH. apply load_str_stable. exact HS.
Qed.

Theorem failure_leaves_only_earlier_models fs c f s e s' :
  Stable s -> load_main fs c f s = (inl e, s') ->
  (forall k v, In (k, v) (allm s') -> v < length (heap s) /\ In (k, v) (allm s)) /\
  (cglobal c = true -> allm s' = allm s).
Proof.
  intros HS E. destruct (load_main_failure_clean fs c f s e s' HS E) as [Ha _].
  assert (Hb : cglobal c = true -> allm (begin_op c s) = allm s) by (intro Hg; unfold begin_op; rewrite Hg; reflexivity).
  split; [|intro Hg; rewrite Ha; apply Hb; exact Hg].
  intros k v Hin. rewrite Ha in Hin. unfold begin_op in Hin. destruct (cglobal c); cbn in Hin; [|destruct Hin].
  split; [|exact Hin]. destruct HS as [_ [_ [C _]]]. destruct (C k v Hin) as [mi [H _]]. apply nth_error_Some. congruence.
Qed.

Theorem load_main_locreg fs c f s : Stable s -> LocReg s -> LocReg (snd (load_main fs c f s)).
Proof. intro HS. exact (obs_locreg c s _ HS (load_main_raw_spec fs c f s HS)). Qed.

Theorem run_hist_locreg c ops : forall fs s, Stable s -> LocReg s -> LocReg (run_hist c fs s ops).
Proof.
  induction ops as [|[f|f fc|fc] t IH]; intros fs s HS HL; cbn; [exact HL | | apply IH; assumption | ].
  - apply IH; [apply load_main_stable; exact HS | apply load_main_locreg; assumption].
  - apply IH; [apply load_str_stable; exact HS | apply load_str_locreg; assumption].
Qed.

Theorem identity_after_load fs c f s m s' x n t i :
  Stable s -> LocReg s -> load_main fs c f s = (inr m, s') ->
  In x (included m s') -> resolve_name c s' x n = Some (t, i) ->
  t = x \/ In t (cbuiltins c) \/ (dget (file_of t s') (allm s') = Some t).
Proof. intro HS. exact (obs_identity c s _ HS (load_main_raw_spec fs c f s HS) m s' x n t i). Qed.

Theorem identity_after_load_str fs c fc s m s' x n t i :
  Stable s -> LocReg s -> load_str fs c fc s = (inr m, s') ->
  In x (included m s') -> resolve_name c s' x n = Some (t, i) ->
  t = x \/ In t (cbuiltins c) \/ (dget (file_of t s') (allm s') = Some t).
Proof. intro HS. exact (obs_identity c s _ HS (load_str_raw_spec fs c fc s HS) m s' x n t i). Qed.

(* a string load never runs out of fuel either and opens no file twice *)
Theorem load_str_once_raw fs c fc s :
  K (begin_op c s) ->
  fst (load_str_raw fs c fc s) <> inl EFuel /\ NoDup (reads (snd (load_str_raw fs c fc s))).
Proof.
  intro HK. unfold load_str_raw. set (s0 := begin_op c s) in *.
  assert (Hr0 : reads s0 = []) by reflexivity.
  destruct (fsyn fc). { cbn [fst snd]. rewrite Hr0. split; [discriminate | constructor]. }
  set (k := anon_key fs s0). set (m := length (heap s0)). set (s2 := alloc k fc s0).
  assert (HK2 : K s2) by exact HK.
  assert (Hr2 : reads s2 = []) by reflexivity.
  destruct (if (clazy c && is_nil (frefs fc))%bool then (None, s2)
            else load_stmts (load_file fs c (S (length fs)) false) m k (fimports fc) s2) as [r s4] eqn:E4.
  destruct (load_imports_once fs c _ _ _ _ _ _ _ _ (load_file_loader_ok fs c (S (length fs))) HK2 ltac:(lia)
              ltac:(rewrite Hr2; constructor) ltac:(rewrite Hr2; intros x []) E4) as [Hnf [Hnd4 _]].
  destruct r as [e|].
  - cbn [fst snd]. split; [congruence | rewrite reads_handler; exact Hnd4].
  - split; [apply fst_finish_main_nofuel | rewrite reads_finish_main; exact Hnd4].
Qed.

Theorem load_str_once fs c fc s :
  K (begin_op c s) ->
  fst (load_str fs c fc s) <> inl EFuel /\ NoDup (reads (snd (load_str fs c fc s))).
Proof. intro H. unfold load_str. cbn [fst snd]. rewrite reads_tidy. apply load_str_once_raw. exact H. Qed.
