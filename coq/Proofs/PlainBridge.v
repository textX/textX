(* C07 — bridges from Model/Plain.v to the models of the neighbouring properties (imported read-only):
     Model/Kinds.v (C03): the class table PlainName's type test runs on is the _tx_inh_by that
                          _determine_rule_types records, and Plain.conforms is Kinds.isinstance on it;
     Model/Nav.v   (C05): Plain.collect is get_children (the transcription with attribute slots, attr.cont,
                          single/many multiplicities and the collected_ids set) on the containment tree. *)
From TxV Require Import Core.Base Model.PlainDefs Gen.SrcPlain Model.Plain Proofs.PlainProofs.
From TxV Require Model.Kinds Proofs.KindsProofs.
Require Import Lia.

(* the class table built from a recorded inheritance function: class i = rule i, textX-created classes *)
Definition table_of (n : nat) (names : nat -> list N) (inhf : nat -> list nat) : list cls :=
  map (fun i => {| cname := names i; cinh := inhf i; cpy := [] |}) (seq 0 n).

Lemma table_of_length n names inhf : length (table_of n names inhf) = n.
Proof. unfold table_of. rewrite map_length, seq_length. reflexivity. Qed.

Lemma table_of_nth n names inhf i : i < n ->
  nth_error (table_of n names inhf) i = Some {| cname := names i; cinh := inhf i; cpy := [] |}.
Proof.
  intro H. unfold table_of. rewrite nth_error_map.
  assert (E : nth_error (seq 0 n) i = Some i).
  { rewrite (nth_error_nth' _ 0); [|rewrite seq_length; exact H]. rewrite seq_nth; [reflexivity | exact H]. }
  rewrite E. reflexivity.
Qed.

Lemma inh_table_of n names inhf i : i < n -> Plain.inh (table_of n names inhf) i = inhf i.
Proof. intro H. unfold Plain.inh. rewrite (table_of_nth _ _ _ _ H). reflexivity. Qed.

Lemma inh_table_of_out n names inhf i : n <= i -> Plain.inh (table_of n names inhf) i = [].
Proof.
  intro H. unfold Plain.inh. rewrite (proj2 (nth_error_None _ _)); [reflexivity|].
  rewrite table_of_length. exact H.
Qed.

Section KindsBridge.
  Variable n : nat.
  Variable names : nat -> list N.
  Variable inhf : nat -> list nat.
  Hypothesis Hrange : forall x y, In y (inhf x) -> y < n.
  Hypothesis Hnames : forall i, names i <> OBJECT_name.
  Notation classes := (table_of n names inhf).

  Lemma wf_table_of : wf_classes classes = true.
  Proof.
    unfold wf_classes. rewrite table_of_length. apply forallb_forall. intros k Hk.
    unfold table_of in Hk. apply in_map_iff in Hk. destruct Hk as [i [<- _]]. simpl.
    apply forallb_forall. intros d Hd. apply Nat.ltb_lt. exact (Hrange i d Hd).
  Qed.

  Lemma no_object_cls c : is_object_cls classes c = false.
  Proof.
    unfold is_object_cls. destruct (nth_error classes c) as [k|] eqn:E; [|reflexivity].
    destruct (Nat.lt_ge_cases c n) as [L|G].
    - rewrite (table_of_nth _ _ _ _ L) in E. inversion E; subst. simpl.
      apply str_eqb_neq. apply Hnames.
    - rewrite (proj2 (nth_error_None _ _)) in E; [discriminate|]. rewrite table_of_length. exact G.
  Qed.

  Lemma Reach_ireach t c : Reach classes t c -> Kinds.ireach inhf t c.
  Proof.
    induction 1 as [c|c d e Hd _ IH]; [apply Kinds.ireach_refl|].
    destruct (Nat.lt_ge_cases c n) as [L|G].
    - rewrite (inh_table_of _ _ _ _ L) in Hd. eapply Kinds.ireach_step; eassumption.
    - rewrite (inh_table_of_out _ _ _ _ G) in Hd. destruct Hd.
  Qed.

  Lemma ireach_Reach t c : Kinds.ireach inhf t c -> t < n -> Reach classes t c.
  Proof.
    induction 1 as [x|x y z Hy _ IH]; intro L; [apply ReachRefl|].
    eapply ReachStep; [rewrite (inh_table_of _ _ _ _ L); exact Hy | apply IH; exact (Hrange x y Hy)].
  Qed.

  Lemma conforms_ireach k t : t < n -> (conforms classes [k] t = true <-> Kinds.ireach inhf t k).
  Proof.
    intro L. rewrite (conforms_spec classes [k] wf_table_of). unfold Conforms. split.
    - intros [c [Hr Hl]]. unfold local in Hl. rewrite no_object_cls in Hl. simpl in Hl.
      rewrite orb_false_r in Hl. apply Nat.eqb_eq in Hl. subst c. apply Reach_ireach. exact Hr.
    - intro H. exists k. split; [apply ireach_Reach; assumption|].
      unfold local. rewrite no_object_cls. simpl. rewrite Nat.eqb_refl. reflexivity.
  Qed.

  Lemma isinstance_conforms k t : t < n ->
    Kinds.isinstance n inhf k (Some t) = Some (conforms classes [k] t).
  Proof.
    intro L. destruct (KindsProofs.isinstance_graph inhf n Hrange k t) as [b [Hb Hiff]].
    rewrite Hb. apply f_equal. pose proof (conforms_ireach k t L) as Hc.
    destruct b, (conforms classes [k] t); try reflexivity.
    - symmetry. apply Hc. apply Hiff. reflexivity.
    - apply Hiff. apply Hc. reflexivity.
  Qed.
End KindsBridge.

From TxV Require Model.Nav Proofs.NavProofs.

(* all objects of a tree, parents first *)
Definition pre (n : node) : list node := map snd (collect (fun _ => true) n).

Lemma snd_collect_kids sel : forall ks i,
  map snd (collect_kids sel i ks) = flat_map (fun k => map snd (collect sel k)) ks.
Proof.
  induction ks as [|k r IH]; intro i; simpl; [reflexivity|].
  rewrite map_app, map_map, IH. simpl. reflexivity.
Qed.

Lemma pre_node c nm ks : pre (Node c nm ks) = Node c nm ks :: flat_map pre ks.
Proof. unfold pre at 1. rewrite collect_unfold. simpl. rewrite snd_collect_kids. reflexivity. Qed.

(* get_children's result is the selected part of the pre-order *)
Lemma snd_collect sel : forall n, map snd (collect sel n) = filter sel (pre n).
Proof.
  intro n. induction n as [c nm ks HF] using node_ind2.
  rewrite pre_node, collect_unfold, map_app, snd_collect_kids. cbn [filter].
  rewrite filter_flat_map.
  rewrite (flat_map_ext_in _ (fun x => filter sel (pre x)) ks (proj1 (Forall_forall _ _) HF)).
  destruct (sel (Node c nm ks)); reflexivity.
Qed.

Section NavBridge.
  (* how a C05 object is read as a C07 node: its class through [cix], its `name` attribute through [nmf]
     (any functions: they only produce labels), its children = the model objects held by containment
     slots, in slot order *)
  Variable cix : list N -> nat.
  Variable nmf : list (Nav.ameta * list Nav.obj) -> nameval.

  Definition kid_of (F : Nav.obj -> node) (v : Nav.obj) : list node :=
    if Nav.is_node v then [F v] else [].

  Fixpoint abs (o : Nav.obj) {struct o} : node :=
    match o with
    | Nav.Node id c slots =>
        Node (cix c) (nmf slots)
          (flat_map (fun mvs : Nav.ameta * list Nav.obj =>
             if Nav.acont (fst mvs) then
               if Nav.amany (fst mvs) then flat_map (kid_of abs) (snd mvs)
               else match snd mvs with [] => [] | v :: _ => kid_of abs v end
             else []) slots)
    | _ => Node 0 NoName []
    end.

  Lemma abs_node id c slots :
    abs (Nav.Node id c slots) = Node (cix c) (nmf slots) (flat_map (kid_of abs) (NavProofs.held slots)).
  Proof. rewrite <- NavProofs.held_flat_map. reflexivity. Qed.

  Lemma pre_kid : forall o, flat_map pre (kid_of abs o) = map abs (Nav.nodes o).
  Proof.
    induction o as [k t|t|id c slots IH] using NavProofs.obj_held_ind; try reflexivity.
    unfold kid_of. cbn [Nav.is_node flat_map].
    rewrite app_nil_r, NavProofs.nodes_node. cbn [map]. rewrite abs_node, pre_node. apply f_equal.
    rewrite map_flat_map, flat_map_flat_map. apply flat_map_ext_in, Forall_forall. exact IH.
  Qed.

  Lemma pre_abs o : Nav.is_node o = true -> pre (abs o) = map abs (Nav.nodes o).
  Proof.
    intro H. rewrite <- pre_kid. unfold kid_of. rewrite H. symmetry. apply app_nil_r.
  Qed.
End NavBridge.
