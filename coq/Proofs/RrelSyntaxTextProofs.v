(* The round trip on characters.
   From trees: the printer never emits two tokens that run together, hence (with the lexer lemma and the
   token-level round trip) parse_text (print_src e) = Some e for every well-formed, expressible tree.
   From texts: everything the model's parser returns is such a tree, except for fixed names that end in a
   backslash:
     parse_text u s = Some e -> wf_expr e /\ parsed_ok u e = true
     parsed_ok u e = true -> no_trailing_bs e = true -> lexable u e = true
   hence  parse_text u s = Some e -> no_trailing_bs e = true -> parse_text u (print_src e) = Some e. *)
From TxV Require Import Core.Base Model.Rx Model.RrelSyntaxLib Gen.SrcRrelSyntax Model.RrelSyntax Model.RrelSyntaxText.
From TxV Require Import Proofs.RxProofs Proofs.RrelSyntaxProofs Proofs.RrelSyntaxPrintProofs Proofs.RrelSyntaxLexProofs.
Require Import Lia.

Lemma ends_bs_cons c f : f <> [] -> ends_bs (c :: f) = ends_bs f.
Proof. destruct f; [contradiction | reflexivity]. Qed.

(* writable between q's = no unescaped q and no final backslash *)
Lemma str_ok_char q : N.eqb q c_bslash = false -> forall f,
  str_ok q f = (negb (unesc q f) && negb (ends_bs f))%bool.
Proof.
  intros Hq f. induction f as [|c f IHf IHt] using list_ind2; [reflexivity|].
  cbn [str_ok unesc]. destruct (N.eqb c q) eqn:Hcq; [reflexivity|].
  destruct f as [|d f]; [cbn [ends_bs]; destruct (N.eqb c c_bslash); reflexivity|].
  rewrite (ends_bs_cons c (d :: f)) by discriminate.
  destruct (N.eqb c c_bslash); [|exact IHf].
  destruct (N.eqb d q) eqn:Hd; [|exact IHf].
  (* the escaped q is not a final backslash *)
  apply N.eqb_eq in Hd. subst d. cbn [tl] in IHt. rewrite IHt.
  destruct f; [cbn [ends_bs]; rewrite Hq; reflexivity | reflexivity].
Qed.

Lemma quote_for_cases f : (N.eqb (quote_for f) c_squote || N.eqb (quote_for f) c_dquote)%bool = true.
Proof. unfold quote_for. destruct (unesc c_squote f); reflexivity. Qed.

(* the quotes the printer chooses work whenever some quotes do *)
Lemma expressible_quote_for f : expressible f = true -> str_ok (quote_for f) f = true.
Proof.
  unfold expressible, quote_for.
  rewrite (str_ok_char c_squote eq_refl f), (str_ok_char c_dquote eq_refl f).
  destruct (unesc c_squote f) eqn:Hu; rewrite str_ok_char by reflexivity; [intro H; exact H|].
  rewrite Hu. destruct (ends_bs f); [rewrite !andb_false_r; discriminate | reflexivity].
Qed.

Lemma lexed_expressible f : fx_lexed f = true -> ends_bs f = false -> expressible f = true.
Proof.
  unfold fx_lexed, expressible. intros H Hb.
  rewrite (str_ok_char c_squote eq_refl f), (str_ok_char c_dquote eq_refl f), Hb, !andb_true_r. exact H.
Qed.

(* every printed token is well formed *)
Section AllOk.
Variable u : N -> N.
Notation tok_ok := (tok_ok u).
Notation lx_elem := (lx_elem (ident u) expressible nonzero).
Notation lx_path := (lx_path (ident u) expressible nonzero).
Notation lx_seq := (lx_seq (ident u) expressible nonzero).

Lemma all_ok_app a b : forallb tok_ok (a ++ b) = (forallb tok_ok a && forallb tok_ok b)%bool.
Proof. apply forallb_app. Qed.

Definition AE (e : elem) : Prop := lx_elem e = true -> forallb tok_ok (t_elem e) = true.
Definition AP (p : path) : Prop := lx_path p = true ->
  forallb tok_ok (t_path_tail p) = true /\ forallb tok_ok (t_path p) = true.
Definition AS (s : seq) : Prop := lx_seq s = true -> forallb tok_ok (t_seq s) = true.

Lemma all_ok_path p : forallb tok_ok (t_path_tail p) = true -> forallb tok_ok (t_path p) = true.
Proof.
  intro H. destruct p as [e|e p']; [destruct e; exact H|].
  destruct e; exact H.      (* dots head: the joining dot is a well-formed token, dropped by conversion *)
Qed.

Theorem all_ok_all : (forall e, AE e) /\ (forall p, AP p) /\ (forall s, AS s).
Proof.
  apply rrel_mutind; unfold AE, AP, AS.
  - intros t H. cbn [lx_elem t_elem forallb tok_ok] in *. rewrite H. reflexivity.
  - intros n c f H. cbn [lx_elem] in H. apply andb_true_iff in H as [Hn Hf].
    cbn [t_elem]. destruct f as [fx|]; [|destruct c]; cbn [forallb tok_ok]; rewrite Hn; try reflexivity.
    rewrite quote_for_cases, (expressible_quote_for fx Hf). reflexivity.
  - intros n H. cbn [lx_elem t_elem forallb tok_ok] in *. rewrite H. reflexivity.
  - intros s IH H. cbn [lx_elem t_elem forallb tok_ok] in *. rewrite all_ok_app, (IH H). reflexivity.
  - intros s IH H. cbn [lx_elem t_elem forallb tok_ok] in *. rewrite all_ok_app, (IH H). reflexivity.
  - intros e IHe H. cbn [lx_path] in H.
    assert (Ht : forallb tok_ok (t_path_tail (P1 e)) = true) by (cbn [t_path_tail]; apply IHe; exact H).
    split; [exact Ht | apply all_ok_path; exact Ht].
  - intros e IHe p IHp H. cbn [lx_path] in H. apply andb_true_iff in H as [He Hp].
    assert (Ht : forallb tok_ok (t_path_tail (PCons e p)) = true).
    { cbn [t_path_tail]. rewrite all_ok_app. cbn [forallb tok_ok]. rewrite (IHe He), (proj1 (IHp Hp)). reflexivity. }
    split; [exact Ht | apply all_ok_path; exact Ht].
  - intros p IHp H. cbn [lx_seq] in H. rewrite t_seq_S1. apply (proj2 (IHp H)).
  - intros p IHp s IHs H. cbn [lx_seq] in H. apply andb_true_iff in H as [Hp Hs].
    rewrite t_seq_SCons, all_ok_app. cbn [forallb tok_ok]. rewrite (proj2 (IHp Hp)), (IHs Hs). reflexivity.
Qed.

End AllOk.

(* no two adjacent tokens run together *)
Lemma adj_app p a b : adj_from p (a ++ b) = (adj_from p a && adj_from (end_cls p a) b)%bool.
Proof.
  revert p. induction a as [|t a IH]; intro p; cbn [app adj_from end_cls]; [reflexivity|].
  rewrite IH, andb_assoc. reflexivity.
Qed.
Lemma end_app p a b : end_cls p (a ++ b) = end_cls (end_cls p a) b.
Proof. revert p. induction a as [|t a IH]; intro p; cbn [app end_cls]; [reflexivity | apply IH]. Qed.

Lemma clash_0 p : clash p 0 = false.
Proof. unfold clash. cbn. apply andb_false_r. Qed.
Lemma clash_1 p : p <> 1 -> clash p 1 = false.
Proof. intro H. unfold clash. destruct (Nat.eqb_spec p 1); [contradiction | reflexivity]. Qed.
Lemma clash_2 p : p <> 2 -> clash p 2 = false.
Proof. intro H. unfold clash. destruct (Nat.eqb_spec p 2); [contradiction | reflexivity]. Qed.

(* an element may follow anything but an identifier, and does not end in dots;
   paths and sequences follow (and are followed by) self-delimiting tokens only *)
Definition JE (e : elem) : Prop := wf_elem e -> forall p, p <> 1 ->
  adj_from p (t_elem e) = true /\ end_cls p (t_elem e) <> 2.
Definition JP (p : path) : Prop :=
  (wf_tail p -> forall q, q <> 1 -> adj_from q (t_path_tail p) = true /\ end_cls q (t_path_tail p) <> 2) /\
  (wf_path p -> adj_from 0 (t_path p) = true).
Definition JS (s : seq) : Prop := wf_seq s -> adj_from 0 (t_seq s) = true.

Lemma adj_path p :
  (wf_tail p -> forall q, q <> 1 -> adj_from q (t_path_tail p) = true /\ end_cls q (t_path_tail p) <> 2) ->
  (forall e p', p = PCons e p' -> wf_tail p' -> forall q, q <> 1 ->
      adj_from q (t_path_tail p') = true /\ end_cls q (t_path_tail p') <> 2) ->
  wf_path p -> adj_from 0 (t_path p) = true.
Proof.
  intros Htail Hsub Hwf. destruct p as [e|e p'].
  - destruct e; try (apply (Htail Hwf 0); discriminate). reflexivity.
  - destruct e; try (apply (Htail Hwf 0); discriminate).
    cbn [t_path wf_path adj_from cls] in *. rewrite clash_2 by discriminate.
    apply (Hsub _ _ eq_refl Hwf 2). discriminate.
Qed.

Theorem adj_all : (forall e, JE e) /\ (forall p, JP p) /\ (forall s, JS s).
Proof.
  apply rrel_mutind; unfold JE, JP, JS.
  - (* parent *)
    intros t _ p Hp. cbn [t_elem adj_from end_cls cls]. rewrite clash_1 by exact Hp.
    split; [reflexivity | discriminate].
  - (* navigation *)
    intros n c f _ p Hp. cbn [t_elem]. destruct f as [fx|]; [|destruct c]; cbn [adj_from end_cls cls];
      rewrite ?clash_0, ?clash_1 by (exact Hp || discriminate); (split; [reflexivity | discriminate]).
  - intros n H. contradiction.
  - (* brackets *)
    intros s IH Hwf p _. cbn [t_elem wf_elem adj_from end_cls cls] in *. rewrite clash_0, adj_app, end_app.
    rewrite (IH Hwf). cbn [adj_from end_cls cls]. rewrite clash_0. split; [reflexivity | discriminate].
  - (* star *)
    intros s IH Hwf p _. cbn [t_elem wf_elem adj_from end_cls cls] in *. rewrite clash_0, adj_app, end_app.
    rewrite (IH Hwf). cbn [adj_from end_cls cls]. rewrite !clash_0. split; [reflexivity | discriminate].
  - (* P1 *)
    intros e IHe.
    assert (Htail : wf_tail (P1 e) -> forall q, q <> 1 ->
              adj_from q (t_path_tail (P1 e)) = true /\ end_cls q (t_path_tail (P1 e)) <> 2).
    { cbn [wf_tail t_path_tail]. exact IHe. }
    split; [exact Htail|]. apply adj_path; [exact Htail | intros; discriminate].
  - (* PCons *)
    intros e IHe p [IHp _].
    assert (Htail : wf_tail (PCons e p) -> forall q, q <> 1 ->
              adj_from q (t_path_tail (PCons e p)) = true /\ end_cls q (t_path_tail (PCons e p)) <> 2).
    { cbn [wf_tail t_path_tail]. intros [He Hp] q Hq.
      destruct (IHe He q Hq) as [Ha He2]. destruct (IHp Hp 2) as [Hb Hp2]; [discriminate|].
      rewrite adj_app, end_app. cbn [adj_from end_cls cls]. rewrite Ha, clash_2 by exact He2.
      rewrite Hb. split; [reflexivity | exact Hp2]. }
    split; [exact Htail|]. apply adj_path; [exact Htail|].
    intros e0 p0 Heq. inversion Heq; subst. exact IHp.
  - (* S1 *)
    intros p [_ IHp] Hwf. rewrite t_seq_S1. rewrite wf_seq_S1 in Hwf. apply IHp. exact Hwf.
  - (* SCons *)
    intros p [_ IHp] s IHs Hwf. rewrite t_seq_SCons. rewrite wf_seq_SCons in Hwf. destruct Hwf as [Hp Hs].
    rewrite adj_app. cbn [adj_from cls]. rewrite clash_0, (IHp Hp), (IHs Hs). reflexivity.
Qed.

Theorem toks_ok_print u e : wf_expr e -> lexable u e = true -> toks_ok u (t_expr e) = true.
Proof.
  destruct e as [s fl]. unfold wf_expr, lexable, toks_ok, t_expr. cbn [eseq eflags].
  intros Hwf Hlx. apply andb_true_iff in Hlx as [Hs Hfl].
  destruct (all_ok_all u) as [_ [_ HA]]. destruct adj_all as [_ [_ HJ]].
  destruct fl as [|c fl].
  - rewrite (HA s Hs), (HJ s Hwf). reflexivity.
  - cbn [forallb tok_ok adj_from cls struth]. cbn [forallb] in Hfl. rewrite Hfl, (HA s Hs), clash_0, (HJ s Hwf). reflexivity.
Qed.

Theorem parse_text_print u e : wf_expr e -> lexable u e = true -> parse_text u (print_src e) = Some e.
Proof.
  intros Hwf Hlx. unfold parse_text. rewrite print_src_render.
  rewrite (lex_text_render u _ (toks_ok_print u e Hwf Hlx)). apply parse_toks_print. exact Hwf.
Qed.

Theorem same_evaluation (A : Type) (eval : expr -> A) u e : wf_expr e -> lexable u e = true ->
  option_map eval (parse_text u (print_src e)) = Some (eval e).
Proof. intros Hwf Hlx. rewrite (parse_text_print u e Hwf Hlx). reflexivity. Qed.

Theorem lex_text_print u e : wf_expr e -> lexable u e = true -> lex_text u (print_src e) = Some (t_expr e).
Proof. intros Hwf Hlx. rewrite print_src_render. apply lex_text_render, toks_ok_print; assumption. Qed.

(* the hypothesis on fixed names is needed:
   a fixed name ending in a backslash is accepted by the grammar when no later quote of the same
   kind follows ("a\"~x,'b'~y: the regex backtracks and closes the string at the escaped quote),
   but it has no string_value spelling that is independent of what follows; printed in single
   quotes, the text no longer parses *)
Definition tb_text : list N := [34;97;92;34;126;120;44;39;98;39;126;121]%N.
Definition tb_expr : expr :=
  {| eseq := SCons (P1 (ENav [120] false (Some [97;92]))) (S1 (P1 (ENav [121] false (Some [98])))); eflags := [] |}%N.

Lemma trailing_backslash_witness :
  parse_text ascii_only tb_text = Some tb_expr /\ wf_expr tb_expr /\ no_trailing_bs tb_expr = false /\
  parse_text ascii_only (print_src tb_expr) = None.
Proof. vm_compute. repeat split; reflexivity. Qed.

Lemma lx_combine (p1 p2 p3 f1 f2 f3 : list N -> bool) (d1 d2 d3 : nat -> bool) :
  (forall s, p1 s = true -> p2 s = true -> p3 s = true) ->
  (forall s, f1 s = true -> f2 s = true -> f3 s = true) ->
  (forall n, d1 n = true -> d2 n = true -> d3 n = true) ->
  (forall e, lx_elem p1 f1 d1 e = true -> lx_elem p2 f2 d2 e = true -> lx_elem p3 f3 d3 e = true) /\
  (forall p, lx_path p1 f1 d1 p = true -> lx_path p2 f2 d2 p = true -> lx_path p3 f3 d3 p = true) /\
  (forall s, lx_seq p1 f1 d1 s = true -> lx_seq p2 f2 d2 s = true -> lx_seq p3 f3 d3 s = true).
Proof.
  intros Hp Hf Hd. apply rrel_mutind; cbn [lx_elem lx_path lx_seq].
  - intros t. apply Hp.
  - intros n c f H1 H2. apply andb_true_iff in H1 as [H1 H1']. apply andb_true_iff in H2 as [H2 H2'].
    apply andb_true_iff. split; [apply Hp; assumption|]. destruct f as [fx|]; [apply (Hf fx H1' H2') | reflexivity].
  - intros n. apply Hd.
  - intros s IH. exact IH.
  - intros s IH. exact IH.
  - intros e IH. exact IH.
  - intros e IHe p IHp H1 H2. apply andb_true_iff in H1 as [H1 H1']. apply andb_true_iff in H2 as [H2 H2'].
    apply andb_true_iff. split; [apply IHe | apply IHp]; assumption.
  - intros p IH. exact IH.
  - intros p IHp s IHs H1 H2. apply andb_true_iff in H1 as [H1 H1']. apply andb_true_iff in H2 as [H2 H2'].
    apply andb_true_iff. split; [apply IHp | apply IHs]; assumption.
Qed.

Theorem parsed_lexable u e : parsed_ok u e = true -> no_trailing_bs e = true -> lexable u e = true.
Proof.
  unfold parsed_ok, no_trailing_bs, lexable. intros H1 H2. apply andb_true_iff in H1 as [H1 Hfl].
  rewrite Hfl, andb_true_r.
  refine (proj2 (proj2 (lx_combine (ident u) (fun _ => true) (ident u) fx_lexed (fun f => negb (ends_bs f)) expressible
            nonzero (fun _ => true) nonzero _ _ _)) (eseq e) H1 H2).
  - intros s H _. exact H.
  - intros s Ha Hb. apply lexed_expressible; [exact Ha|]. destruct (ends_bs s); [discriminate | reflexivity].
  - intros n H _. exact H.
Qed.

(* what a terminal's regex can have matched *)
Section Sound.
Variable u : N -> N.
Notation E := (rrel_env u).

Lemma first_in r st st' : rx_first E r st = Some st' -> In st' (ends E r st).
Proof. unfold rx_first. destruct (ends E r st); [discriminate|]. intros [= ->]. left. reflexivity. Qed.

Lemma in_ends_seq a b st st' : In st' (ends E (RSeq a b) st) ->
  exists st1, In st1 (ends E a st) /\ In st' (ends E b st1).
Proof. rewrite ends_seq. intro H. apply in_flat_map in H. exact H. Qed.

Lemma in_ends_chr l pre s st' : In st' (ends E (RChr l) (pre, s)) -> exists t, s = l :: t /\ st' = (l :: pre, t).
Proof.
  destruct s as [|c t]; [intros []|]. rewrite (ends_chr E l pre c t (Hic u)).
  destruct (N.eqb c l) eqn:Hc; [|intros []]. apply N.eqb_eq in Hc. subst c.
  intros [<-|[]]. exists t. split; reflexivity.
Qed.

Lemma span_split (ok : N -> bool) s : exists run rest, s = run ++ rest /\ forallb ok run = true /\ stops ok rest.
Proof.
  induction s as [|c s IH]; [exists [], []; repeat split|].
  destruct (ok c) eqn:Hc.
  - destruct IH as [run [rest [-> [Hr Hs]]]]. exists (c :: run), rest. repeat split; [cbn; rewrite Hc; exact Hr | exact Hs].
  - exists [], (c :: s). repeat split. exact Hc.
Qed.

(* rrel_id *)
Lemma id_sound pre s pre' s2 : rx_first E rx_rrel_id (pre, s) = Some (pre', s2) ->
  exists m, s = m ++ s2 /\ ident u m = true.
Proof.
  intro H. apply first_in in H. unfold rx_rrel_id in H.
  apply in_ends_seq in H as [st1 [H1 H]].
  destruct s as [|c t]; [destruct H1|]. rewrite ends_set in H1.
  destruct (xorb true (set_mem E c [ICat false CDigit; ICat true CWord])) eqn:Hc; [|destruct H1].
  destruct H1 as [<-|[]]. rewrite (set_idstart u) in Hc.
  apply in_ends_seq in H as [st2 [H2 H]].
  destruct (span_split (fun x => xorb false (set_mem E x [ICat false CWord])) t) as [run [rest [-> [Hrun Hstop]]]].
  rewrite (ends_star_set E false [ICat false CWord] run (c :: pre) rest Hrun Hstop) in H2.
  apply prefix_states_in in H2 as [a [b [-> ->]]].
  cbn [ends] in H. destruct (xorb false (word_boundary E (rev a ++ c :: pre, b ++ rest))); [|destruct H].
  destruct H as [[= <- <-]|[]].
  exists (c :: a). split; [cbn [app]; rewrite <- app_assoc; reflexivity|].
  cbn [ident]. apply andb_true_iff. split.
  - unfold idstart. destruct (Rx.is_digit E c); destruct (Rx.is_word E c); cbn in Hc; try discriminate; reflexivity.
  - rewrite forallb_app in Hrun. apply andb_true_iff in Hrun as [Ha _].
    apply forallb_forall. intros x Hx. rewrite forallb_forall in Ha. specialize (Ha x Hx).
    rewrite xorb_false_l, (set_word u) in Ha. exact Ha.
Qed.

(* the flags prefix *)
Lemma flags_sound pre s pre' s2 : rx_first E rx_rrel_flags (pre, s) = Some (pre', s2) ->
  exists fl, s = (43%N :: fl ++ [58%N]) ++ s2 /\ struth fl = true /\ forallb is_flagch fl = true.
Proof.
  intro H. apply first_in in H. unfold rx_rrel_flags in H.
  apply in_ends_seq in H as [st1 [H1 H]]. apply in_ends_chr in H1 as [t [-> ->]].
  apply in_ends_seq in H as [st2 [H2 H]].
  destruct (span_split (fun x => xorb false (set_mem E x [IChar 109%N; IChar 112%N])) t) as [run [rest [-> [Hrun Hstop]]]].
  rewrite (ends_plus_set E false _ run (43%N :: pre) rest Hrun Hstop) in H2.
  destruct run as [|c run']; [destruct H2|].
  apply prefix_states_in in H2 as [a [b [-> ->]]].
  apply in_ends_chr in H as [t2 [Hb [= -> ->]]].
  exists (c :: a). split; [|split; [reflexivity|]].
  - cbn [app]. rewrite <- !app_assoc. cbn [app]. rewrite Hb. reflexivity.
  - change (c :: a ++ b) with ((c :: a) ++ b) in Hrun. rewrite forallb_app in Hrun. apply andb_true_iff in Hrun as [Ha _].
    apply forallb_forall. intros x Hx. rewrite forallb_forall in Ha. specialize (Ha x Hx).
    rewrite xorb_false_l, (set_flag u) in Ha. exact Ha.
Qed.

(* rrel_dots: at least one character is consumed *)
Lemma dots_sound pre s pre' s2 : rx_first E rx_rrel_dots (pre, s) = Some (pre', s2) -> length s2 < length s.
Proof.
  intro H. apply first_in in H. rewrite (ends_dots u) in H. cbn [snd] in H. rewrite rep_loop_lo in H.
  apply in_flat_map in H as [st1 [H1 H]].
  unfold step1 in H1. cbn [snd fst] in H1. destruct s as [|c t]; [destruct H1|].
  destruct (chr_eq E c 46); [|destruct H1]. destruct H1 as [<-|[]].
  apply (rep_loop_shrinks _ true (step1_shrinks _)) in H. cbn [snd length] in *. lia.
Qed.

(* string_value *)
Section StringSound.
Variable q : N.
Hypothesis Hq : N.eqb q 92 = false.

Definition hd_ok (x : list N) : Prop := match x with c :: _ => N.eqb c q = false | [] => True end.
(* f is a sequence of units: backslash-q pairs and single characters other than q *)
Definition J (f : list N) : Prop := hd_ok f /\ forall x, hd_ok x -> unesc q (f ++ x) = unesc q x.

Lemma J_nil : J [].
Proof. split; [exact I | intros x _; reflexivity]. Qed.

Lemma J_pair f : J f -> J (92%N :: q :: f).
Proof.
  intros [_ Hf]. split; [change (N.eqb 92 q = false); rewrite N.eqb_sym; exact Hq|].
  intros x Hx. change ((92%N :: q :: f) ++ x) with (92%N :: q :: f ++ x).
  cbn [unesc]. unfold c_bslash. rewrite (N.eqb_sym 92 q), Hq, !N.eqb_refl. apply Hf. exact Hx.
Qed.

Lemma J_char c f : N.eqb c q = false -> J f -> J (c :: f).
Proof.
  intros Hc [Hh Hf]. split; [exact Hc|].
  intros x Hx. cbn [app unesc]. rewrite Hc. unfold c_bslash.
  destruct (N.eqb c 92) eqn:Hc92; [|apply Hf; exact Hx].
  destruct (f ++ x) as [|c2 r] eqn:Hfx.
  - destruct f; [|discriminate]. cbn [app] in Hfx. subst x. reflexivity.
  - assert (H2 : N.eqb c2 q = false).
    { destruct f as [|c' f']; cbn [app] in Hfx.
      - subst x. exact Hx.
      - injection Hfx as -> _. exact Hh. }
    rewrite H2. rewrite <- Hfx. apply Hf. exact Hx.
Qed.

Lemma sv_star_sound : forall fuel pre s st',
  In st' (rep_loop (ends E (sv_body q)) true 0 None fuel (pre, s)) -> exists f, s = f ++ snd st' /\ J f.
Proof.
  induction fuel as [|fu IH]; intros pre s st' H; [destruct H|].
  cbn [rep_loop is_zero_opt] in H. apply in_app_or in H as [H|H].
  - apply in_flat_map in H as [st1 [H1 H]].
    destruct (Nat.ltb (length (snd st1)) (length (snd (pre, s)))); [|destruct H].
    destruct s as [|c t]; [destruct H1|]. rewrite (ends_sv_body u q) in H1.
    apply in_app_or in H1 as [H1|H1].
    + destruct (N.eqb c 92) eqn:Hc; [|destruct H1]. destruct t as [|d t']; [destruct H1|].
      destruct (N.eqb d q) eqn:Hd; [|destruct H1]. destruct H1 as [<-|[]].
      apply N.eqb_eq in Hc, Hd. subst c d.
      apply IH in H as [f [-> Hf]]. exists (92%N :: q :: f). split; [reflexivity | apply J_pair; exact Hf].
    + destruct (N.eqb c q) eqn:Hc; [destruct H1|]. destruct H1 as [<-|[]].
      apply IH in H as [f [-> Hf]]. exists (c :: f). split; [reflexivity | apply J_char; assumption].
  - destruct H as [<-|[]]. exists []. split; [reflexivity | apply J_nil].
Qed.

Lemma sv_sound pre s pre' s2 : rx_first E (sv_rx q) (pre, s) = Some (pre', s2) ->
  exists f, s = (q :: f ++ [q]) ++ s2 /\ unesc q f = false.
Proof.
  intro H. apply first_in in H. unfold sv_rx in H.
  apply in_ends_seq in H as [st1 [H1 H]]. apply in_ends_chr in H1 as [t [-> ->]].
  apply in_ends_seq in H as [st2 [H2 H]].
  cbn [ends] in H2. apply sv_star_sound in H2 as [f [-> [_ Hf]]].
  destruct st2 as [pre2 r2]. cbn [snd] in *.
  apply in_ends_chr in H as [t2 [-> [= -> ->]]].
  exists f. split; [cbn [app]; rewrite <- app_assoc; reflexivity|].
  specialize (Hf [] I). rewrite app_nil_r in Hf. exact Hf.
Qed.
End StringSound.

End Sound.

(* every token the lexer returns *)
Section LexSound.
Variable u : N -> N.
Notation E := (rrel_env u).

Lemma punct_lexed c t : punct c = Some t -> tok_lexed u t = true.
Proof.
  unfold punct. repeat (match goal with |- context [if ?b then _ else _] => destruct b end);
    intros [= <-]; reflexivity.
Qed.

Lemma first_tok_sound pre s t pre' s2 : first_tok u pre s = Some (t, (pre', s2)) -> tok_lexed u t = true.
Proof.
  unfold first_tok.
  destruct (rx_first E rx_rrel_flags (pre, s)) as [[p1 r1]|] eqn:H1.
  { intros [= <- _ _]. cbn [snd]. apply flags_sound in H1 as [fl [-> [Hne Hall]]].
    rewrite take_match_app, strip_ends_wrap. cbn [tok_lexed]. rewrite Hne, Hall. reflexivity. }
  destruct (rx_first E rx_rrel_id (pre, s)) as [[p2 r2]|] eqn:H2.
  { intros [= <- _ _]. cbn [snd]. apply id_sound in H2 as [m [-> Hm]]. rewrite take_match_app. exact Hm. }
  destruct (rx_first E rx_rrel_dots (pre, s)) as [[p3 r3]|] eqn:H3.
  { intros [= <- _ _]. cbn [snd tok_lexed]. apply dots_sound in H3. unfold take_match, nonzero.
    destruct (Nat.eqb (length (firstn (length s - length r3) s)) 0) eqn:Hz; [|reflexivity].
    apply Nat.eqb_eq in Hz. rewrite firstn_length in Hz. lia. }
  destruct (rx_first E rx_string_value_0 (pre, s)) as [[p4 r4]|] eqn:H4.
  { intros [= <- _ _]. cbn [snd]. rewrite sv0_shape in H4. apply (sv_sound u 39%N eq_refl) in H4 as [f [-> Hf]].
    rewrite take_match_app, strip_ends_wrap. cbn [hd tok_lexed]. rewrite Hf. reflexivity. }
  destruct (rx_first E rx_string_value_1 (pre, s)) as [[p5 r5]|] eqn:H5.
  { intros [= <- _ _]. cbn [snd]. rewrite sv1_shape in H5. apply (sv_sound u 34%N eq_refl) in H5 as [f [-> Hf]].
    rewrite take_match_app, strip_ends_wrap. cbn [hd tok_lexed]. rewrite Hf. reflexivity. }
  destruct s as [|c s']; [discriminate|].
  destruct (punct c) as [t'|] eqn:Hp; [|discriminate]. cbn [option_map]. intros [= <- _ _]. apply (punct_lexed c). exact Hp.
Qed.

Theorem lex_sound : forall fuel pre s ts, lex_rx u fuel pre s = Some ts -> forallb (tok_lexed u) ts = true.
Proof.
  induction fuel as [|f IH]; intros pre s ts H; [discriminate|].
  cbn [lex_rx] in H. destruct s as [|c s']; [injection H as <-; reflexivity|].
  destruct (ws_char c); [apply (IH _ _ _ H)|].
  destruct (first_tok u pre (c :: s')) as [[t [pre' s2]]|] eqn:Hft; [|discriminate].
  destruct (lex_rx u f pre' s2) as [ts'|] eqn:Hl; [|discriminate]. cbn [option_map] in H. injection H as <-.
  cbn [forallb]. rewrite (first_tok_sound _ _ _ _ _ Hft), (IH _ _ _ Hl). reflexivity.
Qed.
End LexSound.

(* every tree the token parser returns *)
Section ParseSound.
Variable u : N -> N.
Notation TP ts := (forallb (tok_lexed u) ts = true).
Notation lxe := (lx_elem (ident u) fx_lexed nonzero).
Notation lxp := (lx_path (ident u) fx_lexed nonzero).
Notation lxs := (lx_seq (ident u) fx_lexed nonzero).

Lemma str_tok_fx fx q : tok_lexed u (TStr fx q) = true -> fx_lexed fx = true.
Proof.
  cbn [tok_lexed]. unfold fx_lexed, c_squote, c_dquote. intro H. apply andb_true_iff in H as [Hq Hu].
  apply orb_true_iff in Hq as [Hq|Hq]; apply N.eqb_eq in Hq; subst q; rewrite Hu; [reflexivity | apply orb_true_r].
Qed.

Lemma wf_tail_path p : wf_tail p -> wf_path p.
Proof. destruct p as [e|e p']; destruct e; cbn; tauto. Qed.

Lemma star_of_ok e : wf_elem e -> lxe e = true -> wf_elem (star_of e) /\ lxe (star_of e) = true.
Proof. destruct e; cbn; tauto. Qed.

(* the head of a path: positive dots, or the caret's ( .. )*; either may stand alone or before elements *)
Lemma path_head_ok ts h ts' : path_head ts = Some (h, ts') -> TP ts ->
  (lxe h = true /\ wf_path (P1 h) /\ forall p, wf_tail p -> wf_path (PCons h p)) /\ TP ts'.
Proof.
  destruct ts as [|[] ts0]; try discriminate; intros [= <- <-] HTP;
    cbn [forallb] in HTP; apply andb_true_iff in HTP as [Ht HTP]; (split; [|exact HTP]).
  - split; [exact Ht|]. split; [exact I|]. intros p Hp. exact Hp.
  - split; [reflexivity|]. split; [exact I|]. intros p Hp. split; [exact I | exact Hp].
Qed.

Definition Spe f := forall ts e r, p_pe f ts = Some (e, r) -> TP ts -> (wf_elem e /\ lxe e = true) /\ TP r.
Definition Sx f := forall ts e r, p_x f ts = Some (e, r) -> TP ts -> (wf_elem e /\ lxe e = true) /\ TP r.
Definition Sel f := forall ts p r, p_elems f ts = Some (p, r) -> TP ts -> (wf_tail p /\ lxp p = true) /\ TP r.
Definition Spa f := forall ts p r, p_path f ts = Some (p, r) -> TP ts -> (wf_path p /\ lxp p = true) /\ TP r.
Definition Sse f := forall ts s r, p_seq f ts = Some (s, r) -> TP ts -> (wf_seq s /\ lxs s = true) /\ TP r.

Lemma pe_step f : Sse f -> Spe (S f).
Proof.
  intros IH ts e r H HTP. rewrite p_pe_S in H.
  destruct ts as [|[k | fx q | n | | | | | | | fl] ts']; try discriminate;
    cbn [forallb] in HTP; apply andb_true_iff in HTP as [Ht HTP].
  - (* an identifier: parent(T) or a consumed name *)
    assert (Hnav : wf_elem (ENav k true None) /\ lxe (ENav k true None) = true).
    { split; [exact I|]. cbn [lx_elem]. rewrite andb_true_r. exact Ht. }
    destruct (parent_arg ts') as [[t r']|] eqn:Hpa; [|injection H as <- <-; split; [exact Hnav | exact HTP]].
    destruct (str_eqb k kw_parent); injection H as <- <-; [|split; [exact Hnav | exact HTP]].
    apply parent_arg_inv in Hpa. subst ts'. cbn [forallb] in HTP.
    apply andb_true_iff in HTP as [_ HTP]. apply andb_true_iff in HTP as [Hid HTP]. apply andb_true_iff in HTP as [_ HTP].
    split; [split; [exact I | exact Hid] | exact HTP].
  - (* 'fixed'~name *)
    destruct ts' as [|[] ts']; try discriminate. destruct ts' as [|[n| | | | | | | | |] ts']; try discriminate.
    injection H as <- <-. cbn [forallb] in HTP.
    apply andb_true_iff in HTP as [_ HTP]. apply andb_true_iff in HTP as [Hn HTP].
    split; [split; [reflexivity|] | exact HTP]. apply andb_true_iff. split; [exact Hn | exact (str_tok_fx _ _ Ht)].
  - (* ( sequence ) *)
    destruct (p_seq f ts') as [[s r0]|] eqn:Hs; [|discriminate].
    destruct (eat is_rp r0) as [r1|] eqn:He; [|discriminate]. injection H as <- <-.
    destruct (IH _ _ _ Hs HTP) as [Hs' Hr]. split; [exact Hs' | exact (eat_forallb _ _ _ _ He Hr)].
  - (* ~name *)
    destruct ts' as [|[n| | | | | | | | |] ts']; try discriminate. injection H as <- <-.
    cbn [forallb] in HTP. apply andb_true_iff in HTP as [Hn HTP].
    split; [split; [exact I|] | exact HTP]. cbn [lx_elem]. rewrite andb_true_r. exact Hn.
Qed.

Lemma x_step f : Spe f -> Sx (S f).
Proof.
  intros IH ts e r H HTP. rewrite p_x_S in H.
  destruct (p_pe f ts) as [[e0 r0]|] eqn:Hpe; [|discriminate].
  destruct (IH _ _ _ Hpe HTP) as [[Hw Hl] Hr].
  destruct (eat is_star r0) as [r1|] eqn:He; injection H as <- <-.
  - split; [apply star_of_ok; assumption | exact (eat_forallb _ _ _ _ He Hr)].
  - split; [split; assumption | exact Hr].
Qed.

Lemma elems_step f : Sx f -> Sel f -> Sel (S f).
Proof.
  intros IHx IHe ts p r H HTP. rewrite p_elems_S in H.
  destruct (p_x f ts) as [[e0 r0]|] eqn:Hx; [|discriminate].
  destruct (IHx _ _ _ Hx HTP) as [[Hw Hl] Hr].
  destruct (eat is_dot1 r0) as [r1|] eqn:Hd; [|injection H as <- <-; split; [split; assumption | exact Hr]].
  destruct (p_elems f r1) as [[p1 r2]|] eqn:He; [|discriminate]. injection H as <- <-.
  destruct (IHe _ _ _ He (eat_forallb _ _ _ _ Hd Hr)) as [[Hw1 Hl1] Hr1].
  split; [split; [split; assumption|] | exact Hr1]. apply andb_true_iff. split; assumption.
Qed.

Lemma path_step f : Sel f -> Spa (S f).
Proof.
  intros IH ts p r H HTP. rewrite p_path_S in H.
  destruct (path_head ts) as [[h ts']|] eqn:Hh.
  - destruct (path_head_ok _ _ _ Hh HTP) as [[Hl [Hw1 Hwc]] HTP'].
    destruct (p_elems f ts') as [[p1 r1]|] eqn:He; injection H as <- <-.
    + destruct (IH _ _ _ He HTP') as [[Hw Hlp] Hr].
      split; [split; [apply Hwc, Hw|] | exact Hr]. apply andb_true_iff. split; assumption.
    + split; [split; [exact Hw1 | exact Hl] | exact HTP'].
  - destruct (IH _ _ _ H HTP) as [[Hw Hl] Hr]. split; [split; [apply wf_tail_path, Hw | exact Hl] | exact Hr].
Qed.

Lemma seq_step f : Spa f -> Sse f -> Sse (S f).
Proof.
  intros IHp IHs ts s r H HTP. rewrite p_seq_S in H.
  destruct (p_path f ts) as [[p0 r0]|] eqn:Hp; [|discriminate].
  destruct (IHp _ _ _ Hp HTP) as [[Hw Hl] Hr].
  destruct (eat is_comma r0) as [r1|] eqn:Hc;
    [|injection H as <- <-; rewrite wf_seq_S1; split; [split; assumption | exact Hr]].
  destruct (p_seq f r1) as [[s1 r2]|] eqn:Hs; [|discriminate]. injection H as <- <-.
  destruct (IHs _ _ _ Hs (eat_forallb _ _ _ _ Hc Hr)) as [[Hw1 Hl1] Hr1].
  rewrite wf_seq_SCons. split; [split; [split; assumption|] | exact Hr1]. apply andb_true_iff. split; assumption.
Qed.

Theorem parser_sound : forall f, Spe f /\ Sx f /\ Sel f /\ Spa f /\ Sse f.
Proof.
  induction f as [|f [IHpe [IHx [IHel [IHpa IHse]]]]].
  - repeat apply conj; intros ts x r H; discriminate.
  - repeat apply conj; [apply pe_step | apply x_step | apply elems_step | apply path_step | apply seq_step]; assumption.
Qed.

Theorem parse_toks_sound ts e : parse_toks ts = Some e -> TP ts -> wf_expr e /\ parsed_ok u e = true.
Proof.
  unfold parse_toks. rewrite p_expr_split. intros H HTP.
  destruct (p_seq _ _) as [[s [|]]|] eqn:Hs; try discriminate. injection H as <-.
  assert (Hfl : forallb is_flagch (fst (split_flags ts)) = true /\ TP (snd (split_flags ts))).
  { destruct ts as [|[] ts0]; try (split; [reflexivity | exact HTP]).
    cbn [forallb] in HTP. apply andb_true_iff in HTP as [Ht HTP]. apply andb_true_iff in Ht as [_ Ht].
    split; [exact Ht | exact HTP]. }
  destruct Hfl as [Hfl HTP'].
  destruct (proj2 (proj2 (proj2 (proj2 (parser_sound _)))) _ _ _ Hs HTP') as [[Hw Hl] _].
  split; [exact Hw|]. unfold parsed_ok. cbn [eseq eflags]. rewrite Hl, Hfl. reflexivity.
Qed.
End ParseSound.

Theorem parse_text_sound u s e : parse_text u s = Some e -> wf_expr e /\ parsed_ok u e = true.
Proof.
  unfold parse_text, lex_text. destruct (lex_rx u (S (length s)) [] s) as [ts|] eqn:Hl; [|discriminate].
  intro H. apply (parse_toks_sound u ts e H). apply (lex_sound u _ _ _ _ Hl).
Qed.

Theorem parsed_roundtrip u s e : parse_text u s = Some e -> no_trailing_bs e = true ->
  parse_text u (print_src e) = Some e.
Proof.
  intros H Hb. destruct (parse_text_sound u s e H) as [Hw Hp].
  apply parse_text_print; [exact Hw | apply parsed_lexable; assumption].
Qed.

(* ASCII identifiers are identifiers for every classification *)
Lemma ident_ascii_only u s : ident ascii_only s = true -> ident u s = true.
Proof.
  assert (Hw : forall c, Rx.is_word (rrel_env ascii_only) c = true -> Rx.is_word (rrel_env u) c = true).
  { intro c. unfold Rx.is_word. destruct (N.ltb c 128); [trivial | discriminate]. }
  destruct s as [|c r]; [discriminate|]. cbn [ident]. intro H. apply andb_true_iff in H as [Hc Hr].
  apply andb_true_iff. split.
  - unfold idstart, Rx.is_word, Rx.is_digit in *. destruct (N.ltb c 128); [exact Hc | discriminate].
  - apply forallb_forall. intros x Hx. rewrite forallb_forall in Hr. apply Hw, Hr, Hx.
Qed.

Theorem lexable_ascii_only u e : lexable ascii_only e = true -> lexable u e = true.
Proof.
  unfold lexable. intro H. apply andb_true_iff in H as [H Hfl]. rewrite Hfl, andb_true_r.
  refine (proj2 (proj2 (lx_combine (ident ascii_only) (ident ascii_only) (ident u) expressible expressible expressible
            nonzero nonzero nonzero _ _ _)) (eseq e) H H); auto.
  intros s Hs _. apply ident_ascii_only. exact Hs.
Qed.
