(* Error records built with the location facts translated from the current source (Gen/SrcLoc.v).
   Every lemma here is re-proved whenever the translated facts change. *)
From TxV Require Import Core.Base Model.ErrLoc Gen.SrcLoc Proofs.ErrLocProofs.
Require Import Lia.

(* the location a loading error must carry: file of the offending text, line/col of its offset there *)
Definition located_at (fs : list src) (m pos : nat) : errrec :=
  let lc := linecol_spec (s_text (file_at fs m)) pos in
  {| r_file := s_name (file_at fs m); r_line := Some (fst lc); r_col := Some (snd lc); r_nchar := None |}.

Definition in_text (fs : list src) (m pos : nat) : Prop := pos <= length (s_text (file_at fs m)).

Lemma locate_ref : forall fs main m searched pos, in_text fs m pos ->
  locate fs {| d_parser := OfRef; d_file := OfRef |} main m searched pos = located_at fs m pos.
Proof.
  intros fs main m searched pos H. unfold locate, located_at, pick. cbn [d_parser d_file option_map].
  rewrite (pos_to_linecol_exact _ _ H). reflexivity.
Qed.

Lemma unresolvable_located : forall fs delayed last_m last_pos front,
  delayed = front ++ [(last_m, last_pos)] ->
  Forall (fun x => in_text fs (fst x) (snd x)) delayed ->
  unresolvable_error unresolvable_desc fs delayed =
  (Some (located_at fs last_m last_pos),
   map (fun x => let r := located_at fs (fst x) (snd x) in (r_line r, r_col r)) delayed).
Proof.
  intros fs delayed lm lp front E F. unfold unresolvable_error.
  change unresolvable_desc with {| d_parser := OfRef; d_file := OfRef |}.
  f_equal.
  - subst delayed. rewrite fold_left_app. cbn [fold_left fst snd]. f_equal. apply locate_ref.
    rewrite Forall_forall in F. apply (F (lm, lp)). apply in_or_app. right. left. reflexivity.
  - apply map_ext_in. intros x Hx. rewrite Forall_forall in F. rewrite locate_ref by (apply F; exact Hx). reflexivity.
Qed.

Lemma nonunique_located : forall fs m searched pos via_import,
  in_text fs m pos -> (via_import = false -> searched = m) ->
  nonunique_error nonunique_desc importuri_relocates fs m searched pos via_import = located_at fs m pos.
Proof.
  intros fs m searched pos via H Hs. unfold nonunique_error.
  change importuri_relocates with true. rewrite andb_true_r.
  destruct via.
  - apply locate_ref; assumption.
  - rewrite (Hs eq_refl). change nonunique_desc with {| d_parser := OfSearched; d_file := OfSearched |}.
    unfold locate, located_at, pick. cbn [d_parser d_file option_map].
    rewrite (pos_to_linecol_exact _ _ H). reflexivity.
Qed.

Definition obj_location (fs : list src) (m pos pos_end : nat) : errrec :=
  let lc := linecol_spec (s_text (file_at fs m)) pos in
  {| r_file := s_name (file_at fs m); r_line := Some (fst lc); r_col := Some (snd lc); r_nchar := Some (pos_end - pos) |}.

(* every field the processor supplied is kept, every other field comes from loc *)
Definition completed (e loc : errrec) : errrec :=
  {| r_file := orelse (r_file e) (r_file loc); r_line := orelse (r_line e) (r_line loc);
     r_col := orelse (r_col e) (r_col loc); r_nchar := orelse (r_nchar e) (r_nchar loc) |}.

Lemma get_location_spec : forall fs m pos pos_end, in_text fs m pos ->
  get_location fs m pos pos_end = obj_location fs m pos pos_end.
Proof. intros fs m pos pe H. unfold get_location, obj_location. rewrite (pos_to_linecol_exact _ _ H). reflexivity. Qed.

Lemma select_all : forall loc, select location_keys loc = loc.
Proof. intros [f l c n]. reflexivity. Qed.

Lemma fill_all : forall kw e, fill process_fills kw e = completed e kw.
Proof. intros kw e. reflexivity. Qed.

Lemma completed_self : forall loc, completed loc loc = loc.
Proof. intros [[f|] [l|] [c|] [n|]]; reflexivity. Qed.

(* what loading makes of a processor's behaviour when the processed text is at loc: a TextXError keeps the
   fields it has and takes the others from loc; any other exception becomes an error at loc if wrapped *)
Definition dispatched (loc : errrec) (wrapped : bool) (r : raised) : outcome :=
  match r with
  | Returns => Loaded
  | RaisesTx e => Fails (completed e loc)
  | RaisesOther => if wrapped then Fails loc else Propagates
  end.

Theorem obj_dispatch_spec : forall fs m pos pos_end wrapped r, in_text fs m pos ->
  obj_dispatch process_fills location_keys fs m pos pos_end wrapped r
  = dispatched (obj_location fs m pos pos_end) wrapped r.
Proof.
  intros fs m pos pe w r H. unfold obj_dispatch. rewrite select_all, (get_location_spec _ _ _ _ H).
  destruct r, w; cbn [wrap mm_process dispatched]; rewrite ?fill_all, ?completed_self; reflexivity.
Qed.

Theorem match_dispatch_spec : forall fs m pos wrapped r, in_text fs m pos ->
  match_dispatch process_fills match_keys fs m pos wrapped r = dispatched (located_at fs m pos) wrapped r.
Proof.
  intros fs m pos w r H. unfold match_dispatch, located_at. rewrite (pos_to_linecol_exact _ _ H).
  destruct r, w; reflexivity.
Qed.
