(* C07 — default reference resolution finds the unique matching object.

   Model/Plain.v transcribes PlainName.__call__ (multi_metamodel_support branch: get_children over the
   model root with the selector hasattr(name) /\ name == obj_name /\ textx_isinstance), textx_isinstance
   (the visit-each-class-once search over _tx_inh_by, as repaired), and the builtins fallback /
   "Unknown object" error of resolve_one_step.  The dispatch on the number of matches, the selector
   conjuncts and the error texts are regenerated from the source into Gen/SrcPlain.v on every run.

   Specification side (Proofs/PlainProofs.v):
     Conforms classes dc t   some class reachable from the target t over inheritance edges passes a direct
                             test (is named OBJECT / is the class of the object)
     at_path root p d        d is the object reached from the model root along the child indices p
     Cand classes root n t p d   := at_path root p d /\ name d = n /\ Conforms classes (class d) t
     NoCand / UniqueCand p / ManyCand : no / exactly one (at path p) / at least two distinct candidates
     BuiltinOk classes b n t := metamodel.builtins has an entry n whose type conforms to t            *)
From TxV Require Import Core.Base Model.PlainDefs Gen.SrcPlain Model.Plain Proofs.PlainProofs Proofs.PlainBridge.
From TxV Require Gen.SrcNav Model.Kinds Model.Nav Model.NavSrc Proofs.NavCfgProofs.

(* textx_isinstance terminates (no out-of-fuel) on every class table whose _tx_inh_by entries are classes
   of the table -- cyclic inheritance graphs included -- and decides declarative conformance. *)
Theorem C07_conforms_total : forall classes dc t,
  wf_classes classes = true -> conforms_opt classes dc t <> None.
Proof. intros classes dc t H. exact (conforms_opt_total classes dc H t). Qed.
Print Assumptions C07_conforms_total.

Theorem C07_conforms : forall classes dc t,
  wf_classes classes = true -> (conforms classes dc t = true <-> Conforms classes dc t).
Proof. intros classes dc t H. exact (conforms_spec classes dc H t). Qed.
Print Assumptions C07_conforms.

(* the list PlainName gets from get_children is exactly the candidate set, each object once *)
Theorem C07_candidates : forall classes root n t,
  wf_classes classes = true ->
  (forall p d, In (p, d) (candidates classes root n t) <-> Cand classes root n t p d) /\
  NoDup (map fst (candidates classes root n t)).
Proof.
  intros classes root n t H. split.
  - intros p d. exact (candidates_spec classes H root n t p d).
  - exact (collect_NoDup (selector classes n t) root).
Qed.
Print Assumptions C07_candidates.

(* one of the three situations always holds *)
Theorem C07_trichotomy : forall classes root n t,
  wf_classes classes = true ->
  (exists p, UniqueCand classes root n t p) \/ ManyCand classes root n t \/ NoCand classes root n t.
Proof.
  intros classes root n t H. pose proof (plain_name_cases classes H root n t) as Hc.
  destruct (plain_name classes root n t) as [|p| |].
  - right; right; exact Hc.
  - left; exists p; exact Hc.
  - right; left; exact Hc.
  - contradiction.
Qed.
Print Assumptions C07_trichotomy.

(* the case analysis of the property, for every class table, model, builtins dictionary and reference *)
Theorem C07_resolve : forall classes root b r,
  wf_classes classes = true ->
  match resolve_ref classes root b r with
  | Resolved p => UniqueCand classes root (rname r) (rcls r) p
  | Builtin k => k = rname r /\ NoCand classes root (rname r) (rcls r) /\ BuiltinOk classes b (rname r) (rcls r)
  | ErrNotUnique n => n = rname r /\ ManyCand classes root (rname r) (rcls r)
  | ErrUnknown n t => n = rname r /\ t = rcls r /\ NoCand classes root (rname r) (rcls r)
                      /\ ~ BuiltinOk classes b (rname r) (rcls r)
  | ErrIndex => False
  end.
Proof. intros classes root b r H. exact (resolve_ref_cases classes H root b r). Qed.
Print Assumptions C07_resolve.

Theorem C07_resolved_iff : forall classes root b r p,
  wf_classes classes = true ->
  (resolve_ref classes root b r = Resolved p <-> UniqueCand classes root (rname r) (rcls r) p).
Proof. intros classes root b r p H. exact (resolve_ref_iff classes H root b r (Resolved p)). Qed.
Print Assumptions C07_resolved_iff.

Theorem C07_builtin_iff : forall classes root b r k,
  wf_classes classes = true ->
  (resolve_ref classes root b r = Builtin k <->
   k = rname r /\ NoCand classes root (rname r) (rcls r) /\ BuiltinOk classes b (rname r) (rcls r)).
Proof. intros classes root b r k H. exact (resolve_ref_iff classes H root b r (Builtin k)). Qed.
Print Assumptions C07_builtin_iff.

Theorem C07_unknown_iff : forall classes root b r n t,
  wf_classes classes = true ->
  (resolve_ref classes root b r = ErrUnknown n t <->
   n = rname r /\ t = rcls r /\ NoCand classes root (rname r) (rcls r) /\ ~ BuiltinOk classes b (rname r) (rcls r)).
Proof. intros classes root b r n t H. exact (resolve_ref_iff classes H root b r (ErrUnknown n t)). Qed.
Print Assumptions C07_unknown_iff.

Theorem C07_not_unique_iff : forall classes root b r n,
  wf_classes classes = true ->
  (resolve_ref classes root b r = ErrNotUnique n <-> n = rname r /\ ManyCand classes root (rname r) (rcls r)).
Proof. intros classes root b r n H. exact (resolve_ref_iff classes H root b r (ErrNotUnique n)). Qed.
Print Assumptions C07_not_unique_iff.

(* loading resolves the references in textual order: it succeeds iff every reference resolves, and
   otherwise fails with the error of the first reference that does not *)
Theorem C07_load_ok : forall classes root b rs ts,
  load classes root b rs = LoadOk ts <->
  Forall (fun r => is_error (resolve_ref classes root b r) = false) rs /\
  ts = map (resolve_ref classes root b) rs.
Proof.
  intros classes root b rs ts. unfold load. split.
  - intro E. pose proof (load_from_spec classes root b rs 0 []) as H. rewrite E in H. exact H.
  - intros [HF ->]. rewrite <- (app_nil_r rs) at 1. rewrite load_from_app by assumption.
    simpl. rewrite app_nil_r, rev_involutive. reflexivity.
Qed.
Print Assumptions C07_load_ok.

Theorem C07_load_err : forall classes root b rs j e,
  load classes root b rs = LoadErr j e <->
  exists pre r post, rs = pre ++ r :: post /\ j = length pre /\
    Forall (fun r => is_error (resolve_ref classes root b r) = false) pre /\
    resolve_ref classes root b r = e /\ is_error e = true.
Proof.
  intros classes root b rs j e. unfold load. split.
  - intro E. pose proof (load_from_spec classes root b rs 0 []) as H. rewrite E in H. exact H.
  - intros [pre [r [post [-> [-> [HF [<- He]]]]]]]. rewrite load_from_app by assumption.
    simpl. rewrite He. reflexivity.
Qed.
Print Assumptions C07_load_err.

(* the error texts built from the translated f-strings: 'Unknown object "<name>" of class "<cls>"' with
   err_type "Unknown object", and 'name <name> is not unique.' without err_type *)
Theorem C07_unknown_text : forall classes n t,
  error_text classes (ErrUnknown n t) =
  ([85;110;107;110;111;119;110;32;111;98;106;101;99;116;32]%N ++ q34 ++ n ++ q34 ++
   [32;111;102;32;99;108;97;115;115;32]%N ++ q34 ++ class_name classes t ++ q34,
   Some [85;110;107;110;111;119;110;32;111;98;106;101;99;116]%N).
Proof. reflexivity. Qed.
Print Assumptions C07_unknown_text.

Theorem C07_not_unique_text : forall classes n,
  error_text classes (ErrNotUnique n) =
  ([110;97;109;101;32]%N ++ n ++ [32;105;115;32;110;111;116;32;117;110;105;113;117;101;46]%N, None).
Proof. reflexivity. Qed.
Print Assumptions C07_not_unique_text.

(* ---- non-vacuity: a well-formed class table with a cyclic inheritance graph
        0 OBJECT, 1 K0, 2 K1, 3 A0 with _tx_inh_by [K0; A0]   (A0: K0 | '(' A0 ')';)
        model: root(class 4, unnamed) { K1 "y"; K0 "y"; K0 "z"; K1 "w" { K0 "w"; K0 "w" } } *)
Definition ex_classes : list cls :=
  [ {| cname := [79;66;74;69;67;84]%N; cinh := []; cpy := [] |}; {| cname := [75;48]%N; cinh := []; cpy := [] |};
    {| cname := [75;49]%N; cinh := []; cpy := [] |}; {| cname := [65;48]%N; cinh := [1; 3]%nat; cpy := [] |};
    {| cname := [77]%N; cinh := []; cpy := [] |} ].
Definition ex_root : node :=
  Node 4 NoName [ Node 2 (NameStr [121]%N) []; Node 1 (NameStr [121]%N) []; Node 1 (NameStr [122]%N) [];
                  Node 2 (NameStr [119]%N) [ Node 1 (NameStr [119]%N) []; Node 1 (NameStr [119]%N) [] ] ].
Definition ex_builtins : builtins := [([108]%N, [1%nat]); ([122;122]%N, [2%nat])].

Example C07_nonvacuous :
  wf_classes ex_classes = true /\
  (* "y" of class A0: K1 "y" is skipped (the search over the cyclic graph terminates), K0 "y" is found *)
  resolve_ref ex_classes ex_root ex_builtins {| rname := [121]%N; rcls := 3 |} = Resolved [1]%nat /\
  (* "w" of class A0: two nested K0 objects *)
  resolve_ref ex_classes ex_root ex_builtins {| rname := [119]%N; rcls := 3 |} = ErrNotUnique [119]%N /\
  (* "l": no object, conforming builtin *)
  resolve_ref ex_classes ex_root ex_builtins {| rname := [108]%N; rcls := 3 |} = Builtin [108]%N /\
  (* "zz": no object, builtin of the unrelated class K1 *)
  resolve_ref ex_classes ex_root ex_builtins {| rname := [122;122]%N; rcls := 3 |} = ErrUnknown [122;122]%N 3 /\
  (* OBJECT accepts every class; two objects are called "y" *)
  resolve_ref ex_classes ex_root ex_builtins {| rname := [121]%N; rcls := 0 |} = ErrNotUnique [121]%N /\
  load ex_classes ex_root ex_builtins
    [ {| rname := [121]%N; rcls := 3 |}; {| rname := [108]%N; rcls := 1 |}; {| rname := [113]%N; rcls := 2 |};
      {| rname := [119]%N; rcls := 3 |} ] = LoadErr 2 (ErrUnknown [113]%N 2).
Proof. vm_compute. repeat split. Qed.
Print Assumptions C07_nonvacuous.

(* ---- several loaded models: PlainName searches only the model that contains the referring object
        (the translated root of the search is get_model(obj); C05_get_model: that is the root of the
        containment tree the object is in).  The outcome is a function of that model alone, and a same-named,
        type-conforming object of another loaded (imported) model is NOT a candidate. *)
Theorem C07_same_model_only : forall classes world world' i b r,
  nth i world empty_model = nth i world' empty_model ->
  resolve_in classes world i b r = resolve_in classes world' i b r.
Proof. intros classes world world' i b r. unfold resolve_in. intros ->. reflexivity. Qed.
Print Assumptions C07_same_model_only.

Theorem C07_imported_not_candidate : forall classes world i j b r p d,
  wf_classes classes = true -> j <> i ->
  Cand classes (nth j world empty_model) (rname r) (rcls r) p d ->
  NoCand classes (nth i world empty_model) (rname r) (rcls r) ->
  (forall q, resolve_in classes world i b r <> Resolved q) /\
  (resolve_in classes world i b r = Builtin (rname r) \/
   resolve_in classes world i b r = ErrUnknown (rname r) (rcls r)).
Proof.
  intros classes world i j b r p d Hwf _ _ Hn. unfold resolve_in.
  pose proof (resolve_ref_cases classes Hwf (nth i world empty_model) b r) as H.
  destruct (resolve_ref classes (nth i world empty_model) b r) as [q|k|n|n t|].
  - exfalso. eapply unique_not_none; eassumption.
  - destruct H as [-> _]. split; [intros q E; discriminate | left; reflexivity].
  - destruct H as [_ Hm]. exfalso. eapply many_not_none; eassumption.
  - destruct H as [-> [-> _]]. split; [intros q E; discriminate | right; reflexivity].
  - contradiction.
Qed.
Print Assumptions C07_imported_not_candidate.

Example C07_imported_nonvacuous :
  (* model 0 refers to "z" of class K0; only model 1 (ex_root) has a K0 named "z" *)
  let world := [Node 4 NoName [Node 2 (NameStr [114]%N) []]; ex_root] in
  Cand ex_classes (nth 1 world empty_model) [122]%N 1 [2]%nat (Node 1 (NameStr [122]%N) []) /\
  resolve_in ex_classes world 0 ex_builtins {| rname := [122]%N; rcls := 1 |} = ErrUnknown [122]%N 1 /\
  resolve_in ex_classes world 1 ex_builtins {| rname := [122]%N; rcls := 1 |} = Resolved [2]%nat.
Proof.
  split; [|split; reflexivity].
  split; [cbn; eapply AtKid; [reflexivity | apply AtHere]|].
  split; [reflexivity|]. exists 1. split; [apply ReachRefl | reflexivity].
Qed.
Print Assumptions C07_imported_nonvacuous.

(* ---- bridges to the models of the neighbouring properties (imported read-only) *)

(* C03's model of _determine_rule_types (Model/Kinds.v, tied to textx/lang.py by kinds_tr.py): for EVERY grammar
   the computation ends in a state s; the class table whose inheritance lists are the recorded _tx_inh_by
   (inh s) is well-formed in the sense of the theorems above, and PlainName's type test on it is C03's
   textx_isinstance (targets other than OBJECT: classes textX created itself; OBJECT: always true). *)
Theorem C07_kinds_bridge : forall (g : list Kinds.rule) (names : nat -> list N),
  (forall i, names i <> OBJECT_name) ->
  exists s, Kinds.determine_types g = Some s /\
    wf_classes (table_of (length g) names (Kinds.inh s)) = true /\
    (forall i, i < length g -> Plain.inh (table_of (length g) names (Kinds.inh s)) i = Kinds.inh s i) /\
    (forall k t, t < length g ->
       Kinds.isinstance (length g) (Kinds.inh s) k (Some t)
       = Some (conforms (table_of (length g) names (Kinds.inh s)) [k] t)) /\
    (forall k, Kinds.isinstance (length g) (Kinds.inh s) k None = Some true).
Proof.
  intros g names Hn. destruct (KindsProofs.kinds_correct g) as [s [H1 [H2 H3]]]. exists s. split; [exact H1|].
  assert (Hrange : forall x y, In y (Kinds.inh s x) -> y < length g).
  { intros x y Hy. destruct (H3 x y Hy) as [_ [_ Hm]].
    destruct (Nat.lt_ge_cases y (length g)) as [L|G]; [exact L|]. exfalso.
    assert (K := H2 y). unfold Kinds.kind_spec, Kinds.rule_refs in K. rewrite (KindsProofs.rule_of_overflow g y G) in K.
    destruct (Kinds.types s y); simpl in *; [discriminate | destruct K as [_ [w [[] _]]] | discriminate]. }
  split; [apply wf_table_of; exact Hrange|].
  split; [intros i L; apply inh_table_of; exact L|].
  split; [intros k t L; apply isinstance_conforms; assumption | reflexivity].
Qed.
Print Assumptions C07_kinds_bridge.

(* C05's model of get_children (Model/Nav.v: attribute slots in _tx_attrs order, attr.cont, single / many
   multiplicities, the collected_ids set; tied to textx/model.py by nav_tr.py): reading a C05 object tree as a
   C07 tree (children = the model objects held by containment slots, in slot order; class and name through any
   labelling functions), Plain.collect returns exactly what get_children(selector, root) returns, in the same
   order, for every selector and every tree whose objects have distinct identities. *)
Theorem C07_get_children_bridge :
  forall (cix : list N -> nat) (nmf : list (Nav.ameta * list Nav.obj) -> nameval) sel root,
  Nav.is_node root = true -> Nav.uniq root ->
  map snd (collect sel (abs cix nmf root))
  = map (abs cix nmf) (Nav.get_children (fun x => sel (abs cix nmf x)) root false (fun _ => true)).
Proof.
  intros cix nmf sel root Hn Hu. rewrite snd_collect, (pre_abs cix nmf root Hn).
  rewrite (NavProofs.get_children_uniq _ _ _ root Hu), filter_map_comm. reflexivity.
Qed.
Print Assumptions C07_get_children_bridge.

(* the two facts of get_children the tree reading relies on, regenerated from textx/model.py (Gen/SrcNav.v):
   the descent is guarded by `attr.cont`; the single-value branch is taken for MULT_ONE and MULT_OPTIONAL *)
Theorem C07_get_children_src :
  SrcNav.src_single_mults = [NavSrc.s_mult_one; NavSrc.s_mult_optional] /\ SrcNav.src_follow_guard = NavSrc.s_attr_cont.
Proof. exact NavCfgProofs.src_children_facts. Qed.
Print Assumptions C07_get_children_src.

(* non-vacuity of the bridges.  Grammar  X: C | Y;  Y: '(' X ')' | D;  C, D, E common  (cyclic _tx_inh_by):
   the recorded lists, and the type test through the C07 table.  Object tree: a root with a contained list
   [a; "text"; b{c}] and a reference slot: children a, b (and c below b); the reference is not followed. *)
Example C07_bridges_nonvacuous :
  (let g := [ {| Kinds.r_attrs := false; Kinds.r_body := Kinds.Body (Kinds.Choice [Kinds.Ref 2; Kinds.Ref 1]) |};
              {| Kinds.r_attrs := false; Kinds.r_body := Kinds.Body (Kinds.Choice [Kinds.Seq [Kinds.Term; Kinds.Ref 0; Kinds.Term]; Kinds.Ref 3]) |};
              {| Kinds.r_attrs := true; Kinds.r_body := Kinds.Body Kinds.Term |};
              {| Kinds.r_attrs := true; Kinds.r_body := Kinds.Body Kinds.Term |};
              {| Kinds.r_attrs := true; Kinds.r_body := Kinds.Body Kinds.Term |} ] in
   exists s, Kinds.determine_types g = Some s /\
     map (cinh) (table_of 5 (fun _ => []) (Kinds.inh s)) = [[2; 1]; [0; 3]; []; []; []] /\
     map (fun k => conforms (table_of 5 (fun _ => []) (Kinds.inh s)) [k] 0) [2; 3; 4] = [true; true; false]) /\
  (let cont := {| Nav.aname := [107]%N; Nav.acont := true; Nav.amany := true |} in
   let rf := {| Nav.aname := [114]%N; Nav.acont := false; Nav.amany := false |} in
   let c := Nav.Node 4 [67]%N [] in
   let a := Nav.Node 2 [65]%N [] in
   let b := Nav.Node 3 [66]%N [(cont, [c])] in
   let root := Nav.Node 1 [82]%N [(cont, [a; Nav.Prim 0 [120]%N; b]); (rf, [Nav.Ref 4])] in
   Nav.is_node root = true /\ NoDup (map Nav.obj_id (Nav.nodes root)) /\
   map (fun pn => fst pn) (collect (fun _ => true) (abs (fun c => length c) (fun _ => NoName) root))
   = [[]; [0]; [1]; [1; 0]]%nat).
Proof.
  split.
  - eexists. split; [vm_compute; reflexivity | split; reflexivity].
  - split; [reflexivity|]. split; [|reflexivity]. apply NavProofs.nodup_N_sound. reflexivity.
Qed.
Print Assumptions C07_bridges_nonvacuous.
