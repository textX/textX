(* Model/Proc.v: the state-passing walk computes the declarative schedule / after / result (walk_spec_all);
   order and counting of the processor calls are then facts about the post-order list of nodes. *)
From TxV Require Import Core.Base Model.Proc Gen.SrcProc.

Scheme value_mind := Induction for value Sort Prop
  with fields_mind := Induction for fields Sort Prop
  with values_mind := Induction for values Sort Prop.
Combined Scheme tree_mutind from value_mind, fields_mind, values_mind.

Section WalkProofs.
  Variable reg : nat -> bool.
  Variable proc : nat -> value -> option value.
  Variable truthy : value -> bool.

  (* the walk instantiated by the standard facts; `src_facts_std` below transfers everything to
     the facts translated from the source *)
  Notation walk := (walk std_facts reg proc truthy).
  Notation walk_fields := (walk_fields std_facts reg proc truthy).
  Notation walk_values := (walk_values std_facts reg proc truthy).
  Notation result := (result reg proc).
  Notation after := (after reg proc).
  Notation after_fields := (after_fields reg proc).
  Notation after_values := (after_values reg proc).
  Notation visits := (visits reg proc).
  Notation visits_fields := (visits_fields reg proc).
  Notation visits_values := (visits_values reg proc).
  Notation events := (events reg).
  Notation schedule := (schedule reg proc).
  Notation settle := (settle reg proc).

  Definition ret (d : dcl) (v : value) : option value :=
    if d_match d then None else result d (after d v).

  (* The calls and the result of one visit.  `walk` computes them block by block (own-class call,
     then declared-class call), the specification as `events` and `result`. *)
  Definition visit {A} (o r : bool) (log : list (nat * A)) (e1 e2 : nat * A) (p1 p2 : option A) (v : A) :=
    if o
    then if r then ((log ++ [e1]) ++ [e2], v, match p1 with Some x => Some x | None => p2 end)
         else (log ++ [e1], v, match p1 with Some x => Some x | None => None end)
    else if r then (log ++ [e2], v, p2) else (log, v, None).

  Lemma visit_spec {A} o r log e1 e2 p1 p2 (v : A) :
    visit o r log e1 e2 p1 p2 v =
    (log ++ (if o then [e1] else []) ++ (if r then [e2] else []), v,
     match (if o then p1 else None) with Some x => Some x | None => if r then p2 else None end).
  Proof. destruct o, r; cbn; rewrite ?app_nil_r, <- ?app_assoc; reflexivity. Qed.

  (* unfolding equations (the mutual fixpoints do not refold under cbn) *)
  Lemma walk_obj d id c fs log :
    walk d (VObj id c fs) log =
    if d_match d then (log, VObj id c fs, None)
    else let '(log1, fs') := walk_fields fs log in
         (log1 ++ events (d, VObj id c fs'), VObj id c fs', result d (VObj id c fs')).
  Proof.
    change (walk d (VObj id c fs) log) with
      (if d_match d then (log, VObj id c fs, None)
       else let '(log1, fs') := walk_fields fs log in
            visit (own_called reg c d) (reg (d_nm d)) log1 (c_nm c, VObj id c fs') (d_nm d, VObj id c fs')
                  (proc (c_nm c) (VObj id c fs')) (proc (d_nm d) (VObj id c fs')) (VObj id c fs')).
    destruct (d_match d); [reflexivity|]. destruct (walk_fields fs log) as [log1 fs']. apply visit_spec.
  Qed.

  Lemma walk_nonobj d v log :
    vid v = None -> walk d v log = (log ++ flat_map events (visits d v), after d v, ret d v).
  Proof.
    intro Hv.
    assert (E : walk d v log = if d_match d then (log, v, None)
                else visit false (reg (d_nm d)) log (d_nm d, v) (d_nm d, v) None (proc (d_nm d) v) v)
      by (destruct v; [reflexivity | reflexivity | discriminate]).
    rewrite E, visit_spec. unfold ret, Proc.result.
    destruct v; [| |discriminate]; cbn [Proc.visits Proc.after]; destruct (d_match d);
      cbn [flat_map Proc.events app]; rewrite ?app_nil_r; reflexivity.
  Qed.

  Lemma walk_fields_one n cont d v rest log :
    walk_fields (FOne n cont d v rest) log =
    if cont && negb (is_none v) then
      let '(log1, v', r) := walk d v log in
      let '(log2, rest') := walk_fields rest log1 in
      (log2, FOne n cont d (match r with Some x => x | None => v' end) rest')
    else let '(log2, rest') := walk_fields rest log in (log2, FOne n cont d v rest').
  Proof. reflexivity. Qed.

  Lemma walk_fields_many n cont d vs rest log :
    walk_fields (FMany n cont d vs rest) log =
    if cont && true then
      let '(log1, vs') := walk_values d vs log in
      let '(log2, rest') := walk_fields rest log1 in (log2, FMany n cont d vs' rest')
    else let '(log2, rest') := walk_fields rest log in (log2, FMany n cont d vs rest').
  Proof. reflexivity. Qed.

  Lemma walk_values_cons d v vs0 log :
    walk_values d (VsCons v vs0) log =
    if negb (is_none v) then
      let '(log1, v', r) := walk d v log in
      let '(log2, vs') := walk_values d vs0 log1 in
      (log2, VsCons (match r with Some x => x | None => v' end) vs')
    else let '(log2, vs') := walk_values d vs0 log in (log2, VsCons v vs').
  Proof. reflexivity. Qed.

  Lemma visits_fields_one n cont d v rest :
    visits_fields (FOne n cont d v rest) =
    (if cont then match v with VNone => [] | _ => visits d v end else []) ++ visits_fields rest.
  Proof. reflexivity. Qed.

  Lemma visits_fields_many n cont d vs rest :
    visits_fields (FMany n cont d vs rest) =
    (if cont then visits_values d vs else []) ++ visits_fields rest.
  Proof. reflexivity. Qed.

  Lemma visits_values_cons d v vs0 :
    visits_values d (VsCons v vs0) =
    (match v with VNone => [] | _ => visits d v end) ++ visits_values d vs0.
  Proof. reflexivity. Qed.

  Lemma after_fields_one n cont d v rest :
    after_fields (FOne n cont d v rest) =
    FOne n cont d (if cont then settle d v else v) (after_fields rest).
  Proof. reflexivity. Qed.

  Lemma after_fields_many n cont d vs rest :
    after_fields (FMany n cont d vs rest) =
    FMany n cont d (if cont then after_values d vs else vs) (after_fields rest).
  Proof. reflexivity. Qed.

  Lemma after_values_cons d v vs0 :
    after_values d (VsCons v vs0) = VsCons (settle d v) (after_values d vs0).
  Proof. reflexivity. Qed.

  Lemma settle_not_none d v :
    is_none v = false ->
    settle d v = match ret d v with Some x => x | None => after d v end.
  Proof.
    intro Hn. unfold Proc.settle, ret.
    destruct v as [|a|id c fs]; [discriminate| |];
      destruct (d_match d) eqn:Em; try reflexivity; cbn; rewrite Em; reflexivity.
  Qed.

  (* One slot (a single-valued attribute, or an element of a list), with what follows as `k`: the walk
     recurses unless the value is None and stores the result if there is one; the specification
     calls the outcome `settle`.  The case analysis on the value is done here, away from the
     state-passing context. *)
  Lemma walk_slot {B} d v log (k : list (nat * value) -> value -> B) :
    (forall log, walk d v log = (log ++ flat_map events (visits d v), after d v, ret d v)) ->
    (if negb (is_none v)
     then let '(log1, v', r) := walk d v log in k log1 (match r with Some x => x | None => v' end)
     else k log v)
    = k (log ++ flat_map events (match v with VNone => [] | _ => visits d v end)) (settle d v).
  Proof.
    intro IH. destruct v; cbn [is_none negb]; [cbn [flat_map]; rewrite app_nil_r; reflexivity | |];
      rewrite IH, settle_not_none by reflexivity; reflexivity.
  Qed.

  Lemma walk_spec_all :
    (forall v d log, walk d v log = (log ++ flat_map events (visits d v), after d v, ret d v)) /\
    (forall fs log, walk_fields fs log = (log ++ flat_map events (visits_fields fs), after_fields fs)) /\
    (forall vs d log, walk_values d vs log = (log ++ flat_map events (visits_values d vs), after_values d vs)).
  Proof.
    apply tree_mutind.
    - intros d log. apply walk_nonobj. reflexivity.
    - intros a d log. apply walk_nonobj. reflexivity.
    - intros id c fs IHfs d log. rewrite walk_obj, IHfs. unfold ret.
      change (visits d (VObj id c fs)) with
        (if d_match d then [] else visits_fields fs ++ [(d, VObj id c (after_fields fs))]).
      change (after d (VObj id c fs)) with
        (if d_match d then VObj id c fs else VObj id c (after_fields fs)).
      destruct (d_match d).
      + cbn [flat_map]. rewrite app_nil_r. reflexivity.
      + rewrite flat_map_app, app_assoc. cbn [flat_map]. rewrite app_nil_r. reflexivity.
    - intros log. cbn. rewrite app_nil_r. reflexivity.
    - intros n cont d v IHv rest IHrest log.
      rewrite walk_fields_one, visits_fields_one, after_fields_one.
      destruct cont; cbn [andb]; [|rewrite IHrest; reflexivity].
      rewrite (walk_slot d v log (fun log1 x => let '(log2, rest') := walk_fields rest log1 in
                                               (log2, FOne n true d x rest')) (IHv d)).
      rewrite IHrest, flat_map_app, app_assoc. reflexivity.
    - intros n cont d vs IHvs rest IHrest log.
      rewrite walk_fields_many, visits_fields_many, after_fields_many.
      destruct cont; cbn [andb].
      + rewrite IHvs, IHrest. rewrite flat_map_app, app_assoc. reflexivity.
      + rewrite IHrest. reflexivity.
    - intros d log. cbn. rewrite app_nil_r. reflexivity.
    - intros v IHv vs IHvs d log.
      rewrite walk_values_cons, visits_values_cons, after_values_cons.
      rewrite (walk_slot d v log (fun log1 x => let '(log2, vs') := walk_values d vs log1 in
                                               (log2, VsCons x vs')) (IHv d)).
      rewrite IHvs, flat_map_app, app_assoc. reflexivity.
  Qed.

  Lemma walk_spec d v log :
    walk d v log = (log ++ schedule d v, after d v, ret d v).
  Proof. apply walk_spec_all. Qed.

  Lemma walk_values_spec d vs log :
    walk_values d vs log = (log ++ flat_map events (visits_values d vs), after_values d vs).
  Proof. apply walk_spec_all. Qed.
End WalkProofs.

Lemma rtest_eqb_eq a b : rtest_eqb a b = true -> a = b.
Proof. destruct a, b; (reflexivity || discriminate). Qed.
Lemma wstep_eqb_eq a b : wstep_eqb a b = true -> a = b.
Proof. destruct a, b; (reflexivity || discriminate). Qed.
Lemma wsteps_eqb_eq a : forall b, wsteps_eqb a b = true -> a = b.
Proof.
  induction a as [|x a IH]; intros [|y b] H; try discriminate; [reflexivity|].
  cbn in H. apply andb_true_iff in H. destruct H as [H1 H2].
  apply wstep_eqb_eq in H1. apply IH in H2. congruence.
Qed.
Lemma retpol_eqb_eq a b : retpol_eqb a b = true -> a = b.
Proof. destruct a, b; (reflexivity || discriminate). Qed.

(* the decidable check on the facts pins them completely *)
Lemma facts_ok_std F : facts_ok F = true -> F = std_facts.
Proof.
  destruct F as [f1 f2 f3 f4 f5 f6 f7 f8 f9 f10]. unfold facts_ok. cbn [wf_match_skip wf_only_cont
    wf_attr_test wf_elem_test wf_repl_single wf_repl_list wf_order wf_own_fqn wf_own_name wf_ret].
  intro H.
  apply andb_prop in H as [H H10]. apply andb_prop in H as [H H9]. apply andb_prop in H as [H H8].
  apply andb_prop in H as [H H7]. apply andb_prop in H as [H H6]. apply andb_prop in H as [H H5].
  apply andb_prop in H as [H H4]. apply andb_prop in H as [H H3]. apply andb_prop in H as [H1 H2].
  apply eqb_prop in H1, H2, H8, H9. apply rtest_eqb_eq in H3, H4, H5, H6.
  apply wsteps_eqb_eq in H7. apply retpol_eqb_eq in H10. subst. reflexivity.
Qed.

Lemma src_facts_ok : facts_ok src_facts = true.
Proof. vm_compute. reflexivity. Qed.

Lemma src_facts_std : src_facts = std_facts.
Proof. apply facts_ok_std, src_facts_ok. Qed.

Lemma walk_root_src_spec reg proc truthy d v :
  walk_root src_facts reg proc truthy d v = (schedule reg proc d v, after reg proc d v).
Proof. rewrite src_facts_std. unfold walk_root. rewrite walk_spec. reflexivity. Qed.

Lemma walk_fields_src_spec reg proc truthy fs log :
  Proc.walk_fields src_facts reg proc truthy fs log =
  (log ++ flat_map (events reg) (visits_fields reg proc fs), after_fields reg proc fs).
Proof. rewrite src_facts_std. apply walk_spec_all. Qed.

Definition segment {A} (s l : list A) : Prop := exists l1 l2, l = l1 ++ s ++ l2.

Lemma segment_refl {A} (s : list A) : segment s s.
Proof. exists [], []. rewrite app_nil_r. reflexivity. Qed.

Lemma segment_app_l {A} (s l r : list A) : segment s l -> segment s (l ++ r).
Proof. intros (l1 & l2 & ->). exists l1, (l2 ++ r). rewrite <- !app_assoc. reflexivity. Qed.

Lemma segment_app_r {A} (s l r : list A) : segment s l -> segment s (r ++ l).
Proof. intros (l1 & l2 & ->). exists (r ++ l1), l2. rewrite <- app_assoc. reflexivity. Qed.

Lemma segment_In {A} (x : A) l : In x l -> segment [x] l.
Proof. intro H. apply in_split in H as (l1 & l2 & ->). exists l1, l2. reflexivity. Qed.

Lemma segment_flat_map {A B} (f : A -> list B) s l :
  segment s l -> segment (flat_map f s) (flat_map f l).
Proof. intros (l1 & l2 & ->). exists (flat_map f l1), (flat_map f l2). rewrite !flat_map_app. reflexivity. Qed.

(* a block b ++ [x] inside a duplicate-free list: x is not in b, and nothing outside the block is x or in b *)
Lemma NoDup_block {A} (a b c : list A) x :
  NoDup (a ++ (b ++ [x]) ++ c) ->
  ~ In x b /\ forall i, In i (a ++ c) -> i <> x /\ ~ In i b.
Proof.
  intro H. pose proof (NoDup_app_r _ _ H) as H'. split.
  - rewrite <- app_assoc in H'. apply NoDup_remove_2 in H'.
    intro Hx. apply H', in_or_app. left. exact Hx.
  - intros i Hi. apply in_app_or in Hi as [Hi|Hi].
    + pose proof (NoDup_app_disjoint _ _ i H Hi) as Hd.
      split; [intros ->|intro Hb]; apply Hd, in_or_app; left; apply in_or_app;
        [right; left; reflexivity | left; exact Hb].
    + split; [intros ->|intro Hb]; refine (NoDup_app_disjoint _ _ _ H' _ Hi); apply in_or_app;
        [right; left; reflexivity | left; exact Hb].
Qed.

Section Corollaries.
  Variable reg : nat -> bool.
  Variable proc : nat -> value -> option value.

  Notation after := (after reg proc).
  Notation after_fields := (after_fields reg proc).
  Notation after_values := (after_values reg proc).
  Notation visits := (visits reg proc).
  Notation visits_fields := (visits_fields reg proc).
  Notation visits_values := (visits_values reg proc).
  Notation events := (events reg).
  Notation schedule := (schedule reg proc).
  Notation settle := (settle reg proc).
  Notation result := (result reg proc).

  (* a visit is a node of the original tree, seen once everything below it has been processed *)
  Definition vmap (x : dcl * value) : dcl * value := (fst x, after (fst x) (snd x)).
  Definition node_events (x : dcl * value) : list (nat * value) := events (vmap x).

  Lemma after_obj d id c fs : exists fs', after d (VObj id c fs) = VObj id c fs'.
  Proof. cbn. destruct (d_match d); eexists; reflexivity. Qed.

  Lemma vid_after d v : vid (after d v) = vid v.
  Proof. destruct v; cbn; destruct (d_match d); reflexivity. Qed.

  Lemma visits_nodes_all :
    (forall v d, visits d v = map vmap (nodes d v)) /\
    (forall fs, visits_fields fs = map vmap (nodes_fields fs)) /\
    (forall vs d, visits_values d vs = map vmap (nodes_values d vs)).
  Proof.
    apply tree_mutind.
    - intros d. unfold vmap. cbn. destruct (d_match d) eqn:Em; cbn; rewrite ?Em; reflexivity.
    - intros a d. unfold vmap. cbn. destruct (d_match d) eqn:Em; cbn; rewrite ?Em; reflexivity.
    - intros id c fs IH d.
      change (visits d (VObj id c fs)) with
        (if d_match d then [] else visits_fields fs ++ [(d, VObj id c (after_fields fs))]).
      cbn [nodes]. destruct (d_match d) eqn:Em; [reflexivity|].
      rewrite map_app, IH. unfold vmap. cbn. rewrite Em. reflexivity.
    - reflexivity.
    - intros n cont d v IHv rest IHrest.
      rewrite visits_fields_one. cbn [nodes_fields]. rewrite map_app, IHrest.
      destruct cont; [|reflexivity]. destruct v; [reflexivity| |]; rewrite IHv; reflexivity.
    - intros n cont d vs IHvs rest IHrest.
      rewrite visits_fields_many. cbn [nodes_fields]. rewrite map_app, IHrest.
      destruct cont; [|reflexivity]. rewrite IHvs. reflexivity.
    - reflexivity.
    - intros v IHv vs IHvs d.
      rewrite visits_values_cons. cbn [nodes_values]. rewrite map_app, IHvs.
      destruct v; [reflexivity| |]; rewrite IHv; reflexivity.
  Qed.

  Lemma flat_map_map {A B C} (f : A -> B) (g : B -> list C) l :
    flat_map g (map f l) = flat_map (fun x => g (f x)) l.
  Proof. induction l as [|x l IH]; cbn; [reflexivity|]. rewrite IH. reflexivity. Qed.

  Lemma schedule_nodes d v : schedule d v = flat_map node_events (nodes d v).
  Proof. unfold Proc.schedule. rewrite (proj1 visits_nodes_all), flat_map_map. reflexivity. Qed.

  (* every node has a non-match declared class, and its own nodes form a contiguous block *)
  Definition sub_in (l : list (dcl * value)) : Prop :=
    forall x, In x l -> d_match (fst x) = false /\ segment (nodes (fst x) (snd x)) l.

  Lemma sub_in_nil : sub_in [].
  Proof. intros x []. Qed.

  Lemma sub_in_app l1 l2 : sub_in l1 -> sub_in l2 -> sub_in (l1 ++ l2).
  Proof.
    intros H1 H2 x Hx. apply in_app_iff in Hx as [Hx|Hx].
    - destruct (H1 x Hx) as [Hm Hs]. split; [exact Hm | apply segment_app_l, Hs].
    - destruct (H2 x Hx) as [Hm Hs]. split; [exact Hm | apply segment_app_r, Hs].
  Qed.

  (* the value itself comes last, after what it contains *)
  Lemma sub_in_root d v l : nodes d v = l ++ [(d, v)] -> d_match d = false -> sub_in l -> sub_in (nodes d v).
  Proof.
    intros E Em Hl x Hx. rewrite E in Hx. apply in_app_iff in Hx as [Hx|[<-|[]]].
    - destruct (Hl x Hx) as [Hm Hs]. split; [exact Hm|]. rewrite E. apply segment_app_l, Hs.
    - split; [exact Em | apply segment_refl].
  Qed.

  Lemma nodes_sub_all :
    (forall v d, sub_in (nodes d v)) /\ (forall fs, sub_in (nodes_fields fs)) /\
    (forall vs d, sub_in (nodes_values d vs)).
  Proof.
    apply tree_mutind.
    - intros d. destruct (d_match d) eqn:Em; [cbn; rewrite Em; apply sub_in_nil|].
      apply (sub_in_root _ _ []); [cbn; rewrite Em; reflexivity | exact Em | apply sub_in_nil].
    - intros a d. destruct (d_match d) eqn:Em; [cbn; rewrite Em; apply sub_in_nil|].
      apply (sub_in_root _ _ []); [cbn; rewrite Em; reflexivity | exact Em | apply sub_in_nil].
    - intros id c fs IH d. destruct (d_match d) eqn:Em; [cbn; rewrite Em; apply sub_in_nil|].
      apply (sub_in_root _ _ (nodes_fields fs)); [cbn; rewrite Em; reflexivity | exact Em | exact IH].
    - apply sub_in_nil.
    - intros n cont d v IHv rest IHrest. cbn [nodes_fields]. apply sub_in_app; [|exact IHrest].
      destruct cont; [|apply sub_in_nil]. destruct v; [apply sub_in_nil | apply IHv | apply IHv].
    - intros n cont d vs IHvs rest IHrest. cbn [nodes_fields]. apply sub_in_app; [|exact IHrest].
      destruct cont; [apply IHvs | apply sub_in_nil].
    - intros d. apply sub_in_nil.
    - intros v IHv vs IHvs d. cbn [nodes_values]. apply sub_in_app; [|apply IHvs].
      destruct v; [apply sub_in_nil | apply IHv | apply IHv].
  Qed.

  (* an object's block: what it contains, then the object *)
  Lemma node_block d v d' id c fs :
    In (d', VObj id c fs) (nodes d v) ->
    segment (nodes_fields fs ++ [(d', VObj id c fs)]) (nodes d v).
  Proof.
    intro Hin. destruct (proj1 nodes_sub_all v d _ Hin) as [Hm Hs]. cbn [fst snd nodes] in Hm, Hs.
    rewrite Hm in Hs. exact Hs.
  Qed.

  Lemma node_events_id x e : In e (node_events x) -> ev_id e = vid (snd x).
  Proof.
    destruct x as [d v]. unfold node_events, vmap, Proc.events, ev_id. cbn [fst snd].
    rewrite <- (vid_after d v), in_app_iff. intros [H|H].
    - destruct (after d v); try destruct H.
      destruct (own_called reg c d); [|destruct H]. destruct H as [<-|[]]. reflexivity.
    - destruct (reg (d_nm d)); [|destruct H]. destruct H as [<-|[]]. reflexivity.
  Qed.

  Lemma ids_of_app l1 l2 : ids_of (l1 ++ l2) = ids_of l1 ++ ids_of l2.
  Proof.
    induction l1 as [|[d v] l1 IH]; [reflexivity|]. cbn [app ids_of].
    destruct (vid v); rewrite IH; reflexivity.
  Qed.

  Lemma ids_of_In l x i : In x l -> vid (snd x) = Some i -> In i (ids_of l).
  Proof.
    intros Hx Hi. apply in_split in Hx as (l1 & l2 & ->). destruct x as [d v].
    rewrite ids_of_app. cbn [ids_of snd] in *. rewrite Hi. apply in_or_app. right. left. reflexivity.
  Qed.

  Lemma events_ids_in l e i : In e (flat_map node_events l) -> ev_id e = Some i -> In i (ids_of l).
  Proof.
    intros He Hid. apply in_flat_map in He. destruct He as [x [Hx He]].
    apply node_events_id in He. rewrite He in Hid. eapply ids_of_In; eassumption.
  Qed.

  Lemma calls_on_app p i l1 l2 : calls_on p i (l1 ++ l2) = calls_on p i l1 + calls_on p i l2.
  Proof. unfold calls_on. rewrite filter_app, app_length. reflexivity. Qed.

  Lemma calls_outside p i l :
    ~ In i (ids_of l) -> calls_on p i (flat_map node_events l) = 0.
  Proof.
    intro Hn. unfold calls_on.
    assert (H : forall e, In e (flat_map node_events l) -> is_call p i e = false).
    { intros e He. unfold is_call. destruct (ev_id e) as [j|] eqn:Ej; [|apply andb_false_r].
      destruct (Nat.eqb j i) eqn:Eji; [|apply andb_false_r].
      apply Nat.eqb_eq in Eji. subst j. destruct Hn. eapply events_ids_in; eassumption. }
    induction (flat_map node_events l) as [|e t IH]; [reflexivity|].
    cbn [filter]. rewrite (H e) by (left; reflexivity). apply IH. intros e' He'. apply H. right. exact He'.
  Qed.

  Definition b2n (b : bool) : nat := if b then 1 else 0.

  Lemma calls_node p d id c fs :
    calls_on p id (node_events (d, VObj id c fs)) =
    b2n (own_called reg c d && Nat.eqb (c_nm c) p) + b2n (reg (d_nm d) && Nat.eqb (d_nm d) p).
  Proof.
    unfold node_events, vmap, Proc.events. cbn [fst snd].
    destruct (after_obj d id c fs) as [fs' ->]. rewrite calls_on_app. f_equal.
    - destruct (own_called reg c d); [|reflexivity]. unfold calls_on, is_call, ev_id. cbn.
      rewrite Nat.eqb_refl, andb_true_r. destruct (Nat.eqb (c_nm c) p); reflexivity.
    - destruct (reg (d_nm d)); [|reflexivity]. unfold calls_on, is_call, ev_id. cbn.
      rewrite Nat.eqb_refl, andb_true_r. destruct (Nat.eqb (d_nm d) p); reflexivity.
  Qed.

  Lemma calls_count d v d' id c fs p :
    NoDup (ids_of (nodes d v)) -> In (d', VObj id c fs) (nodes d v) ->
    calls_on p id (schedule d v) =
    b2n (own_called reg c d' && Nat.eqb (c_nm c) p) + b2n (reg (d_nm d') && Nat.eqb (d_nm d') p).
  Proof.
    intros Hnd Hin. rewrite schedule_nodes.
    apply in_split in Hin. destruct Hin as [l1 [l2 E]]. rewrite E in Hnd |- *.
    rewrite ids_of_app in Hnd. cbn [ids_of vid] in Hnd. apply NoDup_remove_2 in Hnd.
    rewrite flat_map_app. cbn [flat_map]. rewrite !calls_on_app, calls_node.
    rewrite (calls_outside p id l1), (calls_outside p id l2), Nat.add_0_r; [reflexivity| |];
      intro H; apply Hnd, in_or_app; [right | left]; exact H.
  Qed.

  (* two classes with the same `_tx_fqn` have the same simple name, so the name test decides *)
  Lemma own_called_names c d :
    own_called reg c d = negb (Nat.eqb (c_nm c) (d_nm d)) && reg (c_nm c).
  Proof.
    unfold own_called, fqn_eqb, d_nm. destruct (Nat.eqb (c_nm c) (c_nm (d_cls d)));
      rewrite andb_false_r; reflexivity.
  Qed.

  (* exactly once for the object's own rule *)
  Lemma once_own d v d' id c fs :
    NoDup (ids_of (nodes d v)) -> In (d', VObj id c fs) (nodes d v) -> reg (c_nm c) = true ->
    calls_on (c_nm c) id (schedule d v) = 1.
  Proof.
    intros Hnd Hin Hr. rewrite (calls_count d v d' id c fs) by assumption.
    rewrite own_called_names, Hr, Nat.eqb_refl, (Nat.eqb_sym (d_nm d')).
    destruct (Nat.eqb (c_nm c) (d_nm d')) eqn:En.
    - apply Nat.eqb_eq in En. rewrite <- En, Hr. reflexivity.
    - rewrite andb_false_r. reflexivity.
  Qed.

  (* exactly once for the declared rule of the slot *)
  Lemma once_declared d v d' id c fs :
    NoDup (ids_of (nodes d v)) -> In (d', VObj id c fs) (nodes d v) -> reg (d_nm d') = true ->
    calls_on (d_nm d') id (schedule d v) = 1.
  Proof.
    intros Hnd Hin Hr. rewrite (calls_count d v d' id c fs) by assumption.
    rewrite own_called_names, Hr, Nat.eqb_refl.
    destruct (Nat.eqb (c_nm c) (d_nm d')); rewrite ?andb_false_r; reflexivity.
  Qed.

  (* the calls made for a node stand together in the schedule *)
  Lemma node_calls d v x : In x (nodes d v) -> segment (node_events x) (schedule d v).
  Proof.
    intro Hin. rewrite schedule_nodes.
    apply segment_In, (segment_flat_map node_events) in Hin. cbn [flat_map] in Hin.
    rewrite app_nil_r in Hin. exact Hin.
  Qed.

  (* own-rule call immediately followed by the declared-rule call *)
  Lemma own_then_declared d v d' id c fs :
    In (d', VObj id c fs) (nodes d v) ->
    own_called reg c d' = true -> reg (d_nm d') = true ->
    segment [(c_nm c, after d' (VObj id c fs)); (d_nm d', after d' (VObj id c fs))] (schedule d v).
  Proof.
    intros Hin Ho Hr. apply node_calls in Hin.
    unfold node_events, vmap, Proc.events in Hin. cbn [fst snd] in Hin.
    destruct (after_obj d' id c fs) as [fs' E]. rewrite E, Ho, Hr in Hin. rewrite E. exact Hin.
  Qed.

  Lemma atom_called d v d' a :
    In (d', VAtom a) (nodes d v) -> reg (d_nm d') = true -> segment [(d_nm d', VAtom a)] (schedule d v).
  Proof.
    intros Hin Hr. apply node_calls in Hin.
    unfold node_events, vmap, Proc.events in Hin. cbn [fst snd Proc.after] in Hin.
    destruct (d_match d'); rewrite Hr in Hin; exact Hin.
  Qed.

  (* children first, then the container: `sub` are the calls for what the object contains, `own` the
     calls on it; together they are contiguous, and no other call is on the object or below it *)
  Lemma subtree_contiguous d v d' id c fs :
    NoDup (ids_of (nodes d v)) -> In (d', VObj id c fs) (nodes d v) ->
    exists l1 sub own l2,
      schedule d v = l1 ++ (sub ++ own) ++ l2 /\
      sub = flat_map events (visits_fields fs) /\
      own = events (d', after d' (VObj id c fs)) /\
      (forall e i, In e sub -> ev_id e = Some i -> In i (below (VObj id c fs))) /\
      (forall e, In e own -> ev_id e = Some id) /\
      (forall e i, In e (l1 ++ l2) -> ev_id e = Some i -> i <> id /\ ~ In i (below (VObj id c fs))) /\
      ~ In id (below (VObj id c fs)).
  Proof.
    intros Hnd Hin. destruct (node_block d v d' id c fs Hin) as (n1 & n2 & E).
    exists (flat_map node_events n1), (flat_map node_events (nodes_fields fs)),
           (node_events (d', VObj id c fs)), (flat_map node_events n2).
    rewrite schedule_nodes, E, !flat_map_app. cbn [flat_map below]. rewrite app_nil_r.
    (* the identities of the tree are those before, those below, the object's, those after *)
    rewrite E, !ids_of_app in Hnd. cbn [ids_of vid] in Hnd.
    destruct (NoDup_block _ _ _ _ Hnd) as [Hid Hout].
    split; [reflexivity|]. split; [|split; [reflexivity|split; [|split; [|split]]]].
    - rewrite (proj1 (proj2 visits_nodes_all)), flat_map_map. reflexivity.
    - intros e i. apply events_ids_in.
    - intros e. apply node_events_id.
    - intros e i He Hi. apply Hout. rewrite <- ids_of_app. rewrite <- flat_map_app in He.
      exact (events_ids_in _ _ _ He Hi).
    - exact Hid.
  Qed.

  Lemma result_declared d id c fs :
    own_called reg c d = false \/ proc (c_nm c) (VObj id c fs) = None ->
    result d (VObj id c fs) = if reg (d_nm d) then proc (d_nm d) (VObj id c fs) else None.
  Proof.
    intros H. unfold Proc.result. destruct (own_called reg c d); [|reflexivity].
    destruct H as [H|H]; [discriminate|]. rewrite H. reflexivity.
  Qed.

  Lemma after_values_list d vs :
    values_to_list (after_values d vs) = map (settle d) (values_to_list vs).
  Proof.
    induction vs as [|v vs IH]; [reflexivity|]. rewrite after_values_cons. cbn [values_to_list map].
    rewrite IH. reflexivity.
  Qed.
End Corollaries.

Section Phases.
  Definition nolink (x : lev) : bool := negb (is_link_or_init x).

  Lemma procs_last_nolink t : forallb nolink t = true -> procs_last t = true.
  Proof.
    induction t as [|e t IH]; [reflexivity|]. cbn [forallb procs_last]. intro H.
    apply andb_true_iff in H. destruct H as [_ H]. rewrite (IH H), andb_true_r.
    destruct (is_proc e); [exact H | reflexivity].
  Qed.

  Lemma procs_last_noproc t1 t2 : existsb is_proc t1 = false -> procs_last (t1 ++ t2) = procs_last t2.
  Proof.
    induction t1 as [|e t1 IH]; [reflexivity|]. cbn [existsb app procs_last]. intro H.
    apply orb_false_iff in H. destruct H as [He H]. rewrite He. apply IH, H.
  Qed.

  (* trace of one phase *)
  Definition phase_trace (p : phase) (models : list nat) : list lev :=
    match p with
    | PResolveLoop => map LResolve models
    | PRaiseUnresolved => []
    | PForEach body => flat_map (fun m => flat_map (run_step m) body) models
    end.

  Lemma run_phases_cons p ps models u :
    run_phases (p :: ps) models u =
    match p with
    | PRaiseUnresolved => if u then [LRaise] else run_phases ps models u
    | _ => phase_trace p models ++ run_phases ps models u
    end.
  Proof. destruct p; reflexivity. Qed.

  (* an event of a phase's trace is announced by the phase's static flags *)
  Lemma phase_trace_In p models x :
    In x (phase_trace p models) ->
    (is_proc x = true -> phase_has_proc p = true) /\ (is_link_or_init x = true -> phase_has_link p = true).
  Proof.
    destruct p as [| |body]; cbn [phase_trace phase_has_proc phase_has_link]; [|intros []|].
    - intro H. apply in_map_iff in H as (m & <- & _). split; [discriminate | reflexivity].
    - intro H. apply in_flat_map in H as (m & _ & H). apply in_flat_map in H as (s & Hs & H).
      split; intro Hx; apply existsb_exists; exists s; (split; [exact Hs|]);
        destruct s; cbn in H; try contradiction; destruct H as [<-|[]]; (reflexivity || discriminate).
  Qed.

  Lemma phase_nolink p models : phase_has_link p = false -> forallb nolink (phase_trace p models) = true.
  Proof.
    intro H. apply forallb_forall. intros x Hx. apply negb_true_iff.
    destruct (is_link_or_init x) eqn:E; [|reflexivity].
    rewrite (proj2 (phase_trace_In p models x Hx) E) in H. discriminate.
  Qed.

  Lemma phase_noproc p models : phase_has_proc p = false -> existsb is_proc (phase_trace p models) = false.
  Proof.
    intro H. destruct (existsb is_proc (phase_trace p models)) eqn:E; [|reflexivity].
    apply existsb_exists in E as (x & Hx & E).
    rewrite (proj1 (phase_trace_In p models x Hx) E) in H. discriminate.
  Qed.

  Lemma run_phases_nolink ps models u :
    forallb (fun q => negb (phase_has_link q)) ps = true -> forallb nolink (run_phases ps models u) = true.
  Proof.
    induction ps as [|p ps IH]; [reflexivity|]. cbn [forallb]. intro H.
    apply andb_true_iff in H. destruct H as [Hp H]. apply negb_true_iff in Hp.
    rewrite run_phases_cons. destruct p as [| |body];
      [| destruct u; [reflexivity | apply IH, H] |];
      rewrite forallb_app, (IH H), (phase_nolink _ models Hp); reflexivity.
  Qed.

  (* once a phase runs processors nothing from there on links; before that, phases add no
     processor event *)
  Lemma order_of_phases ps models u :
    no_link_after_proc ps = true -> procs_last (run_phases ps models u) = true.
  Proof.
    induction ps as [|p ps IH]; [reflexivity|]. cbn [no_link_after_proc]. intro H.
    apply andb_true_iff in H. destruct H as [Hp H]. specialize (IH H).
    destruct (phase_has_proc p) eqn:Ep.
    - apply procs_last_nolink, run_phases_nolink, Hp.
    - rewrite run_phases_cons. destruct p as [| |body];
        [| destruct u; [reflexivity | exact IH] |];
        rewrite procs_last_noproc by (apply phase_noproc, Ep); exact IH.
  Qed.

  Lemma no_procs_when_unresolved ps models :
    guarded ps = true -> existsb is_proc (run_phases ps models true) = false.
  Proof.
    induction ps as [|p ps IH]; [reflexivity|]. intro H. rewrite run_phases_cons.
    destruct p as [| |body]; [| reflexivity |]; cbn [guarded] in H;
      apply andb_true_iff in H; destruct H as [Hp H]; apply negb_true_iff in Hp;
      rewrite existsb_app, (IH H), (phase_noproc _ models Hp); reflexivity.
  Qed.

  (* splitting form of procs_last *)
  Lemma procs_last_split tr :
    procs_last tr = true ->
    forall l1 e l2, tr = l1 ++ e :: l2 -> is_proc e = true ->
    forall x, In x l2 -> is_link_or_init x = false.
  Proof.
    intros H l1 e l2 -> Ep x Hx. induction l1 as [|b l1 IH];
      cbn [app procs_last] in H; apply andb_true_iff in H; destruct H as [Ha H].
    - rewrite Ep in Ha. rewrite forallb_forall in Ha. apply negb_true_iff, Ha, Hx.
    - apply IH, H.
  Qed.

  Definition count_lev (f : lev -> bool) (tr : list lev) : nat := length (filter f tr).

  Lemma count_lev_app f t1 t2 : count_lev f (t1 ++ t2) = count_lev f t1 + count_lev f t2.
  Proof. unfold count_lev. rewrite filter_app, app_length. reflexivity. Qed.

  (* Events of one kind: `is_ev m` recognises the event that the steps selected by `sel` emit
     for model m.  Processor calls and user-class initialisations are the two instances. *)
  Section Count.
    Variable is_ev : nat -> lev -> bool.
    Variable sel : pstep -> bool.
    Hypothesis step_ev : forall m k s,
      count_lev (is_ev m) (run_step k s) = if Nat.eqb k m && sel s then 1 else 0.
    Hypothesis resolve_ev : forall m k, is_ev m (LResolve k) = false.

    Definition nsel_phase (p : phase) : nat :=
      match p with PForEach b => length (filter sel b) | _ => 0 end.
    Definition nsel (ps : list phase) : nat := fold_right (fun p n => nsel_phase p + n) 0 ps.

    Lemma count_body m k body :
      count_lev (is_ev m) (flat_map (run_step k) body) =
      if Nat.eqb k m then length (filter sel body) else 0.
    Proof.
      induction body as [|s body IH]; [destruct (Nat.eqb k m); reflexivity|].
      cbn [flat_map filter]. rewrite count_lev_app, IH, step_ev.
      destruct (Nat.eqb k m), (sel s); reflexivity.
    Qed.

    Lemma count_phase m p models :
      count_lev (is_ev m) (phase_trace p models) = count_occ Nat.eq_dec models m * nsel_phase p.
    Proof.
      destruct p as [| |body]; cbn [phase_trace nsel_phase]; rewrite ?Nat.mul_0_r; [|reflexivity|].
      - induction models as [|k models IH]; [reflexivity|].
        unfold count_lev in *. cbn [map filter]. rewrite resolve_ev. exact IH.
      - induction models as [|k models IH]; [reflexivity|].
        cbn [flat_map count_occ]. rewrite count_lev_app, IH, count_body.
        destruct (Nat.eq_dec k m) as [->|Hn].
        + rewrite Nat.eqb_refl. lia.
        + apply Nat.eqb_neq in Hn. rewrite Hn. lia.
    Qed.

    Lemma count_run m ps models :
      count_lev (is_ev m) (run_phases ps models false) = count_occ Nat.eq_dec models m * nsel ps.
    Proof.
      induction ps as [|p ps IH]; [cbn; lia|].
      rewrite run_phases_cons. unfold nsel. cbn [fold_right]. fold (nsel ps).
      destruct p as [| |body]; [| rewrite IH; cbn [nsel_phase]; lia |];
        rewrite count_lev_app, IH, count_phase; lia.
    Qed.

    Lemma once_per_model m ps models :
      nsel ps = 1 -> NoDup models -> In m models ->
      count_lev (is_ev m) (run_phases ps models false) = 1.
    Proof.
      intros Hn Hnd Hin. rewrite count_run, Hn, Nat.mul_1_r.
      apply NoDup_count_occ'; assumption.
    Qed.
  End Count.

  Lemma processors_once_per_model m ps models :
    nprocs ps = 1 -> NoDup models -> In m models ->
    count_lev (lev_is_proc_of m) (run_phases ps models false) = 1.
  Proof.
    apply (once_per_model lev_is_proc_of step_is_proc); [|reflexivity].
    intros m' k s. destruct s; cbn; destruct (Nat.eqb k m'); reflexivity.
  Qed.

  Lemma init_once_per_model m ps models :
    ninits ps = 1 -> NoDup models -> In m models ->
    count_lev (lev_is_init_of m) (run_phases ps models false) = 1.
  Proof.
    apply (once_per_model lev_is_init_of step_is_init); [|reflexivity].
    intros m' k s. destruct s; cbn; destruct (Nat.eqb k m'); reflexivity.
  Qed.
End Phases.

Section Final.
  Variable reg : nat -> bool.
  Variable proc : nat -> value -> option value.
  Variable truthy : value -> bool.

  (* the calls made / the tree left by the walk instantiated with the facts of the source *)
  Definition log_of (d : dcl) (v : value) : list (nat * value) := fst (walk_root src_facts reg proc truthy d v).
  Definition model_after (d : dcl) (v : value) : value := snd (walk_root src_facts reg proc truthy d v).

  Lemma log_of_schedule d v : log_of d v = schedule reg proc d v.
  Proof. unfold log_of. rewrite walk_root_src_spec. reflexivity. Qed.

  Lemma final_model d v : model_after d v = after reg proc d v.
  Proof. unfold model_after. rewrite walk_root_src_spec. reflexivity. Qed.
End Final.

Scheme ptree_mind := Induction for ptree Sort Prop
  with ptrees_mind := Induction for ptrees Sort Prop.
Combined Scheme ptree_mutind from ptree_mind, ptrees_mind.

Section MatchProofs.
  Variable mreg : nat -> bool.
  Variable mproc : nat -> list N -> list N.
  Notation pmatch := (pmatch mreg mproc).
  Notation pmatch_join := (pmatch_join mreg mproc).
  Notation mval := (mval mreg mproc).
  Notation mvals := (mvals mreg mproc).
  Notation mevents_kids := (mevents_kids mreg mproc).

  Lemma pmatch_node r ks log :
    pmatch (PNode r ks) log =
    let '(log1, res) := match ks with PCons k PNil => pmatch k log | _ => pmatch_join ks log end in
    mcall mreg mproc r res log1.
  Proof. reflexivity. Qed.

  Lemma pmatch_join_cons k ks log :
    pmatch_join (PCons k ks) log =
    let '(log1, a) := pmatch k log in let '(log2, b) := pmatch_join ks log1 in (log2, a ++ b).
  Proof. reflexivity. Qed.

  Lemma mcall_spec r s log :
    mcall mreg mproc r s log = (log ++ (if mreg r then [(r, s)] else []), mapp mreg mproc r s).
  Proof. unfold mcall, mapp. destruct (mreg r); [reflexivity | rewrite app_nil_r; reflexivity]. Qed.

  Lemma pmatch_spec_all :
    (forall t log, pmatch t log = (log ++ Proc.mevents mreg mproc t, mval t)) /\
    (forall ks log, pmatch_join ks log = (log ++ mevents_kids ks, mvals ks)).
  Proof.
    apply ptree_mutind.
    - intros r s log. cbn [Proc.pmatch Proc.mevents Proc.mval]. apply mcall_spec.
    - intros r ks IH log. rewrite pmatch_node.
      assert (E : match ks with PCons k PNil => pmatch k log | _ => pmatch_join ks log end
                  = (log ++ mevents_kids ks, mvals ks)).
      { destruct ks as [|k [|k2 ks2]]; try apply IH.
        (* single child: the join of one result is the result *)
        specialize (IH log). rewrite pmatch_join_cons in IH.
        destruct (pmatch k log) as [l1 a].
        change (pmatch_join PNil l1) with (l1, @nil N) in IH. cbv iota beta in IH.
        rewrite app_nil_r in IH. exact IH. }
      rewrite E. rewrite mcall_spec. cbn [Proc.mevents Proc.mval]. rewrite app_assoc. reflexivity.
    - intros log. cbn. rewrite app_nil_r. reflexivity.
    - intros k IHk ks IHks log. rewrite pmatch_join_cons, IHk, IHks.
      cbn [Proc.mevents_kids Proc.mvals]. rewrite app_assoc. reflexivity.
  Qed.

  Lemma pmatch_spec t log : pmatch t log = (log ++ Proc.mevents mreg mproc t, mval t).
  Proof. apply pmatch_spec_all. Qed.

  Lemma mevents_kids_cons k ks :
    mevents_kids (PCons k ks) = Proc.mevents mreg mproc k ++ mevents_kids ks.
  Proof. reflexivity. Qed.
End MatchProofs.
