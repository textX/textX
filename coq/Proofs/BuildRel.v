(* One lifting theorem for Model/Build.v's pnode.  Two worlds (grammar table, text, group oracle; the same
   metamodel table and options), a map f on parse trees, a relation RV on values and a relation RC on the
   objects under construction.  If the relations are respected by what pnode does with values and objects
   (reading and setting an attribute, extending a list, the truthiness test, the checks at the end of an
   object) and the terminals, match rules and texts of the trees at hand are related, then pnode on t and on
   f t, from related stack tops, give related results: the same error, or related values and stack tops.
   Position shifts (Proofs/BuildShift.v) and the case-folding relation (Proofs/KwBuild.v) are instances. *)
From TxV Require Import Core.Base Model.PegSyntax Model.Peg Model.Build Proofs.BuildProofs Proofs.BuildObjProofs.

(* relations lifted to the builder's results and to options; each comes with a case lemma, so that a
   proof never has to take the two sides apart separately *)
Definition brel {A B} (R : A -> B -> Prop) (x : bres A) (x' : bres B) : Prop :=
  match x, x' with
  | BOk a, BOk a' => R a a'
  | BErr e, BErr e' => e' = e
  | _, _ => False
  end.
Inductive brel_view {A B} (R : A -> B -> Prop) : bres A -> bres B -> Prop :=
| BV_ok a a' : R a a' -> brel_view R (BOk a) (BOk a')
| BV_err e : brel_view R (BErr e) (BErr e).
Lemma brel_case {A B} {R : A -> B -> Prop} {x x'} : brel R x x' -> brel_view R x x'.
Proof. destruct x, x'; cbn; intro H; try contradiction; [|subst]; constructor; assumption. Qed.

Definition opt_rel {A B} (R : A -> B -> Prop) (o : option A) (o' : option B) : Prop :=
  match o, o' with
  | Some a, Some a' => R a a'
  | None, None => True
  | _, _ => False
  end.
Inductive opt_view {A B} (R : A -> B -> Prop) : option A -> option B -> Prop :=
| OV_some a a' : R a a' -> opt_view R (Some a) (Some a')
| OV_none : opt_view R None None.
Lemma opt_case {A B} {R : A -> B -> Prop} {o o'} : opt_rel R o o' -> opt_view R o o'.
Proof. destruct o, o'; cbn; intro H; try contradiction; constructor; assumption. Qed.
Lemma opt_rel_diag {A} (R : A -> A -> Prop) o : (forall a, o = Some a -> R a a) -> opt_rel R o o.
Proof. destruct o as [a|]; [intro H; exact (H a eq_refl) | exact (fun _ => I)]. Qed.

(* the two ways a value enters an attribute: `=` appends to a list and overwrites anything else; `+=` appends to
   a list, starts one on None, and crashes on anything else *)
Definition snoc_or (av w : value) : value := match av with VList l => VList (l ++ [w]) | _ => w end.
Definition lst_put (w : option value) (v : value) : option value :=
  match w with
  | Some (VList vs) => Some (VList (vs ++ [v]))
  | Some VNone => Some (VList [v])
  | _ => None
  end.

Lemma lst_loop_cons rec is_sep a refcls k l top :
  lst_loop rec is_sep a refcls (k :: l) top =
  if is_sep k then lst_loop rec is_sep a refcls l top else
  match rec k top with
  | BOk (v0, Some c1) =>
    match lst_put (get_val a (c_vals c1)) (match refcls with Some cl => VRef v0 (tpos k) cl | None => v0 end) with
    | Some w => lst_loop rec is_sep a refcls l (Some (cur_set a w c1))
    | None => BErr ECrash
    end
  | BOk (_, None) => BErr ECrash
  | BErr e => BErr e
  end.
Proof.
  cbn [lst_loop]. destruct (is_sep k); [reflexivity|]. destruct (rec k top) as [[v0 [c1|]]|e]; try reflexivity.
  cbv zeta. destruct (get_val a (c_vals c1)) as [[]|]; reflexivity.
Qed.

Lemma plain_put a av w (c1 : cur) :
  match av with
  | VList l => @BOk (value * option cur) (VNone, Some (cur_set a (VList (l ++ [w])) c1))
  | _ => BOk (VNone, Some (cur_set a w c1))
  end = BOk (VNone, Some (cur_set a (snoc_or av w) c1)).
Proof. destruct av; reflexivity. Qed.

(* the inner loop of [pmatch] over the parts of a join *)
Definition pmatch_parts (g : grammar) (input : list N) : list tree -> bres (list value) :=
  fix go l :=
    match l with
    | [] => BOk []
    | x :: l' => match pmatch g input x with
                 | BOk v => match go l' with BOk vs => BOk (v :: vs) | BErr e => BErr e end
                 | BErr e => BErr e
                 end
    end.

Lemma pmatch_NT (h : grammar) inp nid kids :
  pmatch h inp (NT nid kids) =
  if is_base5 (rule_of h nid) then BErr EUnsup else
  match kids with
  | [] => BErr ECrash
  | [k] => match pmatch h inp k with BOk v => BOk (VConv (rule_of h nid) v) | BErr e => BErr e end
  | _ => match pmatch_parts h inp kids with BOk vs => BOk (VJoin (rule_of h nid) vs) | BErr e => BErr e end
  end.
Proof. destruct kids as [|k [|k2 rest]]; reflexivity. Qed.

Section Lift.
Variables g g' : grammar.
Variable mm : list ninfo.
Variables input input' : list N.
Variables grp grp' : nat -> nat -> option (nat * nat).
Variables auto ug : bool.
Variable f : tree -> tree.
Variable good : tree -> Prop.
Variable RV : value -> value -> Prop.
Variable RC : cur -> cur -> Prop.
Notation RT := (opt_rel RC).
Notation pn := (pnode g mm input grp auto ug).
Notation pn' := (pnode g' mm input' grp' auto ug).

Definition rrel : bres (value * option cur) -> bres (value * option cur) -> Prop :=
  brel (fun x x' => RV (fst x) (fst x') /\ RT (snd x) (snd x')).

(* the map keeps the shape of the tree and the node ids *)
Hypothesis f_T : forall n p l s, exists p' s', f (T n p l s) = T n p' l s'.
Hypothesis f_NT : forall n kids, f (NT n kids) = NT n (map f kids).
Hypothesis f_sep : forall asg t, is_sep_of g' asg (f t) = is_sep_of g asg t.
Hypothesis good_kid : forall n kids k, good (NT n kids) -> In k kids -> good k.
(* values *)
Hypothesis RV_none : RV VNone VNone.
Hypothesis RV_true : RV (VBool true) (VBool true).
Hypothesis RV_ref : forall k v v' cl, good k -> RV v v' -> RV (VRef v (tpos k) cl) (VRef v' (tpos (f k)) cl).
Hypothesis RV_test : forall v v', RV v v' -> val_truthy v' = val_truthy v /\ is_vlist v' = is_vlist v.
Hypothesis RV_snoc : forall av av' w w', RV av av' -> RV w w' -> RV (snoc_or av w) (snoc_or av' w').
Hypothesis RV_put : forall o o' v v', opt_rel RV o o' -> RV v v' -> opt_rel RV (lst_put o v) (lst_put o' v').
(* objects under construction *)
Hypothesis RC_meta : forall c c', RC c c' -> c_meta c' = c_meta c.
Hypothesis RC_get : forall a c c', RC c c' -> opt_rel RV (get_val a (c_vals c)) (get_val a (c_vals c')).
Hypothesis RC_set : forall a v v' c c', RC c c' -> RV v v' -> RC (cur_set a v c) (cur_set a v' c').
Hypothesis RC_done : forall c c', RC c c' ->
  name_ok (c_vals c') = name_ok (c_vals c) /\ many_ok (c_meta c') (c_vals c') = many_ok (c_meta c) (c_vals c) /\
  RV (VObj (c_cls c) (c_pos c) (c_end c) (c_vals c)) (VObj (c_cls c') (c_pos c') (c_end c') (c_vals c')).
Hypothesis RC_new : forall t cls attrs, good t ->
  RC (mkCur cls attrs (tpos t) (tend t) (init_attrs auto attrs))
     (mkCur cls attrs (tpos (f t)) (tend (f t)) (init_attrs auto attrs)).
(* what the trees at hand must satisfy: terminals, match rules and the text of an abstract rule are related *)
Hypothesis good_T : forall n p l s, good (T n p l s) -> forall top top', RT top top' ->
  rrel (pn (T n p l s) top) (pn' (f (T n p l s)) top').
Hypothesis good_match : forall t, good t -> brel RV (pmatch g input t) (pmatch g' input' (f t)).
Hypothesis good_text : forall n kids, good (NT n kids) ->
  RV (VStr (List.concat (map (tree_text g input) kids))) (VStr (List.concat (map (tree_text g' input') (map f kids)))).

Section Loops.
Variables rec rec' : tree -> option cur -> bres (value * option cur).
Definition kid_ok (k : tree) : Prop :=
  good k /\ forall top top', RT top top' -> rrel (rec k top) (rec' (f k) top').

Lemma each_rel l : Forall kid_ok l -> forall top top', RT top top' ->
  brel RT (each_loop rec l top) (each_loop rec' (map f l) top').
Proof.
  induction 1 as [|k l [_ Hk] _ IH]; intros top top' Ho; cbn [map each_loop]; [exact Ho|].
  destruct (brel_case (Hk top top' Ho)) as [[v o] [v' o'] [_ Ho1]|e]; [exact (IH _ _ Ho1) | reflexivity].
Qed.

Lemma lst_rel asg a refcls l : Forall kid_ok l -> forall top top', RT top top' ->
  brel RT (lst_loop rec (is_sep_of g asg) a refcls l top) (lst_loop rec' (is_sep_of g' asg) a refcls (map f l) top').
Proof.
  induction 1 as [|k l [Gk Hk] _ IH]; intros top top' Ho; [exact Ho|].
  cbn [map]. rewrite !lst_loop_cons, f_sep. destruct (is_sep_of g asg k); [exact (IH _ _ Ho)|].
  destruct (brel_case (Hk top top' Ho)) as [[v0 o] [v0' o'] [Hv0 Ho1]|e]; [|reflexivity].
  cbn [fst snd] in Hv0, Ho1. destruct (opt_case Ho1) as [c1 c1' Hc1|]; [|reflexivity].
  assert (Hv : RV (match refcls with Some cl => VRef v0 (tpos k) cl | None => v0 end)
                  (match refcls with Some cl => VRef v0' (tpos (f k)) cl | None => v0' end))
    by (destruct refcls; [apply RV_ref; assumption | exact Hv0]).
  destruct (opt_case (RV_put _ _ _ _ (RC_get a _ _ Hc1) Hv)) as [w w' Hw|]; [|reflexivity].
  apply IH. exact (RC_set a _ _ _ _ Hc1 Hw).
Qed.

Lemma first_nonmatch_rel kind_of l : Forall kid_ok l -> forall top top', RT top top' ->
  opt_rel rrel (first_nonmatch rec kind_of l top) (first_nonmatch rec' kind_of (map f l) top').
Proof.
  induction 1 as [|x l [_ Hx] _ IH]; intros top top' Ho; [exact I|]. cbn [map].
  destruct x as [n p len s|xn kids].
  - destruct (f_T n p len s) as (p' & s' & ->). exact (IH _ _ Ho).
  - rewrite f_NT in *. cbn [first_nonmatch]. destruct (kind_of xn) as [[|]|]; [exact (Hx _ _ Ho) | exact (IH _ _ Ho) | reflexivity].
Qed.

Lemma first_nt_rel has_cls l : Forall kid_ok l -> forall top top', RT top top' ->
  opt_rel rrel (first_nt rec has_cls l top) (first_nt rec' has_cls (map f l) top').
Proof.
  induction 1 as [|x l [_ Hx] _ IH]; intros top top' Ho; [exact I|]. cbn [map].
  destruct x as [n p len s|xn kids].
  - destruct (f_T n p len s) as (p' & s' & ->). exact (IH _ _ Ho).
  - rewrite f_NT in *. cbn [first_nt opt_rel]. destruct (has_cls xn); [exact (Hx _ _ Ho) | reflexivity].
Qed.

(* the three kinds of NonTerminal *)
Lemma plain_step_rel a ma kids c c' : Forall kid_ok kids -> RC c c' ->
  rrel (plain_step rec a ma kids (Some c) c) (plain_step rec' a ma (map f kids) (Some c') c').
Proof.
  intros HF Hc. unfold plain_step.
  destruct (opt_case (RC_get a _ _ Hc)) as [av av' Hav|]; [|reflexivity].
  destruct (RV_test _ _ Hav) as [-> ->].
  destruct (val_truthy av && negb (is_vlist av))%bool; [reflexivity|].
  destruct HF as [|k kids [Gk Hk] _]; [reflexivity|]. cbn [map].
  destruct (brel_case (Hk (Some c) (Some c') Hc)) as [[v o] [v' o'] [Hv0 Ho1]|e]; [|reflexivity].
  cbv zeta. cbn [fst snd] in Hv0, Ho1. destruct (opt_case Ho1) as [c1 c1' Hc1|]; [|reflexivity].
  assert (Hw : RV (if (a_ref ma && negb (a_cont ma))%bool then VRef v (tpos k) (a_cls ma) else v)
                  (if (a_ref ma && negb (a_cont ma))%bool then VRef v' (tpos (f k)) (a_cls ma) else v'))
    by (destruct (a_ref ma && negb (a_cont ma))%bool; [apply RV_ref; assumption | exact Hv0]).
  (* a list is extended, anything else overwritten *)
  rewrite !plain_put. split; [exact RV_none | exact (RC_set a _ _ _ _ Hc1 (RV_snoc _ _ _ _ Hav Hw))].
Qed.

Lemma asgn_step_rel n a op kids : Forall kid_ok kids -> forall top top', RT top top' ->
  rrel (asgn_step g rec n a op kids top) (asgn_step g' rec' n a op (map f kids) top').
Proof.
  intros HF top top' Ho. unfold asgn_step.
  destruct (opt_case Ho) as [c c' Hc|]; [|reflexivity].
  rewrite (RC_meta _ _ Hc). destruct (find_attr a (c_meta c)) as [ma|]; [|reflexivity].
  destruct op; [| | | reflexivity].
  - exact (plain_step_rel a ma kids c c' HF Hc).
  - split; [exact RV_none | exact (RC_set a _ _ _ _ Hc RV_true)].
  - destruct (brel_case (lst_rel n a (if (a_ref ma && negb (a_cont ma))%bool then Some (a_cls ma) else None) kids HF _ _ Ho))
      as [o o' Ho1|e]; [split; [exact RV_none | exact Ho1] | reflexivity].
Qed.

Lemma abstract_step_rel n kids : good (NT n kids) -> Forall kid_ok kids -> forall top top', RT top top' ->
  rrel (abstract_step g mm input rec kids top) (abstract_step g' mm input' rec' (map f kids) top').
Proof.
  intros Gt HF top top' Ho. unfold abstract_step.
  pose proof (first_nonmatch_rel (nonmatch_class mm) kids HF top top' Ho) as H1.
  pose proof (first_nt_rel (has_class mm) kids HF top top' Ho) as H2.
  destruct HF as [|k kids [_ Hk] [|k2 rest _ _]]; cbn [map] in *; [reflexivity | exact (Hk _ _ Ho) |].
  destruct (opt_case H1) as [r r' Hr|]; [exact Hr|].
  destruct (opt_case H2) as [r r' Hr|]; [exact Hr|].
  split; [exact (good_text n _ Gt) | exact Ho].
Qed.

Lemma common_step_rel t cls attrs kids : good t -> Forall kid_ok kids -> forall top top', RT top top' ->
  rrel (common_step auto rec t cls attrs kids top) (common_step auto rec' (f t) cls attrs (map f kids) top').
Proof.
  intros Gt HF top top' Ho. unfold common_step.
  destruct (brel_case (each_rel kids HF _ _ (RC_new t cls attrs Gt : RT (Some _) (Some _)))) as [o o' Ho1|e]; [|reflexivity].
  destruct (opt_case Ho1) as [c1 c1' Hc1|]; [|reflexivity].
  destruct (RC_done _ _ Hc1) as (-> & -> & Hv).
  destruct (name_ok (c_vals c1)); [|reflexivity]. destruct (many_ok (c_meta c1) (c_vals c1)); [|reflexivity].
  split; [exact Hv | exact Ho].
Qed.
End Loops.

Theorem pnode_lift : forall t, good t -> forall top top', RT top top' -> rrel (pn t top) (pn' (f t) top').
Proof.
  induction t as [n p l s | n kids IH] using PegProofs.tree_ind2; intros Gt top top' Ho; [exact (good_T _ _ _ _ Gt _ _ Ho)|].
  assert (HF : Forall (kid_ok pn pn') kids).
  { rewrite Forall_forall in *. intros k Hk. split; [exact (good_kid _ _ _ Gt Hk) | exact (IH k Hk (good_kid _ _ _ Gt Hk))]. }
  pose proof (good_match _ Gt) as Hm. rewrite f_NT in Hm |- *. rewrite !pnode_NT.
  destruct (info mm n) as [a op|[] cls attrs|r gr|]; try reflexivity.
  - exact (asgn_step_rel _ _ n a op kids HF _ _ Ho).
  - rewrite <- f_NT. exact (common_step_rel _ _ _ cls attrs kids Gt HF _ _ Ho).
  - exact (abstract_step_rel _ _ n kids Gt HF _ _ Ho).
  - destruct (brel_case Hm) as [v v' Hv|e]; [split; assumption | reflexivity].
Qed.
End Lift.
