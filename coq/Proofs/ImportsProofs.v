(* Proofs about Model/Imports.v.  Facts that no step of a load can break come from one induction over
   its steps ([load_rel]: [grow], [CF]); what depends on the order of events (resolution, single
   reads, termination, class count) from inductions on the fuel, which share the lemmas on sticky
   errors.  All of it is about the documented load [load_doc]; [load_src_doc] ties the load driven
   by the facts of the source to it. *)
From TxV Require Import Core.Base Gen.SrcImports Model.Imports.

Lemma rsplit1_nodot n : has_dot n = false -> rsplit1 n = None.
Proof.
  induction n as [|c n IH]; cbn [has_dot existsb rsplit1]; [reflexivity|].
  intro H. apply orb_false_iff in H as [Hc Hn]. fold (has_dot n) in Hn. rewrite (IH Hn).
  rewrite N.eqb_sym in Hc. rewrite Hc. reflexivity.
Qed.

Lemma rsplit1_some_dot s p l : rsplit1 s = Some (p, l) -> has_dot s = true.
Proof. intro H. destruct (has_dot s) eqn:E; [reflexivity|]. rewrite (rsplit1_nodot s E) in H. discriminate. Qed.

Lemma rsplit1_none_nodot n : rsplit1 n = None -> has_dot n = false.
Proof.
  induction n as [|c n IH]; cbn [has_dot existsb rsplit1]; [reflexivity|].
  destruct (rsplit1 n) as [[p l]|]; [discriminate|].
  destruct (N.eqb c DOT) eqn:E; [discriminate|]. intros _.
  rewrite N.eqb_sym, E. cbn [orb]. apply IH. reflexivity.
Qed.

Lemma rsplit1_qualified q n : has_dot n = false -> rsplit1 (q ++ DOT :: n) = Some (q, n).
Proof.
  intro Hn. induction q as [|c q IH]; cbn [app rsplit1].
  - rewrite (rsplit1_nodot _ Hn). rewrite N.eqb_refl. reflexivity.
  - rewrite IH. reflexivity.
Qed.

Section AssocLemmas.
  Context {A : Type}.
  Implicit Types l : list (list N * A).

  Lemma aget_aset_same k v l : aget k (aset k v l) = Some v.
  Proof.
    induction l as [|[k' v'] l IH]; cbn [aset aget].
    - rewrite str_eqb_refl. reflexivity.
    - destruct (str_eqb k k') eqn:E; cbn [aget]; [rewrite str_eqb_refl; reflexivity|].
      rewrite E. exact IH.
  Qed.

  Lemma aget_aset_other k k' v l : k' <> k -> aget k' (aset k v l) = aget k' l.
  Proof.
    intro Hne. induction l as [|[k2 v2] l IH]; cbn [aset aget].
    - apply str_eqb_neq in Hne. rewrite Hne. reflexivity.
    - destruct (str_eqb k k2) eqn:E; cbn [aget].
      + apply str_eqb_eq in E. subst k2. apply str_eqb_neq in Hne. rewrite Hne. reflexivity.
      + rewrite IH. reflexivity.
  Qed.

  Lemma aget_aset_some k k' v l : aget k' l <> None -> aget k' (aset k v l) <> None.
  Proof.
    intro H. destruct (str_eqb k' k) eqn:E.
    - apply str_eqb_eq in E. subst. rewrite aget_aset_same. discriminate.
    - apply str_eqb_neq in E. rewrite aget_aset_other by exact E. exact H.
  Qed.

  Lemma aget_aupd_same k f l : aget k (aupd k f l) = option_map f (aget k l).
  Proof.
    induction l as [|[k' v'] l IH]; cbn [aupd aget]; [reflexivity|].
    destruct (str_eqb k k') eqn:E; cbn [aget]; rewrite E; [reflexivity | exact IH].
  Qed.

  Lemma aget_aupd_other k k' f l : k' <> k -> aget k' (aupd k f l) = aget k' l.
  Proof.
    intro Hne. induction l as [|[k2 v2] l IH]; cbn [aupd aget]; [reflexivity|].
    destruct (str_eqb k k2) eqn:E; cbn [aget]; [| rewrite IH; reflexivity].
    apply str_eqb_eq in E. subst k2. apply str_eqb_neq in Hne. rewrite Hne. reflexivity.
  Qed.

  Lemma akeys_aupd k f l : akeys (aupd k f l) = akeys l.
  Proof.
    induction l as [|[k' v'] l IH]; cbn [aupd akeys map]; [reflexivity|].
    destruct (str_eqb k k'); cbn [map fst]; [reflexivity|]. f_equal. exact IH.
  Qed.

  Lemma aget_app k l l' : aget k (l ++ l') = match aget k l with Some v => Some v | None => aget k l' end.
  Proof.
    induction l as [|[k' v'] l IH]; cbn [app aget]; [reflexivity|].
    destruct (str_eqb k k'); [reflexivity | exact IH].
  Qed.

  Lemma aget_none_keys k l : aget k l = None <-> ~ In k (akeys l).
  Proof.
    induction l as [|[k' v'] l IH]; cbn [aget akeys map In fst].
    - split; [intros _ H; exact H | reflexivity].
    - destruct (str_eqb k k') eqn:E.
      + apply str_eqb_eq in E. subst. split; [discriminate | intro H; exfalso; apply H; left; reflexivity].
      + apply str_eqb_neq in E. destruct IH as [IH1 IH2]. split.
        * intros H [H1|H1]; [apply E; symmetry; exact H1 | exact (IH1 H H1)].
        * intros H. apply IH2. intro H1. apply H. right. exact H1.
  Qed.
End AssocLemmas.

(* Obligations re-proved on every run against Gen/SrcImports.v (translated from the current
   textx/metamodel.py): the functions driven by the generated facts ARE the documented ones.
   Each proof computes with the generated definitions, so it fails when the source searches in
   another order, splits qualified names elsewhere, stops normalising import names, registers
   imports only on first load, or builds _tx_fqn differently. *)
Lemma lookup_src_doc s cur name : lookup s cur name = lookup_doc s cur name.
Proof.
  unfold lookup, lookup_doc, qualified_split_last, lookup_steps.
  destruct (rsplit1 name) as [[q n]|]; [reflexivity|].
  cbn [run_steps skipn]. destruct (lookup_in s cur name); [reflexivity|].
  destruct (first_def s (imports_of s cur) name); reflexivity.
Qed.

Lemma abs_import_src_doc main cur imp : has_dot main = false -> abs_import_src main cur imp = abs_import cur imp.
Proof.
  intro Hm. unfold abs_import_src. destruct (main_in_root && str_eqb cur main) eqn:E; [|reflexivity].
  apply andb_true_iff in E as [_ E]. apply str_eqb_eq in E. subst cur.
  unfold abs_import, rel_import. rewrite (rsplit1_nodot _ Hm). reflexivity.
Qed.

Lemma new_import_src_doc main rec stk cur imp s : has_dot main = false ->
  new_import main rec stk cur imp s = new_import_doc rec stk cur imp s.
Proof.
  intro Hm. unfold new_import, new_import_doc, stack_balanced, nested_ops, register_import_always.
  cbn [nops_eqb nop_eqb andb negb]. rewrite (abs_import_src_doc _ _ _ Hm).
  destruct (has_err s) eqn:E; [reflexivity|]. destruct (has_ns s (abs_import cur imp)); [|reflexivity].
  destruct (mem_str (abs_import cur imp) stk); unfold has_err in *; cbn [serr note_back]; rewrite E; reflexivity.
Qed.

Lemma fqn_src_doc c : fqn c = fqn_doc c.
Proof.
  unfold fqn, fqn_doc, fqn_bare, fqn_ns_whole, fqn_sep, mem_str. cbn [existsb]. rewrite orb_false_r.
  change [95; 95; 98; 97; 115; 101; 95; 95]%N with BASE.
  destruct (str_eqb (c_ns c) BASE); reflexivity.
Qed.

Lemma first_def_some s nss name c :
  first_def s nss name = Some c <->
  exists pre i post, nss = pre ++ i :: post /\ (forall j, In j pre -> lookup_in s j name = None)
                     /\ lookup_in s i name = Some c.
Proof.
  split.
  - induction nss as [|n r IH]; cbn [first_def]; [discriminate|].
    destruct (lookup_in s n name) as [c'|] eqn:E.
    + intros [= ->]. exists [], n, r. split; [reflexivity|]. split; [intros j [] | exact E].
    + intro H. destruct (IH H) as (pre & i & post & -> & Hpre & Hi). exists (n :: pre), i, post.
      split; [reflexivity|]. split; [|exact Hi]. intros j [<-|Hj]; [exact E | apply Hpre; exact Hj].
  - intros (pre & i & post & -> & Hpre & Hi). induction pre as [|p pre IH]; cbn [app first_def].
    + rewrite Hi. reflexivity.
    + rewrite (Hpre p (or_introl eq_refl)). apply IH. intros j Hj. apply Hpre. right. exact Hj.
Qed.

Lemma first_def_none s nss name :
  first_def s nss name = None <-> forall j, In j nss -> lookup_in s j name = None.
Proof.
  induction nss as [|n r IH]; cbn [first_def].
  - split; [intros _ j [] | reflexivity].
  - destruct (lookup_in s n name) eqn:E.
    + split; [discriminate|]. intro H. rewrite (H n (or_introl eq_refl)) in E. discriminate.
    + rewrite IH. split.
      * intros H j [Hj|Hj]; [subst; exact E | apply H; exact Hj].
      * intros H j Hj. apply H. right. exact Hj.
Qed.

Lemma has_err_false s : has_err s = false <-> serr s = None.
Proof. unfold has_err. destruct (serr s); split; intro H; try reflexivity; discriminate. Qed.

(* An exception is a sticky error: every operation of the load leaves a failed state as it is, so a
   load that ends without error met none on the way. *)
Definition sticky (g : st -> st) : Prop := forall s, serr s <> None -> g s = s.

Lemma sticky_ok g s : sticky g -> serr (g s) = None -> serr s = None.
Proof. intros Hg H. destruct (serr s) eqn:E; [|reflexivity]. rewrite Hg in H by (rewrite E; discriminate). congruence. Qed.

Lemma sticky_fold {X} (step : st -> X -> st) l : (forall x, sticky (fun s => step s x)) -> sticky (fold_left step l).
Proof. intros St. induction l as [|x l IH]; intros s H; cbn [fold_left]; [reflexivity|]. rewrite (St x s H). apply IH. exact H. Qed.

Lemma new_class_err ns r : sticky (new_class ns r).
Proof. intros s H. unfold new_class, has_err. destruct (serr s); [reflexivity | contradiction]. Qed.

Lemma second_pass_err ns f : sticky (second_pass ns f).
Proof. intros s H. unfold second_pass, has_err. destruct (serr s); [reflexivity | contradiction]. Qed.

Lemma new_import_err rec stk cur imp : sticky (new_import_doc rec stk cur imp).
Proof. intros s H. unfold new_import_doc, has_err. destruct (serr s); [reflexivity | contradiction]. Qed.

Lemma load_doc_err fuel fs stk ns : sticky (load_doc fuel fs stk ns).
Proof. intros s H. destruct fuel; cbn [load_doc]; unfold has_err; destruct (serr s); try reflexivity; contradiction. Qed.

Lemma fold_left_inv {X} (step : st -> X -> st) (P : st -> Prop) :
  (forall x s, P s -> P (step s x)) -> forall l s, P s -> P (fold_left step l s).
Proof. intros H l. induction l as [|x l IH]; intros s Hs; cbn [fold_left]; [exact Hs|]. apply IH, H, Hs. Qed.

(* induction over a fold of sticky steps that ends without error; [Q] may mention the elements done *)
Lemma fold_ok_ind {X} (step : st -> X -> st) (Q : list X -> st -> Prop) :
  (forall x, sticky (fun s => step s x)) ->
  (forall pre x s, Q pre s -> serr (step s x) = None -> Q (pre ++ [x]) (step s x)) ->
  forall rest pre s, Q pre s -> serr (fold_left step rest s) = None -> Q (pre ++ rest) (fold_left step rest s).
Proof.
  intros St Hstep. induction rest as [|x rest IH]; intros pre s HQ He; cbn [fold_left] in *.
  - rewrite app_nil_r. exact HQ.
  - replace (pre ++ x :: rest) with ((pre ++ [x]) ++ rest) by (rewrite <- app_assoc; reflexivity).
    apply IH; [|exact He]. apply Hstep; [exact HQ|]. exact (sticky_ok _ _ (sticky_fold step rest St) He).
Qed.

Section LoadRel.
  Variable fs : list (list N * gfile).
  Variable R : st -> st -> Prop.
  Hypothesis R_refl : forall s, R s s.
  Hypothesis R_trans : forall a b c, R a b -> R b c -> R a c.
  Hypothesis R_set_err : forall e s, serr s = None -> R s (set_err e s).
  Hypothesis R_enter : forall a s, serr s = None -> has_ns s a = false -> R s (enter a s).
  Hypothesis R_add_imported : forall cur a s, serr s = None -> R s (add_imported cur a s).
  Hypothesis R_note_back : forall cur a s, serr s = None -> R s (note_back cur a s).
  Hypothesis R_log_load : forall ns s, serr s = None -> R s (log_load ns s).
  Hypothesis R_new_class : forall ns f r s, serr s = None -> aget ns fs = Some f -> In r (grules f) ->
                                            R s (new_class ns r s).
  Hypothesis R_second : forall ns f s, serr s = None -> aget ns fs = Some f -> R s (second_pass ns f s).

  Lemma new_import_rel rec stk cur imp s :
    (forall a t, R t (rec a t)) -> R s (new_import_doc rec stk cur imp s).
  Proof.
    intro Hrec. unfold new_import_doc. destruct (has_err s) eqn:He; [apply R_refl|].
    apply has_err_false in He.
    set (a := abs_import cur imp).
    set (s1 := if has_ns s a then if mem_str a stk then note_back cur a s else s else rec a (enter a s)).
    assert (H1 : R s s1).
    { unfold s1. destruct (has_ns s a) eqn:Hn.
      - destruct (mem_str a stk); [apply R_note_back; exact He | apply R_refl].
      - apply (R_trans _ (enter a s)); [apply R_enter; assumption | apply Hrec]. }
    destruct (has_err s1) eqn:He1; [exact H1|].
    apply has_err_false in He1. eapply R_trans; [exact H1 | apply R_add_imported; exact He1].
  Qed.

  Lemma fold_imports_rel rec stk cur imps s :
    (forall a t, R t (rec a t)) ->
    R s (fold_left (fun s imp => new_import_doc rec stk cur imp s) imps s).
  Proof.
    intro Hrec. revert s. induction imps as [|i imps IH]; intro s; cbn [fold_left]; [apply R_refl|].
    apply (R_trans _ (new_import_doc rec stk cur i s)); [apply new_import_rel; exact Hrec | apply IH].
  Qed.

  Lemma fold_classes_rel ns f rs s :
    aget ns fs = Some f -> incl rs (grules f) ->
    R s (fold_left (fun s r => new_class ns r s) rs s).
  Proof.
    intros Hf. revert s. induction rs as [|r rs IH]; intros s Hin; cbn [fold_left]; [apply R_refl|].
    apply (R_trans _ (new_class ns r s)).
    - destruct (serr s) eqn:He.
      + rewrite new_class_err by (rewrite He; discriminate). apply R_refl.
      + apply (R_new_class ns f r s He Hf). apply Hin. left. reflexivity.
    - apply IH. intros x Hx. apply Hin. right. exact Hx.
  Qed.

  Lemma load_rel : forall fuel stk ns s, R s (load_doc fuel fs stk ns s).
  Proof.
    induction fuel as [|fuel IH]; intros stk ns s; cbn [load_doc];
      (destruct (has_err s) eqn:He; [apply R_refl|]); apply has_err_false in He;
      (destruct (aget ns fs) as [f|] eqn:Hf; [|apply R_set_err; exact He]).
    - apply R_set_err; exact He.
    - cbv zeta.
      set (s0 := log_load ns s).
      set (s1 := fold_left _ (gimports f) s0).
      set (s2 := fold_left _ (grules f) s1).
      apply (R_trans _ s0); [apply R_log_load; exact He|].
      apply (R_trans _ s1); [apply fold_imports_rel; intros a t; apply IH|].
      apply (R_trans _ s2); [apply (fold_classes_rel ns f); [exact Hf | apply incl_refl]|].
      destruct (serr s2) eqn:He2.
      + rewrite second_pass_err by (rewrite He2; discriminate). apply R_refl.
      + apply R_second; assumption.
  Qed.
End LoadRel.

Lemma lookup_in_enter a s b n : has_ns s a = false -> lookup_in (enter a s) b n = lookup_in s b n.
Proof.
  unfold has_ns, lookup_in, enter; cbn [spaces]. intro H. rewrite aget_app.
  destruct (aget b (spaces s)) as [d|] eqn:E; [reflexivity|].
  cbn [aget]. destruct (str_eqb b a); reflexivity.
Qed.

Lemma has_ns_enter a s k : has_ns (enter a s) k = has_ns s k || str_eqb k a.
Proof.
  unfold has_ns, enter; cbn [spaces]. rewrite aget_app.
  destruct (aget k (spaces s)); [reflexivity|]. cbn [aget]. destruct (str_eqb k a); reflexivity.
Qed.

Definition mk_cls (s : st) (ns : list N) (r : rule) : cls := {| c_id := created s; c_ns := ns; c_name := rname r |}.

Lemma lookup_in_new_class ns r s a n : serr s = None ->
  lookup_in (new_class ns r s) a n =
  if str_eqb a ns && has_ns s ns && str_eqb n (rname r) then Some (mk_cls s ns r) else lookup_in s a n.
Proof.
  intro He. unfold new_class. apply has_err_false in He. rewrite He.
  unfold lookup_in, has_ns; cbn [spaces]. destruct (str_eqb a ns) eqn:E.
  - apply str_eqb_eq in E; subst a. rewrite aget_aupd_same.
    destruct (aget ns (spaces s)) as [d|]; cbn [option_map andb]; [|reflexivity].
    destruct (str_eqb n (rname r)) eqn:En.
    + apply str_eqb_eq in En; subst n. rewrite aget_aset_same. reflexivity.
    + apply str_eqb_neq in En. rewrite aget_aset_other by exact En. reflexivity.
  - apply str_eqb_neq in E. rewrite aget_aupd_other by exact E. reflexivity.
Qed.

Lemma has_ns_new_class ns r s k : has_ns (new_class ns r s) k = has_ns s k.
Proof.
  unfold new_class. destruct (has_err s); [reflexivity|]. unfold has_ns; cbn [spaces].
  destruct (str_eqb k ns) eqn:E.
  - apply str_eqb_eq in E; subst. rewrite aget_aupd_same. destruct (aget ns (spaces s)); reflexivity.
  - apply str_eqb_neq in E. rewrite aget_aupd_other by exact E. reflexivity.
Qed.

Lemma second_pass_cases ns f s : serr s = None ->
  (exists e, second_pass ns f s = set_err e s) \/
  (second_pass ns f s = log_done ns (add_links (flat_map (links_of_rule s ns) (grules f)) s)
   /\ unresolved false (flat_map (links_of_rule s ns) (grules f)) = []
   /\ unresolved true (flat_map (links_of_rule s ns) (grules f)) = []).
Proof.
  intro He. unfold second_pass. apply has_err_false in He. rewrite He.
  destruct (unresolved false _) eqn:E1; [|left; eexists; reflexivity].
  destruct (unresolved true _) eqn:E2; [|left; eexists; reflexivity].
  right. repeat split; reflexivity.
Qed.

Lemma load_doc_S fs fuel stk ns s f : serr s = None -> aget ns fs = Some f ->
  load_doc (S fuel) fs stk ns s =
  second_pass ns f
    (fold_left (fun s r => new_class ns r s) (grules f)
       (fold_left (fun s imp => new_import_doc (load_doc fuel fs (ns :: stk)) (ns :: stk) ns imp s)
                  (gimports f) (log_load ns s))).
Proof. intros He Hf. cbn [load_doc]. rewrite (proj2 (has_err_false s) He), Hf. reflexivity. Qed.

(* a load that ends without error had fuel, found its file, and ran every stage without error *)
Lemma load_doc_ok fs fuel stk ns s : serr (load_doc fuel fs stk ns s) = None ->
  serr s = None /\ exists fuel' f, fuel = S fuel' /\ aget ns fs = Some f /\
    let s1 := fold_left (fun s imp => new_import_doc (load_doc fuel' fs (ns :: stk)) (ns :: stk) ns imp s)
                        (gimports f) (log_load ns s) in
    let s2 := fold_left (fun s r => new_class ns r s) (grules f) s1 in
    let ls := flat_map (links_of_rule s2 ns) (grules f) in
    serr s1 = None /\ serr s2 = None /\ unresolved false ls = [] /\ unresolved true ls = [] /\
    load_doc fuel fs stk ns s = log_done ns (add_links ls s2).
Proof.
  intro H. pose proof (sticky_ok _ _ (load_doc_err fuel fs stk ns) H) as He. split; [exact He|].
  assert (Hf : exists fuel' f, fuel = S fuel' /\ aget ns fs = Some f).
  { destruct fuel as [|fuel]; cbn [load_doc] in H; rewrite (proj2 (has_err_false s) He) in H;
      (destruct (aget ns fs) as [f|]; [|discriminate H]); [discriminate H|].
    exists fuel, f. split; reflexivity. }
  destruct Hf as (fuel' & f & -> & Hf). exists fuel', f. split; [reflexivity|]. split; [exact Hf|].
  rewrite (load_doc_S _ _ _ _ _ _ He Hf) in H |- *. cbv zeta.
  set (s2 := fold_left _ (grules f) _) in H |- *.
  pose proof (sticky_ok _ _ (second_pass_err ns f) H) as He2.
  pose proof (sticky_ok _ _ (sticky_fold _ _ (new_class_err ns)) He2) as He1.
  destruct (second_pass_cases ns f s2 He2) as [[e Hsp]|(Hsp & U1 & U2)]; [rewrite Hsp in H; discriminate H|].
  repeat split; assumption.
Qed.

Record grow (s s' : st) : Prop := {
  g_ns : forall k, has_ns s k = true -> has_ns s' k = true;
  g_done : incl (done s) (done s');
  g_backs_incl : incl (backs s) (backs s') }.

Lemma grow_refl s : grow s s.
Proof. constructor; auto using incl_refl. Qed.

Lemma grow_trans a b c : grow a b -> grow b c -> grow a c.
Proof. intros [A1 A2 A3] [B1 B2 B3]. constructor; eauto using incl_tran. Qed.

Lemma grow_same s s' : spaces s' = spaces s -> done s' = done s -> backs s' = backs s -> grow s s'.
Proof.
  intros H1 H2 H3. constructor; [unfold has_ns; rewrite H1; auto | rewrite H2; apply incl_refl | rewrite H3; apply incl_refl].
Qed.

Lemma grow_enter a s : grow s (enter a s).
Proof.
  constructor; cbn [done backs enter]; auto using incl_refl.
  intros k Hk. rewrite has_ns_enter, Hk. reflexivity.
Qed.

Lemma grow_note_back cur a s : grow s (note_back cur a s).
Proof. constructor; cbn [done backs note_back]; auto using incl_refl. apply incl_appl, incl_refl. Qed.

Lemma grow_import rec stk cur imp s : (forall a t, grow t (rec a t)) -> grow s (new_import_doc rec stk cur imp s).
Proof.
  apply (new_import_rel grow grow_refl grow_trans).
  - intros a t _ _. apply grow_enter.
  - intros c a t _. apply grow_same; reflexivity.
  - intros c a t _. apply grow_note_back.
Qed.

Lemma grow_load fs fuel stk ns s : grow s (load_doc fuel fs stk ns s).
Proof.
  apply load_rel.
  - apply grow_refl.
  - apply grow_trans.
  - intros e t He. apply grow_same; reflexivity.
  - intros a t _ _. apply grow_enter.
  - intros cur a t He. apply grow_same; reflexivity.
  - intros cur a t _. apply grow_note_back.
  - intros n t He. apply grow_same; reflexivity.
  - intros n f r t He Hf Hr. constructor.
    + intros k Hk. rewrite has_ns_new_class. exact Hk.
    + unfold new_class. destruct (has_err t); apply incl_refl.
    + unfold new_class. destruct (has_err t); apply incl_refl.
  - intros n f t He Hf. destruct (second_pass_cases n f t He) as [[e ->]|[-> _]]; [apply grow_same; reflexivity|].
    constructor; cbn [done backs log_done add_links]; auto using incl_refl. apply incl_appl, incl_refl.
Qed.

Lemma number_from_In {A} (l : list A) : forall k i x,
  In (i, x) (number_from k l) -> k <= i /\ nth_error l (i - k) = Some x.
Proof.
  induction l as [|a l IH]; intros k i x H; cbn [number_from In] in H; [contradiction|].
  destruct H as [H|H].
  - inversion H; subst. split; [lia|]. replace (i - i) with 0 by lia. reflexivity.
  - apply IH in H as [H1 H2]. split; [lia|]. replace (i - k) with (S (i - S k)) by lia. exact H2.
Qed.

Lemma aget_map_In {A B} (g : A -> list N) (h : A -> B) (l : list A) n v :
  aget n (map (fun p => (g p, h p)) l) = Some v -> exists p, In p l /\ g p = n /\ v = h p.
Proof.
  induction l as [|p l IH]; cbn [map aget]; [discriminate|].
  destruct (str_eqb n (g p)) eqn:E.
  - intro H. inversion H; subst. apply str_eqb_eq in E. exists p. split; [left; reflexivity | split; [symmetry; exact E | reflexivity]].
  - intro H. destruct (IH H) as (q & Hq & Hg & Hv). exists q. split; [right; exact Hq | split; assumption].
Qed.

Lemma base_lookup n c : aget n base_dict = Some c ->
  c_ns c = BASE /\ c_name c = n /\ c_id c < length base_names /\ is_base n = true /\
  nth_error base_names (c_id c) = Some n.
Proof.
  unfold base_dict. intro H. apply aget_map_In in H as ([i x] & Hin & Hg & Hv). cbn [fst snd] in *. subst.
  apply number_from_In in Hin as [_ Hn]. replace (i - 0) with i in Hn by lia. cbn [c_ns c_name c_id].
  repeat split; try reflexivity.
  - apply nth_error_Some. rewrite Hn. discriminate.
  - apply mem_str_In. eapply nth_error_In. exact Hn.
  - exact Hn.
Qed.

Lemma aget_map_mem {A B} (g : A -> list N) (h : A -> B) (l : list A) n :
  mem_str n (map g l) = true -> aget n (map (fun p => (g p, h p)) l) <> None.
Proof.
  unfold mem_str. induction l as [|p l IH]; cbn [map existsb aget]; [discriminate|].
  destruct (str_eqb n (g p)); [discriminate | exact IH].
Qed.

Lemma number_from_snd {A} (l : list A) : forall k, map snd (number_from k l) = l.
Proof. induction l as [|a l IH]; intro k; cbn [number_from map snd]; [reflexivity|]. rewrite IH. reflexivity. Qed.

Lemma base_complete n : is_base n = true -> aget n base_dict <> None.
Proof. unfold is_base. rewrite <- (number_from_snd base_names 0). apply aget_map_mem. Qed.

Section Inv.
  Variable fs : list (list N * gfile).

  Definition cls_inv (s : st) : Prop := forall a n c, lookup_in s a n = Some c ->
    c_ns c = a /\ c_name c = n /\ c_id c < created s /\
    ((a = BASE /\ is_base n = true) \/ defines fs a n = true).
  Definition id_inj (s : st) : Prop := forall a n c a' n' c',
    lookup_in s a n = Some c -> lookup_in s a' n' = Some c' -> c_id c = c_id c' -> a = a' /\ n = n'.
  Definition sync (s : st) : Prop := akeys (spaces s) = akeys (imported s).
  Definition CF (s : st) : Prop := sync s /\ cls_inv s /\ id_inj s /\ reflangs s = [].

  Lemma CF_same s s' : spaces s' = spaces s -> akeys (imported s') = akeys (imported s) -> created s' = created s ->
    reflangs s' = reflangs s -> CF s -> CF s'.
  Proof.
    intros Hs Hi Hc Hr (A & B & C & D). unfold CF, sync, cls_inv, id_inj, lookup_in in *. rewrite Hs, Hi, Hc, Hr.
    split; [|split; [|split]]; assumption.
  Qed.

  Lemma CF_init : CF init.
  Proof.
    assert (L : forall a n c, lookup_in init a n = Some c -> a = BASE /\ aget n base_dict = Some c).
    { intros a n c. unfold lookup_in, init, init_with; cbn [spaces aget]. destruct (str_eqb a BASE) eqn:E; [|discriminate].
      apply str_eqb_eq in E. intro H. split; assumption. }
    split; [reflexivity|]. split; [|split; [|reflexivity]].
    - intros a n c H. apply L in H as [-> H]. apply base_lookup in H as (H1 & H2 & H3 & H4 & _).
      repeat split; try assumption. left. split; [reflexivity | assumption].
    - intros a n c a' n' c' H H' Hid. apply L in H as [-> H]. apply L in H' as [-> H'].
      apply base_lookup in H as (_ & _ & _ & _ & H). apply base_lookup in H' as (_ & _ & _ & _ & H').
      rewrite Hid in H. rewrite H in H'. inversion H'. split; reflexivity.
  Qed.

  Lemma CF_enter a s : has_ns s a = false -> CF s -> CF (enter a s).
  Proof.
    intros Hn (A & B & C & D). split; [|split; [|split; [|exact D]]].
    - unfold sync, enter, akeys in *; cbn [spaces imported]. rewrite !map_app, A. reflexivity.
    - intros b n c H. rewrite lookup_in_enter in H by exact Hn. apply B in H. exact H.
    - intros b n c b' n' c' H H'. rewrite lookup_in_enter in H, H' by exact Hn. apply C; assumption.
  Qed.

  Lemma defines_rule ns f r : aget ns fs = Some f -> In r (grules f) -> defines fs ns (rname r) = true.
  Proof.
    intros Hf Hr. unfold defines. rewrite Hf. apply mem_str_In. apply in_map. exact Hr.
  Qed.

  Lemma new_class_hit a ns s n r :
    str_eqb a ns && has_ns s ns && str_eqb n (rname r) = true -> a = ns /\ n = rname r.
  Proof.
    intro E. apply andb_true_iff in E as [E E3]. apply andb_true_iff in E as [E1 _].
    apply str_eqb_eq in E1, E3. split; assumption.
  Qed.

  Lemma CF_new_class ns f r s : serr s = None -> aget ns fs = Some f -> In r (grules f) ->
    CF s -> CF (new_class ns r s).
  Proof.
    intros He Hf Hr (A & B & C & D).
    assert (Hcr : created (new_class ns r s) = S (created s)).
    { unfold new_class. apply has_err_false in He. rewrite He. reflexivity. }
    split; [|split; [|split; [|unfold new_class; destruct (has_err s); exact D]]].
    - unfold sync, new_class. destruct (has_err s); [exact A|]. cbn [spaces imported]. rewrite akeys_aupd. exact A.
    - intros a n c H. rewrite lookup_in_new_class in H by exact He. rewrite Hcr.
      destruct (str_eqb a ns && has_ns s ns && str_eqb n (rname r)) eqn:E.
      + apply new_class_hit in E as [-> ->]. injection H as <-. cbn [mk_cls c_ns c_name c_id].
        repeat split; try reflexivity; [lia|]. right. eapply defines_rule; eassumption.
      + apply B in H as (H1 & H2 & H3 & H4). repeat split; try assumption. lia.
    - (* the new class has the next id, every older one a smaller id *)
      intros a n c a' n' c' H H' Hid. rewrite lookup_in_new_class in H, H' by exact He.
      destruct (str_eqb a ns && has_ns s ns && str_eqb n (rname r)) eqn:E;
      destruct (str_eqb a' ns && has_ns s ns && str_eqb n' (rname r)) eqn:E'.
      + apply new_class_hit in E as [-> ->]. apply new_class_hit in E' as [-> ->]. split; reflexivity.
      + injection H as <-. apply B in H' as (_ & _ & H' & _). cbn [mk_cls c_id] in Hid. lia.
      + injection H' as <-. apply B in H as (_ & _ & H & _). cbn [mk_cls c_id] in Hid. lia.
      + eapply C; eassumption.
  Qed.

  Lemma CF_load fuel stk ns s : CF s -> CF (load_doc fuel fs stk ns s).
  Proof.
    apply (load_rel fs (fun s s' => CF s -> CF s')).
    - auto.
    - auto.
    - intros e t _. apply CF_same; reflexivity.
    - intros a t _. apply CF_enter.
    - intros cur a t _. apply CF_same; [reflexivity | cbn [imported add_imported]; apply akeys_aupd | reflexivity | reflexivity].
    - intros cur a t _. apply CF_same; reflexivity.
    - intros n t _. apply CF_same; reflexivity.
    - intros n f r t. apply CF_new_class.
    - intros n f t He _. destruct (second_pass_cases n f t He) as [[e ->]|[-> _]]; apply CF_same; reflexivity.
  Qed.
End Inv.

Lemma BC_init n : is_base n = true -> lookup_in init BASE n <> None.
Proof.
  unfold lookup_in, init, init_with; cbn [spaces aget]. rewrite str_eqb_refl. apply base_complete.
Qed.

Lemma unresolved_nil b ls : unresolved b ls = [] -> forall l, In l ls -> l_cref l = b -> l_target l <> None.
Proof.
  unfold unresolved. intros H l Hl Hb Ht.
  assert (Hin : In l (filter (fun l => Bool.eqb (l_cref l) b && match l_target l with None => true | Some _ => false end) ls)).
  { apply filter_In. split; [exact Hl|]. rewrite Hb, Ht, Bool.eqb_reflx. reflexivity. }
  destruct (filter _ ls); [contradiction | discriminate].
Qed.

Section Resolve.
  Variable fs : list (list N * gfile).
  Hypothesis Hbase : aget BASE fs = None.

  (* The invariants of the main induction.  DI: a grammar whose second pass is over has all its rules;
     OS: every namespace is the built-in one, finished, or on the stack of loads in progress;
     LK: the references recorded so far are the documented ones, as long as every import of a
     grammar in progress was harmless; BC: the built-in classes are there. *)
  Definition DI (s : st) : Prop :=
    forall a, In a (done s) -> forall n, defines fs a n = true -> lookup_in s a n <> None.
  Definition OS (stk : list (list N)) (s : st) : Prop :=
    forall a, has_ns s a = true -> a = BASE \/ In a (done s) \/ In a stk.
  Definition LK (s : st) : Prop := safe fs s = true -> forall l, In l (links s) -> link_ok fs l.
  Definition BC (s : st) : Prop := forall n, is_base n = true -> lookup_in s BASE n <> None.

  Definition Ready (ns : list N) (f : gfile) (s : st) : Prop :=
    aget ns fs = Some f /\
    (forall r, In r (grules f) -> lookup_in s ns (rname r) <> None) /\
    imports_of s ns = BASE :: map (abs_import ns) (gimports f).
  (* every import is complete, or cannot be meant by this name *)
  Definition OkImps (ns : list N) (f : gfile) (s : st) (name : list N) : Prop :=
    forall a, In a (map (abs_import ns) (gimports f)) ->
      In a (done s) \/ a = BASE \/ defines fs ns name = true \/ is_base name = true \/ defines fs a name = false.

  Lemma defines_base n : defines fs BASE n = false.
  Proof. unfold defines. rewrite Hbase. reflexivity. Qed.

  Lemma not_base_lookup s n : cls_inv fs s -> is_base n = false -> lookup_in s BASE n = None.
  Proof.
    intros B Hn. destruct (lookup_in s BASE n) as [c|] eqn:E; [|reflexivity].
    apply B in E as (_ & _ & _ & [[_ H]|H]); [congruence | rewrite defines_base in H; discriminate].
  Qed.

  Lemma first_def_spec s imps name : cls_inv fs s -> DI s -> is_base name = false ->
    (forall a, In a imps -> In a (done s) \/ a = BASE \/ defines fs a name = false) ->
    option_map cls_key (first_def s imps name) = option_map (fun i => (i, name)) (first_defining fs imps name).
  Proof.
    intros B D Hn. induction imps as [|a imps IH]; intro Himps; cbn [first_def first_defining]; [reflexivity|].
    assert (IH' := IH (fun x Hx => Himps x (or_intror Hx))). clear IH.
    destruct (Himps a (or_introl eq_refl)) as [Hd|[->|Hnd]].
    - destruct (defines fs a name) eqn:Df.
      + destruct (lookup_in s a name) as [c|] eqn:E; [|exfalso; exact (D a Hd name Df E)].
        apply B in E as (H1 & H2 & _). unfold cls_key. cbn [option_map]. rewrite H1, H2. reflexivity.
      + destruct (lookup_in s a name) as [c|] eqn:E; [|exact IH'].
        apply B in E as (_ & _ & _ & [[_ H]|H]); congruence.
    - rewrite defines_base, (not_base_lookup s name B Hn). exact IH'.
    - rewrite Hnd. destruct (lookup_in s a name) as [c|] eqn:E; [|exact IH'].
      apply B in E as (_ & _ & _ & [[_ H]|H]); congruence.
  Qed.

  Lemma own_rule_found ns f s name : Ready ns f s -> defines fs ns name = true -> lookup_in s ns name <> None.
  Proof.
    intros (Hf & Hown & _) Df. unfold defines in Df. rewrite Hf in Df. apply mem_str_In in Df.
    apply in_map_iff in Df as (r & <- & Hin). apply Hown. exact Hin.
  Qed.

  (* At second-pass time an unqualified name resolves as documented: the class tables hold exactly
     the rules of the files ([cls_inv], [DI], [BC]), so each step of the look-up (own namespace,
     built-ins, imports in order) answers like the corresponding test of [spec_resolve]. *)
  Lemma ready_unqualified ns f s name : Ready ns f s -> OkImps ns f s name -> cls_inv fs s -> DI s -> BC s ->
    rsplit1 name = None -> option_map cls_key (lookup s ns name) = spec_resolve fs ns name.
  Proof.
    intros HR Hdone B D Hbc Er. pose proof HR as (Hf & _ & Himp).
    assert (Hkey : forall a c, lookup_in s a name = Some c -> cls_key c = (a, name)).
    { intros a c E. apply B in E as (H1 & H2 & _). unfold cls_key. rewrite H1, H2. reflexivity. }
    rewrite lookup_src_doc. unfold lookup_doc, spec_resolve. rewrite Er.
    destruct (defines fs ns name) eqn:Df.
    { pose proof (own_rule_found _ _ _ _ HR Df) as Hl.
      destruct (lookup_in s ns name) as [c|] eqn:E; [|contradiction]. cbn [option_map]. rewrite (Hkey _ _ E). reflexivity. }
    destruct (lookup_in s ns name) as [c|] eqn:E.
    { apply B in E as (_ & _ & _ & [[-> _]|H]); congruence. }
    rewrite Himp. cbn [first_def]. destruct (is_base name) eqn:Ib.
    - destruct (lookup_in s BASE name) as [c|] eqn:E'; [|exfalso; exact (Hbc name Ib E')].
      cbn [option_map]. rewrite (Hkey _ _ E'). reflexivity.
    - rewrite (not_base_lookup s name B Ib), (first_def_spec s _ name B D Ib).
      + unfold abs_imports. rewrite Hf. reflexivity.
      + intros a Ha. destruct (Hdone a Ha) as [X|[X|[X|[X|X]]]]; auto; congruence.
  Qed.

  Lemma ready_lookup ns f s name c : Ready ns f s -> (rsplit1 name = None -> OkImps ns f s name) ->
    reflangs s = [] -> cls_inv fs s -> DI s -> BC s ->
    lookup s ns name = Some c -> Some (cls_key c) = spec_resolve fs ns name.
  Proof.
    intros HR Hdone Hnr B D Hbc H. destruct (rsplit1 name) as [[q n]|] eqn:Er.
    - (* a qualified name selects the named namespace's rule *)
      rewrite lookup_src_doc in H. unfold lookup_doc, lookup_qual in H. rewrite Er, Hnr in H. cbn [aget] in H.
      apply B in H as (H1 & H2 & _ & Hd). unfold spec_resolve, cls_key. rewrite Er, H1, H2.
      destruct (defines fs q n); [reflexivity|]. destruct Hd as [[-> Hb]|Hd]; [|discriminate].
      rewrite Hb, str_eqb_refl. reflexivity.
    - rewrite <- (ready_unqualified ns f s name HR (Hdone eq_refl) B D Hbc Er), H. reflexivity.
  Qed.
End Resolve.

Lemma sync_has_ns s k : sync s -> (has_ns s k = true <-> aget k (imported s) <> None).
Proof.
  unfold sync, has_ns. intro H. split.
  - intros X Y. apply aget_none_keys in Y. rewrite <- H in Y. apply aget_none_keys in Y. rewrite Y in X. discriminate.
  - intro X. destruct (aget k (spaces s)) eqn:E; [reflexivity|]. exfalso. apply X.
    apply aget_none_keys. rewrite <- H. apply aget_none_keys. exact E.
Qed.

Lemma imports_of_enter_old a s k : aget k (imported s) <> None -> imports_of (enter a s) k = imports_of s k.
Proof.
  unfold imports_of, enter; cbn [imported]. intro H. rewrite aget_app.
  destruct (aget k (imported s)); [reflexivity | contradiction].
Qed.

Lemma imports_of_enter_new a s : aget a (imported s) = None -> imports_of (enter a s) a = [BASE].
Proof.
  unfold imports_of, enter; cbn [imported]. intro H. rewrite aget_app, H. cbn [aget]. rewrite str_eqb_refl. reflexivity.
Qed.

Lemma imports_of_add_same cur a s : aget cur (imported s) <> None ->
  imports_of (add_imported cur a s) cur = imports_of s cur ++ [a].
Proof.
  unfold imports_of, add_imported; cbn [imported]. intro H. rewrite aget_aupd_same.
  destruct (aget cur (imported s)); [reflexivity | contradiction].
Qed.

Lemma imports_of_add_other cur a s k : k <> cur -> imports_of (add_imported cur a s) k = imports_of s k.
Proof.
  unfold imports_of, add_imported; cbn [imported]. intro H. rewrite aget_aupd_other by exact H. reflexivity.
Qed.

Lemma has_ns_neq s a k : has_ns s a = false -> has_ns s k = true -> k <> a.
Proof. intros Ha Hk E. subst. congruence. Qed.

(* the rule names of one file: apart from the class tables and the class counter nothing changes *)
Definition same_log (s s' : st) : Prop :=
  imported s' = imported s /\ loads s' = loads s /\ done s' = done s /\ links s' = links s /\
  backs s' = backs s /\ serr s' = serr s /\ forall k, has_ns s' k = has_ns s k.

Lemma classes_same_log ns rs : forall s, same_log s (fold_left (fun s r => new_class ns r s) rs s).
Proof.
  induction rs as [|r rs IH]; intro s; cbn [fold_left]; [repeat split; reflexivity|].
  destruct (IH (new_class ns r s)) as (A1 & A2 & A3 & A4 & A5 & A6 & A7).
  unfold same_log. rewrite A1, A2, A3, A4, A5, A6.
  repeat split; try (unfold new_class; destruct (has_err s); reflexivity).
  intro k. rewrite A7. apply has_ns_new_class.
Qed.

Lemma fold_classes_props ns rs : forall s, serr s = None -> has_ns s ns = true ->
  let s' := fold_left (fun s r => new_class ns r s) rs s in
  (forall a n, lookup_in s a n <> None -> lookup_in s' a n <> None) /\
  (forall r, In r rs -> lookup_in s' ns (rname r) <> None).
Proof.
  induction rs as [|r rs IH]; intros s He Hn; cbn [fold_left]; [split; [auto | intros r []]|].
  assert (He' : serr (new_class ns r s) = None) by (unfold new_class; destruct (has_err s); exact He).
  assert (Hn' : has_ns (new_class ns r s) ns = true) by (rewrite has_ns_new_class; exact Hn).
  destruct (IH _ He' Hn') as (A7 & A8). cbv zeta in *.
  assert (Hstep : forall a n, lookup_in s a n <> None -> lookup_in (new_class ns r s) a n <> None).
  { intros a n H. rewrite lookup_in_new_class by exact He.
    destruct (str_eqb a ns && has_ns s ns && str_eqb n (rname r)); [discriminate | exact H]. }
  split; [intros a n H; apply A7, Hstep, H|].
  intros r' [<-|Hr]; [|apply A8; exact Hr]. apply A7. rewrite lookup_in_new_class by exact He.
  rewrite !str_eqb_refl, Hn. discriminate.
Qed.

Section Load.
  Variable fs : list (list N * gfile).
  Hypothesis Hbase : aget BASE fs = None.

  Definition Good (stk : list (list N)) (s : st) : Prop :=
    serr s = None /\ CF fs s /\ BC s /\ DI fs s /\ LK fs s /\ OS stk s.

  Lemma safe_incl s s' : incl (backs s) (backs s') -> safe fs s' = true -> safe fs s = true.
  Proof.
    unfold safe. intros Hi H. apply forallb_forall. intros x Hx.
    apply (proj1 (forallb_forall _ _) H). apply Hi. exact Hx.
  Qed.

  (* what a harmless import of a grammar in progress says of an unqualified name of the importer *)
  Lemma safe_back_name s ns f a n : safe fs s = true -> In (ns, a) (backs s) -> aget ns fs = Some f ->
    In n (file_names f) -> has_dot n = false ->
    defines fs ns n = true \/ is_base n = true \/ defines fs a n = false.
  Proof.
    intros Hs Hb Hf Hn Hd. pose proof (proj1 (forallb_forall _ _) Hs _ Hb) as H.
    unfold safe_back in H. cbn [fst snd] in H. rewrite Hf in H.
    pose proof (proj1 (forallb_forall _ _) H n Hn) as H'. cbv beta in H'. rewrite Hd in H'. cbn [orb] in H'.
    destruct (defines fs ns n); [left; reflexivity|]. destruct (is_base n); [right; left; reflexivity|].
    right; right. destruct (defines fs a n); [discriminate H' | reflexivity].
  Qed.

  Lemma Good_same stk s s' :
    spaces s' = spaces s -> akeys (imported s') = akeys (imported s) -> created s' = created s ->
    reflangs s' = reflangs s ->
    done s' = done s -> links s' = links s -> serr s' = serr s -> incl (backs s) (backs s') ->
    Good stk s -> Good stk s'.
  Proof.
    intros Hs Hi Hc Hr Hd Hl He Hb (G1 & G2 & G3 & G4 & G5 & G6).
    split; [congruence|]. split; [eapply CF_same; eassumption|].
    unfold BC, DI, LK, OS, lookup_in, has_ns in *. rewrite Hs, Hd, Hl.
    split; [exact G3|]. split; [exact G4|]. split; [|exact G6].
    intros Hb'. apply G5. exact (safe_incl _ _ Hb Hb').
  Qed.

  (* between two import statements of [ns], [pre] being those done: the import list of [ns] is exact,
     each imported namespace exists and is finished, built-in, or logged as still being loaded, and
     the import lists of the namespaces that existed at [s0] are as they were *)
  Definition Mid (stk : list (list N)) (ns : list N) (s0 : st) (pre : list (list N)) (t : st) : Prop :=
    Good (ns :: stk) t /\ has_ns t ns = true /\
    imports_of t ns = BASE :: map (abs_import ns) pre /\
    (forall a, In a (map (abs_import ns) pre) -> In a (done t) \/ a = BASE \/ In (ns, a) (backs t)) /\
    (forall k, has_ns s0 k = true -> k <> ns -> has_ns t k = true /\ imports_of t k = imports_of s0 k) /\
    (forall a, In a (map (abs_import ns) pre) -> has_ns t a = true).

  Definition LoadSpec (fuel : nat) : Prop :=
    forall stk ns s, Good (ns :: stk) s -> has_ns s ns = true -> imports_of s ns = [BASE] ->
      serr (load_doc fuel fs stk ns s) = None ->
      Good stk (load_doc fuel fs stk ns s) /\ In ns (done (load_doc fuel fs stk ns s)) /\
      (forall k, has_ns s k = true -> k <> ns -> imports_of (load_doc fuel fs stk ns s) k = imports_of s k) /\
      (forall f, aget ns fs = Some f ->
         imports_of (load_doc fuel fs stk ns s) ns = BASE :: map (abs_import ns) (gimports f) /\
         forall a, In a (map (abs_import ns) (gimports f)) -> has_ns (load_doc fuel fs stk ns s) a = true).

  Lemma imports_some t ns l : imports_of t ns = BASE :: l -> aget ns (imported t) <> None.
  Proof. unfold imports_of. destruct (aget ns (imported t)); [discriminate | intro H; discriminate H]. Qed.

  Lemma import_step fuel stk ns s0 pre imp t : LoadSpec fuel ->
    Mid stk ns s0 pre t ->
    serr (new_import_doc (load_doc fuel fs (ns :: stk)) (ns :: stk) ns imp t) = None ->
    Mid stk ns s0 (pre ++ [imp]) (new_import_doc (load_doc fuel fs (ns :: stk)) (ns :: stk) ns imp t).
  Proof.
    intros IH (HG & Hns & Himp & Hdone & Hframe & Hhas).
    pose proof HG as (He & Hcf & Hbc & Hdi & Hlk & Hos).
    unfold new_import_doc. rewrite (proj2 (has_err_false t) He).
    set (a := abs_import ns imp).
    assert (Hpre : map (abs_import ns) (pre ++ [imp]) = map (abs_import ns) pre ++ [a]) by (rewrite map_app; reflexivity).
    destruct (has_ns t a) eqn:Ha.
    - (* the namespace exists already: only the import list grows *)
      set (s1 := if mem_str a (ns :: stk) then note_back ns a t else t).
      assert (E1 : spaces s1 = spaces t /\ imported s1 = imported t /\ created s1 = created t /\ done s1 = done t
                    /\ links s1 = links t /\ serr s1 = serr t) by (unfold s1; destruct (mem_str a (ns :: stk)); repeat split; reflexivity).
      destruct E1 as (E1 & E2 & E3 & E4 & E5 & E6).
      assert (Eb : incl (backs t) (backs s1) /\ (mem_str a (ns :: stk) = true -> In (ns, a) (backs s1))).
      { unfold s1. destruct (mem_str a (ns :: stk)); cbn [backs note_back]; split.
        - apply incl_appl, incl_refl.
        - intros _. apply in_or_app. right. left. reflexivity.
        - apply incl_refl.
        - discriminate. }
      rewrite (proj2 (has_err_false s1)) by congruence. intros _.
      assert (HG1 : Good (ns :: stk) s1).
      { apply (Good_same _ t); try congruence; [unfold s1; destruct (mem_str a (ns :: stk)); reflexivity | apply Eb]. }
      split; [|split; [|split; [|split; [|split]]]].
      + apply (Good_same _ s1); try reflexivity; [|apply incl_refl|exact HG1]. cbn [imported add_imported]. apply akeys_aupd.
      + unfold has_ns in *. cbn [spaces add_imported]. rewrite E1. exact Hns.
      + rewrite imports_of_add_same by (rewrite E2; eapply imports_some; exact Himp).
        unfold imports_of in *. rewrite E2, Himp, Hpre. reflexivity.
      + cbn [backs done add_imported]. intros x Hx. destruct Eb as [Eb1 Eb2]. rewrite E4.
        rewrite Hpre in Hx. apply in_app_or in Hx as [Hx|[<-|[]]].
        * destruct (Hdone x Hx) as [H|[H|H]]; [left; exact H | right; left; exact H | right; right; apply Eb1; exact H].
        * destruct (Hos a Ha) as [H|[H|H]]; [right; left; exact H | left; exact H|].
          right; right. apply Eb2. apply mem_str_In. exact H.
      + intros k Hk Hne. destruct (Hframe k Hk Hne) as [F1 F2]. split.
        * unfold has_ns in *. cbn [spaces add_imported]. rewrite E1. exact F1.
        * rewrite imports_of_add_other by exact Hne. unfold imports_of in *. rewrite E2. exact F2.
      + intros x Hx. rewrite Hpre in Hx. apply in_app_or in Hx as [Hx|[<-|[]]];
          unfold has_ns in *; cbn [spaces add_imported]; rewrite E1; [apply Hhas; exact Hx | exact Ha].
    - (* a new namespace: load its file completely, then record the import *)
      set (t1 := enter a t).
      set (s1 := load_doc fuel fs (ns :: stk) a t1).
      destruct (has_err s1) eqn:He1; [intro H; apply has_err_false in H; congruence|].
      apply has_err_false in He1. intros _.
      assert (Hsync : sync t) by apply Hcf.
      assert (Ha' : aget a (imported t) = None).
      { destruct (aget a (imported t)) eqn:E; [|reflexivity].
        assert (X : has_ns t a = true) by (apply sync_has_ns; [exact Hsync | rewrite E; discriminate]). congruence. }
      assert (HG1 : Good (a :: ns :: stk) t1).
      { split; [exact He|]. split; [apply CF_enter; assumption|].
        split; [intros n Hn; unfold t1; rewrite lookup_in_enter by exact Ha; apply Hbc; exact Hn|].
        split; [intros x Hx n Hn; unfold t1; rewrite lookup_in_enter by exact Ha; exact (Hdi x Hx n Hn)|].
        split; [exact Hlk|].
        intros x Hx. unfold t1 in Hx. rewrite has_ns_enter in Hx. apply orb_true_iff in Hx as [Hx|Hx].
        - destruct (Hos x Hx) as [H|[H|H]]; [left; exact H | right; left; exact H | right; right; right; exact H].
        - apply str_eqb_eq in Hx. subst x. right; right; left; reflexivity. }
      assert (Hn1 : has_ns t1 a = true) by (unfold t1; rewrite has_ns_enter, str_eqb_refl; apply orb_true_r).
      assert (Hi1 : imports_of t1 a = [BASE]) by (apply imports_of_enter_new; exact Ha').
      destruct (IH (ns :: stk) a t1 HG1 Hn1 Hi1 He1) as (HG2 & Hd2 & Hf2 & _). fold s1 in HG2, Hd2, Hf2.
      pose proof (grow_load fs fuel (ns :: stk) a t1) as Hgr. fold s1 in Hgr.
      assert (Hne : ns <> a) by (eapply has_ns_neq; eassumption).
      assert (Hns1 : has_ns t1 ns = true) by (unfold t1; rewrite has_ns_enter, Hns; reflexivity).
      assert (Hi_ns : imports_of s1 ns = imports_of t ns).
      { rewrite (Hf2 ns Hns1 Hne). apply imports_of_enter_old. eapply imports_some; exact Himp. }
      split; [|split; [|split; [|split; [|split]]]].
      + apply (Good_same _ s1); try reflexivity; [|apply incl_refl|exact HG2]. cbn [imported add_imported]. apply akeys_aupd.
      + unfold has_ns. cbn [spaces add_imported]. apply (g_ns _ _ Hgr). exact Hns1.
      + rewrite imports_of_add_same.
        * rewrite Hi_ns, Himp, Hpre. reflexivity.
        * apply (sync_has_ns s1 ns); [apply HG2 | apply (g_ns _ _ Hgr); exact Hns1].
      + cbn [backs done add_imported]. intros x Hx. rewrite Hpre in Hx.
        apply in_app_or in Hx as [Hx|[<-|[]]]; [|left; exact Hd2].
        destruct (Hdone x Hx) as [H|[H|H]]; [left; apply (g_done _ _ Hgr); exact H | right; left; exact H|].
        right; right. apply (g_backs_incl _ _ Hgr). exact H.
      + intros k Hk Hnk. destruct (Hframe k Hk Hnk) as [F1 F2].
        assert (Hk1 : has_ns t1 k = true) by (unfold t1; rewrite has_ns_enter, F1; reflexivity).
        split.
        * unfold has_ns. cbn [spaces add_imported]. apply (g_ns _ _ Hgr). exact Hk1.
        * rewrite imports_of_add_other by exact Hnk. rewrite (Hf2 k Hk1 (has_ns_neq _ _ _ Ha F1)).
          unfold t1. rewrite imports_of_enter_old; [exact F2|]. apply sync_has_ns; assumption.
      + intros x Hx. rewrite Hpre in Hx. unfold has_ns. cbn [spaces add_imported]. apply (g_ns _ _ Hgr).
        unfold t1. rewrite has_ns_enter.
        apply in_app_or in Hx as [Hx|[<-|[]]]; [rewrite (Hhas x Hx); reflexivity | rewrite str_eqb_refl; apply orb_true_r].
  Qed.

  Lemma load_good : forall fuel, LoadSpec fuel.
  Proof.
    induction fuel as [|fuel IH]; intros stk ns s HG Hns Himp Hfin;
      destruct (load_doc_ok _ _ _ _ _ Hfin) as (He & fuel' & f & Efuel & Hf & He1 & He2 & U1 & U2 & Hsp); [discriminate Efuel|].
    - injection Efuel as <-. rewrite Hsp. clear Hsp Hfin. cbv zeta in *.
      pose proof HG as (_ & Hcf & Hbc & Hdi & Hlk & Hos).
      set (s0 := log_load ns s) in *.
      set (s1 := fold_left _ (gimports f) s0) in *.
      set (s2 := fold_left _ (grules f) s1) in *.
      assert (HM0 : Mid stk ns s [] s0).
      { split; [apply (Good_same _ s); try reflexivity; [apply incl_refl | exact HG]|].
        split; [exact Hns|]. split; [exact Himp|]. split; [intros a []|].
        split; [|intros a []]. intros k Hk _. split; [exact Hk | reflexivity]. }
      assert (HM1 : Mid stk ns s (gimports f) s1).
      { exact (fold_ok_ind _ (Mid stk ns s) (fun imp => new_import_err _ _ _ imp)
                 (fun pre imp t => import_step fuel stk ns s pre imp t IH) (gimports f) [] s0 HM0 He1). }
      destruct HM1 as (HG1 & Hns1 & Himp1 & Hdone1 & Hframe1 & Hhas1).
      pose proof HG1 as (_ & Hcf1 & Hbc1 & Hdi1 & Hlk1 & Hos1).
      destruct (classes_same_log ns (grules f) s1) as (C5 & _ & C2 & C3 & C4 & _ & C6).
      destruct (fold_classes_props ns (grules f) s1 He1 Hns1) as (C7 & C8).
      fold s2 in C2, C3, C4, C5, C6, C7, C8.
      assert (Hcf2 : CF fs s2).
      { unfold s2. apply (fold_classes_rel fs (fun a b => CF fs a -> CF fs b)) with (f := f); auto using incl_refl.
        intros n g r t. apply CF_new_class. }
      assert (Hbc2 : BC s2) by (intros n Hn; apply C7, Hbc1; exact Hn).
      assert (Hdi2 : DI fs s2) by (intros a Ha n Hn; apply C7; rewrite C2 in Ha; exact (Hdi1 a Ha n Hn)).
      assert (Hready : Ready fs ns f s2).
      { split; [exact Hf|]. split; [exact C8|]. unfold imports_of in *. rewrite C5. exact Himp1. }
      assert (Hok : safe fs s2 = true -> forall n, In n (file_names f) -> rsplit1 n = None -> OkImps fs ns f s2 n).
      { intros Hb n Hn Hr a Ha. rewrite C2. destruct (Hdone1 a Ha) as [H|[H|H]]; [left; exact H | right; left; exact H|].
        right; right. rewrite <- C4 in H. exact (safe_back_name s2 ns f a n Hb H Hf Hn (rsplit1_none_nodot n Hr)). }
      set (ls := flat_map (links_of_rule s2 ns) (grules f)) in *.
      split; [|split; [|split]].
      + split; [exact He2|]. split; [apply (CF_same fs s2); try reflexivity; exact Hcf2|].
        split; [exact Hbc2|]. split; [|split].
        * intros a Ha n Hn. cbn [done log_done add_links] in Ha. apply in_app_or in Ha as [Ha|[<-|[]]].
          -- exact (Hdi2 a Ha n Hn).
          -- exact (own_rule_found fs ns f s2 n Hready Hn).
        * intros Hb l Hl. assert (Hb2 : safe fs s2 = true) by exact Hb.
          cbn [links log_done add_links] in Hl. apply in_app_or in Hl as [Hl|Hl].
          -- apply Hlk1; [unfold safe in *; rewrite <- C4; exact Hb2 | rewrite <- C3; exact Hl].
          -- assert (Ht : l_target l <> None).
             { destruct (l_cref l) eqn:Ec; [exact (unresolved_nil _ _ U2 l Hl Ec) | exact (unresolved_nil _ _ U1 l Hl Ec)]. }
             assert (Hshape : l_ns l = ns /\ l_target l = lookup s2 ns (l_name l) /\ In (l_name l) (file_names f)).
             { unfold ls in Hl. apply in_flat_map in Hl as (r & Hr & Hl). unfold links_of_rule in Hl.
               apply in_app_or in Hl as [Hl|Hl]; apply in_map_iff in Hl as (n & <- & Hn); cbn [l_ns l_target l_name];
                 (split; [reflexivity|]; split; [reflexivity|]); unfold file_names; apply in_flat_map; exists r;
                 (split; [exact Hr|]); apply in_or_app; [left | right]; exact Hn. }
             destruct Hshape as (Hn & Htg & Hfn). unfold link_ok. rewrite Hn.
             destruct (l_target l) as [c|] eqn:Et; [|contradiction]. cbn [option_map].
             eapply (ready_lookup fs Hbase); [exact Hready | apply Hok; assumption | apply Hcf2 | apply Hcf2 | exact Hdi2 | exact Hbc2 | symmetry; exact Htg].
        * intros a Ha. change (has_ns s2 a = true) in Ha. rewrite C6 in Ha.
          cbn [done log_done add_links]. destruct (Hos1 a Ha) as [H|[H|[H|H]]].
          -- left; exact H.
          -- right; left. apply in_or_app. left. rewrite C2. exact H.
          -- right; left. apply in_or_app. right. left. exact H.
          -- right; right. exact H.
      + cbn [done log_done add_links]. apply in_or_app. right. left. reflexivity.
      + intros k Hk Hne. destruct (Hframe1 k Hk Hne) as [_ F]. unfold imports_of in *.
        cbn [imported log_done add_links]. rewrite C5. exact F.
      + intros f' Hf'. rewrite Hf in Hf'. injection Hf' as <-. split.
        * unfold imports_of in *. cbn [imported log_done add_links]. rewrite C5. exact Himp1.
        * intros a Ha. change (has_ns s2 a = true). rewrite C6. apply Hhas1. exact Ha.
  Qed.
End Load.

Section Top.
  Variable fs : list (list N * gfile).
  Variable main : list N.
  Hypothesis Hbase : aget BASE fs = None.
  Hypothesis Hmain : main <> BASE.

  Lemma has_ns_init k : has_ns init k = true -> k = BASE.
  Proof.
    unfold has_ns, init, init_with; cbn [spaces aget]. destruct (str_eqb k BASE) eqn:E; [|discriminate].
    intros _. apply str_eqb_eq. exact E.
  Qed.

  Lemma has_ns_init_main : has_ns init main = false.
  Proof. destruct (has_ns init main) eqn:E; [|reflexivity]. apply has_ns_init in E. contradiction. Qed.

  Lemma CF_main : CF fs (load_main_doc fs main).
  Proof. unfold load_main_doc. apply CF_load. apply CF_enter; [exact has_ns_init_main | apply CF_init]. Qed.

  Lemma start_good : Good fs [main] (enter main init) /\ has_ns (enter main init) main = true /\
                     imports_of (enter main init) main = [BASE].
  Proof.
    pose proof has_ns_init_main as Hn. split; [|split].
    - split; [reflexivity|]. split; [apply CF_enter; [exact Hn | apply CF_init]|].
      split; [intros n H; rewrite lookup_in_enter by exact Hn; apply BC_init; exact H|].
      split; [intros a []|]. split; [intros _ l []|].
      intros a Ha. rewrite has_ns_enter in Ha. apply orb_true_iff in Ha as [Ha|Ha].
      + left. apply has_ns_init. exact Ha.
      + apply str_eqb_eq in Ha. subst. right; right; left; reflexivity.
    - rewrite has_ns_enter, str_eqb_refl. apply orb_true_r.
    - apply imports_of_enter_new. unfold init, init_with; cbn [imported aget].
      destruct (str_eqb main BASE) eqn:E; [apply str_eqb_eq in E; contradiction | reflexivity].
  Qed.

  Lemma main_result : serr (load_main_doc fs main) = None ->
    Good fs [] (load_main_doc fs main) /\ In main (done (load_main_doc fs main)) /\
    (forall f, aget main fs = Some f ->
       imports_of (load_main_doc fs main) main = BASE :: map (abs_import main) (gimports f) /\
       forall a, In a (map (abs_import main) (gimports f)) -> has_ns (load_main_doc fs main) a = true).
  Proof.
    intro He. destruct start_good as (G & Hn & Hi).
    destruct (load_good fs Hbase (S (length fs)) [] main (enter main init) G Hn Hi He) as (A & B & _ & D).
    split; [exact A|]. split; [exact B | exact D].
  Qed.

  (* every reference recorded by a second pass is the documented one, when every followed
     import of a grammar still being loaded is harmless ([safe]); in particular when there is none *)
  Lemma links_spec_safe : serr (load_main_doc fs main) = None -> safe fs (load_main_doc fs main) = true ->
    forall l, In l (links (load_main_doc fs main)) -> link_ok fs l.
  Proof. intros He Hb. destruct (main_result He) as ((_ & _ & _ & _ & Hlk & _) & _). apply Hlk. exact Hb. Qed.

  Lemma links_spec : serr (load_main_doc fs main) = None -> backs (load_main_doc fs main) = [] ->
    forall l, In l (links (load_main_doc fs main)) -> link_ok fs l.
  Proof. intros He Hb. apply links_spec_safe; [exact He|]. unfold safe. rewrite Hb. reflexivity. Qed.

  Lemma main_ready : serr (load_main_doc fs main) = None ->
    exists f, Ready fs main f (load_main_doc fs main) /\ forall name, OkImps fs main f (load_main_doc fs main) name.
  Proof.
    intro He. destruct (load_doc_ok _ _ _ _ _ He) as (_ & _ & f & _ & Hf & _). exists f.
    destruct (main_result He) as ((_ & _ & _ & Hdi & _ & Hos) & Hd & Himp).
    destruct (Himp f Hf) as [Hi Hh].
    split; [split; [exact Hf|]; split; [|exact Hi]|].
    - intros r Hr. apply (Hdi main Hd). eapply defines_rule; eassumption.
    - intros name a Ha. destruct (Hos a (Hh a Ha)) as [H|[H|[]]]; [right; left; exact H | left; exact H].
  Qed.

  (* metamodel[name] after a successful load, cycles or not *)
  Lemma final_lookup : serr (load_main_doc fs main) = None -> forall name c,
    lookup (load_main_doc fs main) main name = Some c -> Some (cls_key c) = spec_resolve fs main name.
  Proof.
    intros He name c H. destruct (main_ready He) as (f & Hr & Hok).
    destruct (main_result He) as ((_ & Hcf & Hbc & Hdi & _) & _).
    eapply (ready_lookup fs Hbase); [exact Hr | intros _; apply Hok | apply Hcf | apply Hcf | exact Hdi | exact Hbc | exact H].
  Qed.

  Lemma final_lookup_none : serr (load_main_doc fs main) = None -> forall name, has_dot name = false ->
    lookup (load_main_doc fs main) main name = None -> spec_resolve fs main name = None.
  Proof.
    intros He name Hd H. destruct (main_ready He) as (f & Hr & Hok).
    destruct (main_result He) as ((_ & Hcf & Hbc & Hdi & _) & _).
    rewrite <- (ready_unqualified fs Hbase main f _ name Hr (Hok name) (proj1 (proj2 Hcf)) Hdi Hbc (rsplit1_nodot _ Hd)), H.
    reflexivity.
  Qed.

  (* the class tables: a class sits under its own name in the namespace of its file and
     reports that file-based name; two entries never share a class *)
  Lemma classes_fqn : forall a n c, lookup_in (load_main_doc fs main) a n = Some c ->
    c_ns c = a /\ c_name c = n /\ fqn c = (if str_eqb a BASE then n else a ++ DOT :: n).
  Proof.
    intros a n c H. destruct CF_main as (_ & B & _ & _). apply B in H as (H1 & H2 & _).
    split; [exact H1|]. split; [exact H2|]. rewrite fqn_src_doc. unfold fqn_doc. rewrite H1, H2. reflexivity.
  Qed.

End Top.

Section Once.
  Variable fs : list (list N * gfile).

  Definition NL (s : st) : Prop := NoDup (loads s) /\ forall a, In a (loads s) -> has_ns s a = true.

  Lemma NL_same s s' : loads s' = loads s -> (forall k, has_ns s' k = has_ns s k) -> NL s -> NL s'.
  Proof. intros Hl Hn [A B]. split; [rewrite Hl; exact A|]. intros a Ha. rewrite Hn. apply B. rewrite <- Hl. exact Ha. Qed.

  Lemma has_ns_spaces s s' : spaces s' = spaces s -> forall k, has_ns s' k = has_ns s k.
  Proof. intros H k. unfold has_ns. rewrite H. reflexivity. Qed.

  Lemma NL_second ns f s : NL s -> NL (second_pass ns f s).
  Proof.
    intro H. destruct (serr s) eqn:He.
    - rewrite second_pass_err by (rewrite He; discriminate). exact H.
    - destruct (second_pass_cases ns f s He) as [[e ->]|[-> _]];
        (apply (NL_same s); [reflexivity | apply has_ns_spaces; reflexivity | exact H]).
  Qed.

  Lemma NL_classes ns rs s : NL s -> NL (fold_left (fun s r => new_class ns r s) rs s).
  Proof. destruct (classes_same_log ns rs s) as (_ & L & _ & _ & _ & _ & H). apply NL_same; assumption. Qed.

  Definition OnceSpec (fuel : nat) : Prop := forall stk ns s,
    NL s -> ~ In ns (loads s) -> has_ns s ns = true -> NL (load_doc fuel fs stk ns s).

  Lemma NL_import fuel stk cur imp t : OnceSpec fuel -> NL t ->
    NL (new_import_doc (load_doc fuel fs stk) stk cur imp t).
  Proof.
    intros IH H. unfold new_import_doc. destruct (has_err t); [exact H|].
    set (a := abs_import cur imp).
    destruct (has_ns t a) eqn:Ha.
    - set (s1 := if mem_str a stk then note_back cur a t else t).
      assert (H1 : NL s1) by (unfold s1; destruct (mem_str a stk); [apply (NL_same t); [reflexivity | apply has_ns_spaces; reflexivity | exact H] | exact H]).
      destruct (has_err s1); [exact H1|]. apply (NL_same s1); [reflexivity | apply has_ns_spaces; reflexivity | exact H1].
    - assert (H1 : NL (load_doc fuel fs stk a (enter a t))).
      { apply IH.
        - destruct H as [A B]. split; [exact A|]. intros x Hx. rewrite has_ns_enter, (B x Hx). reflexivity.
        - intro Hin. destruct H as [_ B]. cbn [loads enter] in Hin. rewrite (B a Hin) in Ha. discriminate.
        - rewrite has_ns_enter, str_eqb_refl. apply orb_true_r. }
      destruct (has_err _); [exact H1|]. apply (NL_same (load_doc fuel fs stk a (enter a t))); [reflexivity | apply has_ns_spaces; reflexivity | exact H1].
  Qed.

  Lemma load_once : forall fuel, OnceSpec fuel.
  Proof.
    induction fuel as [|fuel IH]; intros stk ns s H Hfresh Hns; cbn [load_doc];
      (destruct (has_err s); [exact H|]);
      (destruct (aget ns fs) as [f|]; [|apply (NL_same s); [reflexivity | apply has_ns_spaces; reflexivity | exact H]]).
    - apply (NL_same s); [reflexivity | apply has_ns_spaces; reflexivity | exact H].
    - cbv zeta. apply NL_second. apply NL_classes. apply fold_left_inv; [intros imp t; apply NL_import; exact IH|].
      destruct H as [A B]. split.
      + cbn [loads log_load]. apply (NoDup_Add (Add_app ns (loads s) [])). rewrite app_nil_r. split; assumption.
      + intros a Ha. cbn [loads log_load] in Ha. change (has_ns s a = true).
        apply in_app_or in Ha as [Ha|[<-|[]]]; [apply B; exact Ha | exact Hns].
  Qed.

  Lemma loads_once main : main <> BASE -> NoDup (loads (load_main_doc fs main)).
  Proof.
    intro Hm. unfold load_main_doc. apply load_once.
    - split; [constructor | intros a []].
    - intros [].
    - rewrite has_ns_enter, str_eqb_refl. apply orb_true_r.
  Qed.
End Once.

Section Term.
  Variable fs : list (list N * gfile).

  (* the measure: files whose namespace does not exist yet; each nested load enters one *)
  Definition unl_in (l : list (list N * gfile)) (s : st) : nat :=
    length (filter (fun p => negb (has_ns s (fst p))) l).
  Definition unl (s : st) : nat := unl_in fs s.

  Lemma unl_mono l s t : (forall k, has_ns s k = true -> has_ns t k = true) -> unl_in l t <= unl_in l s.
  Proof.
    intro H. unfold unl_in. induction l as [|[k v] l IH]; cbn [filter fst]; [lia|].
    destruct (has_ns s k) eqn:E.
    - rewrite (H k E). cbn [negb]. exact IH.
    - cbn [negb]. destruct (has_ns t k); cbn [negb length]; lia.
  Qed.

  Lemma unl_strict l s t a f : (forall k, has_ns s k = true -> has_ns t k = true) ->
    aget a l = Some f -> has_ns s a = false -> has_ns t a = true -> unl_in l t < unl_in l s.
  Proof.
    intros H Hf Hs Ht. unfold unl_in. induction l as [|[k v] l IH]; cbn [aget] in Hf; [discriminate|].
    cbn [filter fst]. destruct (str_eqb a k) eqn:E.
    - apply str_eqb_eq in E. subst k. rewrite Hs, Ht. cbn [negb length].
      pose proof (unl_mono l s t H) as M. unfold unl_in in M. lia.
    - specialize (IH Hf). destruct (has_ns s k) eqn:Ek.
      + rewrite (H k Ek). cbn [negb]. exact IH.
      + cbn [negb]. destruct (has_ns t k); cbn [negb length]; lia.
  Qed.

  Definition NF (s : st) : Prop := serr s <> Some EFuel.
  Definition TermSpec (fuel : nat) : Prop := forall stk ns s, NF s -> unl s < fuel -> NF (load_doc fuel fs stk ns s).

  Lemma NF_same s s' : serr s' = serr s -> NF s -> NF s'.
  Proof. unfold NF. intros -> H. exact H. Qed.

  Lemma NF_second ns f s : NF s -> NF (second_pass ns f s).
  Proof.
    intro H. unfold second_pass. destruct (has_err s); [exact H|].
    destruct (unresolved false _); [destruct (unresolved true _)|];
      unfold NF in *; cbn [serr set_err log_done add_links]; try discriminate. exact H.
  Qed.

  Lemma NF_classes ns rs s : NF s -> NF (fold_left (fun s r => new_class ns r s) rs s).
  Proof. apply NF_same. apply (classes_same_log ns rs s). Qed.

  Lemma unl_grow s s' : grow s s' -> unl s' <= unl s.
  Proof. intro H. apply unl_mono. apply (g_ns _ _ H). Qed.

  Lemma term_import fuel stk cur imp t : TermSpec fuel -> NF t -> unl t <= fuel ->
    NF (new_import_doc (load_doc fuel fs stk) stk cur imp t).
  Proof.
    intros IH Hn Hu. unfold new_import_doc. destruct (has_err t); [exact Hn|].
    set (a := abs_import cur imp).
    destruct (has_ns t a) eqn:Ha.
    - set (s1 := if mem_str a stk then note_back cur a t else t).
      assert (E : serr s1 = serr t) by (unfold s1; destruct (mem_str a stk); reflexivity).
      destruct (has_err s1); apply (NF_same t); assumption.
    - (* a new namespace: one file fewer is left, so the fuel of the nested load suffices *)
      set (t1 := enter a t). set (s1 := load_doc fuel fs stk a t1).
      assert (Hn1 : NF s1).
      { unfold s1. destruct (aget a fs) as [f|] eqn:Hf.
        - apply IH; [exact Hn|].
          assert (Hlt : unl_in fs t1 < unl_in fs t).
          { apply (unl_strict fs t t1 a f (g_ns _ _ (grow_enter a t)) Hf Ha).
            unfold t1. rewrite has_ns_enter, str_eqb_refl. apply orb_true_r. }
          unfold unl in *. lia.
        - destruct fuel; cbn [load_doc]; (destruct (has_err t1); [exact Hn|]); rewrite Hf; unfold NF; cbn [serr set_err]; discriminate. }
      destruct (has_err s1); [exact Hn1 | apply (NF_same s1); [reflexivity | exact Hn1]].
  Qed.

  Lemma load_terminates : forall fuel, TermSpec fuel.
  Proof.
    induction fuel as [|fuel IH]; intros stk ns s Hn Hu; [lia|]. cbn [load_doc].
    destruct (has_err s); [exact Hn|].
    destruct (aget ns fs) as [f|]; [|unfold NF; cbn [serr set_err]; discriminate].
    cbv zeta. apply NF_second. apply NF_classes.
    refine (proj1 (fold_left_inv _ (fun t => NF t /\ unl t <= fuel) _ _ _ _)).
    - intros imp t [Hn' Hu']. split.
      + apply term_import; [|assumption..]. intros stk' ns' s' Hn'' Hu''. apply IH; assumption.
      + pose proof (unl_grow _ _ (grow_import _ (ns :: stk) ns imp t (grow_load fs fuel (ns :: stk)))). lia.
    - split; [apply (NF_same s); [reflexivity | exact Hn]|].
      pose proof (unl_grow s (log_load ns s) (grow_same s (log_load ns s) eq_refl eq_refl eq_refl)). lia.
  Qed.

  Lemma unl_le s : unl s <= length fs.
  Proof.
    unfold unl, unl_in. induction fs as [|p l IH]; cbn [filter length]; [lia|].
    destruct (negb (has_ns s (fst p))); cbn [length]; lia.
  Qed.

  (* any import graph, cycles included: the load never runs out of fuel |fs|+1 *)
  Lemma load_main_terminates main : serr (load_main_doc fs main) <> Some EFuel.
  Proof.
    unfold load_main_doc. apply load_terminates; [unfold NF; cbn; discriminate|].
    pose proof (unl_le (enter main init)). lia.
  Qed.
End Term.

Section Count.
  Variable fs : list (list N * gfile).

  Notation nrules := (nrules fs).
  Notation nrules_of := (nrules_of fs).

  Definition Delta (s s' : st) : Prop :=
    exists new, loads s' = loads s ++ new /\ created s' = created s + nrules_of new.

  Lemma Delta_refl s : Delta s s.
  Proof. exists []. split; [rewrite app_nil_r; reflexivity | unfold Imports.nrules_of; cbn; lia]. Qed.

  Lemma Delta_trans a b c : Delta a b -> Delta b c -> Delta a c.
  Proof.
    intros (n1 & L1 & C1) (n2 & L2 & C2). exists (n1 ++ n2). split.
    - rewrite L2, L1, app_assoc. reflexivity.
    - rewrite C2, C1. unfold Imports.nrules_of. rewrite map_app, list_sum_app. lia.
  Qed.

  Lemma Delta_same s s' : loads s' = loads s -> created s' = created s -> Delta s s'.
  Proof. intros L C. exists []. split; [rewrite app_nil_r; exact L | unfold Imports.nrules_of; cbn; lia]. Qed.

  Definition CountSpec (fuel : nat) : Prop := forall stk ns s,
    serr (load_doc fuel fs stk ns s) = None -> Delta s (load_doc fuel fs stk ns s).

  Lemma count_import fuel stk cur imp t : CountSpec fuel ->
    serr (new_import_doc (load_doc fuel fs stk) stk cur imp t) = None ->
    Delta t (new_import_doc (load_doc fuel fs stk) stk cur imp t).
  Proof.
    intros IH. unfold new_import_doc. destruct (has_err t); [intros _; apply Delta_refl|].
    set (a := abs_import cur imp).
    destruct (has_ns t a) eqn:Ha.
    - set (s1 := if mem_str a stk then note_back cur a t else t).
      assert (E : loads s1 = loads t /\ created s1 = created t) by (unfold s1; destruct (mem_str a stk); split; reflexivity).
      destruct E as [E1 E2]. destruct (has_err s1); intros _; apply Delta_same; cbn [loads created add_imported]; assumption.
    - set (s1 := load_doc fuel fs stk a (enter a t)).
      destruct (has_err s1) eqn:He1; [intro H; apply has_err_false in H; congruence|].
      apply has_err_false in He1. intros _.
      apply (Delta_trans _ (enter a t)); [apply Delta_same; reflexivity|].
      apply (Delta_trans _ s1); [apply IH; exact He1 | apply Delta_same; reflexivity].
  Qed.

  Lemma count_classes ns rs : forall s, serr s = None ->
    created (fold_left (fun s r => new_class ns r s) rs s) = created s + length rs.
  Proof.
    induction rs as [|r rs IH]; intros s He; cbn [fold_left length]; [lia|].
    assert (Hf : has_err s = false) by (apply has_err_false; exact He).
    rewrite IH; unfold new_class; rewrite Hf; [cbn [created]; lia | exact He].
  Qed.

  Lemma load_count : forall fuel, CountSpec fuel.
  Proof.
    induction fuel as [|fuel IH]; intros stk ns s Hfin;
      destruct (load_doc_ok _ _ _ _ _ Hfin) as (He & fuel' & f & Efuel & Hf & He1 & He2 & _ & _ & Hsp); [discriminate Efuel|].
    injection Efuel as <-. rewrite Hsp. clear Hsp Hfin. cbv zeta in *.
    set (s1 := fold_left _ (gimports f) (log_load ns s)) in *.
    assert (D1 : Delta (log_load ns s) s1).
    { refine (fold_ok_ind _ (fun _ t' => Delta (log_load ns s) t') _ _ (gimports f) [] _ (Delta_refl _) He1).
      - intro imp. apply new_import_err.
      - intros _ imp t' HD He'. apply (Delta_trans _ t'); [exact HD | apply count_import; assumption]. }
    destruct D1 as (new & L1 & C1).
    destruct (classes_same_log ns (grules f) s1) as (_ & L2 & _).
    pose proof (count_classes ns (grules f) s1 He1) as C2.
    exists (ns :: new). cbn [loads created log_done add_links]. split.
    - rewrite L2, L1. cbn [loads log_load]. rewrite <- app_assoc. reflexivity.
    - assert (Hn : nrules ns = length (grules f)) by (unfold Imports.nrules; rewrite Hf; reflexivity).
      rewrite C2, C1. cbn [created log_load].
      change (nrules_of (ns :: new)) with (nrules ns + nrules_of new). rewrite Hn. lia.
  Qed.

End Count.

(* two table entries never share a class; a successful load creates, besides the 9 built-in classes,
   exactly one class per rule of every file read *)
Lemma one_class_set fs main : main <> BASE ->
  (forall a n c a' n' c',
     lookup_in (load_main_doc fs main) a n = Some c -> lookup_in (load_main_doc fs main) a' n' = Some c' ->
     c_id c = c_id c' -> a = a' /\ n = n') /\
  (serr (load_main_doc fs main) = None ->
   created (load_main_doc fs main) = length base_names + nrules_of fs (loads (load_main_doc fs main))).
Proof.
  intro H. split; [destruct (CF_main fs main H) as (_ & _ & C & _); exact C|].
  intro He. unfold load_main_doc in *. destruct (load_count fs _ _ _ _ He) as (new & L & C). rewrite C, L. reflexivity.
Qed.

Lemma fold_left_ext {A B} (f g : A -> B -> A) l : forall a, (forall a b, f a b = g a b) -> fold_left f l a = fold_left g l a.
Proof. induction l as [|x l IH]; intros a H; cbn [fold_left]; [reflexivity|]. rewrite H. apply IH. exact H. Qed.

Lemma new_import_doc_ext rec rec' stk cur imp s : (forall a t, rec a t = rec' a t) ->
  new_import_doc rec stk cur imp s = new_import_doc rec' stk cur imp s.
Proof. intro H. unfold new_import_doc. rewrite H. reflexivity. Qed.

(* Obligation re-proved against Gen/SrcImports.v: with the facts found in the source (imports
   visited in textual order; both passes of an imported grammar run inside _new_import; the
   namespace stack is entered before and left after the nested load) the source-driven load is
   the documented one, about which everything above is proved. *)
Lemma load_src_doc fs main : has_dot main = false -> no_refs fs ->
  forall fuel stk ns s, load main fuel fs stk ns s = load_doc fuel fs stk ns s.
Proof.
  intros Hm Hnr. induction fuel as [|fuel IH]; intros stk ns s; cbn [load load_doc]; [reflexivity|].
  destruct (has_err s); [reflexivity|]. destruct (aget ns fs) as [f|] eqn:Hf; [|reflexivity].
  rewrite (Hnr ns f Hf). change (add_refs [] (log_load ns s)) with (log_load ns s).
  unfold imports_in_text_order, second_pass_inside_import. cbv zeta.
  rewrite (fold_left_ext _ (fun s imp => new_import_doc (load_doc fuel fs (ns :: stk)) (ns :: stk) ns imp s)); [reflexivity|].
  intros a b. rewrite (new_import_src_doc _ _ _ _ _ _ Hm). apply new_import_doc_ext. intros x t. apply IH.
Qed.

Lemma load_main_src_doc fs main : has_dot main = false -> no_refs fs -> load_main fs main = load_main_doc fs main.
Proof.
  intros Hm Hnr. unfold load_main, load_main_with, load_main_doc, second_pass_inside_import. cbv zeta.
  apply load_src_doc; assumption.
Qed.
