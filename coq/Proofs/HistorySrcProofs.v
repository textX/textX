(* The facts translated from the current source satisfy what the invariant needs.
   Re-checked on every run against Gen/SrcHistory.v. *)
From TxV Require Import Core.Base Model.History Gen.SrcHistory Proofs.HistoryProofs.

Lemma src_good : good src_facts = true.
Proof. reflexivity. Qed.

(* non-vacuity material: a concrete oracle pair satisfying the hypotheses, and a concrete history *)

Definition wit_repo_cfg : cfg := {| c_gram := 1; c_memo := true; c_debug := false; c_base := true; c_classes := [8; 9]; c_repo := true; c_root_user := true; c_opts := 3 |}.
Definition wit_gram (id : nat) : nat := match id with 7 => 0 | _ => 1 end.
Definition wit_ops : list op := [New 0 wit_cfg; Load 0 0; New 1 wit_repo_cfg; Load 1 5; Load 0 1; New 0 wit_cfg_memo; Load 1 5; Load 0 2].

Lemma wit_ops_wf : Forall (wf_op wit_gram) wit_ops.
Proof.
  unfold wit_ops. repeat constructor; cbn; intros id H; repeat (destruct H as [<-|H]; [reflexivity|]); destruct H.
Qed.

(* non-vacuity for the nested-load theorem: an oracle that ignores the counters, two slots, a nested load *)
Definition wit_load_blind (_ : cfg) (i : nat) (v : view) : lres :=
  {| l_kind := LOk; l_dump := i + length (v_caches v); l_leak := []; l_files := [] |}.
