(* C13 — object processors run once each, bottom-up, on a fully linked model.

   Vocabulary (Model/Proc.v): `walk` transcribes model.py `call_obj_processors` in
   state-passing style (the log of processor calls is threaded like the Python side effects);
   `log_of d v` / `model_after d v` are the calls made and the tree left by the call for a root
   `v` looked up under class `d`.  `reg` (which names have a processor) and `proc` (what each
   processor returns for its argument) are arbitrary.  `nodes d v` lists, in post order, the
   (declared class, value) pairs of everything contained in v through containment attributes
   whose declared class is not a match rule; `ids_of` their identities; `below o` the
   identities strictly inside o.  `NoDup (ids_of (nodes d v))` says that the containment
   structure is a tree (no object is contained twice), which is what parsing produces. *)
From TxV Require Import Core.Base Model.Proc Gen.SrcLoad Gen.SrcProc Proofs.ProcProofs.

(* 0. `walk` is instantiated by `src_facts`, the facts tools/translate/proc_tr.py reads from the
   text of call_obj_processors on every run (block order, the tests guarding recursion and
   replacement, the own-class condition, the return policy).  The facts of the current source
   are exactly the ones the specification describes; every theorem below is about
   `walk src_facts` and is therefore re-proved against the source. *)
Theorem C13_source_facts : src_facts = std_facts.
Proof. exact src_facts_std. Qed.
Print Assumptions C13_source_facts.

(* 1. The walk is the post-order schedule.  For every tree, metadata, registration set and
   processor behaviour: the calls made (in order, with the argument as it is at call time) are
   `schedule` = for every visited value in post order, [own-class processor if the class
   differs from the declared one and is registered] ++ [declared-class processor if
   registered]; the tree left behind is the bottom-up replacement result `after`; the value
   returned is the own-class result if not None, else the declared-class result. *)
Theorem C13_log : forall reg proc truthy d v log,
  walk src_facts reg proc truthy d v log =
  (log ++ schedule reg proc d v, after reg proc d v,
   if d_match d then None else result reg proc d (after reg proc d v)).
Proof. rewrite src_facts_std. exact walk_spec. Qed.
Print Assumptions C13_log.

Theorem C13_log_root : forall reg proc truthy d v,
  walk_root src_facts reg proc truthy d v = (schedule reg proc d v, after reg proc d v).
Proof. exact walk_root_src_spec. Qed.
Print Assumptions C13_log_root.

(* 2. Exactly once per object of a common rule: every object contained in the model whose
   rule has a processor gets exactly one call of that processor. *)
Theorem C13_once_per_common_object : forall reg proc truthy d v d' id c fs,
  NoDup (ids_of (nodes d v)) -> In (d', VObj id c fs) (nodes d v) -> reg (c_nm c) = true ->
  calls_on (c_nm c) id (log_of reg proc truthy d v) = 1.
Proof. intros. rewrite log_of_schedule. eapply once_own; eassumption. Qed.
Print Assumptions C13_once_per_common_object.

(* the complete account of the calls an object receives, for every processor name p *)
Theorem C13_calls_exact : forall reg proc truthy d v d' id c fs p,
  NoDup (ids_of (nodes d v)) -> In (d', VObj id c fs) (nodes d v) ->
  calls_on p id (log_of reg proc truthy d v) =
  b2n (own_called reg c d' && Nat.eqb (c_nm c) p) + b2n (reg (d_nm d') && Nat.eqb (d_nm d') p).
Proof. intros. rewrite log_of_schedule. eapply calls_count; eassumption. Qed.
Print Assumptions C13_calls_exact.

(* 3. A processor registered for the declared (abstract) rule of an attribute runs exactly once
   for each object stored in it, immediately after the processor of the object's own rule,
   on the same argument; and once for every non-object value stored in it. *)
Theorem C13_abstract_after_own : forall reg proc truthy d v d' id c fs,
  NoDup (ids_of (nodes d v)) -> In (d', VObj id c fs) (nodes d v) -> reg (d_nm d') = true ->
  calls_on (d_nm d') id (log_of reg proc truthy d v) = 1 /\
  (c_nm c <> d_nm d' -> reg (c_nm c) = true ->
   exists l1 l2, log_of reg proc truthy d v =
     l1 ++ [(c_nm c, after reg proc d' (VObj id c fs)); (d_nm d', after reg proc d' (VObj id c fs))] ++ l2).
Proof.
  intros reg proc truthy d v d' id c fs Hnd Hin Hr. rewrite log_of_schedule. split.
  - eapply once_declared; eassumption.
  - intros Hne Hrc. apply own_then_declared; [exact Hin | | exact Hr].
    apply Nat.eqb_neq in Hne. rewrite own_called_names, Hne, Hrc. reflexivity.
Qed.
Print Assumptions C13_abstract_after_own.

Theorem C13_abstract_on_values : forall reg proc truthy d v d' a,
  In (d', VAtom a) (nodes d v) -> reg (d_nm d') = true ->
  exists l1 l2, log_of reg proc truthy d v = l1 ++ [(d_nm d', VAtom a)] ++ l2.
Proof. intros. rewrite log_of_schedule. apply atom_called; assumption. Qed.
Print Assumptions C13_abstract_on_values.

(* 4. Children before containers: for every contained object o the log splits as
   l1 ++ (sub ++ own) ++ l2 where `sub` are exactly the calls for everything contained in o
   (all on objects below o), `own` the calls on o itself, and no call on o or on anything
   below o happens before or after this block. *)
Theorem C13_children_before_parents : forall reg proc truthy d v d' id c fs,
  NoDup (ids_of (nodes d v)) -> In (d', VObj id c fs) (nodes d v) ->
  exists l1 sub own l2,
    log_of reg proc truthy d v = l1 ++ (sub ++ own) ++ l2 /\
    sub = flat_map (events reg) (visits_fields reg proc fs) /\
    own = events reg (d', after reg proc d' (VObj id c fs)) /\
    (forall e i, In e sub -> ev_id e = Some i -> In i (below (VObj id c fs))) /\
    (forall e, In e own -> ev_id e = Some id) /\
    (forall e i, In e (l1 ++ l2) -> ev_id e = Some i -> i <> id /\ ~ In i (below (VObj id c fs))) /\
    ~ In id (below (VObj id c fs)).
Proof.
  intros. rewrite log_of_schedule. apply subtree_contiguous; assumption.
Qed.
Print Assumptions C13_children_before_parents.

(* 5. Replacement.  A containment slot that held v ends up holding `settle d v`:
   None stays None, a match-rule typed slot is untouched, otherwise the non-None result
   replaces exactly this slot and else the (processed) object stays; the own-class result
   dominates the declared-class result; list slots are settled position by position;
   non-containment attributes are untouched. *)
Theorem C13_replacement_single : forall reg proc truthy n d v rest log,
  snd (walk_fields src_facts reg proc truthy (FOne n true d v rest) log) =
  FOne n true d (settle reg proc d v) (after_fields reg proc rest).
Proof. intros. rewrite walk_fields_src_spec. reflexivity. Qed.
Print Assumptions C13_replacement_single.

Theorem C13_replacement_list : forall reg proc truthy n d vs rest log,
  exists vs', snd (walk_fields src_facts reg proc truthy (FMany n true d vs rest) log) =
              FMany n true d vs' (after_fields reg proc rest) /\
              values_to_list vs' = map (settle reg proc d) (values_to_list vs).
Proof.
  intros. rewrite walk_fields_src_spec. exists (after_values reg proc d vs).
  split; [reflexivity | apply after_values_list].
Qed.
Print Assumptions C13_replacement_list.

Theorem C13_settle : forall reg proc d v,
  settle reg proc d v =
  if is_none v then VNone
  else if d_match d then v
  else match result reg proc d (after reg proc d v) with
       | Some r => r
       | None => after reg proc d v
       end.
Proof. intros reg proc d v. destruct v; reflexivity. Qed.
Print Assumptions C13_settle.

Theorem C13_own_result_dominates : forall reg proc d id c fs r,
  own_called reg c d = true -> proc (c_nm c) (VObj id c fs) = Some r ->
  result reg proc d (VObj id c fs) = Some r.
Proof. intros reg proc d id c fs r Ho Hp. unfold result. rewrite Ho, Hp. reflexivity. Qed.
Print Assumptions C13_own_result_dominates.

Theorem C13_references_untouched : forall reg proc truthy n d v rest log,
  snd (walk_fields src_facts reg proc truthy (FOne n false d v rest) log) = FOne n false d v (after_fields reg proc rest).
Proof. intros. rewrite walk_fields_src_spec. reflexivity. Qed.
Print Assumptions C13_references_untouched.

(* 6. Only on a linked, initialised model.  `load_phases` is translated on every run from the
   main-model block of parse_tree_to_objgraph; for every list of models under construction:
   after the first processor call no reference resolution and no user-class __init__ happens
   (for any model); when references remain unresolved no processor runs; when all resolve,
   every model gets its processors exactly once. *)
Theorem C13_after_linking : forall models unresolved,
  procs_last (run_phases load_phases models unresolved) = true.
Proof. intros. apply order_of_phases. vm_compute. reflexivity. Qed.
Print Assumptions C13_after_linking.

Theorem C13_after_linking_split : forall models unresolved l1 e l2,
  run_phases load_phases models unresolved = l1 ++ e :: l2 -> is_proc e = true ->
  forall x, In x l2 -> is_link_or_init x = false.
Proof.
  intros models u l1 e l2 E. eapply procs_last_split; [|exact E].
  apply order_of_phases. vm_compute. reflexivity.
Qed.
Print Assumptions C13_after_linking_split.

Theorem C13_no_processors_when_unresolved : forall models,
  existsb is_proc (run_phases load_phases models true) = false.
Proof. intros. apply no_procs_when_unresolved. vm_compute. reflexivity. Qed.
Print Assumptions C13_no_processors_when_unresolved.

Theorem C13_processors_once_per_model : forall m models,
  NoDup models -> In m models ->
  count_lev (lev_is_proc_of m) (run_phases load_phases models false) = 1 /\
  count_lev (lev_is_init_of m) (run_phases load_phases models false) = 1.
Proof.
  intros m models Hnd Hin. split.
  - apply processors_once_per_model; [vm_compute; reflexivity | exact Hnd | exact Hin].
  - apply init_once_per_model; [vm_compute; reflexivity | exact Hnd | exact Hin].
Qed.
Print Assumptions C13_processors_once_per_model.

(* 7. Match-rule processors (model.py process_match, run while the object tree is built): for
   every parse subtree of a match-rule value, every registration set and processor behaviour,
   the calls are the post-order of the subtree - children left to right, innermost first -
   and the value is the bottom-up conversion result; over the match values of a build in the
   order process_node reaches them the logs concatenate; a registered node is called after
   all its children, on the concatenation of their results. *)
Theorem C13_match_postorder : forall mreg mproc t log,
  pmatch mreg mproc t log = (log ++ mevents mreg mproc t, mval mreg mproc t).
Proof. exact pmatch_spec. Qed.
Print Assumptions C13_match_postorder.

Theorem C13_match_left_to_right : forall mreg mproc ts log,
  pmatch_forest mreg mproc ts log = log ++ flat_map (mevents mreg mproc) ts.
Proof.
  intros mreg mproc ts. induction ts as [|t ts IH]; intro log; cbn [pmatch_forest flat_map].
  - rewrite app_nil_r. reflexivity.
  - rewrite pmatch_spec. cbn [fst]. rewrite IH, app_assoc. reflexivity.
Qed.
Print Assumptions C13_match_left_to_right.

Theorem C13_match_innermost_first : forall mreg mproc r k ks,
  mreg r = true ->
  mevents mreg mproc (PNode r (PCons k ks)) =
  (mevents mreg mproc k ++ mevents_kids mreg mproc ks) ++ [(r, mval mreg mproc k ++ mvals mreg mproc ks)].
Proof. intros mreg mproc r k ks H. cbn [mevents]. rewrite H. reflexivity. Qed.
Print Assumptions C13_match_innermost_first.

(* WWW(3): WW(2) '+' WW(2); WW: W(1) ('-' W)?; all three registered, W upper-cases (here: appends
   33 "!"), on the text w4-w5+w6 *)
Example C13_nonvacuous_match :
  let t := PNode 3 (PCons (PNode 2 (PCons (PTerm 1 [119;52]%N) (PCons (PTerm 0 [45]%N) (PCons (PTerm 1 [119;53]%N) PNil))))
                   (PCons (PTerm 0 [43]%N) (PCons (PNode 2 (PCons (PTerm 1 [119;54]%N) PNil)) PNil))) in
  let mreg := fun r => Nat.leb 1 r in
  let mproc := fun (r : nat) (s : list N) => if Nat.eqb r 1 then s ++ [33]%N else s in
  pmatch mreg mproc t [] =
  ([(1, [119;52]%N); (1, [119;53]%N); (2, [119;52;33;45;119;53;33]%N); (1, [119;54]%N); (2, [119;54;33]%N);
    (3, [119;52;33;45;119;53;33;43;119;54;33]%N)],
   [119;52;33;45;119;53;33;43;119;54;33]%N).
Proof. vm_compute. reflexivity. Qed.
Print Assumptions C13_nonvacuous_match.

(* Non-vacuity: a model  Model{shapes=[Circle c1, Box b1{items=[Circle c2]}], ref->c2, v=5}
   with `shapes`/`items` typed by the abstract rule Shape(3), `v` typed by Val(5) which has an
   INT alternative; processors on Circle(1) Box(2) Shape(3) Model(0) Val(5); Circle's
   processor replaces c2 (id 4) by an atom.  Names: 0 Model 1 Circle 2 Box 3 Shape 4 INT 5 Val *)
Definition ex_tree : value :=
  VObj 1 (CRef 0 0)
    (FMany 0 true (Dcl (CRef 0 3) false)
       (VsCons (VObj 2 (CRef 0 1) FNil)
          (VsCons (VObj 3 (CRef 0 2)
                     (FMany 1 true (Dcl (CRef 0 3) false) (VsCons (VObj 4 (CRef 0 1) FNil) VsNil) FNil))
             VsNil))
       (FOne 2 false (Dcl (CRef 0 1) false) (VAtom 64)
          (FOne 3 true (Dcl (CRef 0 5) false) (VAtom 53)
             (FOne 4 true (Dcl (CRef 0 4) true) (VAtom 110) FNil)))).
Definition ex_reg (n : nat) : bool := Nat.leb n 3 || Nat.eqb n 5.
Definition ex_proc (p : nat) (v : value) : option value :=
  match p, v with 1, VObj 4 _ _ => Some (VAtom 114) | _, _ => None end.

Example C13_nonvacuous_tree :
  NoDup (ids_of (nodes (Dcl (CRef 0 0) false) ex_tree)) /\
  In (Dcl (CRef 0 3) false, VObj 4 (CRef 0 1) FNil) (nodes (Dcl (CRef 0 0) false) ex_tree) /\
  In (Dcl (CRef 0 5) false, VAtom 53) (nodes (Dcl (CRef 0 0) false) ex_tree) /\
  ex_reg 1 = true /\ ex_reg 3 = true /\
  map (fun e => (fst e, ev_id e)) (log_of ex_reg ex_proc (fun _ => true) (Dcl (CRef 0 0) false) ex_tree) =
    [(1, Some 2); (3, Some 2); (1, Some 4); (3, Some 4); (2, Some 3); (3, Some 3); (5, None); (0, Some 1)] /\
  model_after ex_reg ex_proc (fun _ => true) (Dcl (CRef 0 0) false) ex_tree =
  VObj 1 (CRef 0 0)
    (FMany 0 true (Dcl (CRef 0 3) false)
       (VsCons (VObj 2 (CRef 0 1) FNil)
          (VsCons (VObj 3 (CRef 0 2)
                     (FMany 1 true (Dcl (CRef 0 3) false) (VsCons (VAtom 114) VsNil) FNil))
             VsNil))
       (FOne 2 false (Dcl (CRef 0 1) false) (VAtom 64)
          (FOne 3 true (Dcl (CRef 0 5) false) (VAtom 53)
             (FOne 4 true (Dcl (CRef 0 4) true) (VAtom 110) FNil)))).
Proof.
  split; [exact (NoDup_nodup Nat.eq_dec [2; 4; 3; 1])|].
  split; [vm_compute; right; left; reflexivity|].
  split; [vm_compute; do 3 right; left; reflexivity|].
  split; [reflexivity|]. split; [reflexivity|]. split; vm_compute; reflexivity.
Qed.
Print Assumptions C13_nonvacuous_tree.

Example C13_nonvacuous_phases :
  run_phases load_phases [0; 1] false =
    [LResolve 0; LResolve 1; LInit 0; LInit 1; LProc 0; LProc 1] /\
  run_phases load_phases [0; 1] true = [LResolve 0; LResolve 1; LRaise].
Proof. split; reflexivity. Qed.
Print Assumptions C13_nonvacuous_phases.
