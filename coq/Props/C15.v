(* C15 — a failed load leaves nothing behind (for the references textX itself stores; the
   run-time reachability is observed by the check, see design/C15.md). *)
From TxV Require Import Core.Base Gen.SrcUserCls Model.UserCls Proofs.UserClsProofs Proofs.UserClsInitProofs.
From TxV Require Model.RepoDefs Gen.SrcRepo Model.Repo Proofs.RepoProofs.

(* FULL STATEMENT (not provable in this model: frames, tracebacks and exception chaining are not
   represented): after a failing load no object allocated by it is reachable from textX, its
   classes or the metamodel.

   Proved, partial: the repositories on the repository model of C17/C18 (C15_repositories_restored
   below); and in every history of the user-class load machine, when the running load raises, none of
   the user objects it has allocated keeps an entry in `_tx_obj_attrs` (the only place where a
   user class refers to objects), none of its models stays in a model repository, and the load
   is no longer running (its parsers are not counted any more, see C15_classes_uninstrumented). *)
Theorem C15_unreachable_partial : forall d0 ops c rest,
  s_ctxs (run replace_names restore_names (init d0) ops) = c :: rest ->
  let s' := step replace_names restore_names (run replace_names restore_names (init d0) ops) Fail in
  (forall x, In x (c_objs c) -> ~ In x (k_store (s_cls s'))) /\
  (forall m, In m (c_mids c) -> ~ In m (s_repo s')) /\
  s_ctxs s' = rest.
Proof. exact (failed_load_leaves_nothing _ _). Qed.
Print Assumptions C15_unreachable_partial.

(* User classes are left uninstrumented: once no load runs (in particular after a failed
   top-level load, however it failed and whatever ran inside it), the class is as before. *)
Theorem C15_classes_uninstrumented : forall d0 ops,
  s_ctxs (run replace_names restore_names (init d0) ops) = [] ->
  cls_same d0 (s_cls (run replace_names restore_names (init d0) ops)).
Proof. exact (restored_after_any_history _ _ src_rep_nodup src_rep_in_res). Qed.
Print Assumptions C15_classes_uninstrumented.

(* PARTIAL (C15_next_load_fresh): as far as the user classes are concerned a load after a failed
   one starts from the state of a fresh metamodel, and whatever follows ends in that state again.
   The equality of the resulting models is observed by the check (next_check), the history
   independence of the rest of the metamodel is C16. *)
Theorem C15_next_load_fresh_partial : forall d0 ops,
  s_ctxs (run replace_names restore_names (init d0) ops) = [] ->
  cls_same d0 (s_cls (run replace_names restore_names (init d0) ops)) /\
  forall ops2, s_ctxs (run replace_names restore_names (init d0) (ops ++ ops2)) = [] ->
               cls_same d0 (s_cls (run replace_names restore_names (init d0) (ops ++ ops2))).
Proof.
  intros d0 ops E. pose proof (restored_after_any_history _ _ src_rep_nodup src_rep_in_res d0) as R.
  split; [exact (R ops E) | exact (fun ops2 => R (ops ++ ops2))].
Qed.
Print Assumptions C15_next_load_fresh_partial.

(* THE MODEL REPOSITORIES, on the repository model of C17/C18 (Model/Repo.v: import providers and
   GlobalRepo providers with registered patterns, with or without a metamodel-global repository,
   main model from a file or from a string; failure phases: missing file, syntax error, nothing found
   for an import, unresolved reference, object processor, model processor of an imported or of the
   main model; its cleanup handlers are read from the source by repo_tr.py, Gen/SrcRepo.v).
   At every point of every history of loads, string loads and file rewrites: if the next load fails,
   the heap of model objects, all_models, every model's local_models, the set of models under
   construction and the resolved reference targets are exactly what they were when the load began,
   and every model still registered existed before the load.  (Proved in Proofs/RepoProofs.v for C17/C18;
   composed here so that the repository half of C15 does not rest on the `s_repo` abstraction of the
   user-class machine alone.) *)
Theorem C15_repositories_restored : forall c builtins fs0 ops s',
  let s := Repo.run_hist c fs0 (Repo.init_state builtins) ops in
  (exists fs f e, Repo.load_main fs c f s = (inl e, s')) \/ (exists fs fc e, Repo.load_str fs c fc s = (inl e, s')) ->
  Repo.heap s' = Repo.heap s /\ Repo.allm s' = Repo.allm (Repo.begin_op c s) /\ Repo.locals s' = Repo.locals s /\
  Repo.constr s' = Repo.constr s /\ Repo.targets s' = Repo.targets s /\
  (forall k v, In (k, v) (Repo.allm s') -> v < length (Repo.heap s)).
Proof.
  intros c builtins fs0 ops s' s H.
  destruct (RepoProofs.run_hist_stable_tidy c ops fs0 _ (RepoProofs.Stable_init builtins) (RepoProofs.Tidy_init builtins))
    as [HS HT].
  fold s in HS, HT.
  assert (R : Repo.heap s' = Repo.heap s /\ Repo.allm s' = Repo.allm (Repo.begin_op c s) /\
              Repo.locals s' = Repo.locals s /\ Repo.constr s' = Repo.constr s /\
              Repo.targets s' = Repo.targets s /\ Repo.curop s' = Repo.curop s).
  { destruct H as [(fs & f & e & H)|(fs & fc & e & H)].
    - exact (RepoProofs.failed_load_restores_state fs c f s e s' HS HT H).
    - exact (RepoProofs.failed_load_str_restores_state fs c fc s e s' HS HT H). }
  destruct R as (R1 & R2 & R3 & R4 & R5 & _). repeat (split; [assumption|]).
  (* the entries left are entries of the state before, whose models existed before (Stable) *)
  intros k v Hin. rewrite R2 in Hin. destruct HS as (_ & _ & HS3 & _).
  unfold Repo.begin_op in Hin. destruct (Repo.cglobal c); cbn in Hin; [|destruct Hin].
  destruct (HS3 k v Hin) as [mi [Hn _]]. apply nth_error_Some. congruence.
Qed.
Print Assumptions C15_repositories_restored.

(* non-vacuity: global repository, a GlobalRepo pattern reaching files 0 and 1, an earlier string
   model; a string main with an unresolved reference fails: everything is as before *)
Example C15_repositories_nonvacuous :
  let fs := [Repo.mkFile [[0; 1]] [100%N] [] false false false; Repo.mkFile [[0; 1]] [101%N] [] false false false] in
  let c := Repo.init_cfg true false [] in
  let s := Repo.run_hist c fs (Repo.init_state []) [Repo.OLoadStr (Repo.mkFile [[0; 1]] [103%N] [100%N] false false false)] in
  let bad := Repo.mkFile [[0; 1]] [104%N] [104%N; 999%N] false false false in
  Repo.allm s = [(2, 0); (0, 1); (1, 2)] /\
  (exists e, fst (Repo.load_str fs c bad s) = inl e) /\
  Repo.allm (snd (Repo.load_str fs c bad s)) = [(2, 0); (0, 1); (1, 2)] /\
  length (Repo.heap (snd (Repo.load_str fs c bad s))) = 3.
Proof. vm_compute. repeat split; try reflexivity. eexists. reflexivity. Qed.
Print Assumptions C15_repositories_nonvacuous.

(* non-vacuity: a load with an imported model in a metamodel-global repository fails after the
   first __init__; before the failure 3 objects are allocated, 2 of them still stored, and 2 models registered *)
Example C15_nonvacuous :
  let ops := [Begin true true true; Alloc; Alloc; Complete; Complete; Begin false true true; Alloc; Complete;
              ResolveOk; EndModel; Init true] in
  let s := run replace_names restore_names (init (fun _ => Absent)) ops in
  exists c, s_ctxs s = [c] /\ c_objs c = [2; 3; 6] /\ c_mids c = [1; 5] /\ length (k_store (s_cls s)) = 2 /\ s_repo s = [1; 5] /\
            k_store (s_cls (step replace_names restore_names s Fail)) = [] /\ s_repo (step replace_names restore_names s Fail) = [].
Proof. eexists. vm_compute. repeat split; reflexivity. Qed.
Print Assumptions C15_nonvacuous.
