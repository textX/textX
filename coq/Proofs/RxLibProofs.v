(* General lemmas about Model/Rx.v for reuse by other properties:
   - literal patterns and keyword patterns `lit\b` (rx_match computed in closed form);
   - IGNORECASE matching is blind to the ASCII case of the input, for EVERY regex of the subset. *)
From TxV Require Import Core.Base Model.Rx Proofs.RxProofs.
Require Import Lia.

Lemma ends_chr_gen E l pre s :
  ends E (RChr l) (pre, s) = match s with c :: t => if chr_eq E c l then [(c :: pre, t)] else [] | [] => [] end.
Proof. reflexivity. Qed.

Lemma ends_lit_then E r : forall l pre s,
  ends E (rx_lit_then l r) (pre, s) =
  if lit_pre E l s then ends E r (rev (firstn (length l) s) ++ pre, skipn (length l) s) else [].
Proof.
  induction l as [|x l IH]; intros pre s; [reflexivity|].
  cbn [rx_lit_then lit_pre length]. rewrite ends_seq, ends_chr_gen. destruct s as [|c t]; [reflexivity|].
  destruct (chr_eq E c x); [|reflexivity]. cbn [flat_map andb]. rewrite app_nil_r, IH.
  cbn [firstn skipn rev]. rewrite <- app_assoc. reflexivity.
Qed.

Lemma flat_map_singleton {A} (l : list A) : flat_map (fun x => [x]) l = l.
Proof. induction l as [|x l IH]; [reflexivity|]. cbn. rewrite IH. reflexivity. Qed.

Lemma ends_lit_as_then E : forall l st, ends E (rx_lit l) st = ends E (rx_lit_then l REps) st.
Proof.
  induction l as [|x l IH]; intros st; [reflexivity|]. destruct l as [|y l'].
  - cbn [rx_lit rx_lit_then]. rewrite ends_seq. cbn [ends]. rewrite flat_map_singleton. reflexivity.
  - change (rx_lit (x :: y :: l')) with (RSeq (RChr x) (rx_lit (y :: l'))).
    cbn [rx_lit_then]. rewrite !ends_seq. apply flat_map_ext. intros st'. apply IH.
Qed.

Lemma ends_lit E l pre s :
  ends E (rx_lit l) (pre, s) =
  if lit_pre E l s then [(rev (firstn (length l) s) ++ pre, skipn (length l) s)] else [].
Proof. rewrite ends_lit_as_then, ends_lit_then. reflexivity. Qed.

Lemma lit_pre_length E : forall l s, lit_pre E l s = true -> length l <= length s.
Proof.
  induction l as [|x l IH]; intros s H; [cbn; lia|]. destruct s as [|c t]; [discriminate|].
  cbn [lit_pre] in H. apply andb_true_iff in H as [_ H]. specialize (IH _ H). cbn [length]. lia.
Qed.

Lemma skipn_length_sub {A} (n : nat) (s : list A) : n <= length s -> length s - length (skipn n s) = n.
Proof. intros H. rewrite skipn_length. lia. Qed.

(* a literal pattern matches exactly when the input starts with the literal *)
Theorem rx_match_lit E l pre s :
  rx_match E (rx_lit l) pre s = if lit_pre E l s then Some (length l) else None.
Proof.
  unfold rx_match. rewrite ends_lit. destruct (lit_pre E l s) eqn:H; [|reflexivity].
  cbn [snd]. rewrite skipn_length_sub by (apply (lit_pre_length E); exact H). reflexivity.
Qed.

(* the keyword pattern `lit\b`: the literal, then a word boundary between the last consumed character and the next *)
Theorem rx_match_kw E l pre s :
  rx_match E (rx_kw l) pre s =
  if (lit_pre E l s && word_boundary E (rev (firstn (length l) s) ++ pre, skipn (length l) s))%bool
  then Some (length l) else None.
Proof.
  unfold rx_match, rx_kw. rewrite ends_lit_then. destruct (lit_pre E l s) eqn:H; [|reflexivity].
  cbn [ends xorb andb].
  destruct (word_boundary E (rev (firstn (length l) s) ++ pre, skipn (length l) s)); cbn; [|reflexivity].
  rewrite skipn_length_sub by (apply (lit_pre_length E); exact H). reflexivity.
Qed.

(* IGNORECASE: blind to the ASCII case of the input *)
Definition ceqv (a b : N) : Prop := lower_ascii a = lower_ascii b.
Definition steqv (s1 s2 : list N * list N) : Prop :=
  Forall2 ceqv (fst s1) (fst s2) /\ Forall2 ceqv (snd s1) (snd s2).

Lemma in_range_iff lo hi c : in_range lo hi c = true <-> (lo <= c <= hi)%N.
Proof. unfold in_range. rewrite andb_true_iff, !N.leb_le. reflexivity. Qed.

Lemma in_range_out lo hi c : (c < lo \/ hi < c)%N -> in_range lo hi c = false.
Proof. intros H. apply not_true_is_false. rewrite in_range_iff. lia. Qed.

(* the two cases of a letter *)
Lemma lower_capital a : (65 <= a <= 90)%N -> lower_ascii a = (a + 32)%N.
Proof. intros H. unfold lower_ascii. rewrite (proj2 (in_range_iff _ _ _) H). reflexivity. Qed.

Lemma upper_capital a : (65 <= a <= 90)%N -> upper_ascii a = a.
Proof. intros H. unfold upper_ascii. rewrite in_range_out by lia. reflexivity. Qed.

Lemma lower_small a : (65 <= a <= 90)%N -> lower_ascii (a + 32) = (a + 32)%N.
Proof. intros H. unfold lower_ascii. rewrite in_range_out by lia. reflexivity. Qed.

Lemma upper_small a : (65 <= a <= 90)%N -> upper_ascii (a + 32) = a.
Proof. intros H. unfold upper_ascii. rewrite (proj2 (in_range_iff _ _ _)) by lia. apply N.add_sub. Qed.

(* lower_ascii only moves a capital a to a + 32: a function that does not tell these two apart is blind to case *)
Lemma fold_invariant {A} (f : N -> A) :
  (forall a, (65 <= a <= 90)%N -> f a = f (a + 32)%N) -> forall c c', ceqv c c' -> f c = f c'.
Proof.
  intros Hf.
  assert (Hl : forall c, f c = f (lower_ascii c)).
  { intros c. unfold lower_ascii. destruct (in_range 65 90 c) eqn:Hc; [|reflexivity]. apply Hf, in_range_iff, Hc. }
  intros c c' Hcc. rewrite (Hl c), (Hl c'), Hcc. reflexivity.
Qed.

Lemma is_word_letter E c : (65 <= c <= 90)%N \/ (97 <= c <= 122)%N -> is_word E c = true.
Proof.
  intros H. unfold is_word. rewrite (proj2 (N.ltb_lt c 128)) by lia.
  destruct H as [H | H]; rewrite (proj2 (in_range_iff _ _ _) H), ?orb_true_r; reflexivity.
Qed.

Lemma is_word_fold E c c' : ceqv c c' -> is_word E c = is_word E c'.
Proof. apply fold_invariant. intros a Ha. rewrite !is_word_letter by lia. reflexivity. Qed.

Lemma eqb10_fold c c' : ceqv c c' -> N.eqb c 10 = N.eqb c' 10.
Proof. apply (fold_invariant (fun c => N.eqb c 10)). intros a Ha. rewrite !(proj2 (N.eqb_neq _ 10)) by lia. reflexivity. Qed.

(* matching a literal character is a function of the folded input character *)
Lemma chr_eq_fold E c c' l : e_ignorecase E = true -> ceqv c c' -> chr_eq E c l = chr_eq E c' l.
Proof.
  intros Hic Hcc. unfold chr_eq. rewrite Hic, Hcc. cbn [andb].
  destruct (N.eqb_spec c l) as [->|H1], (N.eqb_spec c' l) as [->|H2]; cbn [orb]; try reflexivity.
  - rewrite <- Hcc. rewrite N.eqb_refl. reflexivity.
  - rewrite N.eqb_refl. reflexivity.
Qed.

(* a set is asked about the character, its lower-case and its upper-case form: the same three questions for a and a + 32 *)
Lemma set_mem_fold E c c' items : e_ignorecase E = true -> ceqv c c' -> set_mem E c items = set_mem E c' items.
Proof.
  intros Hic. apply (fold_invariant (fun c => set_mem E c items)). intros a Ha. unfold set_mem.
  rewrite Hic, lower_capital, upper_capital, lower_small, upper_small by exact Ha.
  destruct (existsb (item_match E a) items), (existsb (item_match E (a + 32)) items); reflexivity.
Qed.

Lemma steqv_len s1 s2 : steqv s1 s2 -> length (snd s1) = length (snd s2).
Proof. intros [_ H]. apply (Forall2_length _ _ _ H). Qed.

Lemma steqv_refl s : steqv s s.
Proof.
  split.
  - induction (fst s); constructor; [reflexivity | assumption].
  - induction (snd s); constructor; [reflexivity | assumption].
Qed.

Lemma Forall2_flat_map {A B} (R : A -> A -> Prop) (Q : B -> B -> Prop) (f g : A -> list B) l1 l2 :
  Forall2 R l1 l2 -> (forall x y, R x y -> Forall2 Q (f x) (g y)) -> Forall2 Q (flat_map f l1) (flat_map g l2).
Proof.
  intros H Hf. induction H as [|x y l1 l2 Hxy Hl IH]; [constructor|].
  cbn [flat_map]. apply Forall2_app; [apply Hf; exact Hxy | exact IH].
Qed.

Lemma step1_fold (ok : N -> bool) s1 s2 :
  (forall c c', ceqv c c' -> ok c = ok c') -> steqv s1 s2 -> Forall2 steqv (step1 ok s1) (step1 ok s2).
Proof.
  intros Hok [Hp Hr]. unfold step1. destruct s1 as [p1 r1], s2 as [p2 r2]. cbn [fst snd] in *.
  destruct Hr as [|c c' t t' Hc Ht]; [constructor|]. rewrite (Hok c c' Hc).
  destruct (ok c'); [|constructor]. constructor; [|constructor]. split; cbn [fst snd]; [constructor; assumption | exact Ht].
Qed.

Lemma rep_loop_fold step g :
  (forall s1 s2, steqv s1 s2 -> Forall2 steqv (step s1) (step s2)) ->
  forall fuel lo hi s1 s2, steqv s1 s2 ->
  Forall2 steqv (rep_loop step g lo hi fuel s1) (rep_loop step g lo hi fuel s2).
Proof.
  intros Hs. induction fuel as [|f IH]; intros lo hi s1 s2 H12; [constructor|].
  cbn [rep_loop]. destruct lo as [|lo'].
  - destruct (is_zero_opt hi); [constructor; [exact H12 | constructor]|].
    assert (Hmore : Forall2 steqv
      (flat_map (fun st' => if Nat.ltb (length (snd st')) (length (snd s1)) then rep_loop step g 0 (pred_opt hi) f st' else []) (step s1))
      (flat_map (fun st' => if Nat.ltb (length (snd st')) (length (snd s2)) then rep_loop step g 0 (pred_opt hi) f st' else []) (step s2))).
    { apply (Forall2_flat_map steqv steqv); [apply Hs; exact H12|]. intros x y Hxy.
      rewrite (steqv_len _ _ Hxy), (steqv_len _ _ H12).
      destruct (Nat.ltb (length (snd y)) (length (snd s2))); [apply IH; exact Hxy | constructor]. }
    destruct g.
    + apply Forall2_app; [exact Hmore | constructor; [exact H12 | constructor]].
    + constructor; [exact H12 | exact Hmore].
  - apply (Forall2_flat_map steqv steqv); [apply Hs; exact H12|]. intros x y Hxy. apply IH. exact Hxy.
Qed.

Lemma back_fold w : forall s1 s2, steqv s1 s2 ->
  match back w s1, back w s2 with
  | Some b1, Some b2 => steqv b1 b2
  | None, None => True
  | _, _ => False
  end.
Proof.
  induction w as [|w IH]; intros s1 s2 H12; [exact H12|].
  cbn [back]. destruct H12 as [Hp Hr]. destruct s1 as [p1 r1], s2 as [p2 r2]. cbn [fst snd] in *.
  destruct Hp as [|c c' t t' Hc Ht]; [exact I|]. apply IH. split; cbn [fst snd]; [exact Ht | constructor; assumption].
Qed.

Lemma existsb_len_fold (l1 l2 : list (list N * list N)) n :
  Forall2 steqv l1 l2 ->
  existsb (fun st' => Nat.eqb (length (snd st')) n) l1 = existsb (fun st' => Nat.eqb (length (snd st')) n) l2.
Proof.
  intros H. induction H as [|x y l1 l2 Hxy Hl IH]; [reflexivity|]. cbn [existsb]. rewrite (steqv_len _ _ Hxy), IH. reflexivity.
Qed.

Lemma nonempty_fold {A} (R : A -> A -> Prop) l1 l2 : Forall2 R l1 l2 -> nonempty l1 = nonempty l2.
Proof. intros H. destruct H; reflexivity. Qed.

Lemma hd_word_fold E l1 l2 : Forall2 ceqv l1 l2 ->
  match l1 with c :: _ => is_word E c | [] => false end = match l2 with c :: _ => is_word E c | [] => false end.
Proof. intros H. destruct H as [|c c' t t' Hc _]; [reflexivity | apply is_word_fold; exact Hc]. Qed.

Lemma word_boundary_fold E s1 s2 : steqv s1 s2 -> word_boundary E s1 = word_boundary E s2.
Proof. intros [Hp Hr]. unfold word_boundary. rewrite (hd_word_fold E _ _ Hp), (hd_word_fold E _ _ Hr). reflexivity. Qed.

Lemma at_bol_fold E s1 s2 : steqv s1 s2 -> at_bol E s1 = at_bol E s2.
Proof.
  intros [Hp _]. unfold at_bol. destruct Hp as [|c c' t t' Hc _]; [reflexivity|]. rewrite (eqb10_fold _ _ Hc). reflexivity.
Qed.

Lemma at_eol_fold E s1 s2 : steqv s1 s2 -> at_eol E s1 = at_eol E s2.
Proof.
  intros [_ Hr]. unfold at_eol. destruct Hr as [|c c' t t' Hc Ht]; [reflexivity|]. rewrite (eqb10_fold _ _ Hc).
  destruct Ht; reflexivity.
Qed.

Lemma single_or_none (b : bool) s1 s2 : steqv s1 s2 -> Forall2 steqv (if b then [s1] else []) (if b then [s2] else []).
Proof. intros H. destruct b; [constructor; [exact H | constructor] | constructor]. Qed.

(* for EVERY regex of the subset: on inputs that differ only in the case of ASCII letters (before and after the
   position) the successes correspond one to one, in the same order, at the same positions *)
Theorem ends_ignorecase E : e_ignorecase E = true ->
  forall r s1 s2, steqv s1 s2 -> Forall2 steqv (ends E r s1) (ends E r s2).
Proof.
  intros Hic. induction r; intros s1 s2 H12; cbn [ends].
  - constructor; [exact H12 | constructor].
  - apply step1_fold; [|exact H12]. intros a b Hab. apply chr_eq_fold; assumption.
  - apply step1_fold; [|exact H12]. intros a b Hab. rewrite (set_mem_fold E a b items Hic Hab). reflexivity.
  - apply step1_fold; [|exact H12]. intros a b Hab. rewrite (eqb10_fold a b Hab). reflexivity.
  - apply (Forall2_flat_map steqv steqv); [apply IHr1; exact H12 | exact IHr2].
  - apply Forall2_app; [apply IHr1 | apply IHr2]; exact H12.
  - rewrite (steqv_len _ _ H12). apply rep_loop_fold; [exact IHr | exact H12].
  - apply IHr. exact H12.
  - rewrite (nonempty_fold steqv _ _ (IHr _ _ H12)). apply single_or_none. exact H12.
  - pose proof (back_fold w _ _ H12) as Hb. destruct (back w s1) as [b1|], (back w s2) as [b2|]; try contradiction.
    + rewrite (steqv_len _ _ H12). rewrite (existsb_len_fold _ _ _ (IHr _ _ Hb)). apply single_or_none. exact H12.
    + apply single_or_none. exact H12.
  - rewrite (word_boundary_fold E _ _ H12). apply single_or_none. exact H12.
  - rewrite (at_bol_fold E _ _ H12). apply single_or_none. exact H12.
  - rewrite (at_eol_fold E _ _ H12). apply single_or_none. exact H12.
Qed.

Theorem rx_match_ignorecase E r pre1 pre2 rest1 rest2 : e_ignorecase E = true ->
  Forall2 ceqv pre1 pre2 -> Forall2 ceqv rest1 rest2 ->
  rx_match E r pre1 rest1 = rx_match E r pre2 rest2.
Proof.
  intros Hic Hp Hr. unfold rx_match.
  pose proof (ends_ignorecase E Hic r (pre1, rest1) (pre2, rest2) (conj Hp Hr)) as H.
  destruct H as [|x y l1 l2 Hxy _]; [reflexivity|].
  rewrite (steqv_len _ _ Hxy), (Forall2_length _ _ _ Hr). reflexivity.
Qed.

Lemma ceqv_lower c : ceqv (lower_ascii c) c.
Proof.
  unfold ceqv. destruct (in_range 65 90 c) eqn:H.
  - apply in_range_iff in H. rewrite (lower_capital c H). apply lower_small, H.
  - unfold lower_ascii at 2. rewrite H. reflexivity.
Qed.

Lemma ceqv_map_lower l : Forall2 ceqv (map lower_ascii l) l.
Proof. induction l as [|c l IH]; constructor; [apply ceqv_lower | exact IH]. Qed.

(* in particular: lower-casing the whole input does not change any match of an IGNORECASE pattern *)
Corollary rx_match_ignorecase_lower E r pre rest : e_ignorecase E = true ->
  rx_match E r (map lower_ascii pre) (map lower_ascii rest) = rx_match E r pre rest.
Proof. intros Hic. apply rx_match_ignorecase; [exact Hic | apply ceqv_map_lower | apply ceqv_map_lower]. Qed.
