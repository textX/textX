(* Proofs about the FQN scope-provider model (C10): Model/Fqn.v and its extensions in Model/FqnExt.v.

   The provider is specified over the attributes it walks (`contains_w`); for textX objects (`wf_model`)
   these are the containment attributes, so the statements over `contains` are instances.  The search
   through the ancestors is treated once, for an arbitrary per-scope lookup (`outward`). *)
From TxV Require Import Core.Base Model.FqnDefs Gen.SrcFqn Model.Fqn Model.FqnExt.

Lemma first_some_some {A B : Type} (f : A -> option B) (l : list A) (y : B) :
  first_some f l = Some y -> exists x, In x l /\ f x = Some y.
Proof.
  induction l as [|x l IH]; cbn [first_some]; [discriminate|].
  destruct (f x) as [y0|] eqn:E.
  - intros [= <-]. exists x. split; [left; reflexivity | exact E].
  - intros H. destruct (IH H) as [x' [Hin Hf]]. exists x'. split; [right; exact Hin | exact Hf].
Qed.

Lemma first_some_none {A B : Type} (f : A -> option B) (l : list A) :
  first_some f l = None -> forall x, In x l -> f x = None.
Proof.
  induction l as [|x0 l IH]; cbn [first_some]; [intros _ x []|].
  destruct (f x0) eqn:E; [discriminate|]. intros H x [<-|Hin]; [exact E | exact (IH H x Hin)].
Qed.

Lemma first_some_ext {A B : Type} (f g : A -> option B) (l : list A) :
  (forall x, f x = g x) -> first_some f l = first_some g l.
Proof. intro H. induction l as [|x l IH]; cbn [first_some]; [reflexivity|]. rewrite H, IH. reflexivity. Qed.

(* These three lemmas are the only place where the shape of Gen.SrcFqn.src_walked matters. *)
Lemma src_walked_meaning (a : attr) : src_walked a = walked_meaning a.
Proof.
  unfold walked_meaning.
  change (src_walked a) with (public_name a && negb (a_decl a && negb (a_cont a)) && negb (a_call a))%bool.
  destruct (public_name a), (a_decl a), (a_cont a), (a_call a); reflexivity.
Qed.

(* in the __dict__ of a textX object the walked attributes are the containment attributes: a declared
   attribute has a public name and is not callable, an undeclared one is `parent` or `_tx_*` *)
Lemma src_walked_wf (a : attr) : wf_attr a = true -> src_walked a = (a_decl a && a_cont a)%bool.
Proof.
  rewrite src_walked_meaning. unfold walked_meaning, public_name, wf_attr. destruct (a_decl a).
  - intros ->. reflexivity.
  - destruct (str_eqb (a_name a) parent_name), (is_prefix txpre (a_name a)); try discriminate;
      intros _; cbn [negb andb]; rewrite ?andb_false_r; reflexivity.
Qed.

Lemma src_walked_ref (a : attr) : (a_decl a && negb (a_cont a))%bool = true -> src_walked a = false.
Proof. unfold src_walked. intros ->. cbn [negb]. rewrite andb_false_r. reflexivity. Qed.

Lemma get_lt (m : list obj) (p : nat) (o : obj) : get m p = Some o -> p < length m.
Proof. unfold get. intro H. apply nth_error_Some. rewrite H. discriminate. Qed.

Lemma parent_of_lt (m : list obj) (p q : nat) : parent_of m p = Some q -> p < length m.
Proof. unfold parent_of. destruct (get m p) as [o|] eqn:G; [intros _; exact (get_lt m p o G) | discriminate]. Qed.

Lemma parents_decrease_spec (m : list obj) (p q : nat) : parents_decrease m = true -> parent_of m p = Some q -> q < p.
Proof.
  unfold parents_decrease. rewrite forallb_forall. intros H P.
  assert (In p (seq 0 (length m))) as Hin by (apply in_seq; pose proof (parent_of_lt m p q P); lia).
  specialize (H p Hin). rewrite P in H. apply Nat.ltb_lt. exact H.
Qed.

Lemma wf_model_obj (m : list obj) (p : nat) (o : obj) :
  wf_model m = true -> get m p = Some o ->
  forallb wf_attr (o_attrs o) = true /\ match parent_of m p with Some q => Nat.ltb q p | None => true end = true.
Proof.
  unfold wf_model. rewrite forallb_forall. intros H G.
  assert (In p (seq 0 (length m))) as Hin by (apply in_seq; pose proof (get_lt m p o G); lia).
  specialize (H p Hin). unfold wf_obj in H. rewrite G in H. apply andb_true_iff. exact H.
Qed.

Lemma wf_model_attrs (m : list obj) (p : nat) (o : obj) (a : attr) :
  wf_model m = true -> get m p = Some o -> In a (o_attrs o) -> wf_attr a = true.
Proof.
  intros Hwf G Hin. destruct (wf_model_obj m p o Hwf G) as [H _].
  rewrite forallb_forall in H. exact (H a Hin).
Qed.

Lemma wf_parents_decrease (m : list obj) : wf_model m = true -> parents_decrease m = true.
Proof.
  intro Hwf. unfold parents_decrease. apply forallb_forall. intros p Hin.
  destruct (parent_of m p) as [q|] eqn:P; [|reflexivity].
  unfold parent_of in P. destruct (get m p) as [o|] eqn:G; [|discriminate].
  destruct (wf_model_obj m p o Hwf G) as [_ H]. unfold parent_of in H. rewrite G, P in H. exact H.
Qed.

Lemma named_spec (m : list obj) (nm : list N) (c : nat) : named m nm c = true <-> name_of m c = Some nm.
Proof.
  unfold named. destruct (name_of m c) as [s|]; [|split; discriminate].
  rewrite str_eqb_eq. split; [intros -> | intros [= ->]]; reflexivity.
Qed.

Lemma attr_find_some (m : list obj) (nm : list N) (a : attr) (c : nat) :
  attr_find m nm a = Some c -> in_val c (a_val a) /\ name_of m c = Some nm.
Proof.
  unfold attr_find, in_val. destruct (a_val a) as [|[i|]|l]; try discriminate.
  - destruct (named m nm i) eqn:E; intros [= <-]. split; [reflexivity | apply named_spec; exact E].
  - intro H. apply find_some in H as [Hin Hn]. split; [exact Hin | apply named_spec; exact Hn].
Qed.

Lemma attr_find_none (m : list obj) (nm : list N) (a : attr) :
  attr_find m nm a = None -> forall c, in_val c (a_val a) -> name_of m c <> Some nm.
Proof.
  unfold attr_find, in_val. intros H c Hv Hn. pose proof (proj2 (named_spec m nm c) Hn) as Hb.
  destruct (a_val a) as [|[i|]|l].
  - exact Hv.
  - injection Hv as ->. rewrite Hb in H. discriminate.
  - discriminate.
  - rewrite (find_none _ _ H c Hv) in Hb. discriminate.
Qed.

Lemma find_obj_sound_w (m : list obj) (p : nat) (nm : list N) (c : nat) :
  find_obj src_walked m p nm = Some c -> contains_w m p c /\ name_of m c = Some nm.
Proof.
  unfold find_obj. destruct (get m p) as [o|] eqn:G; [|discriminate].
  intro H. apply first_some_some in H as [a [Hin Hf]]. apply filter_In in Hin as [Hin Hw].
  destruct (attr_find_some m nm a c Hf) as [Hv Hn].
  split; [|exact Hn]. exists o, a. repeat split; assumption.
Qed.

Lemma find_obj_none_w (m : list obj) (p : nat) (nm : list N) :
  find_obj src_walked m p nm = None -> forall c, contains_w m p c -> name_of m c <> Some nm.
Proof.
  unfold find_obj. intros H c (o & a & G & Hin & Hw & Hv). rewrite G in H.
  assert (In a (filter src_walked (o_attrs o))) as Hin' by (apply filter_In; split; assumption).
  exact (attr_find_none m nm a (first_some_none _ _ H a Hin') c Hv).
Qed.

(* the provider returns the first match in __dict__ order: it is the specified one when names are unique *)
Lemma find_obj_complete_w (m : list obj) (p : nat) (nm : list N) (c : nat) :
  contains_w m p c -> name_of m c = Some nm ->
  (forall c1 c2, contains_w m p c1 -> contains_w m p c2 -> name_of m c1 = Some nm -> name_of m c2 = Some nm -> c1 = c2) ->
  find_obj src_walked m p nm = Some c.
Proof.
  intros Hc Hn Hu. destruct (find_obj src_walked m p nm) as [y|] eqn:F.
  - destruct (find_obj_sound_w m p nm y F) as [Hcy Hny]. f_equal. exact (Hu y c Hcy Hc Hny Hn).
  - destruct (find_obj_none_w m p nm F c Hc Hn).
Qed.

Lemma find_path_sound_w (m : list obj) (parts : list (list N)) :
  forall p t, find_path src_walked m p parts = Some t -> chain_w m p parts t.
Proof.
  induction parts as [|nm rest IH]; intros p t; cbn [find_path].
  - intros [= <-]. constructor.
  - destruct (find_obj src_walked m p nm) as [c|] eqn:F; [|discriminate].
    intro H. destruct (find_obj_sound_w m p nm c F) as [Hc Hn].
    econstructor; [exact Hc | exact Hn | exact (IH c t H)].
Qed.

Lemma find_path_complete_w (m : list obj) :
  forall p parts t, chain_w m p parts t -> unique_on_w m parts -> find_path src_walked m p parts = Some t.
Proof.
  intros p parts t Hch. induction Hch as [o | o c nm rest t Hc Hn Hch IH]; intro Hu; cbn [find_path].
  - reflexivity.
  - rewrite (find_obj_complete_w m o nm c Hc Hn (fun c1 c2 => Hu o c1 c2 nm (or_introl eq_refl))).
    apply IH. intros o' c1 c2 n Hin. apply Hu. right. exact Hin.
Qed.

Lemma find_obj_fqn_sound_w conf (m : list obj) (parts : list (list N)) (T s t : nat) :
  find_obj_fqn src_walked conf m s parts T = Some t -> good_w conf m parts T s t.
Proof.
  unfold find_obj_fqn, good_w. destruct (find_path src_walked m s parts) as [t0|] eqn:F; [|discriminate].
  destruct (conforms conf m t0 T) eqn:C; [|discriminate].
  intros [= <-]. split; [apply find_path_sound_w; exact F | exact C].
Qed.

Lemma find_obj_fqn_spec_w conf (m : list obj) (parts : list (list N)) (T s t : nat) :
  unique_on_w m parts -> (find_obj_fqn src_walked conf m s parts T = Some t <-> good_w conf m parts T s t).
Proof.
  intro Hu. split; [apply find_obj_fqn_sound_w|].
  intros [Hch C]. unfold find_obj_fqn. rewrite (find_path_complete_w m s parts t Hch Hu), C. reflexivity.
Qed.

Lemma contains_w_wf (m : list obj) (o c : nat) : wf_model m = true -> (contains_w m o c <-> contains m o c).
Proof.
  intro Hwf. unfold contains_w, contains.
  split; intros (ob & a & G & Hin & H); exists ob, a; (split; [exact G|]); (split; [exact Hin|]);
    pose proof (src_walked_wf a (wf_model_attrs m o ob a Hwf G Hin)) as W.
  - destruct H as [Hw Hv]. rewrite W in Hw. apply andb_true_iff in Hw as [Hd Hc]. repeat split; assumption.
  - destruct H as (Hd & Hc & Hv). rewrite W, Hd, Hc. split; [reflexivity | exact Hv].
Qed.

Lemma chain_w_wf (m : list obj) (s : nat) (parts : list (list N)) (t : nat) :
  wf_model m = true -> (chain_w m s parts t <-> chain m s parts t).
Proof.
  intro Hwf. split; intro H; induction H as [o | o c nm rest t Hc Hn _ IH]; try constructor;
    (econstructor; [apply (contains_w_wf m o c Hwf); exact Hc | exact Hn | exact IH]).
Qed.

Lemma unique_on_w_wf (m : list obj) (parts : list (list N)) : wf_model m = true -> unique_on m parts -> unique_on_w m parts.
Proof. intros Hwf Hu o c1 c2 nm Hin H1 H2. apply (Hu o c1 c2 nm Hin); apply (contains_w_wf m o _ Hwf); assumption. Qed.

Lemma find_obj_fqn_spec conf (m : list obj) (parts : list (list N)) (T s t : nat) :
  wf_model m = true -> unique_on m parts ->
  (find_obj_fqn src_walked conf m s parts T = Some t <-> good conf m s parts T t).
Proof.
  intros Hwf Hu. rewrite (find_obj_fqn_spec_w conf m parts T s t (unique_on_w_wf m parts Hwf Hu)).
  unfold good_w, good. rewrite (chain_w_wf m s parts t Hwf). reflexivity.
Qed.

Lemma siblings_unique_on (m : list obj) (parts : list (list N)) : siblings_unique m -> unique_on m parts.
Proof. intros H o c1 c2 nm _. apply H. Qed.

Lemma scope_at_inv (m : list obj) (r i s : nat) :
  scope_at m r i s ->
  match i with 0 => s = r | S j => exists q, parent_of m r = Some q /\ scope_at m q j s end.
Proof. intro H. destruct H as [r | r q i s P H]; [reflexivity | exists q; split; assumption]. Qed.

Lemma scope_at_fun (m : list obj) (r i s s' : nat) : scope_at m r i s -> scope_at m r i s' -> s = s'.
Proof.
  intro H. revert s'. induction H as [r | r q i s P H IH]; intros s' H'; apply scope_at_inv in H'.
  - symmetry. exact H'.
  - destruct H' as (q' & P' & H'). rewrite P in P'. injection P' as <-. exact (IH s' H').
Qed.

Section Nearest.
  Variable m : list obj.
  Variable G : nat -> nat -> Prop.

  Lemma resolves_g_here (p t : nat) : G p t -> resolves_g m G p t.
  Proof. intro H. exists 0, p. split; [constructor|]. split; [exact H|]. intros j s' t' Hj. lia. Qed.

  Lemma resolves_g_up (p q t : nat) :
    (forall t', ~ G p t') -> parent_of m p = Some q -> resolves_g m G q t -> resolves_g m G p t.
  Proof.
    intros Hp P (i & s & Hs & Hg & Hmin). exists (S i), s.
    split; [econstructor; eassumption|]. split; [exact Hg|].
    intros [|j] s' t' Hj Hs'; apply scope_at_inv in Hs'.
    - subst s'. apply Hp.
    - destruct Hs' as (q' & P' & Hs'). rewrite P in P'. injection P' as <-. apply (Hmin j); [lia | exact Hs'].
  Qed.

  Lemma unresolvable_g_up (p : nat) :
    (forall t', ~ G p t') -> (forall q, parent_of m p = Some q -> unresolvable_g m G q) -> unresolvable_g m G p.
  Proof.
    intros Hp Hq [|i] s t Hs; apply scope_at_inv in Hs.
    - subst s. apply Hp.
    - destruct Hs as (q & P & Hs). exact (Hq q P i s t Hs).
  Qed.

  Lemma resolves_g_not_unresolvable (r t : nat) : resolves_g m G r t -> ~ unresolvable_g m G r.
  Proof. intros (i & s & Hs & Hg & _) U. exact (U i s t Hs Hg). Qed.

  Lemma resolves_g_fun (r t t' : nat) :
    (forall s t t', G s t -> G s t' -> t = t') -> resolves_g m G r t -> resolves_g m G r t' -> t = t'.
  Proof.
    intros G_fun (i & s & Hs & Hg & Hmin) (i' & s' & Hs' & Hg' & Hmin').
    destruct (Nat.lt_trichotomy i i') as [L|[E|L]].
    - destruct (Hmin' i s t L Hs Hg).
    - subst i'. rewrite (scope_at_fun m r i s s' Hs Hs') in Hg. exact (G_fun s' t t' Hg Hg').
    - destruct (Hmin i' s' t' L Hs' Hg').
  Qed.
End Nearest.

(* The search through the ancestors, for any per-scope lookup F that answers exactly the relation G. *)
Section Outward.
  Variable m : list obj.
  Variable F : nat -> option nat.

  Fixpoint outward (fuel : nat) (p : nat) : result :=
    match F p with
    | Some t => Found t
    | None => match parent_of m p with
              | None => Unknown
              | Some q => match fuel with 0 => OutOfFuel | S f => outward f q end
              end
    end.

  Lemma outward_eq (fuel p : nat) :
    outward fuel p = match F p with
                     | Some t => Found t
                     | None => match parent_of m p with
                               | None => Unknown
                               | Some q => match fuel with 0 => OutOfFuel | S f => outward f q end
                               end
                     end.
  Proof. destruct fuel; reflexivity. Qed.

  Variable G : nat -> nat -> Prop.
  Hypothesis HFG : forall s t, F s = Some t <-> G s t.

  Definition answers (p : nat) (r : result) : Prop :=
    match r with Found t => resolves_g m G p t | Unknown => unresolvable_g m G p | OutOfFuel => True end.

  Lemma answers_step (p : nat) (k : nat -> result) :
    (forall q, parent_of m p = Some q -> answers q (k q)) ->
    answers p match F p with
              | Some t => Found t
              | None => match parent_of m p with None => Unknown | Some q => k q end
              end.
  Proof.
    intro Hk. destruct (F p) as [t0|] eqn:E; [apply resolves_g_here, HFG; exact E|].
    assert (forall t', ~ G p t') as Hp by (intros t' Hg; apply HFG in Hg; congruence).
    destruct (parent_of m p) as [q|] eqn:P.
    - specialize (Hk q eq_refl). destruct (k q) as [t| |]; cbn [answers] in *.
      + exact (resolves_g_up m G p q t Hp P Hk).
      + apply unresolvable_g_up; [exact Hp|]. intros q' P'. rewrite P in P'. injection P' as <-. exact Hk.
      + exact I.
    - apply unresolvable_g_up; [exact Hp|]. intros q' P'. rewrite P in P'. discriminate.
  Qed.

  (* partial correctness: by induction on the fuel, whatever the parent links look like *)
  Lemma outward_nearest : forall fuel p, answers p (outward fuel p).
  Proof.
    induction fuel as [|f IH]; intro p; rewrite outward_eq; apply answers_step; intros q _; [exact I | apply IH].
  Qed.

  Hypothesis Hpar : parents_decrease m = true.

  (* termination: the table's length is enough fuel because parents come first *)
  Lemma outward_total : forall p fuel, p <= fuel -> outward fuel p <> OutOfFuel.
  Proof.
    intro p. induction p as [p IH] using lt_wf_ind. intros fuel Hle. rewrite outward_eq.
    destruct (F p); [discriminate|]. destruct (parent_of m p) as [q|] eqn:P; [|discriminate].
    pose proof (parents_decrease_spec m p q Hpar P) as Hq. destruct fuel as [|f]; [lia|]. apply IH; lia.
  Qed.

  (* the two answers exclude each other and the nearest scope's answer is unique, so the implications
     of outward_nearest are equivalences *)
  Lemma outward_exact (p fuel : nat) : p <= fuel ->
    (forall t, outward fuel p = Found t <-> resolves_g m G p t) /\
    (outward fuel p = Unknown <-> unresolvable_g m G p).
  Proof.
    intro Hle. pose proof (outward_nearest fuel p) as A. pose proof (outward_total p fuel Hle) as Tot.
    assert (forall s t t', G s t -> G s t' -> t = t') as G_fun
      by (intros s t t' H H'; apply HFG in H, H'; congruence).
    destruct (outward fuel p) as [t0| |]; cbn [answers] in A.
    - split; [intro t|]; (split; [|intro H]).
      + intros [= <-]. exact A.
      + f_equal. exact (resolves_g_fun m G p t0 t G_fun A H).
      + discriminate.
      + destruct (resolves_g_not_unresolvable m G p t0 A H).
    - split; [intro t|]; (split; [|intro H]).
      + discriminate.
      + destruct (resolves_g_not_unresolvable m G p t H A).
      + intros _. exact A.
      + reflexivity.
    - destruct (Tot eq_refl).
  Qed.

  (* the same for a caller with the four-valued answer of the redirecting provider *)
  Lemma outward_exact_lifted (p fuel : nat) : p <= fuel ->
    (forall t, lift_result (outward fuel p) = XFound t <-> resolves_g m G p t) /\
    (lift_result (outward fuel p) = XUnknown <-> unresolvable_g m G p) /\
    lift_result (outward fuel p) <> XOutOfFuel /\ lift_result (outward fuel p) <> XPostponed.
  Proof.
    intro Hle. destruct (outward_exact p fuel Hle) as [Hf Hk]. pose proof (outward_total p fuel Hle) as Tot.
    destruct (outward fuel p) as [t0| |]; cbn [lift_result].
    - split; [intro t; rewrite <- Hf; split; intros [= <-]; reflexivity|].
      split; [rewrite <- Hk; split; discriminate|]. split; discriminate.
    - split; [intro t; rewrite <- Hf; split; discriminate|].
      split; [rewrite <- Hk; split; reflexivity|]. split; discriminate.
    - destruct (Tot eq_refl).
  Qed.
End Outward.

Lemma outward_sound (m : list obj) (F : nat -> option nat) (fuel p t : nat) :
  outward m F fuel p = Found t -> exists i s, scope_at m p i s /\ F s = Some t.
Proof.
  intro H. pose proof (outward_nearest m F (fun s t => F s = Some t) (fun s t => iff_refl _) fuel p) as A.
  rewrite H in A. destruct A as (i & s & Hs & Hf & _). exists i, s. split; assumption.
Qed.

Lemma find_referenced_outward (walked : attr -> bool) conf (m : list obj) (parts : list (list N)) (T : nat) :
  forall fuel p, find_referenced walked conf fuel m p parts T
                 = outward m (fun s => find_obj_fqn walked conf m s parts T) fuel p.
Proof.
  induction fuel as [|f IH]; intro p; cbn [find_referenced outward]; [reflexivity|].
  destruct (find_obj_fqn walked conf m p parts T); [reflexivity|]. destruct (parent_of m p); [apply IH | reflexivity].
Qed.

Lemma fqn_resolve_exact conf (m : list obj) (r : nat) (text : list N) (T : nat) (G : nat -> nat -> Prop) :
  parents_decrease m = true -> r < length m ->
  (forall s t, find_obj_fqn src_walked conf m s (split_dots text) T = Some t <-> G s t) ->
  (forall t, fqn_resolve conf m r text T = Found t <-> resolves_g m G r t) /\
  (fqn_resolve conf m r text T = Unknown <-> unresolvable_g m G r).
Proof.
  intros Hp Hr HFG. unfold fqn_resolve, fqn_resolve_with. rewrite find_referenced_outward.
  apply outward_exact; [exact HFG | exact Hp | lia].
Qed.

Lemma fqn_resolve_w conf (m : list obj) (r : nat) (text : list N) (T : nat) :
  parents_decrease m = true -> r < length m -> unique_on_w m (split_dots text) ->
  (forall t, fqn_resolve conf m r text T = Found t <-> resolves_g m (good_w conf m (split_dots text) T) r t) /\
  (fqn_resolve conf m r text T = Unknown <-> unresolvable_g m (good_w conf m (split_dots text) T) r).
Proof.
  intros Hp Hr Hu. apply fqn_resolve_exact; [exact Hp | exact Hr|].
  intros s t. apply find_obj_fqn_spec_w. exact Hu.
Qed.

Lemma fqn_resolve_wf conf (m : list obj) (r : nat) (text : list N) (T : nat) :
  wf_model m = true -> r < length m -> unique_on m (split_dots text) ->
  (forall t, fqn_resolve conf m r text T = Found t <-> resolves_to conf m r (split_dots text) T t) /\
  (fqn_resolve conf m r text T = Unknown <-> unresolvable conf m r (split_dots text) T).
Proof.
  intros Hwf Hr Hu.
  apply (fqn_resolve_exact conf m r text T (fun s t => good conf m s (split_dots text) T t));
    [exact (wf_parents_decrease m Hwf) | exact Hr|].
  intros s t. apply find_obj_fqn_spec; assumption.
Qed.

Lemma fqn_total_w conf (m : list obj) (r : nat) (text : list N) (T : nat) :
  parents_decrease m = true -> r < length m -> fqn_resolve conf m r text T <> OutOfFuel.
Proof.
  intros Hp Hr. unfold fqn_resolve, fqn_resolve_with. rewrite find_referenced_outward.
  apply outward_total; [exact Hp | lia].
Qed.

Lemma fqn_genuine_w conf (m : list obj) (r : nat) (text : list N) (T t : nat) :
  fqn_resolve conf m r text T = Found t ->
  exists i s, scope_at m r i s /\ chain_w m s (split_dots text) t /\ conforms conf m t T = true.
Proof.
  unfold fqn_resolve, fqn_resolve_with. rewrite find_referenced_outward. intro H.
  apply outward_sound in H as (i & s & Hs & Hf). exists i, s. split; [exact Hs|].
  exact (find_obj_fqn_sound_w conf m (split_dots text) T s t Hf).
Qed.

(* Erasing the values of non-containment references changes no step of the search. *)
Lemma get_erase (m : list obj) (i : nat) : get (erase_refs m) i = option_map erase_obj (get m i).
Proof. unfold get, erase_refs. apply nth_error_map. Qed.

Lemma named_erase (m : list obj) (nm : list N) (i : nat) : named (erase_refs m) nm i = named m nm i.
Proof. unfold named, name_of. rewrite get_erase. destruct (get m i); reflexivity. Qed.

Lemma attr_find_erase (m : list obj) (nm : list N) (a : attr) : attr_find (erase_refs m) nm a = attr_find m nm a.
Proof.
  unfold attr_find. destruct (a_val a) as [|[i|]|l]; try reflexivity.
  - rewrite named_erase. reflexivity.
  - induction l as [|x l IH]; cbn [find]; [reflexivity|]. rewrite named_erase, IH. reflexivity.
Qed.

(* an erased attribute was not walked, and still is not *)
Lemma filter_walked_erase (l : list attr) : filter src_walked (map erase_attr l) = filter src_walked l.
Proof.
  induction l as [|a l IH]; cbn [map filter]; [reflexivity|].
  unfold erase_attr at 1. destruct (a_decl a && negb (a_cont a))%bool eqn:E.
  - rewrite (src_walked_ref a E). rewrite src_walked_ref by exact E. exact IH.
  - rewrite IH. unfold erase_attr. rewrite E. reflexivity.
Qed.

Lemma find_obj_erase (m : list obj) (p : nat) (nm : list N) :
  find_obj src_walked (erase_refs m) p nm = find_obj src_walked m p nm.
Proof.
  unfold find_obj. rewrite get_erase. destruct (get m p) as [o|]; cbn [option_map]; [|reflexivity].
  cbn [erase_obj o_attrs]. rewrite filter_walked_erase. apply first_some_ext. intro a. apply attr_find_erase.
Qed.

Lemma find_path_erase (m : list obj) (parts : list (list N)) :
  forall p, find_path src_walked (erase_refs m) p parts = find_path src_walked m p parts.
Proof.
  induction parts as [|nm rest IH]; intro p; cbn [find_path]; [reflexivity|].
  rewrite find_obj_erase. destruct (find_obj src_walked m p nm); [apply IH | reflexivity].
Qed.

Lemma find_obj_fqn_erase conf (m : list obj) (p : nat) (parts : list (list N)) (T : nat) :
  find_obj_fqn src_walked conf (erase_refs m) p parts T = find_obj_fqn src_walked conf m p parts T.
Proof.
  unfold find_obj_fqn, conforms, cls_of. rewrite find_path_erase.
  destruct (find_path src_walked m p parts) as [t|]; [rewrite get_erase; destruct (get m t)|]; reflexivity.
Qed.

Lemma find_name_map (l : list attr) :
  find (fun a => str_eqb (a_name a) parent_name) (map erase_attr l)
  = option_map erase_attr (find (fun a => str_eqb (a_name a) parent_name) l).
Proof.
  induction l as [|a l IH]; cbn [map find option_map]; [reflexivity|].
  assert (a_name (erase_attr a) = a_name a) as En.
  { unfold erase_attr. destruct (a_decl a && negb (a_cont a))%bool; reflexivity. }
  rewrite En. destruct (str_eqb (a_name a) parent_name); [reflexivity | exact IH].
Qed.

(* the `parent` entry of a textX object is not a declared attribute, so it is not erased *)
Lemma parent_of_erase (m : list obj) (p : nat) : wf_model m = true -> parent_of (erase_refs m) p = parent_of m p.
Proof.
  intro Hwf. unfold parent_of. rewrite get_erase. destruct (get m p) as [o|] eqn:G; cbn [option_map]; [|reflexivity].
  cbn [erase_obj o_attrs]. rewrite find_name_map.
  destruct (find (fun a => str_eqb (a_name a) parent_name) (o_attrs o)) as [a|] eqn:F; cbn [option_map]; [|reflexivity].
  apply find_some in F as [Hin Hn].
  pose proof (wf_model_attrs m p o a Hwf G Hin) as Hwa.
  unfold wf_attr in Hwa. unfold erase_attr. destruct (a_decl a) eqn:D; cbn [andb]; [|reflexivity].
  rewrite Hn in Hwa. cbn in Hwa. rewrite andb_false_r in Hwa. discriminate.
Qed.

Lemma find_referenced_erase conf (m : list obj) (parts : list (list N)) (T : nat) :
  wf_model m = true -> forall fuel p,
  find_referenced src_walked conf fuel (erase_refs m) p parts T = find_referenced src_walked conf fuel m p parts T.
Proof.
  intro Hwf. induction fuel as [|f IH]; intro p; cbn [find_referenced];
    rewrite find_obj_fqn_erase, parent_of_erase by exact Hwf; [reflexivity|].
  destruct (find_obj_fqn src_walked conf m p parts T); [reflexivity|].
  destruct (parent_of m p); [apply IH | reflexivity].
Qed.

Lemma fqn_resolve_erase conf (m : list obj) (r : nat) (text : list N) (T : nat) :
  wf_model m = true -> fqn_resolve conf (erase_refs m) r text T = fqn_resolve conf m r text T.
Proof.
  intro Hwf. unfold fqn_resolve, fqn_resolve_with. unfold erase_refs at 1. rewrite map_length.
  apply find_referenced_erase. exact Hwf.
Qed.

Lemma uniq_names_sound (m : list obj) (l : list nat) :
  uniq_names m l = true -> forall c1 c2 nm, In c1 l -> In c2 l ->
  name_of m c1 = Some nm -> name_of m c2 = Some nm -> c1 = c2.
Proof.
  induction l as [|c l IH]; cbn [uniq_names]; [intros _ c1 c2 nm []|].
  intro H. apply andb_true_iff in H as [Hh Ht]. rewrite forallb_forall in Hh.
  assert (forall x nm, In x l -> name_of m c = Some nm -> name_of m x = Some nm -> c = x) as Hhead.
  { intros x nm Hin Hc Hx. pose proof (Hh x Hin) as Hd. unfold same_name_distinct in Hd.
    rewrite Hc, Hx, str_eqb_refl in Hd. cbn in Hd. rewrite negb_involutive in Hd.
    apply Nat.eqb_eq. exact Hd. }
  intros c1 c2 nm [E1|I1] [E2|I2] N1 N2.
  - congruence.
  - subst c1. exact (Hhead c2 nm I2 N1 N2).
  - subst c2. symmetry. exact (Hhead c1 nm I1 N2 N1).
  - exact (IH Ht c1 c2 nm I1 I2 N1 N2).
Qed.

Lemma contains_children (m : list obj) (o c : nat) :
  contains m o c -> exists ob, get m o = Some ob /\ In c (children_of ob).
Proof.
  intros (ob & a & G & Hin & Hd & Hc & Hv). exists ob. split; [exact G|].
  unfold children_of. apply in_flat_map. exists a. split; [exact Hin|].
  rewrite Hd, Hc. cbn [andb]. unfold in_val in Hv. destruct (a_val a) as [|[i|]|l].
  - contradiction.
  - injection Hv as ->. left. reflexivity.
  - discriminate.
  - exact Hv.
Qed.

Lemma split_nodot (p : list N) : ~ In 46%N p -> split_dots p = [p].
Proof.
  induction p as [|c p IH]; cbn [split_dots]; [reflexivity|].
  intro H. destruct (N.eqb c 46) eqn:E.
  - apply N.eqb_eq in E. exfalso. apply H. left. exact E.
  - rewrite IH; [reflexivity|]. intro Hin. apply H. right. exact Hin.
Qed.

Lemma split_app (p s : list N) : ~ In 46%N p -> split_dots (p ++ 46%N :: s) = p :: split_dots s.
Proof.
  induction p as [|c p IH]; cbn [split_dots app].
  - intros _. reflexivity.
  - intro H. destruct (N.eqb c 46) eqn:E.
    + apply N.eqb_eq in E. exfalso. apply H. left. exact E.
    + rewrite IH; [reflexivity|]. intro Hin. apply H. right. exact Hin.
Qed.

Lemma multi_resolves_cons (R : nat -> nat -> Prop) (U : nat -> Prop) (s : nat) (rest : list nat) (t : nat) :
  multi_resolves R U (s :: rest) t <-> R s t \/ U s /\ multi_resolves R U rest t.
Proof.
  split.
  - intros ([|k] & s1 & Hn & Hr & Hmin).
    + injection Hn as <-. left. exact Hr.
    + right. split; [apply (Hmin 0 s); [lia | reflexivity]|].
      exists k, s1. split; [exact Hn|]. split; [exact Hr|].
      intros j s' Hj Hn'. apply (Hmin (S j) s'); [lia | exact Hn'].
  - intros [Hr | [Hu (k & s1 & Hn & Hr & Hmin)]].
    + exists 0, s. split; [reflexivity|]. split; [exact Hr|]. intros j s' Hj. lia.
    + exists (S k), s1. split; [exact Hn|]. split; [exact Hr|].
      intros [|j] s' Hj Hn'; [injection Hn' as <-; exact Hu | apply (Hmin j s'); [lia | exact Hn']].
Qed.

Section Multi.
  Variable f : nat -> result.
  Variable R : nat -> nat -> Prop.
  Variable U : nat -> Prop.

  Lemma first_found_found (starts : list nat) :
    (forall s, In s starts -> (forall t, f s = Found t <-> R s t) /\ (f s = Unknown <-> U s) /\ f s <> OutOfFuel) ->
    forall t, first_found f starts = Found t <-> multi_resolves R U starts t.
  Proof.
    induction starts as [|s rest IH]; intros H t; cbn [first_found].
    - split; [discriminate|]. intros (k & s & Hn & _). destruct k; discriminate.
    - destruct (H s (or_introl eq_refl)) as (HR & HU & HO).
      rewrite multi_resolves_cons, <- HR, <- HU, <- (IH (fun x Hx => H x (or_intror Hx)) t).
      destruct (f s) as [t0| |].
      + split; [left; assumption | intros [E'|[E' _]]; [exact E' | discriminate]].
      + split; [right; split; [reflexivity | assumption] | intros [E'|[_ E']]; [discriminate | exact E']].
      + destruct (HO eq_refl).
  Qed.

  Lemma first_found_unknown (starts : list nat) :
    (forall s, In s starts -> (f s = Unknown <-> U s) /\ f s <> OutOfFuel) ->
    first_found f starts = Unknown <-> multi_unresolvable U starts.
  Proof.
    induction starts as [|s rest IH]; intro H; cbn [first_found].
    - split; [intros _ s [] | reflexivity].
    - destruct (H s (or_introl eq_refl)) as (HU & HO). specialize (IH (fun x Hx => H x (or_intror Hx))).
      destruct (f s) as [t0| |].
      + split; [discriminate|]. intro M. apply HU, M. left. reflexivity.
      + rewrite IH. split.
        * intros M x [<-|Hx]; [apply HU; reflexivity | exact (M x Hx)].
        * intros M x Hx. exact (M x (or_intror Hx)).
      + destruct (HO eq_refl).
  Qed.
End Multi.

Lemma first_fo_obj (f : nat -> fo) (l : list nat) (c : nat) :
  first_fo f l = FObj c -> exists x, In x l /\ f x = FObj c.
Proof.
  induction l as [|x l IH]; cbn [first_fo]; [discriminate|].
  destruct (f x) as [|c0| |] eqn:E; try discriminate.
  - intro H. destruct (IH H) as [y [Hy Hf]]. exists y. split; [right; exact Hy | exact Hf].
  - intros [= <-]. exists x. split; [left; reflexivity | exact E].
Qed.

Section RedirectProofs.
  Variable conf : nat -> nat -> bool.
  Variable redir : nat -> rres.

  Lemma own_sound (cur : nat) (m : list obj) (p : nat) (nm : list N) (c : nat) :
    own src_walked m p nm = FObj c -> reach redir cur m p c /\ name_of m c = Some nm.
  Proof.
    unfold own. destruct (find_obj src_walked m p nm) as [c0|] eqn:F; [|discriminate].
    intros [= <-]. destruct (find_obj_sound_w m p nm c0 F) as [Hc Hn]. split; [apply reach_own; exact Hc | exact Hn].
  Qed.

  Lemma find_obj_r_sound (cur : nat) (m : list obj) (nm : list N) :
    forall fuel p c, find_obj_r src_walked redir cur fuel m p nm = FObj c ->
                     reach redir cur m p c /\ name_of m c = Some nm.
  Proof.
    induction fuel as [|f IH]; intros p c; cbn [find_obj_r]; [discriminate|].
    destruct (Nat.eqb p cur) eqn:Ecur.
    - apply own_sound.
    - destruct (redir p) as [l|] eqn:Er; [|discriminate].
      destruct (first_fo (fun x => find_obj_r src_walked redir cur f m x nm) l) as [|c0| |] eqn:Ef; try discriminate.
      + apply own_sound.
      + intros [= <-]. apply first_fo_obj in Ef as [x [Hx Hfx]].
        destruct (IH x c0 Hfx) as [Hr Hn]. split; [|exact Hn]. eapply reach_red; eassumption.
  Qed.

  Lemma find_path_r_sound (cur rf : nat) (m : list obj) (parts : list (list N)) :
    forall p t, find_path_r src_walked redir cur rf m p parts = FObj t -> chain_r redir cur m p parts t.
  Proof.
    induction parts as [|nm rest IH]; intros p t; cbn [find_path_r].
    - intros [= <-]. constructor.
    - destruct (find_obj_r src_walked redir cur rf m p nm) as [|c| |] eqn:F; try discriminate.
      intro H. destruct (find_obj_r_sound cur m nm rf p c F) as [Hr Hn].
      econstructor; [exact Hr | exact Hn | exact (IH c t H)].
  Qed.

  Lemma find_obj_fqn_r_sound (cur rf : nat) (m : list obj) (parts : list (list N)) (T p t : nat) :
    find_obj_fqn_r src_walked conf redir cur rf m p parts T = FObj t -> good_r conf redir cur m T parts p t.
  Proof.
    unfold find_obj_fqn_r, good_r.
    destruct (find_path_r src_walked redir cur rf m p parts) as [|t0| |] eqn:F; try discriminate.
    destruct (conforms conf m t0 T) eqn:C; [|discriminate].
    intros [= <-]. split; [apply (find_path_r_sound cur rf); exact F | exact C].
  Qed.

  (* whatever is found with redirection ends a chain of named objects each reached from the previous one
     by containment (walked attributes) or through the objects standing in for it *)
  Lemma find_referenced_r_sound (cur rf : nat) (m : list obj) (parts : list (list N)) (T : nat) :
    forall fuel p t, find_referenced_r src_walked conf redir cur fuel rf m p parts T = XFound t ->
    exists i s, scope_at m p i s /\ good_r conf redir cur m T parts s t.
  Proof.
    induction fuel as [|f IH]; intros p t; cbn [find_referenced_r];
      pose proof (find_obj_fqn_r_sound cur rf m parts T p) as Here;
      destruct (find_obj_fqn_r src_walked conf redir cur rf m p parts T) as [|t0| |]; try discriminate.
    2, 4: intros [= <-]; exists 0, p; split; [constructor | exact (Here t0 eq_refl)].
    all: destruct (parent_of m p) as [q|] eqn:P; try discriminate.
    intro H. destruct (IH q t H) as (i & s & Hs & Hg). exists (S i), s. split; [econstructor; eassumption | exact Hg].
  Qed.

  (* a redirection callback that always answers [] changes nothing *)
  Hypothesis Hempty : forall p, redir p = RList [].

  Lemma find_obj_r_empty (cur f : nat) (m : list obj) (p : nat) (nm : list N) :
    find_obj_r src_walked redir cur (S f) m p nm = own src_walked m p nm.
  Proof. cbn [find_obj_r]. destruct (Nat.eqb p cur); [reflexivity|]. rewrite Hempty. reflexivity. Qed.

  Lemma find_path_r_empty (cur f : nat) (m : list obj) (parts : list (list N)) :
    forall p, find_path_r src_walked redir cur (S f) m p parts
              = match find_path src_walked m p parts with Some t => FObj t | None => FNone end.
  Proof.
    induction parts as [|nm rest IH]; intro p; cbn [find_path_r find_path]; [reflexivity|].
    rewrite find_obj_r_empty. unfold own. destruct (find_obj src_walked m p nm); [apply IH | reflexivity].
  Qed.

  Lemma find_referenced_r_empty (cur f : nat) (m : list obj) (parts : list (list N)) (T : nat) :
    forall fuel p, find_referenced_r src_walked conf redir cur fuel (S f) m p parts T
                   = lift_result (find_referenced src_walked conf fuel m p parts T).
  Proof.
    induction fuel as [|fu IH]; intro p; cbn [find_referenced_r find_referenced];
      unfold find_obj_fqn_r, find_obj_fqn; rewrite find_path_r_empty;
      destruct (find_path src_walked m p parts) as [t|]; try (destruct (conforms conf m t T)); try reflexivity;
      destruct (parent_of m p); try reflexivity; apply IH.
  Qed.
End RedirectProofs.

(* Exactness for callbacks that answer lists of objects which are not redirected themselves. *)
Definition decided (r : fo) : Prop := match r with FNone | FObj _ => True | FPost | FOut => False end.

Lemma own_decided (m : list obj) (p : nat) (nm : list N) : decided (own src_walked m p nm).
Proof. unfold own. destruct (find_obj src_walked m p nm); exact I. Qed.

Lemma first_fo_decided (f : nat -> fo) (l : list nat) : (forall x, decided (f x)) -> decided (first_fo f l).
Proof.
  intro H. induction l as [|x l IH]; cbn [first_fo]; [exact I|].
  pose proof (H x) as D. destruct (f x); [exact IH | exact D ..].
Qed.

Lemma first_fo_ext (f g : nat -> fo) (l : list nat) : (forall x, In x l -> f x = g x) -> first_fo f l = first_fo g l.
Proof.
  induction l as [|x l IH]; intro H; cbn [first_fo]; [reflexivity|].
  rewrite (H x (or_introl eq_refl)), IH; [reflexivity|]. intros y Hy. apply H. right. exact Hy.
Qed.

Lemma first_fo_none (f : nat -> fo) (l : list nat) : first_fo f l = FNone -> forall x, In x l -> f x = FNone.
Proof.
  induction l as [|x l IH]; cbn [first_fo]; [intros _ y []|].
  destruct (f x) eqn:E; try discriminate. intros H y [Hy|Hy]; [subst y; exact E | exact (IH H y Hy)].
Qed.

Section RedirectExact.
  Variable conf : nat -> nat -> bool.
  Variable redir : nat -> rres.
  Variable cur : nat.
  Variable m : list obj.
  Hypothesis Hlist : forall p, exists l, redir p = RList l.
  Hypothesis Hflat : forall p l x, redir p = RList l -> In x l -> redir x = RList [].

  (* with two levels of fuel a flat callback is followed to the end: stand-ins first, then the object itself *)
  Lemma find_obj_r_two (f p : nat) (nm : list N) :
    find_obj_r src_walked redir cur (S (S f)) m p nm =
    if Nat.eqb p cur then own src_walked m p nm
    else match redir p with
         | RPost => FPost
         | RList l => match first_fo (fun x => own src_walked m x nm) l with FNone => own src_walked m p nm | r => r end
         end.
  Proof.
    cbn [find_obj_r]. destruct (Nat.eqb p cur); [reflexivity|]. destruct (redir p) as [l|] eqn:E; [|reflexivity].
    rewrite (first_fo_ext _ (fun x => own src_walked m x nm) l); [reflexivity|].
    intros x Hx. destruct (Nat.eqb x cur); [reflexivity|]. rewrite (Hflat p l x E Hx). reflexivity.
  Qed.

  Lemma find_obj_r_decided (f p : nat) (nm : list N) : decided (find_obj_r src_walked redir cur (S (S f)) m p nm).
  Proof.
    rewrite find_obj_r_two. destruct (Nat.eqb p cur); [apply own_decided|].
    destruct (Hlist p) as [l E]. rewrite E.
    pose proof (first_fo_decided _ l (fun x => own_decided m x nm)) as D.
    destruct (first_fo (fun x => own src_walked m x nm) l); [apply own_decided | exact D ..].
  Qed.

  Lemma reach_flat (x c : nat) : redir x = RList [] -> reach redir cur m x c -> contains_w m x c.
  Proof.
    intros H R. destruct R as [o c Hc | o l y c He Hr Hin Hry]; [exact Hc|].
    rewrite H in Hr. injection Hr as <-. destruct Hin.
  Qed.

  Section AtName.
    Variable nm : list N.
    Hypothesis Hu : forall o c1 c2, reach redir cur m o c1 -> reach redir cur m o c2 ->
                                    name_of m c1 = Some nm -> name_of m c2 = Some nm -> c1 = c2.

    Lemma own_complete_r (p c : nat) : contains_w m p c -> name_of m c = Some nm -> own src_walked m p nm = FObj c.
    Proof.
      intros Hc Hn. unfold own. rewrite (find_obj_complete_w m p nm c Hc Hn); [reflexivity|].
      intros c1 c2 H1 H2 N1 N2. exact (Hu p c1 c2 (reach_own redir cur m p c1 H1) (reach_own redir cur m p c2 H2) N1 N2).
    Qed.

    Lemma find_obj_r_complete (f p c : nat) :
      reach redir cur m p c -> name_of m c = Some nm -> find_obj_r src_walked redir cur (S (S f)) m p nm = FObj c.
    Proof.
      intros R Hn. rewrite find_obj_r_two. destruct (Nat.eqb p cur) eqn:Ecur.
      - inversion R as [o c0 Hc | o l y c0 He Hr Hin Hry]; subst; [apply own_complete_r; assumption|].
        rewrite Ecur in He. discriminate.
      - destruct (Hlist p) as [l E]. rewrite E.
        pose proof (first_fo_decided _ l (fun x => own_decided m x nm)) as D.
        destruct (first_fo (fun x => own src_walked m x nm) l) as [|c'| |] eqn:E1; try destruct D.
        + inversion R as [o c0 Hc | o l' y c0 He Hr Hin Hry]; subst; [apply own_complete_r; assumption|].
          exfalso. rewrite E in Hr. inversion Hr; subst l'.
          pose proof (first_fo_none _ l E1 y Hin) as Hy. cbn beta in Hy. unfold own in Hy.
          destruct (find_obj src_walked m y nm) eqn:Fy; [discriminate|].
          apply (find_obj_none_w m y nm Fy c); [|exact Hn]. apply reach_flat; [exact (Hflat p l y E Hin) | exact Hry].
        + f_equal. apply first_fo_obj in E1 as [x [Hx Hox]]. destruct (own_sound redir cur m x nm c' Hox) as [Hc' Hn'].
          apply (Hu p); [eapply reach_red; [exact Ecur | exact E | exact Hx | exact Hc'] | exact R | exact Hn' | exact Hn].
    Qed.
  End AtName.

  Variable T : nat.
  Local Notation good_r := (Model.FqnExt.good_r conf redir cur m T).
  Local Notation unique_on_r := (Model.FqnExt.unique_on_r redir cur m).

  Lemma find_path_r_complete (f : nat) : forall p parts t, chain_r redir cur m p parts t -> unique_on_r parts ->
    find_path_r src_walked redir cur (S (S f)) m p parts = FObj t.
  Proof.
    intros p parts t Hch. induction Hch as [o | o c nm rest t Hc Hn Hch IH]; intro Hu; cbn [find_path_r]; [reflexivity|].
    rewrite (find_obj_r_complete nm (fun o' c1 c2 => Hu o' c1 c2 nm (or_introl eq_refl)) f o c Hc Hn).
    apply IH. intros o' c1 c2 n Hin. apply Hu. right. exact Hin.
  Qed.

  Lemma find_path_r_decided (f : nat) : forall parts p, decided (find_path_r src_walked redir cur (S (S f)) m p parts).
  Proof.
    induction parts as [|nm rest IH]; intro p; cbn [find_path_r]; [exact I|].
    pose proof (find_obj_r_decided f p nm) as D.
    destruct (find_obj_r src_walked redir cur (S (S f)) m p nm); [exact I | apply IH | exact D ..].
  Qed.

  Variable parts : list (list N).
  Hypothesis Hu : unique_on_r parts.

  Definition F_r (f : nat) (s : nat) : option nat :=
    match find_obj_fqn_r src_walked conf redir cur (S (S f)) m s parts T with FObj t => Some t | _ => None end.

  Lemma F_r_spec (f s t : nat) : F_r f s = Some t <-> good_r parts s t.
  Proof.
    unfold F_r. split.
    - destruct (find_obj_fqn_r src_walked conf redir cur (S (S f)) m s parts T) as [|t0| |] eqn:E; try discriminate.
      intros [= <-]. exact (find_obj_fqn_r_sound conf redir cur (S (S f)) m parts T s t0 E).
    - intros [Hch C]. unfold find_obj_fqn_r. rewrite (find_path_r_complete f s parts t Hch Hu), C. reflexivity.
  Qed.

  Lemma find_referenced_r_outward (f : nat) : forall fuel p,
    find_referenced_r src_walked conf redir cur fuel (S (S f)) m p parts T = lift_result (outward m (F_r f) fuel p).
  Proof.
    induction fuel as [|fu IH]; intro p; cbn [find_referenced_r outward]; unfold F_r, find_obj_fqn_r;
      pose proof (find_path_r_decided f parts p) as D;
      destruct (find_path_r src_walked redir cur (S (S f)) m p parts) as [|t| |]; try destruct D;
      try (destruct (conforms conf m t T)); try reflexivity; destruct (parent_of m p); try reflexivity; apply IH.
  Qed.
End RedirectExact.
