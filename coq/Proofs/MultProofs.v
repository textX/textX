(* C02 — proofs about Model/Mult.v (multiplicity inference vs. maxcount, builder vs. traces). *)
From Coq Require Import Lia.
From TxV Require Import Core.Base Model.MultBase Gen.SrcMult Model.Mult.

Section BodyInd.
  Variable P : body -> Prop.
  Hypothesis Htok : P BTok.
  Hypothesis Hasg : forall a op, P (BAsg a op).
  Hypothesis Hseq : forall l, Forall P l -> P (BSeq l).
  Hypothesis Halt : forall l, Forall P l -> P (BAlt l).
  Hypothesis Hopt : forall x, P x -> P (BOpt x).
  Hypothesis Hstar : forall x, P x -> P (BStar x).
  Hypothesis Hplus : forall x, P x -> P (BPlus x).
  Hypothesis Hunord : forall l, Forall P l -> P (BUnord l).

  Fixpoint body_ind' (b : body) : P b :=
    let go := fix go (l : list body) : Forall P l :=
      match l with
      | [] => Forall_nil P
      | x :: r => Forall_cons x (body_ind' x) (go r)
      end in
    match b with
    | BTok => Htok
    | BAsg a op => Hasg a op
    | BSeq l => Hseq l (go l)
    | BAlt l => Halt l (go l)
    | BOpt x => Hopt x (body_ind' x)
    | BStar x => Hstar x (body_ind' x)
    | BPlus x => Hplus x (body_ind' x)
    | BUnord l => Hunord l (go l)
    end.
End BodyInd.

(* The facts about the src_* constants are checked by computation against Gen/SrcMult.v, i.e. against the current
   source. *)
Definition many (m : mult) : Prop := is_many m = true.

Lemma src_inherits : src_branch_inherits = true. Proof. reflexivity. Qed.
Lemma src_merged : src_branch_merged = true. Proof. reflexivity. Qed.

Lemma many_is_list m : is_list m = is_many m.
Proof. destruct m; reflexivity. Qed.

Lemma many_dec m : many m \/ ~ many m.
Proof. unfold many. destruct (is_many m); [left; reflexivity | right; discriminate]. Qed.

Lemma promote_many m r : many r -> many (if mult_lt m r then r else m).
Proof. unfold many. destruct m, r; vm_compute; congruence. Qed.

Lemma rep_star_many r : many (src_rep_star r).
Proof. unfold many. destruct r; reflexivity. Qed.

Lemma rep_plus_many r : many (src_rep_plus r).
Proof. unfold many. destruct r; reflexivity. Qed.

Lemma op_base_many op m : many (src_op_base op m) -> many m \/ op = OpStar \/ op = OpPlus.
Proof. unfold many. destruct op, m; vm_compute; intro H; try discriminate; auto. Qed.

Lemma op_base_list_op op m : op = OpStar \/ op = OpPlus -> many (src_op_base op m).
Proof. unfold many. intros [-> | ->]; destruct m; reflexivity. Qed.

Lemma asg_rep_listop op r : op = OpStar \/ op = OpPlus -> many (asg_rep op r).
Proof. intros [-> | ->]; [apply rep_star_many | apply rep_plus_many]. Qed.

Lemma asg_rep_scalar op r : op = OpPlain \/ op = OpBool -> asg_rep op r = r.
Proof. intros [-> | ->]; reflexivity. Qed.

Lemma cap2_ge2 n : 2 <= cap2 n <-> 2 <= n.
Proof. unfold cap2. lia. Qed.
Lemma cap2_le2 n : cap2 n <= 2.
Proof. apply Nat.le_min_l. Qed.
Lemma cap2_le n : cap2 n <= n.
Proof. apply Nat.le_min_r. Qed.
Lemma cap2_add_l a b : cap2 (cap2 a + b) = cap2 (a + b).
Proof. unfold cap2. lia. Qed.
Lemma cap2_add_mono a b a' b' : cap2 a <= a' -> cap2 b <= b' -> cap2 (a + b) <= cap2 (a' + b').
Proof. unfold cap2. lia. Qed.
Lemma cap2_add_sub a b : cap2 (a + b) <= cap2 a + cap2 b.
Proof. unfold cap2. lia. Qed.

Lemma cap2_add_max k c d : cap2 (k + Nat.max c d) = Nat.max (cap2 (k + c)) (cap2 (k + d)).
Proof. unfold cap2. rewrite <- Nat.add_max_distr_l. apply Nat.min_max_distr. Qed.

Lemma list_sum_map_mul {A} w (c : A -> nat) l : list_sum (map (fun x => w * c x) l) = w * list_sum (map c l).
Proof.
  induction l as [|x l IH]; cbn [map list_sum fold_right]; [lia|].
  unfold list_sum in IH. rewrite IH. lia.
Qed.

Lemma list_max_map_mul {A} w (c : A -> nat) l : list_max (map (fun x => w * c x) l) = w * list_max (map c l).
Proof.
  induction l as [|x l IH]; cbn [map list_max fold_right]; [lia|].
  unfold list_max in IH. rewrite IH. apply Nat.mul_max_distr_l.
Qed.

Lemma Forall_flat_map_in {A B} (f : A -> list B) (P : A -> Prop) y l :
  Forall P l -> In y (flat_map f l) -> exists x, In x l /\ P x /\ In y (f x).
Proof.
  rewrite Forall_forall. intros HP Hin. apply in_flat_map in Hin as [x [Hx Hy]]. exists x. auto.
Qed.

Section WalkSpec.
  Variable a : nat.
  Notation st := (bool * mult)%type.

  (* What a state of the walk stands for: the number of values (0, 1, many) that the assignments to a walked so far
     can give to one object.  Once the multiplicity is many-valued the flag no longer matters. *)
  Definition cnt (s : st) : nat := if is_many (snd s) then 2 else if fst s then 1 else 0.

  (* f accounts for c more values *)
  Definition adds (f : st -> st) (c : nat) : Prop := forall s, cnt (f s) = cap2 (cnt s + c).

  Lemma cnt_le2 s : cnt s <= 2.
  Proof. unfold cnt. destruct (is_many (snd s)), (fst s); lia. Qed.

  Lemma cap2_cnt s : cap2 (cnt s) = cnt s.
  Proof. apply Nat.min_r, cnt_le2. Qed.

  Lemma cnt_many s : many (snd s) -> cnt s = 2.
  Proof. unfold cnt. intros ->. reflexivity. Qed.

  Lemma cnt_scalar x m : is_many m = false -> cnt (x, m) = Nat.b2n x.
  Proof. unfold cnt. cbn [fst snd]. intros ->. destruct x; reflexivity. Qed.

  Lemma adds_seq (F : body -> st -> st) (c : body -> nat) l :
    Forall (fun x => adds (F x) (c x)) l ->
    adds (fun s => fold_left (fun s x => F x s) l s) (list_sum (map c l)).
  Proof.
    induction 1 as [|x l Hx Hl IH]; intro s; cbn [fold_left map list_sum fold_right].
    - rewrite Nat.add_0_r. symmetry. apply cap2_cnt.
    - rewrite IH, Hx, cap2_add_l, Nat.add_assoc. reflexivity.
  Qed.

  (* ordered choice: every branch starts from the enclosing flag `seen` and from the multiplicity the previous branch
     left; the flags of the branches are united.  So the branches do not add up: the largest one counts. *)
  Definition alt_step (F : body -> st -> st) (seen : bool) (s : st) (x : body) : st :=
    let o := F x (seen, snd s) in (fst s || fst o, snd o).

  Lemma adds_alt (F : body -> st -> st) (c : body -> nat) l :
    Forall (fun x => adds (F x) (c x)) l ->
    forall seen acc m, cnt (seen, m) <= cnt (acc, m) ->
    cnt (fold_left (alt_step F seen) l (acc, m))
    = Nat.max (cnt (acc, m)) (cap2 (cnt (seen, m) + list_max (map c l))).
  Proof.
    induction 1 as [|x l Hx Hl IH]; intros seen acc m Hle; cbn [fold_left map list_max fold_right].
    - rewrite Nat.add_0_r, cap2_cnt. symmetry. apply Nat.max_l, Hle.
    - fold (list_max (map c l)). unfold alt_step at 2. cbn [fst snd].
      specialize (Hx (seen, m)). set (o := F x (seen, m)) in *. rewrite cap2_add_max, <- Hx.
      destruct (is_many (snd o)) eqn:Eo.
      + (* this branch made the attribute many-valued: both sides are 2 *)
        rewrite IH by (rewrite !(cnt_many (_, snd o)) by exact Eo; apply le_n).
        rewrite !(cnt_many (_, snd o)), (cnt_many o) by exact Eo.
        pose proof (cnt_le2 (acc, m)). pose proof (cap2_le2 (2 + list_max (map c l))).
        pose proof (cap2_le2 (cnt (seen, m) + list_max (map c l))). lia.
      + (* still single-valued, hence so it was before: the counts are the flags *)
        assert (Em : is_many m = false).
        { destruct (is_many m) eqn:Em; [|reflexivity]. rewrite (cnt_many (seen, m) Em) in Hx.
          unfold cnt in Hx. rewrite Eo in Hx. destruct (fst o); discriminate. }
        assert (Eor : Nat.b2n (acc || fst o) = Nat.max (Nat.b2n acc) (Nat.b2n (fst o))) by (destruct acc, (fst o); reflexivity).
        rewrite !(cnt_scalar _ m Em) in *.
        rewrite IH by (rewrite !(cnt_scalar _ _ Eo), Eor; apply Nat.max_le_iff; left; exact Hle).
        rewrite !(cnt_scalar _ _ Eo), Eor. unfold cnt. rewrite Eo. fold (Nat.b2n (fst o)). symmetry. apply Nat.max_assoc.
  Qed.

  (* what one `=`/`?=` counts below a repetition parameter *)
  Definition unit_of (rep : mult) : nat := if is_many rep then 2 else 1.

  (* sequence and unordered group: the members add up *)
  Lemma adds_members rep l :
    Forall (fun x => forall rep, adds (walk true true a x rep) (unit_of rep * maxcount a x)) l ->
    adds (fun s => fold_left (fun s x => walk true true a x rep s) l s) (unit_of rep * cap2 (list_sum (map (maxcount a) l))).
  Proof.
    intros IH s.
    rewrite (adds_seq (fun x => walk true true a x rep) (fun x => unit_of rep * maxcount a x) l)
      by (eapply Forall_impl; [|exact IH]; intros x Hx; apply Hx).
    rewrite list_sum_map_mul. unfold unit_of, cap2. destruct (is_many rep); lia.
  Qed.

  Lemma walk_cnt b : forall rep, adds (walk true true a b rep) (unit_of rep * maxcount a b).
  Proof.
    induction b as [|a' op|l IH|l IH|x IH|x IH|x IH|l IH] using body_ind'; intros rep s; cbn [walk maxcount].
    - (* BTok *) pose proof (cnt_le2 s). unfold cap2. lia.
    - (* BAsg *)
      destruct (Nat.eqb a a'); [|pose proof (cnt_le2 s); unfold cap2; lia].
      destruct (is_many (asg_rep op rep)) eqn:Er.
      + (* a `*=`/`+=`, or any assignment under a many-valued parameter: promoted, whatever the state *)
        rewrite (cnt_many (_, _) (promote_many (snd s) _ Er)).
        assert (2 <= unit_of rep * match op with OpPlain | OpBool => 1 | _ => 2 end)
          by (unfold unit_of; destruct op; cbn [asg_rep] in Er; rewrite ?Er; destruct (is_many rep); lia).
        unfold cap2. lia.
      + (* `=`/`?=` under a single-valued parameter: the second one is the duplicate *)
        assert (E : unit_of rep * match op with OpPlain | OpBool => 1 | _ => 2 end = 1).
        { unfold unit_of. destruct op; cbn [asg_rep] in Er; rewrite ?Er; [reflexivity | reflexivity | |].
          - rewrite (rep_star_many rep) in Er. discriminate.
          - rewrite (rep_plus_many rep) in Er. discriminate. }
        rewrite E. destruct s as [[|] m]; unfold cnt; cbn [fst snd]; destruct (is_many m); reflexivity.
    - (* BSeq *) apply adds_members, IH.
    - (* BAlt *)
      destruct s as [seen m]. cbn [fst snd].
      set (r := fold_left _ l (seen, m)). change (cnt (fst r, snd r)) with (cnt r).
      change r with (fold_left (alt_step (fun x => walk true true a x rep) seen) l (seen, m)). clear r.
      rewrite (adds_alt _ (fun x => unit_of rep * maxcount a x) l) by ((eapply Forall_impl; [|exact IH]; intros x Hx; apply Hx) || lia).
      rewrite list_max_map_mul. pose proof (cnt_le2 (seen, m)). unfold cap2. lia.
    - (* BOpt *) apply IH.
    - (* BStar *)
      rewrite (IH (src_rep_star rep)). unfold unit_of. rewrite (rep_star_many rep).
      unfold cap2. destruct (maxcount a x), (is_many rep); lia.
    - (* BPlus *)
      rewrite (IH (src_rep_plus rep)). unfold unit_of. rewrite (rep_plus_many rep).
      unfold cap2. destruct (maxcount a x), (is_many rep); lia.
    - (* BUnord *) apply adds_members, IH.
  Qed.

  Lemma in_ops_of op b : In op (ops_of a b) <-> In (a, op) (asgs b).
  Proof.
    unfold ops_of. rewrite in_map_iff. split.
    - intros [[a' op'] [E H]]. apply filter_In in H as [H Ea]. cbn [fst snd] in *. apply Nat.eqb_eq in Ea. subst. exact H.
    - intro H. exists (a, op). split; [reflexivity|]. apply filter_In. split; [exact H | apply Nat.eqb_refl].
  Qed.

  (* a `*=`/`+=` on a anywhere in the body makes maxcount many *)
  Lemma listop_maxcount b op :
    In (a, op) (asgs b) -> op = OpStar \/ op = OpPlus -> 2 <= maxcount a b.
  Proof.
    induction b as [|a' op'|l IH|l IH|x IH|x IH|x IH|l IH] using body_ind'; cbn [asgs maxcount]; intros Hin Hop.
    - destruct Hin.
    - destruct Hin as [E|[]]. injection E as <- <-. rewrite Nat.eqb_refl. destruct Hop as [-> | ->]; lia.
    - destruct (Forall_flat_map_in _ _ _ _ IH Hin) as [x [Hx [Px Hin']]].
      apply cap2_ge2. pose proof (list_sum_ge _ _ (in_map (maxcount a) _ _ Hx)). specialize (Px Hin' Hop). lia.
    - destruct (Forall_flat_map_in _ _ _ _ IH Hin) as [x [Hx [Px Hin']]].
      etransitivity; [exact (Px Hin' Hop) | apply list_max_ub, in_map, Hx].
    - apply IH; assumption.
    - specialize (IH Hin Hop). destruct (maxcount a x); lia.
    - specialize (IH Hin Hop). destruct (maxcount a x); lia.
    - destruct (Forall_flat_map_in _ _ _ _ IH Hin) as [x [Hx [Px Hin']]].
      apply cap2_ge2. pose proof (list_sum_ge _ _ (in_map (maxcount a) _ _ Hx)). specialize (Px Hin' Hop). lia.
  Qed.

  Lemma fold_base_many ops m :
    many (fold_left (fun m op => src_op_base op m) ops m) ->
    many m \/ exists op, In op ops /\ (op = OpStar \/ op = OpPlus).
  Proof.
    revert m. induction ops as [|op ops IH]; intros m H; cbn [fold_left] in H; [auto|].
    apply IH in H as [H | [op' [Hin Hop]]].
    - apply op_base_many in H as [H|H]; [auto | right; exists op; split; [left; reflexivity | exact H]].
    - right. exists op'. split; [right; exact Hin | exact Hop].
  Qed.

  Lemma base_many b : many (base a b) -> 2 <= maxcount a b.
  Proof.
    unfold base. intro H. apply fold_base_many in H as [H | [op [Hin Hop]]]; [discriminate H|].
    apply in_ops_of in Hin. eapply listop_maxcount; eassumption.
  Qed.

  (* the main result: list-valued exactly when more than one value can be collected *)
  Theorem infer_list_iff b : is_list (infer b a) = true <-> 2 <= maxcount a b.
  Proof.
    unfold infer, infer_with. rewrite src_inherits, src_merged, many_is_list.
    pose proof (walk_cnt b src_walk_init (false, base a b)) as H.
    set (r := walk true true a b src_walk_init (false, base a b)) in *.
    change (unit_of src_walk_init) with 1 in H. unfold cnt at 1 in H. split.
    - intro Hr. rewrite Hr in H. destruct (is_many (base a b)) eqn:Eb; [apply base_many, Eb|].
      rewrite (cnt_scalar _ _ Eb) in H. unfold cap2 in H. cbn [Nat.b2n] in H. lia.
    - intro Hc. destruct (is_many (snd r)); [reflexivity|]. exfalso. unfold cap2 in H. destruct (fst r); lia.
  Qed.
End WalkSpec.
