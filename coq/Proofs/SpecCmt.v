(* The refinement theorem for tables with a Comment rule that is a single regex terminal, in the
   mode-constant class (no rule-level ws/skipws, no eolterm) with global skipws on.  comment_positions lets
   the interpreter skip comments by a cache hit where the reference semantics re-parses them, so the
   reference side runs with [length input + 2] more units of fuel.  The unary facts about the comment loop
   (relation CL, soundness of the cache) are those of C22 (Proofs/PegCmtSim.v). *)
From TxV Require Import Model.PegWsDefs Proofs.PegWs Proofs.PegWsSim Proofs.PegCmtSim Proofs.PegTerm.
From TxV Require Import Core.Base Model.PegSyntax Model.Peg Model.Spec Proofs.SpecProofs Proofs.SpecSepProofs Proofs.SpecTotal.
Require Import Lia.

Definition mode_free (g : grammar) : bool :=
  forallb (fun nd => opt_none (n_ws nd) && opt_none (n_skipws nd) && negb (n_eolterm nd)) (g_nodes g).
Definition cmt_regex (g : grammar) : option (nat * nat) :=
  match g_comments g with
  | Some cm => match get_node g cm with
               | Some nd => match n_kind nd with KRegex oc => Some (cm, oc) | _ => None end
               | None => None
               end
  | None => None
  end.
(* the class with a Comment rule *)
Definition wfgc (g : grammar) (pf : nat) : bool :=
  (let t := prod_tbl g pf in forallb (node_ok g (fun c => nth c t false)) (g_nodes g)) &&
  mode_free g && match cmt_regex g with Some _ => true | None => false end &&
  Nat.ltb (g_top g) (length (g_nodes g)).

Section Cmt.
Variable g : grammar.
Variable input : list N.
Variable orc : nat -> nat -> option nat.
Variable x0 : sctx.
Variables cm oc : nat.
Variable ndc : node.
Hypothesis Hcm : g_comments g = Some cm.
Hypothesis Hnd : get_node g cm = Some ndc.
Hypothesis Hkd : n_kind ndc = KRegex oc.
Hypothesis Hx_skip : x_skip x0 = true.
Hypothesis Hx_eol : x_eol x0 = false.
Hypothesis Hx_cmt : x_incmt x0 = false.
Hypothesis Hsane : forall p l, orc oc p = Some l -> p + l <= length input.

Notation wset := (x_ws x0).
Notation CLx := (CL input orc wset oc).
Definition CPc (m : list (nat * nat)) : Prop := sound input orc wset oc m.

Lemma sws_sk p : sws input x0 p = sk input wset p.
Proof. unfold sws, sk, eff_ws. rewrite Hx_eol. reflexivity. Qed.

Lemma sk_ge p : p <= sk input wset p.
Proof. unfold sk. apply skip_le. Qed.

Lemma sk_le_len p : p <= length input -> sk input wset p <= length input.
Proof.
  intro H. unfold sk. pose proof (skip_bound wset (skipn p input) p) as B. rewrite skipn_length in B. lia.
Qed.

(* the interpreter: Match.parse before the terminal *)
Lemma pre_peg f s : inv x0 CPc s ->
  match match_pre g input (parse g input orc false f) f s with
  | Ok r s1 => inv x0 CPc s1 /\ CLx (sk input wset (pos s)) (pos s1) /\ pos s <= pos s1
  | Fail _ => False
  | Abort _ => True
  end.
Proof.
  intros [H1 H2 H3 H4 H5 H6]. unfold eff_ws in H1. rewrite Hx_eol in H1. rewrite Hx_skip in H2.
  unfold match_pre. cbv zeta. rewrite (msw_pos input wset s H2 H1). cbn [skipws set_pos pos cpos in_cmt]. rewrite H2.
  assert (CLge : forall q e, CLx q e -> q <= e).
  { induction 1; [lia|]. pose proof (sk_ge (q + S len)). lia. }
  destruct (lookup (sk input wset (pos s)) (cpos s)) as [e|] eqn:EL.
  - pose proof (H4 _ _ EL) as HC. split; [|split; [exact HC|]].
    + constructor; cbn; try assumption; unfold eff_ws; rewrite ?Hx_eol, ?Hx_skip; assumption.
    + cbn [pos set_pos]. pose proof (CLge _ _ HC). pose proof (sk_ge (pos s)). lia.
  - rewrite H3. unfold parse_comments. rewrite Hcm.
    pose proof (cmt_loop_CL g input orc wset cm oc ndc Hnd Hkd f f (set_in_cmt true (set_pos (sk input wset (pos s)) s))
                  eq_refl H2 H1 H4 (sk_idem input wset _)) as HL.
    destruct (cmt_loop input (parse g input orc false f) cm f (set_in_cmt true (set_pos (sk input wset (pos s)) s))) as [r y1|y1|w];
      [|exact HL|exact I].
    destruct HL as [HC (A1 & A2 & A3 & A4 & A5 & A6)]. cbn in A1, A2, A3, A4, A5, A6, HC.
    split; [|split].
    + constructor; cbn; unfold eff_ws; rewrite ?Hx_eol, ?Hx_skip; try congruence.
      rewrite A6. apply sound_upd; assumption.
    + cbn. exact HC.
    + cbn. pose proof (CLge _ _ HC). pose proof (sk_ge (pos s)). lia.
Qed.

(* one round of the reference (Comment whitespace)* at a position where whitespace is already skipped *)
Lemma skip_cmts_S tq F k q : sk input wset q = q ->
  skip_cmts input (seval g input orc tq (S F)) cm x0 (S k) q =
  match orc oc q with
  | Some len => skip_cmts input (seval g input orc tq (S F)) cm x0 k (sws input x0 (q + len))
  | None => Some q
  end.
Proof.
  intro Hq. cbn [skip_cmts seval]. rewrite Hnd, Hkd. cbn [is_match_kind].
  unfold skip. cbn [ctx_cmt x_skip x_incmt]. rewrite Hx_skip.
  assert (E : sws input (ctx_cmt x0) q = q) by (rewrite <- Hq at 2; unfold sws, sk, eff_ws, ctx_cmt; cbn; rewrite Hx_eol; reflexivity).
  rewrite E. cbn [term_match]. destruct (orc oc q) as [len|]; [|reflexivity]. destruct (n_suppress ndc); reflexivity.
Qed.

(* the reference semantics: (Comment whitespace)* computes the same closure, given enough fuel *)
Lemma spec_cmts tq F : forall q e, CLx q e -> sk input wset q = q ->
  forall k, length input - q < k ->
  skip_cmts input (seval g input orc tq (S F)) cm x0 k q = Some e.
Proof.
  induction 1 as [q Hnone | q len e Hsome Hrest IH]; intros Hq k Hk; (destruct k as [|k]; [lia|]);
    rewrite (skip_cmts_S _ _ _ _ Hq).
  - rewrite Hnone. reflexivity.
  - rewrite Hsome, sws_sk. apply IH; [apply sk_idem|].
    pose proof (Hsane _ _ Hsome). pose proof (sk_ge (q + S len)). lia.
Qed.

Lemma spec_skip tq F k p e :
  CLx (sk input wset p) e -> length input < k ->
  skip g input (seval g input orc tq (S F)) k x0 p = Some e.
Proof.
  intros HC Hk. unfold skip. rewrite Hx_skip, Hx_cmt, Hcm. rewrite sws_sk.
  apply spec_cmts; [exact HC | apply sk_idem | lia].
Qed.

(* the pre-terminal step of the simulation, with the reference side [length input + 2] units ahead *)
Lemma pre_cmt : forall f x s, x = x0 -> inv x CPc s ->
  match match_pre g input (parse g input orc false f) f s with
  | Ok r s1 => inv x CPc s1 /\
               skip g input (seval g input orc true (f + (length input + 2))) (f + (length input + 2)) x (pos s) = Some (pos s1) /\
               pos s <= pos s1
  | Fail _ => False
  | Abort _ => True
  end.
Proof.
  intros f x s -> Hinv. pose proof (pre_peg f s Hinv) as HP.
  destruct (match_pre g input (parse g input orc false f) f s) as [r s1|s1|w]; [|exact HP|exact I].
  destruct HP as [Hi [HC Hle]]. split; [exact Hi|]. split; [|exact Hle].
  rewrite (Nat.add_succ_r (length input) 1), (Nat.add_succ_r f).
  apply spec_skip; [exact HC | lia].
Qed.
End Cmt.

Lemma wfgc_parts g pf :
  wfgc g pf = true ->
  (forall nid nd, get_node g nid = Some nd -> node_ok g (prodb g pf) nd = true) /\
  (forall nd, In nd (g_nodes g) -> n_ws nd = None /\ n_skipws nd = None /\ n_eolterm nd = false) /\
  (exists cm oc ndc, g_comments g = Some cm /\ get_node g cm = Some ndc /\ n_kind ndc = KRegex oc) /\
  g_top g < length (g_nodes g).
Proof.
  unfold wfgc. cbv zeta. intro H. apply andb_true_iff in H as [H Htop]. apply andb_true_iff in H as [H Hc].
  apply andb_true_iff in H as [Hall Hmf].
  split; [|split; [|split]].
  - apply nodes_forallb. exact Hall.
  - intros nd Hin. unfold mode_free in Hmf. rewrite forallb_forall in Hmf. specialize (Hmf nd Hin).
    apply andb_true_iff in Hmf as [Hmf A3]. apply andb_true_iff in Hmf as [A1 A2].
    apply negb_true_iff in A3. destruct (n_ws nd); [discriminate|]. destruct (n_skipws nd); [discriminate|]. tauto.
  - unfold cmt_regex in Hc. destruct (g_comments g) as [cm|]; [|discriminate].
    destruct (get_node g cm) as [nd|] eqn:En; [|discriminate]. destruct (n_kind nd) eqn:Ek; try discriminate.
    exists cm, oid, nd. tauto.
  - apply Nat.ltb_lt. exact Htop.
Qed.

(* the refinement theorem with a Comment rule: the reference side runs with length input + 2 more fuel *)
Theorem refinement_cmt g pf c orc fuel input :
  wfgc g pf = true -> c_skipws c = true -> orc_pos orc ->
  (forall o p l, orc o p = Some l -> p + l <= length input) ->
  let fs := fuel + (length input + 2) in
  refines g (run g c orc false fuel input) (spec_run g c orc fs input) (spec_run_q g c orc fs input).
Proof.
  intros Hwf Hskip Horc Hsane fs.
  destruct (wfgc_parts g pf Hwf) as [Hnodes [Hmf [[cm [oc [ndc [Hcm [Hnd Hkd]]]]] Htop]]].
  set (x0 := init_ctx c).
  apply refines_of_q.
  apply (run_sim g input orc Horc (CPc input orc x0 oc) (length input + 2) (fun x => x = x0)) with (pf := pf).
  - intros nd x Hin ->. destruct (Hmf nd Hin) as [A [B _]]. unfold ctx_enter. rewrite A, B. reflexivity.
  - intros nd x Hin ->. destruct (Hmf nd Hin) as [_ [_ C]]. unfold ctx_eol. rewrite C. reflexivity.
  - intros nd x Hin _. left. apply (Hmf nd Hin).
  - exact (pre_cmt g input orc x0 cm oc ndc Hcm Hnd Hkd Hskip eq_refl eq_refl (Hsane oc)).
  - intros nid nd En. unfold node_ok_u. rewrite (Hnodes nid nd En). reflexivity.
  - reflexivity.
  - constructor; cbn; try reflexivity. intros q e X. discriminate.
  - exact Htop.
Qed.

(* Model: 'm' items+=Item; Item: name=ID; Comment: /\/\*.*?\*\//;   on "m a /*c*/ /*d*/b" *)
Definition g_cmt : grammar := (mkGrammar [mkNode KSeq [1;7] None false [77;111;100;101;108]%N true false None None;
  mkNode KSeq [2;3] None false [77;111;100;101;108]%N true false None None;
  mkNode (KStr [109]%N None) [] None false []%N false false None None;
  mkNode KPlus [4] None false [95;95;97;115;103;110;95;111;110;101;111;114;109;111;114;101]%N true false None None;
  mkNode KSeq [5] None false [73;116;101;109]%N true false None None;
  mkNode KSeq [6] None false [95;95;97;115;103;110;95;112;108;97;105;110]%N true false None None;
  mkNode (KRegex 0) [] None false [73;68]%N true false None None;
  mkNode KEOF [] None false [69;79;70]%N false false None None;
  mkNode (KRegex 1) [] None false [67;111;109;109;101;110;116]%N true false None None] 0 (Some 8)).
Definition in_cmt1 : list N := [109;32;97;32;47;42;99;42;47;32;47;42;100;42;47;98]%N.
Definition t_cmt1 := [((0,0),1);((0,2),1);((0,6),1);((0,12),1);((0,15),1);((1,4),5);((1,10),5)].
Definition c_skip : config := mkConfig true [9;10;13;32]%N.
Definition c_noskip : config := mkConfig false [9;10;13;32]%N.

(* boundary: with global skipws off Arpeggio still parses comments ("ma/*c*/b"), the documented semantics do not *)
Definition in_cmt2 : list N := [109;97;47;42;99;42;47;98]%N.
Definition t_cmt2 := [((0,0),2);((0,1),1);((0,4),1);((0,7),1);((1,2),5)].

(* no crash either: with parse_nc, what the unconditional form (C01_refinement_comments_total) needs *)
Lemma wfgc_no_crash g pf c orc fuel input w :
  wfgc g pf = true -> run g c orc false fuel input = Aborted w -> w = 0.
Proof.
  intros Hwf. destruct (wfgc_parts g pf Hwf) as [Hnodes [_ [[cm [oc [ndc [Hcm [Hnd _]]]]] Htop]]].
  apply (run_nc g input orc pf); [|exact Hnodes | exact Htop].
  intros cm' X. rewrite Hcm in X. inversion X; subst cm'.
  unfold valid, get_node in *. apply nth_error_Some. congruence.
Qed.

Lemma cmt_orc_facts : orc_sane g_cmt in_cmt1 (orc_of t_cmt1) /\ Spec.orc_pos (orc_of t_cmt1).
Proof. apply orc_of_facts; reflexivity. Qed.

