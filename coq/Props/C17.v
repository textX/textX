(* C17 — multi-file models load each file once and share element identity.

   Model: Model/Repo.v (load_main = metamodel.model_from_file over a file system whose import
   statements are already expanded to file indices; any import graph: cycles, diamonds, self
   imports).  `Stable` (Proofs/RepoProofs.v) is the well-formedness of the state between two
   top-level loads; it holds initially and after every history (C17_histories_well_formed). *)
From TxV Require Import Core.Base Model.RepoDefs Gen.SrcRepo Model.Repo Proofs.RepoProofs Proofs.RepoMLProofs.

(* Every top-level load, for every file system and import graph, finishes within its fuel
   |files|+1 (the fuel bound is proved, not assumed) and opens no file twice - whether the load
   succeeds or fails.  Only hypothesis: all_models has no duplicate keys (it may hold models of files that
   no longer exist and the invented names of string-loaded models; fk counts the registered files only). *)
Theorem C17_loaded_once : forall fs c f s,
  NoDup (map fst (allm (begin_op c s))) ->
  fst (load_main fs c f s) <> inl EFuel /\ NoDup (reads (snd (load_main fs c f s))).
Proof. exact load_main_once. Qed.
Print Assumptions C17_loaded_once.

(* the same for a main model loaded from a string, and without any hypothesis at every point of every history *)
Theorem C17_loaded_once_string_main : forall fs c fc s,
  NoDup (map fst (allm (begin_op c s))) ->
  fst (load_str fs c fc s) <> inl EFuel /\ NoDup (reads (snd (load_str fs c fc s))).
Proof. exact load_str_once. Qed.
Print Assumptions C17_loaded_once_string_main.

Theorem C17_loaded_once_in_every_history : forall c builtins fs0 ops,
  let s := run_hist c fs0 (init_state builtins) ops in
  (forall fs f, fst (load_main fs c f s) <> inl EFuel /\ NoDup (reads (snd (load_main fs c f s)))) /\
  (forall fs fc, fst (load_str fs c fc s) <> inl EFuel /\ NoDup (reads (snd (load_str fs c fc s)))).
Proof.
  intros c b fs0 ops.
  intros s. assert (HK : K (begin_op c s)).
  { destruct (Stable_begin_op c s (run_hist_stable c ops fs0 (init_state b) (Stable_init b))) as [A _]. exact A. }
  split; intros; [apply load_main_once | apply load_str_once]; exact HK.
Qed.
Print Assumptions C17_loaded_once_in_every_history.

(* non-vacuity: a 3-cycle with a self import and a diamond edge loads fine, each file read once *)
Example C17_loaded_once_witness :
  let fs := [mkFile [[1]; [0]] [100%N] [101%N] false false false;
             mkFile [[2; 0]] [101%N] [102%N] false false false;
             mkFile [[0]; [2]] [102%N] [100%N] false false false] in
  let c := init_cfg false false [] in
  NoDup (map fst (allm (begin_op c (init_state [])))) /\
  fst (load_main fs c 0 (init_state [])) = inr 0 /\ reads (snd (load_main fs c 0 (init_state []))) = [0; 1; 2].
Proof. cbn zeta. split; [constructor|]. vm_compute. split; reflexivity. Qed.
Print Assumptions C17_loaded_once_witness.

(* With a global repository a repeated load of a cached file returns the cached model, opens
   nothing and leaves the repository as it was; the model processors are NOT run again on it (fact
   model_processors_on_cached = false, translated from internal_model_from_file). *)
Theorem C17_global_cache : forall fs c f s m,
  cglobal c = true -> dget f (allm s) = Some m ->
  fst (load_main fs c f s) = inr m /\ reads (snd (load_main fs c f s)) = [] /\ allm (snd (load_main fs c f s)) = allm s.
Proof. exact cached_load_returns_cached. Qed.
Print Assumptions C17_global_cache.

Example C17_global_cache_witness :
  let fs := [mkFile [[1]] [100%N] [101%N] false false false; mkFile [[0]] [101%N] [100%N] false false false] in
  let c := init_cfg true false [] in
  let s := snd (load_main fs c 0 (init_state [])) in
  dget 1 (allm s) = Some 1 /\ fst (load_main fs c 1 s) = inr 1.
Proof. vm_compute. repeat split; reflexivity. Qed.
Print Assumptions C17_global_cache_witness.

(* After every history of loads (successful or failing) and file rewrites, from the initial state:
   all_models maps each file to exactly one model, no model is registered under two files, and
   the model registered for a file is a model of that file - the single instance every importer
   is handed (load_model takes local models from all_models only). *)
Theorem C17_histories_well_formed : forall c builtins fs ops,
  let s := run_hist c fs (init_state builtins) ops in
  NoDup (map fst (allm s)) /\ NoDup (map snd (allm s)) /\
  (forall k v, In (k, v) (allm s) -> exists mi, nth_error (heap s) v = Some mi /\ mfile mi = k).
Proof.
  intros c b fs ops.
  intro s. destruct (run_hist_stable c ops fs (init_state b) (Stable_init b)) as [A [B [C _]]]. auto.
Qed.
Print Assumptions C17_histories_well_formed.

(* Lookup order (re-proved against the order translated from ImportURI.__call__ / the RREL
   start list): the own model, then the local models in the order they were imported, then
   the builtin models. *)
Theorem C17_lookup_order : forall c s x n,
  resolve_name c s x n = first_some (lookup_in s n) ([x] ++ map snd (local_of x s) ++ cbuiltins c).
Proof. exact resolve_name_order. Qed.
Print Assumptions C17_lookup_order.

Theorem C17_lookup_own_first : forall c s x n t, lookup_in s n x = Some t -> resolve_name c s x n = Some t.
Proof.
  intros c s x n t.
  intro H. rewrite resolve_name_order. cbn. rewrite H. reflexivity.
Qed.
Print Assumptions C17_lookup_own_first.

Theorem C17_lookup_first_import_wins : forall c s x n l1 y l2 t,
  lookup_in s n x = None -> map snd (local_of x s) = l1 ++ y :: l2 ->
  (forall z, In z l1 -> lookup_in s n z = None) -> lookup_in s n y = Some t ->
  resolve_name c s x n = Some t.
Proof.
  intros c s x n l1 y l2 t.
  intros Hx El Hl1 Hy. rewrite resolve_name_order. cbn [app first_some]. rewrite Hx, El.
  rewrite <- app_assoc. rewrite first_some_app, (first_some_none _ l1 Hl1). cbn. rewrite Hy. reflexivity.
Qed.
Print Assumptions C17_lookup_first_import_wins.

Theorem C17_lookup_builtins_last : forall c s x n,
  lookup_in s n x = None -> (forall z, In z (map snd (local_of x s)) -> lookup_in s n z = None) ->
  resolve_name c s x n = first_some (lookup_in s n) (cbuiltins c).
Proof.
  intros c s x n.
  intros Hx Hl. rewrite resolve_name_order. cbn [app first_some]. rewrite Hx.
  rewrite first_some_app, (first_some_none _ _ Hl). reflexivity.
Qed.
Print Assumptions C17_lookup_builtins_last.

(* shared names: own beats import, first import beats second, builtin only as a last resort *)
Example C17_lookup_order_witness :
  let fs := [mkFile [[1]; [2]] [100%N] [100%N; 101%N; 102%N; 103%N] false false false;
             mkFile [] [101%N; 100%N] [] false false false;
             mkFile [] [101%N; 102%N; 103%N] [] false false false] in
  let b := [mkFile [] [103%N; 104%N] [] false false false] in
  let s := snd (load_main fs (init_cfg false false b) 0 (init_state b)) in
  dget 1 (targets s) = Some [Some (1, 0); Some (2, 0); Some (3, 1); Some (3, 2)].
Proof. vm_compute. reflexivity. Qed.
Print Assumptions C17_lookup_order_witness.

(* Identity of reference targets.  At every point of every history (loads that succeed or fail, file
   rewrites) a successful load leaves every model x of the result (get_included_models) such that whatever a
   name n resolves to from x - this is what the resolution loop stores in the reference - is an element
   named n of: x itself, a builtin model, or THE model registered in all_models for the target's own file.
   With C17_histories_well_formed (one model per file) this is "every reference to an element of file f
   points into the single model of f". *)
Theorem C17_identity : forall c builtins fs0 ops fs f m s' x n t i,
  let s := run_hist c fs0 (init_state builtins) ops in
  load_main fs c f s = (inr m, s') -> In x (included m s') -> resolve_name c s' x n = Some (t, i) ->
  (t = x \/ In t (cbuiltins c) \/ dget (file_of t s') (allm s') = Some t) /\
  exists fc, cont_of t s' = Some fc /\ nth_error (felems fc) i = Some n.
Proof.
  intros c b fs0 ops fs f m s' x n t i.
  intros s E Hx Hr. split; [|apply (resolve_name_in c s' x n t i Hr)].
  eapply (identity_after_load fs c f s m s' x n t i); try eassumption.
  - apply run_hist_stable, Stable_init.
  - apply run_hist_locreg; [apply Stable_init | apply LocReg_init].
Qed.
Print Assumptions C17_identity.

(* the same for a main model loaded from a string (registered under an invented name by the GlobalRepo providers);
   histories (run_hist) contain file loads, string loads and rewrites *)
Theorem C17_identity_string_main : forall c builtins fs0 ops fs fc m s' x n t i,
  let s := run_hist c fs0 (init_state builtins) ops in
  load_str fs c fc s = (inr m, s') -> In x (included m s') -> resolve_name c s' x n = Some (t, i) ->
  t = x \/ In t (cbuiltins c) \/ dget (file_of t s') (allm s') = Some t.
Proof.
  intros c b fs0 ops fs fc m s' x n t i.
  intros s E Hx Hr. eapply (identity_after_load_str fs c fc s m s' x n t i); try eassumption.
  - apply run_hist_stable, Stable_init.
  - apply run_hist_locreg; [apply Stable_init | apply LocReg_init].
Qed.
Print Assumptions C17_identity_string_main.

(* the same for any well-formed state whose registered models' local models are registered *)
Theorem C17_identity_any_state : forall fs c f s m s' x n t i,
  Stable s -> LocReg s -> load_main fs c f s = (inr m, s') ->
  In x (included m s') -> resolve_name c s' x n = Some (t, i) ->
  t = x \/ In t (cbuiltins c) \/ dget (file_of t s') (allm s') = Some t.
Proof. exact identity_after_load. Qed.
Print Assumptions C17_identity_any_state.

(* two targets in registered models of the same file are in the same model object *)
Theorem C17_same_file_same_model : forall s t1 t2,
  dget (file_of t1 s) (allm s) = Some t1 -> dget (file_of t2 s) (allm s) = Some t2 ->
  file_of t1 s = file_of t2 s -> t1 = t2.
Proof.
  intros s t1 t2.
  intros H1 H2 E. rewrite E in H1. congruence.
Qed.
Print Assumptions C17_same_file_same_model.

(* every local_models entry of every model of a successful load's result is the all_models entry of that file *)
Theorem C17_local_models_are_registered : forall fs c f s m s',
  Stable s -> LocReg s -> load_main fs c f s = (inr m, s') ->
  forall x g t, In (g, t) (local_of x s') -> (In x (map snd (allm s')) \/ x = m) -> dget g (allm s') = Some t.
Proof. exact load_main_ok_registered. Qed.
Print Assumptions C17_local_models_are_registered.

(* non-vacuity: diamond 0 -> {1, 2}, 1 -> 2, 2 -> 0 (cycle): both references to e102 (from 0 and from 1)
   resolve into model 2, the registered model of file 2 *)
Example C17_identity_witness :
  let fs := [mkFile [[1]; [2]] [100%N] [102%N] false false false;
             mkFile [[2]] [101%N] [102%N] false false false;
             mkFile [[0]] [102%N] [100%N] false false false] in
  let c := init_cfg true false [] in
  let r := load_main fs c 0 (run_hist c fs (init_state []) []) in
  fst r = inr 0 /\ included 0 (snd r) = [0; 1; 2] /\
  resolve_name c (snd r) 0 102%N = Some (2, 0) /\ resolve_name c (snd r) 1 102%N = Some (2, 0) /\
  dget (file_of 2 (snd r)) (allm (snd r)) = Some 2.
Proof. vm_compute. repeat split; reflexivity. Qed.
Print Assumptions C17_identity_witness.

(* SEVERAL REGISTERED LANGUAGES (Model/Repo.v: load_main_x with the external cache of the other languages' global
   repositories, ml_load).  Read-once holds for every external cache; the single-language loader is the special
   case without external cache.  Identity does NOT extend to separate per-language global repositories: *)
Theorem C17_loaded_once_across_languages : forall x xvals fs c f s,
  NoDup (map fst (allm (begin_op c s))) ->
  fst (load_main_x x xvals fs c f s) <> inl EFuel /\ NoDup (reads (snd (load_main_x x xvals fs c f s))).
Proof.
  intros x xvals fs c f s.
  intro H. unfold load_main_x. cbn [fst snd]. rewrite reads_tidy. apply load_main_x_once_raw. exact H.
Qed.
Print Assumptions C17_loaded_once_across_languages.

Theorem C17_single_language_is_no_external_cache : forall fs c f s,
  load_main_x (fun _ => None) [] fs c f s = load_main fs c f s.
Proof.
  intros fs c f s.
  unfold load_main_x, load_main. rewrite load_main_x_raw_none. reflexivity.
Qed.
Print Assumptions C17_single_language_is_no_external_cache.

(* a file cached in the global repository of its own language is not read again when a model of another language
   imports it, and the importer is handed that very model *)
Theorem C17_external_cache_is_used : forall x ld m g s m',
  dhas g (local_of m s) = false -> dget g (allm s) = None -> x g = Some m' ->
  load_model (with_ext x ld) m g s = (None, set_local m g m' (set_all g m' s)).
Proof.
  intros x ld m g s m'.
  intros H1 H2 H3. unfold load_model, with_ext. rewrite H1, H2, H3. reflexivity.
Qed.
Print Assumptions C17_external_cache_is_used.

(* refuted (known finding separate-global-repositories, replayed on the implementation by corpus/C17/
   ml_cycle_separate_repos.json): two languages with separate global repositories, a.model <-> b.typ; b.typ loaded first
   (its repository then holds an instance of a.model), then a.model: the result contains the cached b.typ, whose
   reference to e0 points into the FIRST a.model instance, not into the model registered for a.model *)
Theorem C17_identity_separate_repositories_refuted :
  exists fs mc ms f m s' repos' x n t i,
    ml_load fs mc f ms = (inr m, (s', repos')) /\ In x (included m s') /\
    resolve_name (mkCfg true false [] false) s' x n = Some (t, i) /\ t <> x /\ dget (file_of t s') (allm s') <> Some t.
Proof.
  set (fs := [mkFile [[1]] [100%N] [101%N] false false false; mkFile [[0]] [101%N] [100%N] false false false]).
  set (mc := mkML [true; true] [0; 1]).
  exists fs, mc, (snd (ml_load fs mc 1 (init_state [], []))), 0.
  eexists. eexists. eexists. exists 0, 100%N, 1, 0.
  split; [vm_compute; reflexivity|]. vm_compute. repeat split; auto; try discriminate.
Qed.
Print Assumptions C17_identity_separate_repositories_refuted.

(* Identity for several languages, in the form that holds (MStable = well-formedness of the machine state, invariant
   over every history: C18_several_languages_state_invariant): every name looked up from a model CREATED by the load
   resolves into the model itself or into THE model registered in the importer's all_models for the target's file -
   wherever that model came from (parsed now, cached in the importer's repository, taken from another language's). *)
Theorem C17_identity_several_languages : forall fs mc f s repos m s' repos' y n t i,
  MStable (s, repos) -> ml_load fs mc f (s, repos) = (inr m, (s', repos')) ->
  length (heap s) <= y -> resolve_name (mkCfg (lglob mc (lang mc f)) false [] false) s' y n = Some (t, i) ->
  t = y \/ dget (file_of t s') (allm s') = Some t.
Proof. exact ml_identity_created. Qed.
Print Assumptions C17_identity_several_languages.

Theorem C17_local_models_several_languages : forall x xvals fs c f s m s',
  Stable s -> XOK (length (heap s)) x (begin_op c s) ->
  load_main_x x xvals fs c f s = (inr m, s') ->
  forall y g t, In (g, t) (local_of y s') -> length (heap s) <= y -> dget g (allm s') = Some t.
Proof. exact load_main_x_created_registered. Qed.
Print Assumptions C17_local_models_several_languages.

(* For a model that existed before the load (cached in the importer's repository or taken from another language's
   repository) the boundary is the refuted case: IF each of its local models is registered in the importer's repository
   or held by the other repositories (decidable on the state; false exactly for a model whose import closure contains
   a file that the other repository loaded for itself and that this load has to parse again, as in
   C17_identity_separate_repositories_refuted), THEN after the load it is still that very model, registered in the
   result or held by the cache. The classifier of the known finding is the negation for models of another repository. *)
Theorem C17_cached_models_keep_their_imports : forall x xvals fs c f s m s' y g t,
  Stable s -> XOK (length (heap s)) x (begin_op c s) ->
  load_main_x x xvals fs c f s = (inr m, s') ->
  y < length (heap s) -> In (g, t) (local_of y s') ->
  (dget g (allm (begin_op c s)) = Some t \/ x g = Some t) ->
  In (g, t) (local_of y s) /\ (dget g (allm s') = Some t \/ x g = Some t).
Proof. exact load_main_x_cached_locals. Qed.
Print Assumptions C17_cached_models_keep_their_imports.

(* non-vacuity: a.model (language 0) imports b.typ (language 1, cached by an earlier direct load) and c.model; the
   references of the new a.model resolve into the registered models: the cached b.typ and the new c.model *)
Example C17_identity_several_languages_witness :
  let fs := [mkFile [[1]; [2]] [100%N] [101%N; 102%N] false false false;
             mkFile [] [101%N] [] false false false;
             mkFile [] [102%N] [] false false false] in
  let mc := mkML [true; true] [0; 1; 0] in
  let ms := snd (ml_load fs mc 1 (init_state [], [])) in
  let r := ml_load fs mc 0 ms in
  MStable ms /\ fst r = inr 1 /\ length (heap (fst ms)) = 1 /\
  resolve_name (mkCfg true false [] false) (fst (snd r)) 1 101%N = Some (0, 0) /\
  resolve_name (mkCfg true false [] false) (fst (snd r)) 1 102%N = Some (2, 0) /\
  allm (fst (snd r)) = [(0, 1); (1, 0); (2, 2)] /\ reads (fst (snd r)) = [0; 2].
Proof.
  cbn zeta. split; [apply (ml_load_stable _ _ 1 (init_state [], [])), MStable_init|]. vm_compute. repeat split; reflexivity.
Qed.
Print Assumptions C17_identity_several_languages_witness.

(* NAMES DEFINED TWICE IN ONE FILE.  The search stops at the first model (own, imports in order, builtins) that has
   the name.  With PlainName inside (cunique) a name that this model defines more than once is refused - the load
   fails with 'name ... is not unique' reported for the referencing file; with FQN or RREL inside the FIRST element
   of that name is taken. *)
Theorem C17_plainname_duplicate_refused : forall c s x n ns t i,
  cunique c = true -> resolve_name c s x n = Some (t, i) -> dup_in s n t = true -> resolve_refs c s x (n :: ns) = None.
Proof.
  intros c s x n ns t i.
  intros Hu Hr Hd. cbn [resolve_refs]. rewrite Hr. cbn [fst]. rewrite Hu, Hd. reflexivity.
Qed.
Print Assumptions C17_plainname_duplicate_refused.

Theorem C17_first_element_taken : forall c s x n t i,
  resolve_name c s x n = Some (t, i) ->
  exists fc, cont_of t s = Some fc /\ nth_error (felems fc) i = Some n /\ forall j, j < i -> nth_error (felems fc) j <> Some n.
Proof.
  intros c s x n t i.
  rewrite resolve_name_order. intro H. apply first_some_in in H as [a [_ Hl]].
  unfold lookup_in in Hl. destruct (cont_of a s) as [fc|] eqn:Ec; [|discriminate].
  destruct (find_elem n (felems fc)) as [k|] eqn:Ef; [|discriminate]. cbn in Hl. inversion Hl; subst a k.
  exists fc. split; [exact Ec | apply find_elem_first; exact Ef].
Qed.
Print Assumptions C17_first_element_taken.

Theorem C17_unique_or_fqn_resolves : forall c s x n ns tg,
  (cunique c = false \/ dup_in s n (fst tg) = false) -> resolve_name c s x n = Some tg ->
  resolve_refs c s x (n :: ns) = option_map (cons (Some tg)) (resolve_refs c s x ns).
Proof.
  intros c s x n ns tg.
  intros H Hr. cbn [resolve_refs]. rewrite Hr. destruct H as [H|H]; rewrite H; [reflexivity|]. rewrite andb_false_r. reflexivity.
Qed.
Print Assumptions C17_unique_or_fqn_resolves.

(* b defines e101 twice: FQN resolves a's reference to the first one, PlainName refuses the load (error in file 0) *)
Example C17_duplicates_witness :
  let fs := [mkFile [[1]] [100%N] [101%N] false false false; mkFile [] [101%N; 102%N; 101%N] [] false false false] in
  fst (load_main fs (init_cfg_u false false false []) 0 (init_state [])) = inr 0 /\
  dget 0 (targets (snd (load_main fs (init_cfg_u false false false []) 0 (init_state [])))) = Some [Some (1, 0)] /\
  fst (load_main fs (init_cfg_u true false false []) 0 (init_state [])) = inl (EUnres 0).
Proof. vm_compute. repeat split; reflexivity. Qed.
Print Assumptions C17_duplicates_witness.
