(* C18 — a failing multi-file load leaves the model repositories clean.

   Model: Model/Repo.v.  A load fails at any file of the import closure in any phase: missing
   file / syntax error (before the model exists), nothing found for an import statement,
   unresolved reference, object processor, model processor of an imported or of the main
   model.  The three cleanups (outer handler, inner handler, model-processor handler of
   internal_model_from_file) are read from the source by the translator (Gen/SrcRepo.v), so
   these theorems are re-proved against the current source on every run. *)
From TxV Require Import Core.Base Model.RepoDefs Gen.SrcRepo Model.Repo Proofs.RepoProofs Proofs.RepoMLProofs.

(* For every file system, import graph, configuration and well-formed state: if the load fails
   (any error, any file, any phase) then all_models is exactly what it was when the load began
   (the metamodel's global repository if there is one, empty otherwise), the local models of
   every model that existed before are untouched, and the state is well formed again - so the
   C17 theorems and this one apply to the next load, whatever the files then contain. *)
Theorem C18_clean : forall fs c f s e s',
  Stable s -> load_main fs c f s = (inl e, s') ->
  allm s' = allm (begin_op c s) /\
  (forall x, x < length (heap s) -> local_of x s' = local_of x s) /\
  Stable s'.
Proof. exact load_main_failure_clean. Qed.
Print Assumptions C18_clean.

(* No model created by the failed attempt remains; models cached by earlier loads stay. *)
Theorem C18_nothing_new_remains : forall fs c f s e s',
  Stable s -> load_main fs c f s = (inl e, s') ->
  (forall k v, In (k, v) (allm s') -> v < length (heap s) /\ In (k, v) (allm s)) /\
  (cglobal c = true -> allm s' = allm s).
Proof. exact failure_leaves_only_earlier_models. Qed.
Print Assumptions C18_nothing_new_remains.

(* The same at every point of every history that starts in the initial state. *)
Theorem C18_clean_in_every_history : forall c builtins fs0 ops fs f e s',
  let s := run_hist c fs0 (init_state builtins) ops in
  load_main fs c f s = (inl e, s') ->
  allm s' = allm (begin_op c s) /\ Stable s'.
Proof.
  intros c b fs0 ops fs f e s' s H.
  destruct (load_main_failure_clean fs c f s e s' (run_hist_stable c ops fs0 (init_state b) (Stable_init b)) H) as [A [_ B]].
  split; assumption.
Qed.
Print Assumptions C18_clean_in_every_history.

(* After the failure, whatever the files are rewritten to (fs'), a file cached before the failed
   attempt is still served from the cache without opening anything. *)
Theorem C18_cached_models_survive : forall fs fs' c f s e s' k v,
  Stable s -> load_main fs c f s = (inl e, s') -> cglobal c = true ->
  dget k (allm s) = Some v ->
  fst (load_main fs' c k s') = inr v /\ reads (snd (load_main fs' c k s')) = [].
Proof.
  intros fs fs' c f s e s' k v.
  intros HS E Hg Hk. destruct (failure_leaves_only_earlier_models fs c f s e s' HS E) as [_ Ha].
  specialize (Ha Hg). destruct (cached_load_returns_cached fs' c k s' v Hg ltac:(rewrite Ha; exact Hk)) as [A [B _]]. auto.
Qed.
Print Assumptions C18_cached_models_survive.

(* LAST CLAUSE OF C18 ("after the failing file is corrected, the next load succeeds with correct identities"), at full
   strength.  load_main ends with the garbage collection of Model/Repo.v (`tidy`): after a failure the models of the
   attempt - unreachable by C18_clean, which is proved on the un-collected load_main_raw - are dropped.  Then the
   state after a failed load equals the state before it in every component but the file-open trace of the failed
   attempt itself (C18_failed_load_restores_state), hence EVERY following load, on whatever the files have been
   rewritten to, is literally the load that would have happened had the failed attempt never taken place: same
   outcome (in particular it succeeds iff it would have), same file-open trace, same repositories, local models,
   reference targets and model identities (C18_reload_as_if_never_failed); so all C17 theorems about that load
   apply unchanged, and a failing load can be deleted from any history (C18_failing_load_is_invisible).
   `Tidy` (normal form of the per-model tables) holds initially and after every load (C18_histories_stable_tidy). *)
Theorem C18_failed_load_restores_state : forall fs c f s e s',
  Stable s -> Tidy s -> load_main fs c f s = (inl e, s') ->
  heap s' = heap s /\ allm s' = allm (begin_op c s) /\ locals s' = locals s /\ constr s' = constr s /\
  targets s' = targets s /\ curop s' = curop s.
Proof. exact failed_load_restores_state. Qed.
Print Assumptions C18_failed_load_restores_state.

Theorem C18_reload_as_if_never_failed : forall fs c f s e s',
  Stable s -> Tidy s -> load_main fs c f s = (inl e, s') ->
  forall fs' f', load_main fs' c f' s' = load_main fs' c f' s.
Proof. exact reload_as_if_never_failed. Qed.
Print Assumptions C18_reload_as_if_never_failed.

Theorem C18_reload_in_every_history : forall c builtins fs0 ops fs f e s',
  let s := run_hist c fs0 (init_state builtins) ops in
  load_main fs c f s = (inl e, s') -> forall fs' f', load_main fs' c f' s' = load_main fs' c f' s.
Proof.
  intros c b fs0 ops fs f e s'.
  intros s H. destruct (run_hist_stable_tidy c ops fs0 (init_state b) (Stable_init b) (Tidy_init b)) as [HS HT].
  exact (reload_as_if_never_failed fs c f s e s' HS HT H).
Qed.
Print Assumptions C18_reload_in_every_history.

Theorem C18_failing_load_is_invisible : forall c fs f s e s' ops fs' f',
  Stable s -> Tidy s -> load_main fs c f s = (inl e, s') ->
  run_hist c fs' s' (OLoad f' :: ops) = run_hist c fs' s (OLoad f' :: ops).
Proof.
  intros c fs f s e s' ops fs' f'.
  intros HS HT H. cbn [run_hist]. rewrite (reload_as_if_never_failed fs c f s e s' HS HT H fs' f'). reflexivity.
Qed.
Print Assumptions C18_failing_load_is_invisible.

Theorem C18_histories_stable_tidy : forall c ops fs s,
  Stable s -> Tidy s -> Stable (run_hist c fs s ops) /\ Tidy (run_hist c fs s ops).
Proof. exact run_hist_stable_tidy. Qed.
Print Assumptions C18_histories_stable_tidy.

(* MAIN MODELS LOADED FROM A STRING (metamodel.model_from_str without a file name; the GlobalRepo providers register
   such a model under an invented name 'anonymousN', key |files|+N in the model).  Same statements: a failing
   string load - syntax error, unresolved reference, object processor, model processor, failure in a file the
   providers load - leaves the repositories exactly as they were (the invented entry is removed, earlier string
   models stay), and whatever failed, a file load or a string load, every following file load or string load is
   literally what it would have been without the failed attempt. *)
Theorem C18_clean_string_main : forall fs c fc s e s',
  Stable s -> load_str fs c fc s = (inl e, s') ->
  allm s' = allm (begin_op c s) /\ (forall x, x < length (heap s) -> local_of x s' = local_of x s) /\ Stable s'.
Proof. exact load_str_failure_clean. Qed.
Print Assumptions C18_clean_string_main.

Theorem C18_next_load_as_if_never_failed : forall c s s',
  Stable s -> Tidy s ->
  (exists fs f e, load_main fs c f s = (inl e, s')) \/ (exists fs fc e, load_str fs c fc s = (inl e, s')) ->
  (forall fs' f', load_main fs' c f' s' = load_main fs' c f' s) /\
  (forall fs' fc', load_str fs' c fc' s' = load_str fs' c fc' s).
Proof. exact next_load_as_if_never_failed. Qed.
Print Assumptions C18_next_load_as_if_never_failed.

Theorem C18_next_load_in_every_history : forall c builtins fs0 ops s',
  let s := run_hist c fs0 (init_state builtins) ops in
  (exists fs f e, load_main fs c f s = (inl e, s')) \/ (exists fs fc e, load_str fs c fc s = (inl e, s')) ->
  (forall fs' f', load_main fs' c f' s' = load_main fs' c f' s) /\
  (forall fs' fc', load_str fs' c fc' s' = load_str fs' c fc' s).
Proof.
  intros c b fs0 ops s'.
  intros s H. destruct (run_hist_stable_tidy c ops fs0 (init_state b) (Stable_init b) (Tidy_init b)) as [HS HT].
  exact (next_load_as_if_never_failed c s s' HS HT H).
Qed.
Print Assumptions C18_next_load_in_every_history.

(* non-vacuity: global repository, GlobalRepo pattern reaching files 0 and 1; an earlier string model (anonymous0,
   key 2), then a string main whose model processor fails (the second defect fixed for this property): the
   repository is what it was, the earlier string model and the files stay, the repaired string loads as anonymous1 *)
Example C18_string_main_witness :
  let fs := [mkFile [[0; 1]] [100%N] [] false false false; mkFile [[0; 1]] [101%N] [] false false false] in
  let c := init_cfg true false [] in
  let s := run_hist c fs (init_state []) [OLoadStr (mkFile [[0; 1]] [103%N] [100%N] false false false)] in
  let bad := mkFile [[0; 1]] [104%N] [104%N; 101%N] false false true in
  let good := mkFile [[0; 1]] [104%N] [104%N; 101%N] false false false in
  allm s = [(2, 0); (0, 1); (1, 2)] /\
  fst (load_str fs c bad s) = inl (EMp 3) /\ allm (snd (load_str fs c bad s)) = [(2, 0); (0, 1); (1, 2)] /\
  fst (load_str fs c good (snd (load_str fs c bad s))) = inr 3 /\
  allm (snd (load_str fs c good (snd (load_str fs c bad s)))) = [(2, 0); (0, 1); (1, 2); (3, 3)] /\
  load_str fs c good (snd (load_str fs c bad s)) = load_str fs c good s.
Proof. vm_compute. repeat split; reflexivity. Qed.
Print Assumptions C18_string_main_witness.

(* The un-collected load (load_main_raw) leaves the models of a failed attempt unreachable: this is what
   justifies dropping them.  Same statement as C18_clean, on the raw function. *)
Theorem C18_clean_before_collection : forall fs c f s e s',
  Stable s -> load_main_raw fs c f s = (inl e, s') ->
  allm s' = allm (begin_op c s) /\
  (forall x, x < length (heap s) -> local_of x s' = local_of x s) /\
  Stable s'.
Proof. exact load_main_failure_clean_raw. Qed.
Print Assumptions C18_clean_before_collection.

(* The state between loads stays well formed along every history (used by all of the above). *)
Theorem C18_histories_stable : forall c ops fs s, Stable s -> Stable (run_hist c fs s ops).
Proof. exact run_hist_stable. Qed.
Print Assumptions C18_histories_stable.

(* non-vacuity: global repository; an earlier load cached file 2; then a diamond 0 -> {1,2}, 1 -> 2
   whose MAIN model's model processor fails (the case that was broken before the fix): nothing of
   the attempt remains, the earlier model stays, and after the repair the load succeeds with
   fresh models for 0 and 1 and the cached model for 2 - literally the load that would have happened without
   the failed attempt. *)
Example C18_clean_witness :
  let bad := [mkFile [[1]; [2]] [100%N] [101%N; 102%N] false false true;
              mkFile [[2]] [101%N] [102%N] false false false;
              mkFile [] [102%N] [] false false false] in
  let good := [mkFile [[1]; [2]] [100%N] [101%N; 102%N] false false false;
               mkFile [[2]] [101%N] [102%N] false false false;
               mkFile [] [102%N] [] false false false] in
  let c := init_cfg true false [] in
  let s := run_hist c bad (init_state []) [OLoad 2] in
  Stable s /\ allm s = [(2, 0)] /\
  fst (load_main bad c 0 s) = inl (EMp 0) /\ reads (snd (load_main bad c 0 s)) = [0; 1] /\
  allm (snd (load_main bad c 0 s)) = [(2, 0)] /\
  fst (load_main good c 0 (snd (load_main bad c 0 s))) = inr 1 /\
  allm (snd (load_main good c 0 (snd (load_main bad c 0 s)))) = [(2, 0); (0, 1); (1, 2)] /\
  load_main good c 0 (snd (load_main bad c 0 s)) = load_main good c 0 s.
Proof.
  cbn zeta. split; [apply run_hist_stable, Stable_init|]. vm_compute. repeat split; reflexivity.
Qed.
Print Assumptions C18_clean_witness.

(* every failure phase occurs in the model: imported file with a syntax error, an import that
   finds nothing, an unresolved reference, an object processor, a model processor of an import *)
Example C18_phases_witness :
  let mk imps refs syn obj mp := mkFile imps [100%N] refs syn obj mp in
  let c := init_cfg true false [] in
  fst (load_main [mk [[1]] [] false false false; mk [] [] true false false] c 0 (init_state [])) = inl (ESyntax 1) /\
  fst (load_main [mk [[1]; []] [] false false false; mk [] [] false false false] c 0 (init_state [])) = inl ENoFile /\
  fst (load_main [mk [[1]] [] false false false; mk [] [105%N] false false false] c 0 (init_state [])) = inl (EUnres 1) /\
  fst (load_main [mk [[1]] [] false false false; mk [[0]] [] false true false] c 0 (init_state [])) = inl (EObj 1) /\
  fst (load_main [mk [[1]] [] false false false; mk [[0]] [] false false true] c 0 (init_state [])) = inl (EMp 1).
Proof. vm_compute. repeat split; reflexivity. Qed.
Print Assumptions C18_phases_witness.

(* SEVERAL REGISTERED LANGUAGES, each metamodel with its own global repository (machine ml_load of Model/Repo.v).
   The form of C18 that is true there: after a failed load NO repository has lost an entry it had before, NO
   repository holds a model CREATED by the failed load (every registered model existed before it began; the importer's
   repository may have gained complete models taken from the other languages' repositories, which stay referenced),
   the heap of model objects is what it was, and the machine state is well formed again. *)
Theorem C18_clean_several_languages : forall fs mc f s repos e s' repos',
  MStable (s, repos) -> ml_load fs mc f (s, repos) = (inl e, (s', repos')) ->
  (forall K, incl (repo_of repos K) (repo_of repos' K)) /\
  (forall K k v, In (k, v) (repo_of repos' K) -> v < length (heap s)) /\
  heap s' = heap s /\ MStable (s', repos').
Proof. exact ml_load_failure_clean. Qed.
Print Assumptions C18_clean_several_languages.

Theorem C18_several_languages_state_invariant : forall mc ops fs ms, MStable ms -> MStable (ml_hist mc fs ms ops).
Proof. exact ml_hist_stable. Qed.
Print Assumptions C18_several_languages_state_invariant.

Theorem C18_clean_several_languages_in_every_history : forall mc fs0 ops fs f e s' repos',
  let ms := ml_hist mc fs0 (init_state [], []) ops in
  ml_load fs mc f ms = (inl e, (s', repos')) ->
  (forall K, incl (repo_of (snd ms) K) (repo_of repos' K)) /\
  (forall K k v, In (k, v) (repo_of repos' K) -> v < length (heap (fst ms))) /\
  heap s' = heap (fst ms) /\ MStable (s', repos').
Proof. exact ml_failure_clean_in_history. Qed.
Print Assumptions C18_clean_several_languages_in_every_history.

(* for one load with an arbitrary external cache: the importer's all_models loses nothing, holds only models that
   existed before, earlier models' local_models are untouched *)
Theorem C18_clean_across_languages : forall x xvals fs c f s e s',
  Stable s -> XOK (length (heap s)) x (begin_op c s) ->
  (forall g m', x g = Some m' -> In m' xvals) -> (forall v, In v xvals -> v < length (heap s)) ->
  load_main_x x xvals fs c f s = (inl e, s') ->
  incl (allm (begin_op c s)) (allm s') /\
  (forall k v, In (k, v) (allm s') -> v < length (heap s)) /\
  (forall y, y < length (heap s) -> local_of y s' = local_of y s) /\ Stable s' /\
  heap s' = heap s /\ (forall v, In v (constr s') -> In v (constr s)).
Proof. exact load_main_x_failure_clean. Qed.
Print Assumptions C18_clean_across_languages.

(* non-vacuity: b.typ cached by its own language; a.model imports it and its model processor fails (the defect fixed
   by 0e285cb): the .typ repository keeps b.typ, the .model repository has gained that same earlier model and nothing
   else, no model of the attempt remains *)
Example C18_several_languages_witness :
  let fs := [mkFile [[1]] [100%N] [101%N] false false true; mkFile [] [101%N] [] false false false] in
  let mc := mkML [true; true] [0; 1] in
  let ms := snd (ml_load fs mc 1 (init_state [], [])) in
  let r := ml_load fs mc 0 ms in
  MStable ms /\ fst r = inl (EMp 0) /\ repo_of (snd ms) 1 = [(1, 0)] /\ repo_of (snd ms) 0 = [] /\
  repo_of (snd (snd r)) 1 = [(1, 0)] /\ repo_of (snd (snd r)) 0 = [(1, 0)] /\ length (heap (fst (snd r))) = 1.
Proof.
  cbn zeta. split; [apply (ml_load_stable _ _ 1 (init_state [], [])), MStable_init|]. vm_compute. repeat split; reflexivity.
Qed.
Print Assumptions C18_several_languages_witness.
