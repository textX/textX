(* Cross-validation: the hand-written keyword matcher of the C21 model (Model/Kw.v, kw_match: literal then word
   boundary, positions by index) agrees with the semantics Model/Rx.v gives to the keyword pattern `<literal>\b`
   as the regex translator emits it (rx_kw), for every literal, input, position, word classification of the
   non-ASCII code points and both settings of IGNORECASE (ASCII folding).  Model/Kw.v is imported read-only. *)
From TxV Require Import Core.Base Model.Rx Proofs.RxProofs Proofs.RxLibProofs Model.Kw.
Require Import Lia.

Lemma lit_pre_kw E : forall t s, lit_pre E t s = lit_prefix lower_ascii (e_ignorecase E) t s.
Proof.
  induction t as [|x t IH]; intros s; [reflexivity|]. destruct s as [|c s']; [reflexivity|].
  cbn [lit_pre lit_prefix]. rewrite IH. f_equal.
  unfold chr_eq, ceq. destruct (e_ignorecase E); cbn [andb].
  - destruct (N.eqb_spec c x) as [->|Hne]; cbn [orb]; [rewrite N.eqb_refl; reflexivity | apply N.eqb_sym].
  - rewrite orb_false_r. apply N.eqb_sym.
Qed.

Lemma firstn_add {A} (p k : nat) : forall l : list A, firstn (p + k) l = firstn p l ++ firstn k (skipn p l).
Proof. induction p as [|p IH]; intros l; [reflexivity|]. destruct l as [|x l]; [destruct k; reflexivity|]. cbn. rewrite IH. reflexivity. Qed.

Lemma skipn_add {A} (p k : nat) : forall l : list A, skipn k (skipn p l) = skipn (p + k) l.
Proof. induction p as [|p IH]; intros l; [reflexivity|]. destruct l as [|x l]; [destruct k; reflexivity|]. cbn. apply IH. Qed.

Lemma rev_firstn_S {A} (q : nat) : forall l : list A,
  rev (firstn (S q) l) = match nth_error l q with Some c => c :: rev (firstn q l) | None => rev (firstn q l) end.
Proof.
  induction q as [|q IH]; intros l.
  - destruct l as [|x l]; reflexivity.
  - destruct l as [|x l]; [reflexivity|].
    change (firstn (S (S q)) (x :: l)) with (x :: firstn (S q) l). cbn [rev nth_error]. rewrite IH.
    destruct (nth_error l q); reflexivity.
Qed.

(* the word boundary of Rx on the state after q characters = Kw's index-based boundary at q *)
Lemma boundary_kw E input q : q <= length input ->
  word_boundary E (rev (firstn q input), skipn q input) = boundary (is_word E) input q.
Proof.
  intros Hq. unfold word_boundary, boundary. cbn [fst snd]. f_equal.
  - destruct q as [|q']; [reflexivity|]. unfold word_before, word_at. rewrite rev_firstn_S.
    destruct (nth_error input q') eqn:Hn; [reflexivity|]. apply nth_error_None in Hn. lia.
  - unfold word_at. rewrite skipn_hd. destruct (nth_error input q); reflexivity.
Qed.

Theorem rx_kw_agrees_with_kw_match E t input p : p <= length input ->
  rx_match E (rx_kw t) (rev (firstn p input)) (skipn p input)
  = kw_match (is_word E) lower_ascii (e_ignorecase E) t input p.
Proof.
  intros Hp. rewrite rx_match_kw. unfold kw_match. rewrite <- lit_pre_kw.
  destruct (lit_pre E t (skipn p input)) eqn:Hl; [|reflexivity].
  cbn [andb]. apply lit_pre_length in Hl. rewrite skipn_length in Hl.
  rewrite <- rev_app_distr, <- firstn_add, skipn_add. rewrite boundary_kw by lia. reflexivity.
Qed.
Print Assumptions rx_kw_agrees_with_kw_match.
