(* Proofs about the RREL evaluation model (Model/Rrel.v). *)
From TxV Require Import Core.Base Gen.SrcRrel Model.RrelSyntax Model.Rrel.

Lemma root_of_spec F m o r : root_of F m o = Some r -> is_root_of m o r.
Proof.
  revert o; induction F as [|F IH]; intros o H; simpl in H.
  - destruct (m_parent m o) eqn:E; [discriminate|]. inversion H; subst. split; [constructor|assumption].
  - destruct (m_parent m o) as [p|] eqn:E.
    + apply IH in H. destruct H as [Ha Hr]. split; [econstructor; eassumption|assumption].
    + inversion H; subst. split; [constructor|assumption].
Qed.

Lemma apply_parent_spec F m T o p : apply_parent F m T o = Some (Some p) -> nearest m T o p.
Proof.
  revert o; induction F as [|F IH]; intros o H; simpl in H.
  - destruct (m_parent m o) as [q|] eqn:E; [|discriminate].
    destruct (m_conf m q T) eqn:C; [|discriminate]. inversion H; subst. apply near_here; assumption.
  - destruct (m_parent m o) as [q|] eqn:E; [|discriminate].
    destruct (m_conf m q T) eqn:C.
    + inversion H; subst. apply near_here; assumption.
    + eapply near_up; eauto.
Qed.

Lemma apply_dots_spec m n o p : apply_dots m n o = Some p -> up m (pred n) o p.
Proof.
  revert o; induction n as [|n IH]; intros o H.
  - simpl in H. inversion H; subst. constructor.
  - destruct n as [|n'].
    + simpl in H. inversion H; subst. constructor.
    + change (apply_dots m (S (S n')) o) with
        (match m_parent m o with Some q => apply_dots m (S n') q | None => None end) in H.
      destruct (m_parent m o) as [q|] eqn:E; [|discriminate].
      apply IH in H. simpl. econstructor; eauto.
Qed.

Lemma name_is_spec m nm x : name_is m nm x = true -> m_name m x = Some nm.
Proof.
  unfold name_is. destruct (m_name m x) as [s|]; [|discriminate].
  intro H. apply str_eqb_eq in H. subst. reflexivity.
Qed.

Lemma base_spec F m (first : bool) (o b : nat) :
  (if first then root_of F m o else Some o) = Some b -> base_of m first o b.
Proof.
  destruct first; simpl; intro H.
  - apply root_of_spec in H. exact H.
  - inversion H; reflexivity.
Qed.

(* `lst[0]` of the elements named nm, as the one item it yields *)
Definition pick (m : model) (xs tr : list nat) (nm : list N) (ns : list (list N)) : list cfg :=
  match List.find (name_is m nm) xs with
  | Some x => [mk x ns (tr ++ [x])]
  | None => []
  end.

(* the items a navigation step yields from the values xs of its attribute *)
Definition nav_outs (m : model) (consume : bool) (fixed : option (list N)) (c : cfg) (xs : list nat) : list cfg :=
  match consume, fixed, c_names c with
  | true, _, [] => []
  | _, Some f, ns => pick m xs (c_path c) f ns
  | false, None, ns => map (fun x => mk x ns (c_path c)) xs
  | true, None, nm :: rest => pick m xs (c_path c) nm rest
  end.

Lemma apply_nav_eq F m name consume fixed first c :
  apply_nav F m name consume fixed first c =
  match (if first then root_of F m (c_obj c) else Some (c_obj c)) with
  | None => SOof
  | Some b => match m_attr m b name with
              | VPost => match consume, c_names c with true, [] => SOuts [] | _, _ => SPost end
              | v => SOuts (nav_outs m consume fixed c (vals v))
              end
  end.
Proof.
  unfold apply_nav, nav_outs, pick.
  destruct (if first then root_of F m (c_obj c) else Some (c_obj c)) as [b|]; [|reflexivity].
  destruct consume, (c_names c), (m_attr m b name); try reflexivity;
    destruct fixed; try reflexivity; destruct (List.find _ _); reflexivity.
Qed.

Lemma apply_nav_outs F m name consume fixed first c l :
  apply_nav F m name consume fixed first c = SOuts l ->
  exists b, (if first then root_of F m (c_obj c) else Some (c_obj c)) = Some b /\
            l = nav_outs m consume fixed c (vals (m_attr m b name)).
Proof.
  rewrite apply_nav_eq.
  destruct (if first then root_of F m (c_obj c) else Some (c_obj c)) as [b|]; [|discriminate].
  intro H. exists b. split; [reflexivity|].
  destruct (m_attr m b name); try (inversion H; reflexivity).
  unfold nav_outs. destruct consume, (c_names c); try discriminate. inversion H. destruct fixed; reflexivity.
Qed.

Lemma in_pick m xs tr nm ns c :
  In c (pick m xs tr nm ns) -> exists x, In x xs /\ m_name m x = Some nm /\ c = mk x ns (tr ++ [x]).
Proof.
  unfold pick. destruct (List.find (name_is m nm) xs) as [x|] eqn:E; [|contradiction].
  intros [<-|[]]. apply find_some in E as [Hi Hn]. apply name_is_spec in Hn. exists x. auto.
Qed.

Lemma apply_nav_spec F m name consume fixed first c l :
  apply_nav F m name consume fixed first c = SOuts l ->
  forall c', In c' l -> r_elem m (ENav name consume fixed) first c c'.
Proof.
  intros H c' Hin. apply apply_nav_outs in H as [b [Hb ->]]. apply base_spec in Hb.
  unfold nav_outs in Hin. destruct consume, fixed as [f|].
  - destruct (c_names c) eqn:En; [contradiction|]. rewrite <- En in Hin.
    apply in_pick in Hin as [x [Hx [Hn ->]]].
    apply (R_nav_fixed m name true f first c b x Hb Hx); [rewrite En; discriminate | exact Hn].
  - destruct (c_names c) as [|nm rest] eqn:En; [contradiction|].
    apply in_pick in Hin as [x [Hx [Hn ->]]]. exact (R_nav_consume m name first c b x nm rest Hb Hx En Hn).
  - apply in_pick in Hin as [x [Hx [Hn ->]]].
    apply (R_nav_fixed m name false f first c b x Hb Hx); [discriminate | exact Hn].
  - apply in_map_iff in Hin as [x [<- Hx]]. exact (R_nav_all m name first c b x Hb Hx).
Qed.

(* RRELSequence.get_next_matches is its guard around the loop over the alternatives *)
Lemma ev_seq_eq F m kf q sq first c k s :
  ev_seq F m kf q sq first c k s = guard kf q first c s (ev_alts F m kf q 0 sq first c k).
Proof. destruct sq; reflexivity. Qed.

Section Sound.
  Variable m : model.
  Variable Q : res -> Prop.
  Hypothesis QNone : Q RNone.
  Hypothesis QPost : Q RPost.
  Hypothesis QOof : Q ROof.

  (* "try f, and go on with g if it found nothing" is how every loop of the evaluator is written *)
  Lemma wp_then (f g : st -> res * st) s :
    Q (fst (f s)) -> (forall s1, Q (fst (g s1))) ->
    Q (fst (let '(r, s1) := f s in match r with RNone => g s1 | _ => (r, s1) end)).
  Proof. intros Hf Hg. destruct (f s) as [r s1]. destruct r; try exact Hf. apply Hg. Qed.

  Lemma guard_wp kf pos first c s body :
    (forall s1, Q (fst (body s1))) -> Q (fst (guard kf pos first c s body)).
  Proof.
    intro H. unfold guard.
    destruct (existsb _ _); [exact QNone | apply H].
  Qed.

  Lemma iter_outs_wp l k s :
    (forall c, In c l -> forall s1, Q (fst (k c s1))) -> Q (fst (iter_outs l k s)).
  Proof.
    revert s; induction l as [|c l IH]; intros s H; [exact QNone|].
    apply (wp_then (k c) (iter_outs l k)); [apply H; left; reflexivity|].
    intro s1. apply IH. intros c0 Hc0. apply H. right; exact Hc0.
  Qed.

  Lemma pd_filter_wp id pos k c :
    (forall s1, Q (fst (k c s1))) -> forall s, Q (fst (pd_filter id pos k c s)).
  Proof.
    intros H s. unfold pd_filter. destruct (existsb _ _); [exact QNone | apply H].
  Qed.

  Lemma star_zero_wp sq F k' first c s1 :
    (forall c', r_elem m (EStar sq) first c c' -> forall s, Q (fst (k' c' s))) ->
    Q (fst (star_zero (sl_seq sq) (sr_seq sq) F m k' first c s1)).
  Proof.
    intro Hk. unfold star_zero. destruct first; [|apply Hk; apply R_star_stay].
    apply (wp_then (fun s => if sl_seq sq then k' c s else (RNone, s))).
    - destruct (sl_seq sq) eqn:Esl; [|exact QNone]. apply Hk. apply R_star_local; exact Esl.
    - intro s. destruct (sr_seq sq) eqn:Esr; [|exact QNone].
      destruct (root_of F m (c_obj c)) as [rt|] eqn:Ert; [|exact QOof].
      apply Hk. apply R_star_root; [exact Esr | eapply root_of_spec; exact Ert].
  Qed.

  Lemma gfz_wp evs sq F kf pos k' :
    (forall f c k s, (forall c', r_seq m sq f c c' -> forall s1, Q (fst (k c' s1))) -> Q (fst (evs f c k s))) ->
    forall n first c s,
      (forall c', r_elem m (EStar sq) first c c' -> forall s1, Q (fst (k' c' s1))) ->
      Q (fst (gfz evs (sl_seq sq) (sr_seq sq) F m kf pos k' n first c s)).
  Proof.
    intros Hevs. induction n as [|n IH]; intros first c s Hk; [exact QOof|].
    apply guard_wp. intros s1. apply wp_then; [apply star_zero_wp; exact Hk|].
    intro s2. apply Hevs. intros c1 Hc1 s3. apply IH.
    intros c' Hc' s4. apply Hk. eapply R_star_more; eauto.
  Qed.

  Lemma ev_seq_wp F kf sq :
    (forall q i first c k s,
        (forall c', r_seq m sq first c c' -> forall s1, Q (fst (k c' s1))) ->
        Q (fst (ev_alts F m kf q i sq first c k s))) ->
    forall q first c k s,
      (forall c', r_seq m sq first c c' -> forall s1, Q (fst (k c' s1))) ->
      Q (fst (ev_seq F m kf q sq first c k s)).
  Proof. intros IH q first c k s Hk. rewrite ev_seq_eq. apply guard_wp. intro s1. apply IH. exact Hk. Qed.

  Lemma ev_wp F kf :
    (forall e pos first c k s,
        (forall c', r_elem m e first c c' -> forall s1, Q (fst (k c' s1))) ->
        Q (fst (ev_elem F m kf pos e first c k s))) /\
    (forall p q i j first c k s,
        (forall c', r_path m p first c c' -> forall s1, Q (fst (k c' s1))) ->
        Q (fst (ev_path F m kf q i j p first c k s))) /\
    (forall sq q i first c k s,
        (forall c', r_seq m sq first c c' -> forall s1, Q (fst (k c' s1))) ->
        Q (fst (ev_alts F m kf q i sq first c k s))).
  Proof.
    apply rrel_mutind.
    - (* EParent *)
      intros T pos first c k s Hk. simpl. apply guard_wp. intro s1.
      destruct (apply_parent F m T (c_obj c)) as [[p|]|] eqn:E; [|exact QNone|exact QOof].
      apply Hk. constructor. eapply apply_parent_spec; exact E.
    - (* ENav *)
      intros name consume fixed pos first c k s Hk. simpl. apply guard_wp. intro s1.
      destruct (apply_nav F m name consume fixed first c) as [l| |] eqn:E; [|exact QPost|exact QOof].
      apply iter_outs_wp. intros c' Hin s2. apply Hk. exact (apply_nav_spec _ _ _ _ _ _ _ _ E c' Hin).
    - (* EDots *)
      intros n pos first c k s Hk. simpl. apply guard_wp. intro s1.
      destruct (apply_dots m n (c_obj c)) as [p|] eqn:E; [|exact QNone].
      apply Hk. constructor. apply apply_dots_spec; exact E.
    - (* EBr *)
      intros sq IH pos first c k s Hk. simpl. apply guard_wp. intro s1.
      apply (ev_seq_wp F kf sq IH). intros c' Hc'. apply Hk. constructor; exact Hc'.
    - (* EStar *)
      intros sq IH pos first c k s Hk. simpl. apply gfz_wp.
      + intros f c1 k1 s1 Hk1. apply (ev_seq_wp F kf sq IH). exact Hk1.
      + intros c' Hc' s1. apply pd_filter_wp. intro s2. apply Hk. exact Hc'.
    - (* P1 *)
      intros e IH q i j first c k s Hk. simpl. apply IH.
      intros c' Hc'. apply Hk. constructor; exact Hc'.
    - (* PCons *)
      intros e IHe p IHp q i j first c k s Hk. simpl. apply IHe.
      intros c1 Hc1 s1. apply IHp. intros c2 Hc2. apply Hk. econstructor; eauto.
    - (* S1 *)
      intros p IHp q i first c k s Hk. simpl. apply IHp.
      intros c' Hc'. apply Hk. constructor; exact Hc'.
    - (* SCons *)
      intros p IHp sq IHa q i first c k s Hk. simpl. apply wp_then.
      + apply IHp. intros c' Hc'. apply Hk. apply RS_head; exact Hc'.
      + intro s1. apply IHa. intros c' Hc'. apply Hk. apply RS_tail; exact Hc'.
  Qed.
End Sound.

(* an answer RFound t tr of the loop over alternatives comes from one expansion of them *)
Lemma alts_sound F m kf sq q i c T s t tr s' :
  ev_alts F m kf q i sq true c (final m T) s = (RFound t tr, s') ->
  r_seq m sq true c (mk t [] tr) /\ conf_opt m T t = true.
Proof.
  intro H.
  set (Q := fun r => match r with
                     | RFound t tr => r_seq m sq true c (mk t [] tr) /\ conf_opt m T t = true
                     | _ => True end).
  assert (HQ : Q (fst (ev_alts F m kf q i sq true c (final m T) s))).
  { apply (ev_wp m Q I I I F kf). intros [o' ns' tr'] Hc' s1. unfold final. simpl.
    destruct ns' as [|n ns']; [|exact I].
    destruct (conf_opt m T o') eqn:C; [|exact I].
    split; [exact Hc' | exact C]. }
  rewrite H in HQ. exact HQ.
Qed.

(* every answer RFound t tr of find_object_with_path is justified, tr being the path *)
Lemma fowp_sound F m kf sq o names T t tr s :
  fowp F m kf sq o names T = (RFound t tr, s) -> justified m sq o names T t tr.
Proof. apply alts_sound. Qed.

Lemma proxy_path_spec t tr :
  (proxy_path t tr = tr /\ exists pre, tr = pre ++ [t]) \/
  (proxy_path t tr = tr ++ [t] /\ forall pre, tr <> pre ++ [t]).
Proof.
  unfold proxy_path. destruct (rev tr) as [|x l] eqn:E.
  - right. assert (tr = []) by (rewrite <- (rev_involutive tr), E; reflexivity). subst.
    split; [reflexivity|]. intros pre H. destruct pre; discriminate.
  - assert (Htr : tr = rev l ++ [x]) by (rewrite <- (rev_involutive tr), E; reflexivity).
    destruct (Nat.eqb x t) eqn:Ex.
    + apply Nat.eqb_eq in Ex. subst x. left. split; [reflexivity|]. exists (rev l). exact Htr.
    + right. split; [reflexivity|]. intros pre H. rewrite Htr in H.
      apply app_inj_tail in H as [_ H]. subst. rewrite Nat.eqb_refl in Ex. discriminate.
Qed.

Lemma proxy_path_last t tr d : last (proxy_path t tr) d = t.
Proof.
  destruct (proxy_path_spec t tr) as [[-> [pre ->]]|[-> _]]; apply last_last.
Qed.

Lemma find_obj_sound F m kf sq o names T t :
  find F m kf sq o names T false = FObj t -> exists tr, justified m sq o names T t tr.
Proof.
  unfold find. destruct (fowp F m kf sq o names T) as [r s] eqn:E. simpl.
  destruct r; try discriminate. intro H. inversion H; subst.
  eexists. eapply fowp_sound; exact E.
Qed.

Lemma find_none_fowp F m kf sq o names T px :
  find F m kf sq o names T px = FNone -> fst (fowp F m kf sq o names T) = RNone.
Proof.
  unfold find. destruct (fst (fowp F m kf sq o names T)); try discriminate; [reflexivity|].
  destruct px; discriminate.
Qed.

Scheme r_elem_min := Minimality for r_elem Sort Prop
  with r_path_min := Minimality for r_path Sort Prop
  with r_seq_min := Minimality for r_seq Sort Prop.
Combined Scheme r_mutind from r_elem_min, r_path_min, r_seq_min.

(* the step from c to c' consumes a prefix of the names and extends the path by new objects;
   P says how the consumed names and the new objects are related *)
Definition extends_by (P : list (list N) -> list nat -> Prop) (c c' : cfg) : Prop :=
  exists cons new, c_names c = cons ++ c_names c' /\ c_path c' = c_path c ++ new /\ P cons new.

Section Extends.
  Variable m : model.
  Variable P : list (list N) -> list nat -> Prop.
  Hypothesis P_nil : P [] [].
  Hypothesis P_app : forall a b x y, P a x -> P b y -> P (a ++ b) (x ++ y).
  Hypothesis P_take : forall nm x, m_name m x = Some nm -> P [nm] [x].
  (* a fixed-name step adds an object to the path without consuming a name: either P allows
     that, or the expression has no such step *)
  Variable skip : bool.
  Hypothesis P_skip : skip = true -> forall x, P [] [x].

  Lemma extends_same c o : extends_by P c (mk o (c_names c) (c_path c)).
  Proof. exists [], []. simpl. rewrite app_nil_r. auto. Qed.

  Lemma extends_refl c : extends_by P c c.
  Proof. exists [], []. rewrite app_nil_r. auto. Qed.

  Lemma extends_trans a b c : extends_by P a b -> extends_by P b c -> extends_by P a c.
  Proof.
    intros [c1 [n1 [H1 [H2 H3]]]] [c2 [n2 [H4 [H5 H6]]]].
    exists (c1 ++ c2), (n1 ++ n2). split; [|split].
    - rewrite H1, H4, app_assoc. reflexivity.
    - rewrite H5, H2, app_assoc. reflexivity.
    - apply P_app; assumption.
  Qed.

  Lemma r_extends_by :
    (forall e f c c', r_elem m e f c c' -> skip || nofix_elem e = true -> extends_by P c c') /\
    (forall p f c c', r_path m p f c c' -> skip || nofix_path p = true -> extends_by P c c') /\
    (forall s f c c', r_seq m s f c c' -> skip || nofix_seq s = true -> extends_by P c c').
  Proof.
    apply r_mutind; intros; simpl in *;
      try apply extends_same; try apply extends_refl; auto.
    - (* consuming *)
      exists [nm], [x]. auto.
    - (* fixed name *)
      rewrite orb_false_r in *. exists [], [x]. auto.
    - (* one more unfolding of `*` *)
      eapply extends_trans; eauto.
    - (* e.p *)
      rewrite orb_andb_distrib_r in *.
      match goal with H : _ && _ = true |- _ => apply andb_true_iff in H as [Ha Hb] end.
      eapply extends_trans; eauto.
    - (* first alternative *)
      rewrite orb_andb_distrib_r in *.
      match goal with H : _ && _ = true |- _ => apply andb_true_iff in H as [Ha Hb] end. auto.
    - (* later alternatives *)
      rewrite orb_andb_distrib_r in *.
      match goal with H : _ && _ = true |- _ => apply andb_true_iff in H as [Ha Hb] end. auto.
  Qed.
End Extends.

Lemma embeds_app m a b x y : embeds m a x -> embeds m b y -> embeds m (a ++ b) (x ++ y).
Proof.
  intros H1 H2. induction H1; simpl; [assumption| |]; constructor; assumption.
Qed.

(* in general the consumed names occur in order among the new objects *)
Definition extends (m : model) : cfg -> cfg -> Prop := extends_by (embeds m).

Lemma r_extends m :
  (forall e f c c', r_elem m e f c c' -> extends m c c') /\
  (forall p f c c', r_path m p f c c' -> extends m c c') /\
  (forall s f c c', r_seq m s f c c' -> extends m c c').
Proof.
  destruct (r_extends_by m (embeds m) (emb_nil m) (embeds_app m)
              (fun nm x H => emb_take m nm [] x [] H (emb_nil m))
              true (fun _ x => emb_skip m [] x [] (emb_nil m))) as [He [Hp Hs]].
  split; [|split]; intros; [eapply He | eapply Hp | eapply Hs]; eauto.
Qed.

(* from the start item to a final one: all names are consumed, the whole path is new *)
Lemma extends_whole P o names t tr : extends_by P (mk o names []) (mk t [] tr) -> P names tr.
Proof.
  intros [cons [new [H1 [H2 H3]]]]. simpl in *. rewrite app_nil_r in H1. subst. exact H3.
Qed.

Lemma root_unique m o r r' : is_root_of m o r -> is_root_of m o r' -> r = r'.
Proof.
  intros [Ha Hr] [Ha' Hr']. induction Ha as [o|o p r Hp Ha IH].
  - inversion Ha' as [|o1 p1 r1 Hp1 Ha1]; subst; [reflexivity|]. rewrite Hr in Hp1. discriminate.
  - inversion Ha' as [|o1 p1 r1 Hp1 Ha1]; subst.
    + rewrite Hr' in Hp. discriminate.
    + rewrite Hp in Hp1. inversion Hp1; subst. apply IH; assumption.
Qed.

Lemma base_det F m (first : bool) (o b b0 : nat) :
  base_of m first o b -> (if first then root_of F m o else Some o) = Some b0 -> b0 = b.
Proof.
  destruct first; simpl; intros Hb H.
  - apply root_of_spec in H. eapply root_unique; eauto.
  - unfold base_of in Hb. congruence.
Qed.

Lemma apply_parent_complete m T o p :
  nearest m T o p -> forall F r, apply_parent F m T o = Some r -> r = Some p.
Proof.
  induction 1 as [T o p Hp Hc | T o q p Hp Hc Hn IH]; intros F r H.
  - destruct F; simpl in H; rewrite Hp, Hc in H; inversion H; reflexivity.
  - destruct F; simpl in H; rewrite Hp, Hc in H; [discriminate|]. eapply IH; eauto.
Qed.

Lemma apply_dots_complete m n : forall o p, up m (pred n) o p -> apply_dots m n o = Some p.
Proof.
  induction n as [|n IH]; intros o p H.
  - simpl in H. inversion H; subst. reflexivity.
  - destruct n as [|n'].
    + simpl in H. inversion H; subst. reflexivity.
    + simpl in H. inversion H as [|n0 o0 q p0 Hq Hu]; subst.
      change (apply_dots m (S (S n')) o) with
        (match m_parent m o with Some q => apply_dots m (S n') q | None => None end).
      rewrite Hq. apply IH. simpl. exact Hu.
Qed.

(* with unique sibling names `lst[0]` is the element of that name *)
Lemma pick_unique m b a x nm tr ns :
  siblings_unique m -> In x (vals (m_attr m b a)) -> m_name m x = Some nm ->
  pick m (vals (m_attr m b a)) tr nm ns = [mk x ns (tr ++ [x])].
Proof.
  intros Hu Hin Hn. unfold pick.
  destruct (List.find (name_is m nm) (vals (m_attr m b a))) as [y|] eqn:E.
  - apply find_some in E as [Hy Hny]. apply name_is_spec in Hny.
    rewrite (Hu b a x y nm Hin Hy Hn Hny). reflexivity.
  - eapply find_none in E; [|exact Hin]. unfold name_is in E. rewrite Hn, str_eqb_refl in E. discriminate.
Qed.

Lemma apply_nav_complete F m name consume fixed first c c' l :
  siblings_unique m ->
  r_elem m (ENav name consume fixed) first c c' ->
  apply_nav F m name consume fixed first c = SOuts l -> In c' l.
Proof.
  intros Hu Hr H. apply apply_nav_outs in H as [b0 [Eb ->]]. unfold nav_outs.
  inversion Hr as [| |name0 first0 c0 b x Hb Hin|name0 first0 c0 b x nm rest Hb Hin Hns Hnm
                   |name0 consume0 f first0 c0 b x Hb Hin Hne Hnm| | | | |]; subst;
    rewrite (base_det F m first (c_obj c) b b0 Hb Eb) in *.
  - (* ~name *)
    apply (in_map (fun x => mk x (c_names c) (c_path c))). exact Hin.
  - (* consuming *)
    rewrite Hns, (pick_unique m b name x nm _ _ Hu Hin Hnm). left; reflexivity.
  - (* fixed name *)
    destruct consume.
    + destruct (c_names c) eqn:En; [exfalso; apply Hne; reflexivity|].
      rewrite (pick_unique m b name x f _ _ Hu Hin Hnm). left; reflexivity.
    + rewrite (pick_unique m b name x f _ _ Hu Hin Hnm). left; reflexivity.
Qed.

(* The state only moves forward.  The evaluator changes it in four ways: a key enters the
   visited set, an entry enters a prevent_doubles set, an invocation number is drawn, the
   pruning flag is raised.  Under an order on states that contains these steps every run ends
   above where it began (provided its continuation does); so what holds of the final state and
   is inherited downwards held all along.  Used for the pruning flag here and for the visited
   set in RrelComplete.v. *)
Record forward (R : st -> st -> Prop) : Prop := {
  fw_refl : forall s, R s s;
  fw_trans : forall s1 s2 s3, R s1 s2 -> R s2 s3 -> R s1 s3;
  fw_vis : forall s k, R s {| vis := k :: vis s; pds := pds s; nxt := nxt s; hit := hit s |};
  fw_pds : forall s e, R s {| vis := vis s; pds := e :: pds s; nxt := nxt s; hit := hit s |};
  fw_nxt : forall s, R s {| vis := vis s; pds := pds s; nxt := S (nxt s); hit := hit s |};
  fw_hit : forall s, R s {| vis := vis s; pds := pds s; nxt := nxt s; hit := true |}
}.

Section Forward.
  Variable R : st -> st -> Prop.
  Hypothesis HR : forward R.

  Definition fwdc (f : st -> res * st) : Prop := forall s, R s (snd (f s)).
  Definition fwd (k : cfg -> st -> res * st) : Prop := forall c, fwdc (k c).

  Lemma fwdc_ret r : fwdc (fun s => (r, s)).
  Proof. intro s. apply (fw_refl R HR). Qed.

  Lemma fwdc_then f g :
    fwdc f -> fwdc g ->
    fwdc (fun s => let '(r, s1) := f s in match r with RNone => g s1 | _ => (r, s1) end).
  Proof.
    intros Hf Hg s. specialize (Hf s). destruct (f s) as [r s1].
    destruct r; try exact Hf. exact (fw_trans R HR _ _ _ Hf (Hg s1)).
  Qed.

  Lemma final_fwd m T : fwd (final m T).
  Proof.
    intros c s. unfold final.
    destruct (c_names c); [destruct (conf_opt m T (c_obj c))|]; apply (fw_refl R HR).
  Qed.

  Lemma guard_fwd kf pos first c body : fwdc body -> fwdc (fun s => guard kf pos first c s body).
  Proof.
    intros H s. unfold guard. destruct (existsb _ _); [apply (fw_hit R HR)|].
    exact (fw_trans R HR _ _ _ (fw_vis R HR s _) (H _)).
  Qed.

  Lemma iter_outs_fwd l k : fwd k -> fwdc (iter_outs l k).
  Proof.
    intros Hk. induction l as [|c l IH]; [apply (fwdc_ret RNone)|].
    apply (fwdc_then (k c) (iter_outs l k)); [apply Hk | exact IH].
  Qed.

  Lemma pd_filter_fwd id pos k : fwd k -> fwd (pd_filter id pos k).
  Proof.
    intros Hk c s. unfold pd_filter. destruct (existsb _ _); [apply (fw_hit R HR)|].
    exact (fw_trans R HR _ _ _ (fw_pds R HR s _) (Hk c _)).
  Qed.

  Lemma star_root_fwd (sr : bool) F m k' c :
    fwd k' ->
    fwdc (fun s => if sr then match root_of F m (c_obj c) with
                             | Some rt => k' (mk rt (c_names c) (c_path c)) s
                             | None => (ROof, s)
                             end
                   else (RNone, s)).
  Proof.
    intro Hk. destruct sr; [|apply fwdc_ret].
    destruct (root_of F m (c_obj c)); [apply Hk | apply fwdc_ret].
  Qed.

  Lemma star_zero_fwd sl sr F m k' first c : fwd k' -> fwdc (star_zero sl sr F m k' first c).
  Proof.
    intros Hk. unfold star_zero. destruct first; [|apply Hk].
    apply (fwdc_then (fun s => if sl then k' c s else (RNone, s))); [|apply star_root_fwd; exact Hk].
    destruct sl; [apply Hk | apply fwdc_ret].
  Qed.

  Lemma gfz_fwd evs sl sr F m kf pos k' :
    (forall f c k, fwd k -> fwdc (evs f c k)) -> fwd k' ->
    forall n first c, fwdc (gfz evs sl sr F m kf pos k' n first c).
  Proof.
    intros Hevs Hk. induction n as [|n IH]; intros first c; [apply (fwdc_ret ROof)|].
    apply (guard_fwd kf pos first c).
    apply (fwdc_then (star_zero sl sr F m k' first c)); [apply star_zero_fwd; exact Hk|].
    apply Hevs. intros c1. apply IH.
  Qed.

  Lemma ev_seq_fwd F m kf q sq first c k :
    fwdc (ev_alts F m kf q 0 sq first c k) -> fwdc (ev_seq F m kf q sq first c k).
  Proof. intros H s. rewrite ev_seq_eq. apply guard_fwd. exact H. Qed.

  Lemma ev_fwd F m kf :
    (forall e pos first c k, fwd k -> fwdc (ev_elem F m kf pos e first c k)) /\
    (forall p q i j first c k, fwd k -> fwdc (ev_path F m kf q i j p first c k)) /\
    (forall sq q i first c k, fwd k -> fwdc (ev_alts F m kf q i sq first c k)).
  Proof.
    apply rrel_mutind.
    - intros T pos first c k Hk. apply (guard_fwd kf pos first c). intros s1.
      destruct (apply_parent F m T (c_obj c)) as [[p|]|]; [apply Hk | apply (fw_refl R HR) ..].
    - intros name consume fixed pos first c k Hk. apply (guard_fwd kf pos first c). intros s1.
      destruct (apply_nav F m name consume fixed first c); [|apply (fw_refl R HR) ..].
      apply iter_outs_fwd; exact Hk.
    - intros n pos first c k Hk. apply (guard_fwd kf pos first c). intros s1.
      destruct (apply_dots m n (c_obj c)); [apply Hk | apply (fw_refl R HR)].
    - intros sq IH pos first c k Hk. apply (guard_fwd kf pos first c).
      apply ev_seq_fwd. apply IH. exact Hk.
    - intros sq IH pos first c k Hk s. simpl.
      refine (fw_trans R HR _ _ _ (fw_nxt R HR s) _). apply gfz_fwd.
      + intros f c1 k1 Hk1. apply ev_seq_fwd. apply IH. exact Hk1.
      + apply pd_filter_fwd. exact Hk.
    - intros e IH q i j first c k Hk. apply (IH (j :: i :: q)). exact Hk.
    - intros e IHe p IHp q i j first c k Hk. apply (IHe (j :: i :: q)). intros c1. apply IHp. exact Hk.
    - intros p IHp q i first c k Hk. apply (IHp q i 0). exact Hk.
    - intros p IHp sq IHa q i first c k Hk.
      apply (fwdc_then (ev_path F m kf q i 0 p first c k) (ev_alts F m kf q (S i) sq first c k));
        [apply IHp | apply IHa]; exact Hk.
  Qed.
End Forward.

Definition hit_le (s s' : st) : Prop := hit s = true -> hit s' = true.

Lemma hit_forward : forward hit_le.
Proof. split; unfold hit_le; simpl; auto. Qed.

Definition clean (x : res * st) : Prop := fst x = RNone /\ hit (snd x) = false.

Lemma clean_then (f g : st -> res * st) s :
  fwdc hit_le g ->
  clean (let '(r, s1) := f s in match r with RNone => g s1 | _ => (r, s1) end) ->
  clean (f s) /\ clean (g (snd (f s))).
Proof.
  intros Hg H. destruct (f s) as [r s1].
  destruct r; try (destruct H as [H _]; simpl in H; discriminate).
  split; [|exact H]. split; [reflexivity|]. simpl.
  destruct (hit s1) eqn:E; [|reflexivity]. destruct H as [_ H]. rewrite (Hg s1 E) in H. discriminate.
Qed.

Lemma guard_clean kf pos first c s body : clean (guard kf pos first c s body) -> exists s1, clean (body s1).
Proof.
  unfold guard. destruct (existsb _ _).
  - intros [_ H]. simpl in H. discriminate.
  - intro H. eexists. exact H.
Qed.

Lemma iter_outs_clean l k : fwd hit_le k -> forall s, clean (iter_outs l k s) ->
  forall c, In c l -> exists s1, clean (k c s1).
Proof.
  intros Hk. induction l as [|a l IH]; intros s H c Hin; [destruct Hin|].
  apply (clean_then (k a) (iter_outs l k)) in H as [H1 H2]; [|apply (iter_outs_fwd _ hit_forward); exact Hk].
  destruct Hin as [<-|Hin]; [exists s; exact H1 | exact (IH _ H2 c Hin)].
Qed.

Lemma pd_filter_clean id pos k c s : clean (pd_filter id pos k c s) -> exists s1, clean (k c s1).
Proof.
  unfold pd_filter. destruct (existsb _ _).
  - intros [_ H]. simpl in H. discriminate.
  - intro H. eexists. exact H.
Qed.

Section Complete.
  Variable m : model.
  Hypothesis Huniq : siblings_unique m.

  (* the three zero-iteration yields of `*` *)
  Lemma star_zero_clean sq F k' first c s :
    fwd hit_le k' -> clean (star_zero (sl_seq sq) (sr_seq sq) F m k' first c s) ->
    (first = false -> exists s1, clean (k' c s1)) /\
    (first = true -> sl_seq sq = true -> exists s1, clean (k' c s1)) /\
    (first = true -> sr_seq sq = true -> forall rt, is_root_of m (c_obj c) rt ->
     exists s1, clean (k' (mk rt (c_names c) (c_path c)) s1)).
  Proof.
    intros Hk H. unfold star_zero in H. destruct first.
    - apply (clean_then (fun s => if sl_seq sq then k' c s else (RNone, s))) in H as [H1 H2];
        [|apply (star_root_fwd _ hit_forward); exact Hk].
      split; [discriminate|]. split.
      + intros _ Hsl. rewrite Hsl in H1. exists s. exact H1.
      + intros _ Hsr rt Hrt. rewrite Hsr in H2.
        destruct (root_of F m (c_obj c)) as [rt'|] eqn:Er; [|destruct H2 as [H2 _]; discriminate].
        apply root_of_spec in Er. rewrite (root_unique _ _ _ _ Hrt Er). eexists. exact H2.
    - split; [intros _; exists s; exact H|]. split; discriminate.
  Qed.

  Lemma gfz_clean evs sq F kf pos k' :
    (forall f c k, fwd hit_le k -> fwdc hit_le (evs f c k)) ->
    (forall f c k s, fwd hit_le k -> clean (evs f c k s) -> forall c', r_seq m sq f c c' -> exists s1, clean (k c' s1)) ->
    fwd hit_le k' ->
    forall n first c s,
      clean (gfz evs (sl_seq sq) (sr_seq sq) F m kf pos k' n first c s) ->
      forall c', r_elem m (EStar sq) first c c' -> exists s1, clean (k' c' s1).
  Proof.
    intros Hem Hec Hk. induction n as [|n IH]; intros first c s H c' Hr.
    - destruct H as [H _]. simpl in H. discriminate.
    - simpl in H. apply guard_clean in H as [s1 H].
      assert (Hm : fwd hit_le (fun c1 s3 => gfz evs (sl_seq sq) (sr_seq sq) F m kf pos k' n false c1 s3)).
      { intros c1. apply (gfz_fwd _ hit_forward); assumption. }
      apply (clean_then (star_zero (sl_seq sq) (sr_seq sq) F m k' first c)) in H as [Hz H];
        [|apply Hem; exact Hm].
      destruct (star_zero_clean sq F k' first c s1 Hk Hz) as [Z0 [Zl Zr]].
      inversion Hr as [| | | | | |sq0 c0|sq0 c0 Hsl|sq0 c0 rt Hsr Hrt|sq0 first0 c0 c1 c2 Hs1 Hs2]; subst.
      + exact (Z0 eq_refl).
      + exact (Zl eq_refl Hsl).
      + exact (Zr eq_refl Hsr rt Hrt).
      + destruct (Hec _ _ _ _ Hm H _ Hs1) as [s3 H3]. exact (IH _ _ _ H3 _ Hs2).
  Qed.

  Lemma ev_seq_clean F kf sq :
    (forall q i first c k s, fwd hit_le k -> clean (ev_alts F m kf q i sq first c k s) ->
        forall c', r_seq m sq first c c' -> exists s1, clean (k c' s1)) ->
    forall q first c k s, fwd hit_le k -> clean (ev_seq F m kf q sq first c k s) ->
        forall c', r_seq m sq first c c' -> exists s1, clean (k c' s1).
  Proof.
    intros IH q first c k s Hk H. rewrite ev_seq_eq in H. apply guard_clean in H as [s1 H].
    exact (IH q 0 first c k s1 Hk H).
  Qed.

  Lemma ev_clean F kf :
    (forall e pos first c k s, fwd hit_le k -> clean (ev_elem F m kf pos e first c k s) ->
        forall c', r_elem m e first c c' -> exists s1, clean (k c' s1)) /\
    (forall p q i j first c k s, fwd hit_le k -> clean (ev_path F m kf q i j p first c k s) ->
        forall c', r_path m p first c c' -> exists s1, clean (k c' s1)) /\
    (forall sq q i first c k s, fwd hit_le k -> clean (ev_alts F m kf q i sq first c k s) ->
        forall c', r_seq m sq first c c' -> exists s1, clean (k c' s1)).
  Proof.
    destruct (ev_fwd _ hit_forward F m kf) as [Mel [Mpa Msq]].
    apply rrel_mutind.
    - (* EParent *)
      intros T pos first c k s Hk H c' Hr. simpl in H. apply guard_clean in H as [s1 H].
      inversion Hr as [T0 first0 c0 p Hn| | | | | | | | |]; subst.
      destruct (apply_parent F m T (c_obj c)) as [r|] eqn:E.
      + rewrite (apply_parent_complete _ _ _ _ Hn _ _ E) in H. eexists. exact H.
      + destruct H as [H _]; simpl in H; discriminate.
    - (* ENav *)
      intros name consume fixed pos first c k s Hk H c' Hr. simpl in H. apply guard_clean in H as [s1 H].
      destruct (apply_nav F m name consume fixed first c) as [l| |] eqn:E;
        try (destruct H as [H _]; simpl in H; discriminate).
      exact (iter_outs_clean l k Hk s1 H c' (apply_nav_complete _ _ _ _ _ _ _ _ _ Huniq Hr E)).
    - (* EDots *)
      intros n pos first c k s Hk H c' Hr. simpl in H. apply guard_clean in H as [s1 H].
      inversion Hr as [|num first0 c0 p Hu| | | | | | | |]; subst.
      rewrite (apply_dots_complete _ _ _ _ Hu) in H. eexists. exact H.
    - (* EBr *)
      intros sq IH pos first c k s Hk H c' Hr. simpl in H. apply guard_clean in H as [s1 H].
      inversion Hr; subst. eapply (ev_seq_clean F kf sq IH); eauto.
    - (* EStar *)
      intros sq IH pos first c k s Hk H c' Hr. simpl in H.
      edestruct (gfz_clean (fun f c1 k1 s1 => ev_seq F m kf (0 :: pos) sq f c1 k1 s1) sq F kf pos
                           (pd_filter (nxt s) pos k)) as [s1 H1]; try exact H; try exact Hr.
      + intros f c1 k1 Hk1. apply (ev_seq_fwd _ hit_forward). apply Msq. exact Hk1.
      + intros f c1 k1 s1. apply (ev_seq_clean F kf sq IH).
      + apply (pd_filter_fwd _ hit_forward). exact Hk.
      + eapply pd_filter_clean. exact H1.
    - (* P1 *)
      intros e IH q i j first c k s Hk H c' Hr. simpl in H. inversion Hr; subst. eapply IH; eauto.
    - (* PCons *)
      intros e IHe p IHp q i j first c k s Hk H c' Hr. simpl in H.
      inversion Hr as [|e0 p0 first0 c0 c1 c2 Hr1 Hr2]; subst.
      assert (Hm : fwd hit_le (fun c1 s1 => ev_path F m kf q i (S j) p false c1 k s1)).
      { intros c3. apply Mpa. exact Hk. }
      destruct (IHe _ _ _ _ _ Hm H _ Hr1) as [s1 H1].
      eapply IHp; eauto.
    - (* S1 *)
      intros p IHp q i first c k s Hk H c' Hr. simpl in H. inversion Hr; subst. eapply IHp; eauto.
    - (* SCons *)
      intros p IHp sq IHa q i first c k s Hk H c' Hr. simpl in H.
      apply (clean_then (ev_path F m kf q i 0 p first c k)) in H as [H1 H2]; [|apply Msq; exact Hk].
      inversion Hr; subst; [eapply IHp | eapply IHa]; eauto.
  Qed.

  (* a search that ends with "not found" without ever having been cut short by the visited
     set or prevent_doubles has tried every justified result: there is none *)
  Lemma fowp_complete_nohit F kf sq o names T s :
    fowp F m kf sq o names T = (RNone, s) -> hit s = false ->
    forall t tr, ~ justified m sq o names T t tr.
  Proof.
    intros H Hh t tr [Hr Hc]. unfold fowp in H.
    destruct (ev_clean F kf) as [_ [_ Ha]].
    edestruct (Ha sq [] 0 true (mk o names []) (final m T) st0 (final_fwd _ hit_forward m T)) as [s1 [H1 _]].
    - rewrite H. split; [reflexivity | exact Hh].
    - exact Hr.
    - unfold final in H1. simpl in H1. rewrite Hc in H1. simpl in H1. discriminate.
  Qed.
End Complete.


Lemma assoc_attr_in a l : assoc_attr a l = VAbsent \/ exists b, In (b, assoc_attr a l) l.
Proof.
  induction l as [|[b v] l IH]; simpl; [left; reflexivity|].
  destruct (str_eqb a b).
  - right. exists b. left. reflexivity.
  - destruct IH as [IH|[b' IH]]; [left; exact IH | right; exists b'; right; exact IH].
Qed.

Lemma siblings_unique_tbl_ok t : siblings_unique_tbl t = true -> siblings_unique (of_table t).
Proof.
  intros H o a x y nm Hx Hy Hnx Hny. simpl in *.
  destruct (Nat.lt_ge_cases o (List.length t)) as [Hlt|Hge].
  - assert (Hrow : In (nth o t row0) t) by (apply nth_In; exact Hlt).
    unfold siblings_unique_tbl in H. rewrite forallb_forall in H. specialize (H _ Hrow).
    destruct (assoc_attr_in a (o_attrs (nth o t row0))) as [E|[b Hin]].
    + rewrite E in Hx. destruct Hx.
    + rewrite forallb_forall in H. specialize (H _ Hin). simpl in H.
      unfold names_unique_in in H. rewrite forallb_forall in H. specialize (H _ Hx).
      rewrite forallb_forall in H. specialize (H _ Hy). simpl in H.
      rewrite Hnx, Hny, str_eqb_refl in H. apply Nat.eqb_eq in H. exact H.
  - rewrite (nth_overflow _ _ Hge) in Hx. simpl in Hx. destruct Hx.
Qed.

Definition s_kids : list N := [107;105;100;115]%N.
Definition s_members : list N := [109;101;109;98;101;114;115]%N.
Definition s_Cls : list N := [67;108;115]%N.
Definition s_Mem : list N := [77;101;109]%N.
Definition row (p : option nat) (n : option (list N)) (a : list (list N * value)) (c : list (list N)) : orow :=
  {| o_parent := p; o_name := n; o_attrs := a; o_conf := c |}.
Definition sample_tbl : list orow :=
  [ row None None [(s_kids, VList [1; 3])] [];
    row (Some 0) (Some [97]%N) [(s_members, VList [2])] [s_Cls];
    row (Some 1) (Some [112]%N) [] [s_Mem];
    row (Some 0) (Some [98]%N) [(s_members, VList [4])] [s_Cls];
    row (Some 3) (Some [113]%N) [] [s_Mem] ].
Definition sample := of_table sample_tbl.
(* ~kids*.members *)
Definition e_star : seq := S1 (PCons (EStar (S1 (P1 (ENav s_kids false None)))) (P1 (ENav s_members true None))).
(* kids.members.parent(Cls) *)
Definition e_tail : seq :=
  S1 (PCons (ENav s_kids true None) (PCons (ENav s_members true None) (P1 (EParent s_Cls)))).
(* zzz, ~kids*.members *)
Definition e_alt : seq := SCons (P1 (ENav [122]%N true None)) e_star.

Definition dup_tbl : list orow :=
  [ row None None [(s_kids, VList [1])] [];
    row (Some 0) (Some [97]%N) [(s_kids, VList [2; 3])] [];
    row (Some 1) (Some [98]%N) [(s_members, VList [])] [s_Cls];
    row (Some 1) (Some [98]%N) [(s_members, VList [4])] [s_Cls];
    row (Some 3) (Some [99]%N) [] [s_Mem] ].
Definition e_kkm : seq :=
  S1 (PCons (ENav s_kids true None) (PCons (ENav s_kids true None) (P1 (ENav s_members true None)))).

Lemma sample_unique : siblings_unique sample.
Proof. apply siblings_unique_tbl_ok. vm_compute. reflexivity. Qed.

Lemma sample_found : find 20 sample true e_star 1 [[112]%N] (Some s_Mem) false = FObj 2.
Proof. vm_compute. reflexivity. Qed.

Lemma dup_witness :
  exists F m sq o names T t tr,
    find F m true sq o names T false = FNone /\ find_hit F m true sq o names T = false /\
    justified m sq o names T t tr.
Proof.
  exists 20, (of_table dup_tbl), e_kkm, 0, [[97]%N; [98]%N; [99]%N], (Some s_Mem), 4, [1; 3; 4].
  split; [vm_compute; reflexivity|]. split; [vm_compute; reflexivity|].
  split; [|vm_compute; reflexivity].
  apply RS_one.
  eapply RP_cons.
  { eapply (R_nav_consume (of_table dup_tbl) s_kids true (mk 0 [[97]%N; [98]%N; [99]%N] []) 0 1 [97]%N [[98]%N; [99]%N]).
    - split; [apply anc_refl | reflexivity].
    - simpl. left. reflexivity.
    - reflexivity.
    - reflexivity. }
  eapply RP_cons.
  { eapply (R_nav_consume (of_table dup_tbl) s_kids false (mk 1 [[98]%N; [99]%N] [1]) 1 3 [98]%N [[99]%N]).
    - reflexivity.
    - simpl. right. left. reflexivity.
    - reflexivity.
    - reflexivity. }
  apply RP_one.
  eapply (R_nav_consume (of_table dup_tbl) s_members false (mk 3 [[99]%N] [1; 3]) 3 4 [99]%N []).
  - reflexivity.
  - simpl. left. reflexivity.
  - reflexivity.
  - reflexivity.
Qed.

(* Facts read from the source (Gen/SrcRrel.v, regenerated from textx/scoping/rrel.py on every run) against the same facts
   observed on the model's own functions *)
Definition obs_tbl : list orow :=
  [ {| o_parent := None; o_name := None; o_attrs := [([97]%N, VList [1; 2])]; o_conf := [] |};
    {| o_parent := Some 0; o_name := Some [110]%N; o_attrs := []; o_conf := [] |};
    {| o_parent := Some 0; o_name := Some [110]%N; o_attrs := []; o_conf := [] |} ].

Definition obs_pick_first : bool :=
  match apply_nav 5 (of_table obs_tbl) [97]%N true None false (mk 0 [[110]%N] []),
        apply_nav 5 (of_table obs_tbl) [97]%N false (Some [110]%N) false (mk 0 [] []) with
  | SOuts [c1], SOuts [c2] => Nat.eqb (c_obj c1) 1 && Nat.eqb (c_obj c2) 1
  | _, _ => false
  end.

Definition obs_star_local_first : bool :=
  match fst (star_zero true true 5 (of_table obs_tbl) (fun c s => (RFound (c_obj c) [], s)) true (mk 1 [] []) st0) with
  | RFound 1 _ => true
  | _ => false
  end.

Definition obs_proxy_completed : bool :=
  match proxy_path 1 [0], proxy_path 1 [0; 1], proxy_path 1 [] with
  | [0; 1], [0; 1], [1] => true
  | _, _, _ => false
  end.

Definition obs_nav_flags (txt : list N) : bool * bool :=
  match parse txt with
  | Some {| eseq := S1 (P1 (ENav _ c f)); eflags := _ |} => (c, match f with Some _ => true | None => false end)
  | _ => (false, false)
  end.

Definition model_facts : rrel_facts := {|
  key_has_first := true;                       (* the key form all C11 statements about completeness use *)
  pick_first_named := obs_pick_first;
  star_local_before_root := obs_star_local_first;
  proxy_completed_by_target := obs_proxy_completed;
  leaf_starts := [(sl_elem (EParent []), sr_elem (EParent []));
                  (sl_elem (ENav [] true None), sr_elem (ENav [] true None));
                  (sl_elem (EDots 1), sr_elem (EDots 1))];
  nav_flags := [obs_nav_flags [97]%N; obs_nav_flags [126; 97]%N; obs_nav_flags [39; 115; 39; 126; 97]%N]
|}.

Lemma src_facts_ok : src_facts = model_facts.
Proof. vm_compute. reflexivity. Qed.

Lemma src_key_form : key_has_first src_facts = true.
Proof. rewrite src_facts_ok. reflexivity. Qed.

Lemma pos_eqb_eq a b : pos_eqb a b = true <-> a = b.
Proof.
  unfold pos_eqb. revert b; induction a as [|x a IH]; intros [|y b]; split; intro H;
    try reflexivity; try discriminate.
  - apply andb_true_iff in H as [H1 H2]. apply Nat.eqb_eq in H1. apply IH in H2. subst; reflexivity.
  - inversion H; subst. apply andb_true_iff. split; [apply Nat.eqb_refl | apply IH; reflexivity].
Qed.

Lemma key_eqb_eq a b : key_eqb a b = true <-> a = b.
Proof.
  destruct a as [[[o1 p1] l1] f1], b as [[[o2 p2] l2] f2]. unfold key_eqb. split; intro H.
  - repeat (apply andb_true_iff in H as [H ?]).
    apply Nat.eqb_eq in H. apply pos_eqb_eq in H2. apply Nat.eqb_eq in H1. apply Bool.eqb_prop in H0.
    subst. reflexivity.
  - inversion H; subst. rewrite !Nat.eqb_refl, Bool.eqb_reflx.
    replace (pos_eqb p2 p2) with true by (symmetry; apply pos_eqb_eq; reflexivity). reflexivity.
Qed.

Section CertProofs.
  Variable F : nat.
  Variable m : model.
  Variable names0 : list (list N).
  Variable V : list (nat * list nat * nat * bool).
  Hypothesis Huniq : siblings_unique m.

  Lemma memk_In k : memk V k = true <-> In k V.
  Proof. exact (existsb_eqb_In key_eqb key_eqb_eq k V). Qed.

  Lemma rule_at (g : nat * list nat * nat * bool -> bool) o pos l f :
    forallb g (keys_at V pos) = true -> In (o, pos, l, f) V -> g (o, pos, l, f) = true.
  Proof.
    intros H Hin. rewrite forallb_forall in H. apply H. unfold keys_at.
    apply filter_In. split; [exact Hin|]. simpl. apply pos_eqb_eq. reflexivity.
  Qed.

  Lemma star_at pos sq H o l f :
    ck_elem F m names0 V pos (EStar sq) H = true -> In (o, pos, l, f) V ->
    memk V (o, 0 :: pos, l, f) = true /\
    (if f then implb (sl_seq sq) (H o (sufl names0 l)) &&
               implb (sr_seq sq) (match root_of F m o with Some rt => H rt (sufl names0 l) | None => false end)
     else H o (sufl names0 l)) = true.
  Proof.
    intros Hck Hin. simpl in Hck.
    apply andb_true_iff in Hck as [Hck _]. apply andb_true_iff in Hck as [Hst _].
    apply andb_true_iff. exact (rule_at _ _ _ _ _ Hst Hin).
  Qed.

  (* brackets and `*` hand a visited key on to the sequence inside: its key is visited, so all
     first elements of its alternatives are *)
  Lemma enter_seq (r : bool) pos sq H' o l f :
    r && seq_rule V (0 :: pos) sq && ck_alts F m names0 V (0 :: pos) 0 sq H' = true ->
    (r = true -> memk V (o, 0 :: pos, l, f) = true) ->
    firsts_in V (0 :: pos) 0 sq o l f = true /\ ck_alts F m names0 V (0 :: pos) 0 sq H' = true.
  Proof.
    intros Hck Hk. apply andb_true_iff in Hck as [Hck Ha]. apply andb_true_iff in Hck as [Hr Hq].
    split; [|exact Ha]. exact (rule_at _ _ _ _ _ Hq (proj1 (memk_In _) (Hk Hr))).
  Qed.

  Definition Suf (c : cfg) : Prop := exists pre, names0 = pre ++ c_names c.

  Lemma sufl_suf c : Suf c -> sufl names0 (List.length (c_names c)) = c_names c.
  Proof.
    intros [pre E]. unfold sufl.
    rewrite E, app_length, Nat.add_sub, skipn_app, skipn_all, Nat.sub_diag. reflexivity.
  Qed.

  Lemma Suf_extends c c' : extends m c c' -> Suf c -> Suf c'.
  Proof.
    intros [cons [new [H1 _]]] [pre E]. exists (pre ++ cons). rewrite E, H1, app_assoc. reflexivity.
  Qed.

  (* the three kinds of navigation step: the rule evaluates the step on the key's item with an
     empty path, which yields the same objects and names *)
  Lemma nav_rule name consume fixed first c c' pos H :
    r_elem m (ENav name consume fixed) first c c' ->
    base_rule F m names0 V pos (ENav name consume fixed) H = true -> Suf c ->
    In (c_obj c, pos, List.length (c_names c), first) V -> H (c_obj c') (c_names c') = true.
  Proof.
    intros Hr Hck Hs Hin.
    pose proof (rule_at _ _ _ _ _ Hck Hin) as Hk. simpl in Hk. rewrite (sufl_suf _ Hs) in Hk.
    destruct (apply_nav F m name consume fixed first (mk (c_obj c) (c_names c) [])) as [outs| |] eqn:E;
      try discriminate.
    rewrite forallb_forall in Hk.
    assert (Hr0 : exists tr, r_elem m (ENav name consume fixed) first (mk (c_obj c) (c_names c) [])
                                    (mk (c_obj c') (c_names c') tr)).
    { inversion Hr as [| |name0 first0 c0 b x Hb Hi|name0 first0 c0 b x nm rest Hb Hi Hns Hnm
                       |name0 consume0 f first0 c0 b x Hb Hi Hne Hnm| | | | |]; subst; eexists.
      - exact (R_nav_all m name first (mk (c_obj c) (c_names c) []) b x Hb Hi).
      - exact (R_nav_consume m name first (mk (c_obj c) (c_names c) []) b x nm rest Hb Hi Hns Hnm).
      - exact (R_nav_fixed m name consume f first (mk (c_obj c) (c_names c) []) b x Hb Hi Hne Hnm). }
    destruct Hr0 as [tr Hr0].
    exact (Hk _ (apply_nav_complete _ _ _ _ _ _ _ _ _ Huniq Hr0 E)).
  Qed.

  Lemma cert_sound :
    (forall e f c c', r_elem m e f c c' ->
       forall pos H, ck_elem F m names0 V pos e H = true -> Suf c ->
                     In (c_obj c, pos, List.length (c_names c), f) V -> H (c_obj c') (c_names c') = true) /\
    (forall p f c c', r_path m p f c c' ->
       forall q i j H, ck_path F m names0 V q i j p H = true -> Suf c ->
                       In (c_obj c, j :: i :: q, List.length (c_names c), f) V -> H (c_obj c') (c_names c') = true) /\
    (forall sq f c c', r_seq m sq f c c' ->
       forall q i H, ck_alts F m names0 V q i sq H = true -> Suf c ->
                     firsts_in V q i sq (c_obj c) (List.length (c_names c)) f = true -> H (c_obj c') (c_names c') = true).
  Proof.
    destruct (r_extends m) as [Hee [_ Hes]].
    apply r_mutind.
    - (* parent *)
      intros T first c p Hn pos H Hck Hs Hin.
      pose proof (rule_at _ _ _ _ _ Hck Hin) as Hr. simpl in Hr.
      destruct (apply_parent F m T (c_obj c)) as [r|] eqn:E; [|discriminate].
      rewrite (apply_parent_complete _ _ _ _ Hn _ _ E) in Hr. rewrite (sufl_suf _ Hs) in Hr. exact Hr.
    - (* dots *)
      intros num first c p Hu pos H Hck Hs Hin.
      pose proof (rule_at _ _ _ _ _ Hck Hin) as Hr. simpl in Hr.
      rewrite (apply_dots_complete _ _ _ _ Hu), (sufl_suf _ Hs) in Hr. exact Hr.
    - (* ~name *)
      intros name first c b x Hb Hi pos H. exact (nav_rule _ _ _ _ _ _ pos H (R_nav_all m name first c b x Hb Hi)).
    - (* consuming *)
      intros name first c b x nm rest Hb Hi Hns Hnm pos H.
      exact (nav_rule _ _ _ _ _ _ pos H (R_nav_consume m name first c b x nm rest Hb Hi Hns Hnm)).
    - (* fixed *)
      intros name consume fx first c b x Hb Hi Hne Hnm pos H.
      exact (nav_rule _ _ _ _ _ _ pos H (R_nav_fixed m name consume fx first c b x Hb Hi Hne Hnm)).
    - (* brackets *)
      intros sq first c c' _ IH pos H Hck Hs Hin.
      destruct (enter_seq _ pos sq H _ _ _ Hck (fun Hb => rule_at _ _ _ _ _ Hb Hin)) as [Hf Ha].
      exact (IH _ _ _ Ha Hs Hf).
    - (* star: stay *)
      intros sq c pos H Hck Hs Hin. destruct (star_at _ _ _ _ _ _ Hck Hin) as [_ Hr].
      rewrite (sufl_suf _ Hs) in Hr. exact Hr.
    - (* star: local *)
      intros sq c Hsl pos H Hck Hs Hin. destruct (star_at _ _ _ _ _ _ Hck Hin) as [_ Hr].
      apply andb_true_iff in Hr as [Hr _].
      rewrite Hsl, (sufl_suf _ Hs) in Hr. exact Hr.
    - (* star: root *)
      intros sq c rt Hsr Hrt pos H Hck Hs Hin. destruct (star_at _ _ _ _ _ _ Hck Hin) as [_ Hr].
      apply andb_true_iff in Hr as [_ Hr]. rewrite Hsr in Hr. simpl in Hr.
      destruct (root_of F m (c_obj c)) as [rt'|] eqn:E; [|discriminate].
      apply root_of_spec in E. rewrite (root_unique _ _ _ _ E Hrt), (sufl_suf _ Hs) in Hr. exact Hr.
    - (* star: one more unfolding *)
      intros sq first c c1 c2 Hr1 IH1 Hr2 IH2 pos H Hck Hs Hin.
      destruct (star_at _ _ _ _ _ _ Hck Hin) as [Hk _].
      destruct (enter_seq _ pos sq _ _ _ _ Hck (fun _ => Hk)) as [Hf Ha].
      pose proof (IH1 _ _ _ Ha Hs Hf) as Hn. apply memk_In in Hn.
      exact (IH2 _ _ Hck (Suf_extends _ _ (Hes _ _ _ _ Hr1) Hs) Hn).
    - (* P1 *)
      intros e first c c' _ IH q i j H Hck Hs Hin. exact (IH _ _ Hck Hs Hin).
    - (* PCons *)
      intros e p first c c1 c2 Hr1 IH1 _ IH2 q i j H Hck Hs Hin. simpl in Hck.
      apply andb_true_iff in Hck as [He Hp].
      pose proof (IH1 _ _ He Hs Hin) as Hn. unfold hnext in Hn. apply memk_In in Hn.
      exact (IH2 _ _ _ _ Hp (Suf_extends _ _ (Hee _ _ _ _ Hr1) Hs) Hn).
    - (* S1 *)
      intros p first c c' _ IH q i H Hck Hs Hf. simpl in Hck, Hf. apply memk_In in Hf.
      exact (IH _ _ _ _ Hck Hs Hf).
    - (* SCons head *)
      intros p sq first c c' _ IH q i H Hck Hs Hf. simpl in Hck, Hf.
      apply andb_true_iff in Hck as [Hp _]. apply andb_true_iff in Hf as [Hf _]. apply memk_In in Hf.
      exact (IH _ _ _ _ Hp Hs Hf).
    - (* SCons tail *)
      intros p sq first c c' _ IH q i H Hck Hs Hf. simpl in Hck, Hf.
      apply andb_true_iff in Hck as [_ Ha]. apply andb_true_iff in Hf as [_ Hf].
      exact (IH _ _ _ Ha Hs Hf).
  Qed.
End CertProofs.

(* a closed set of visited keys leaves no room for a justified result *)
Lemma closure_complete F m sq o names T V :
  siblings_unique m -> closure_ok F m names V sq o T = true ->
  forall t tr, ~ justified m sq o names T t tr.
Proof.
  intros Hu Hc t tr [Hr Hconf]. unfold closure_ok in Hc. apply andb_true_iff in Hc as [Hf Ha].
  destruct (cert_sound F m names V Hu) as [_ [_ Hs]].
  assert (H : hfinal m T t [] = true).
  { exact (Hs _ _ _ _ Hr [] 0 (hfinal m T) Ha (ex_intro _ [] eq_refl) Hf). }
  unfold hfinal in H. rewrite Hconf in H. discriminate.
Qed.

