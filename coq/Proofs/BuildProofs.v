(* Lemmas about Model/Build.v: spans of parse-tree nodes. *)
From TxV Require Import Core.Base Model.PegSyntax Model.Peg Model.Build.
From TxV Require Proofs.PegProofs.
Require Import Lia.

(* the line of an offset is 1 + count_nl of the text before it (Proofs/ErrLocLoadProofs.v) *)
Definition count_nl (l : list N) : nat := List.length (filter (fun c => N.eqb c 10) l).

Lemma nth_filter_prefix (l1 l2 : list nat) k d : k < List.length l1 -> nth k (l1 ++ l2) d = nth k l1 d.
Proof. intro H. apply app_nth1. exact H. Qed.

Lemma tpos_NT n k r : tpos (NT n (k :: r)) = tpos k.
Proof. reflexivity. Qed.
Lemma tend_single n k : tend (NT n [k]) = tend k.
Proof. reflexivity. Qed.
Lemma tend_cons n k1 k2 r : tend (NT n (k1 :: k2 :: r)) = tend (NT n (k2 :: r)).
Proof.
  cbn [tend].
  destruct ((fix lastend (l : list tree) : option nat :=
               match l with
               | [] => None
               | k :: l' => match lastend l' with Some e => Some e | None => Some (tend k) end
               end) r); reflexivity.
Qed.

(* children laid out left to right from a frontier *)
Fixpoint chain (hi : nat) (l : list tree) : Prop :=
  match l with
  | [] => True
  | k :: l' => hi <= tpos k /\ tpos k < tend k /\ chain (tend k) l'
  end.

Lemma chain_of_ordered l :
  Forall (fun k => tpos k < tend k) l -> ordered l = true ->
  match l with [] => True | k :: _ => chain (tpos k) l end.
Proof.
  induction l as [|k1 l IH]; intros HF Ho; [exact I|].
  inversion HF as [|? ? H1 HF']; subst.
  cbn [chain]. split; [lia|]. split; [exact H1|].
  destruct l as [|k2 r]; [exact I|].
  cbn [ordered] in Ho. apply andb_true_iff in Ho as [Hle Ho]. apply Nat.leb_le in Hle.
  specialize (IH HF' Ho). cbn [chain] in IH |- *. destruct IH as [_ [H2 H3]].
  split; [exact Hle|]. split; assumption.
Qed.

Lemma chain_mono hi hi' l : chain hi l -> hi' <= hi -> chain hi' l.
Proof. destruct l as [|k r]; [trivial|]. cbn [chain]. intros [H1 H2] H. split; [lia|exact H2]. Qed.

Lemma chain_spans n k r hi :
  chain hi (k :: r) ->
  hi <= tpos (NT n (k :: r)) /\ tpos (NT n (k :: r)) < tend (NT n (k :: r)) /\
  (forall x, In x (k :: r) -> tpos (NT n (k :: r)) <= tpos x /\ tend x <= tend (NT n (k :: r))).
Proof.
  revert k hi; induction r as [|k2 r IH]; intros k hi Hc.
  - cbn [chain] in Hc. destruct Hc as [H1 [H2 _]]. rewrite tpos_NT, tend_single.
    split; [exact H1|]. split; [exact H2|]. intros x [<-|[]]. lia.
  - cbn [chain] in Hc. destruct Hc as [H1 [H2 Hc]].
    specialize (IH k2 (tend k) Hc). destruct IH as [I1 [I2 I3]].
    rewrite tend_cons. rewrite tpos_NT in *.
    split; [exact H1|]. split; [lia|].
    intros x [<-|Hx].
    + lia.
    + specialize (I3 x Hx). lia.
Qed.

Lemma wf_tree_NT n kids :
  wf_tree (NT n kids) = true -> kids <> [] /\ Forall (fun k => wf_tree k = true) kids /\ ordered kids = true.
Proof.
  cbn [wf_tree]. intro H. apply andb_true_iff in H as [H Ho]. apply andb_true_iff in H as [Hne Hf].
  split; [destruct kids; [discriminate | discriminate]|]. split; [|exact Ho].
  apply Forall_forall. intros x Hx. rewrite forallb_forall in Hf. apply Hf. exact Hx.
Qed.

Lemma wf_tree_nonempty t : wf_tree t = true -> tpos t < tend t.
Proof.
  induction t as [n p l s | n kids IH] using PegProofs.tree_ind2; intro H.
  - cbn [wf_tree tpos tend] in *. apply Nat.ltb_lt in H. lia.
  - apply wf_tree_NT in H as [Hne [Hf Ho]].
    assert (HF : Forall (fun k => tpos k < tend k) kids).
    { apply Forall_forall. intros x Hx. rewrite Forall_forall in IH, Hf. apply IH; [exact Hx | apply Hf; exact Hx]. }
    destruct kids as [|k r]; [congruence|].
    pose proof (chain_of_ordered _ HF Ho) as Hc. cbv beta iota in Hc.
    apply (chain_spans n) in Hc. tauto.
Qed.

Lemma wf_tree_chain n kids : wf_tree (NT n kids) = true -> chain (tpos (NT n kids)) kids.
Proof.
  intro H. apply wf_tree_NT in H as [Hne [Hf Ho]]. destruct kids as [|k r]; [congruence|].
  exact (chain_of_ordered _ (Forall_impl _ wf_tree_nonempty Hf) Ho).
Qed.

Lemma wf_tree_nesting n kids x :
  wf_tree (NT n kids) = true -> In x kids ->
  tpos (NT n kids) <= tpos x /\ tend x <= tend (NT n kids).
Proof.
  intros H Hx. pose proof (wf_tree_chain _ _ H) as Hc. destruct kids as [|k r]; [destruct Hx|].
  apply (chain_spans n) in Hc. apply Hc, Hx.
Qed.

Lemma chain_after hi k r x : chain hi (k :: r) -> In x r -> tend k <= tpos x.
Proof.
  revert hi k; induction r as [|k2 r IH]; intros hi k Hc Hx; [destruct Hx|].
  cbn [chain] in Hc. destruct Hc as [_ [_ Hc]].
  destruct Hx as [<-|Hx].
  - cbn [chain] in Hc. tauto.
  - pose proof (IH _ _ Hc Hx). cbn [chain] in Hc. lia.
Qed.

Fixpoint leaves (t : tree) : list (nat * nat) :=
  match t with
  | T _ p len _ => [(p, len)]
  | NT _ kids => flat_map leaves kids
  end.

(* the last terminal of the last child *)
Lemma leaves_last_kids n : forall r k,
  Forall (fun t => exists p2 len2 pre, leaves t = pre ++ [(p2, len2)] /\ tend t = p2 + len2) (k :: r) ->
  exists p2 len2 pre, flat_map leaves (k :: r) = pre ++ [(p2, len2)] /\ tend (NT n (k :: r)) = p2 + len2.
Proof.
  induction r as [|k2 r IH]; intros k F.
  - destruct (Forall_inv F) as (p2 & len2 & pre & E3 & E4).
    exists p2, len2, pre. cbn [flat_map]. rewrite app_nil_r, tend_single. split; assumption.
  - destruct (IH k2 (Forall_inv_tail F)) as (p2 & len2 & pre & E3 & E4).
    exists p2, len2, (leaves k ++ pre). rewrite tend_cons. split; [|exact E4].
    change (flat_map leaves (k :: k2 :: r)) with (leaves k ++ flat_map leaves (k2 :: r)).
    rewrite E3. apply app_assoc.
Qed.

Lemma leaves_first t : wf_tree t = true -> exists len rest, leaves t = (tpos t, len) :: rest.
Proof.
  induction t as [n p l s | n kids IH] using PegProofs.tree_ind2; intro H; [exists l, []; reflexivity|].
  apply wf_tree_NT in H as [Hne [Hf _]]. destruct kids as [|k r]; [congruence|].
  destruct (Forall_inv IH (Forall_inv Hf)) as (len & rest & E).
  exists len, (rest ++ flat_map leaves r). cbn [leaves flat_map tpos]. rewrite E. reflexivity.
Qed.

Lemma leaves_last t : wf_tree t = true ->
  exists p2 len2 pre, leaves t = pre ++ [(p2, len2)] /\ tend t = p2 + len2.
Proof.
  induction t as [n p l s | n kids IH] using PegProofs.tree_ind2; intro H; [exists p, l, []; split; reflexivity|].
  apply wf_tree_NT in H as [Hne [Hf _]]. destruct kids as [|k r]; [congruence|].
  apply (leaves_last_kids n r k). rewrite Forall_forall in *. intros x Hx. exact (IH x Hx (Hf x Hx)).
Qed.

