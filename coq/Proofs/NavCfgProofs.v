(* C05 — the ties to textx/model.py.  The facts translated from the source (Gen/SrcNav.v) agree with
   Model/Nav.v.  The parameterised navigation functions (Model/NavCfg.v): the standard instance is
   Model/Nav.v (the instance read from the source, Gen/SrcNavBody.v, is the standard one by
   computation); a non-standard alternative that breaks the property. *)
From TxV Require Import Core.Base Gen.SrcNav Gen.SrcNavBody Model.Nav Model.NavSrc Model.NavCfg Proofs.NavProofs.

Lemma src_parent_top top rest : src_parent_of_stack (top :: rest) = Some top.
Proof.
  unfold src_parent_of_stack, src_parent_guard_nonempty, src_parent_stack_index, py_index.
  cbn [rev Z.ltb Z.compare]. rewrite app_length. cbn [length].
  assert (E : (Z.of_nat (length (rev rest) + 1) + -1)%Z = Z.of_nat (length (rev rest))) by lia.
  rewrite E. destruct (Z.of_nat (length (rev rest)) <? 0)%Z eqn:L; [apply Z.ltb_lt in L; lia|].
  rewrite Nat2Z.id. rewrite nth_error_app2 by apply le_n. rewrite Nat.sub_diag. reflexivity.
Qed.

(* the model's parent assignment is the one the source performs *)
Lemma parent_attr_src stack slots :
  find_slot s_parent slots = None ->
  parent_attr stack slots = option_map PObj (src_parent_of_stack stack).
Proof.
  intro H. unfold parent_attr. rewrite H. destruct stack as [|top rest].
  - reflexivity.
  - rewrite src_parent_top. reflexivity.
Qed.

Lemma src_children_facts :
  src_single_mults = [s_mult_one; s_mult_optional] /\ src_follow_guard = s_attr_cont.
Proof. split; reflexivity. Qed.

Section Std.
  Variable truthy : obj -> bool.
  Variable eqv : obj -> obj -> bool.

  Lemma passes_std sf v : passes truthy sf (NotNone, true) v = sf v.
  Proof. reflexivity. Qed.

  (* the standard loops agree with those of Model/Nav.v for any two continuations that agree
     pointwise (follow_cfg_std needs neither lemma: there both sides compute to the same fixpoint) *)
  Lemma elems_std (F1 F2 : obj -> state -> state) sf vs :
    Forall (fun v => forall st, F1 v st = F2 v st) vs ->
    forall st, follow_elems_cfg std_gc_cfg truthy F1 sf vs st = follow_elems F2 sf vs st.
  Proof.
    induction 1 as [|v vs Hv Hvs IH]; intro st; simpl; [reflexivity|].
    rewrite passes_std, Hv. apply IH.
  Qed.

  Lemma attrs_std (F1 F2 : obj -> state -> state) sf slots :
    Forall (fun mvs : ameta * list obj => Forall (fun v => forall st, F1 v st = F2 v st) (snd mvs)) slots ->
    forall st, follow_attrs_cfg std_gc_cfg truthy F1 sf slots st = follow_attrs F2 sf slots st.
  Proof.
    induction 1 as [|[m vs] slots Hm Hs IH]; intro st; simpl; [reflexivity|].
    simpl in Hm. destruct (acont m); [|apply IH].
    destruct (amany m).
    - rewrite (elems_std F1 F2 sf vs Hm). apply IH.
    - destruct vs as [|v vs']; [apply IH|]. inversion Hm as [|v0 l0 Hv _]; subst.
      rewrite passes_std, Hv. apply IH.
  Qed.

  (* with the standard choices follow_cfg is follow, by computation alone *)
  Lemma follow_cfg_std sel sf cf : forall o st,
    follow_cfg std_gc_cfg truthy eqv sel sf cf o st = follow sel sf cf o st.
  Proof. intros [k t|t|id c slots] st; reflexivity. Qed.

  Lemma get_children_cfg_std sel root cf sf :
    get_children_cfg std_gc_cfg truthy eqv sel root cf sf = get_children sel root cf sf.
  Proof. unfold get_children_cfg, get_children. cbn [g_root_sf std_gc_cfg andb]. rewrite follow_cfg_std. reflexivity. Qed.
End Std.

Lemma get_model_cfg_std lt truthy_id h : lt <> LTruthy ->
  forall fuel p, get_model_cfg lt truthy_id h fuel p = get_model h fuel p.
Proof.
  intros Hlt. induction fuel as [|f IH]; intro p; [reflexivity|]. simpl.
  destruct (lookup p h) as [ho|]; [|reflexivity]. destruct (hparent ho) as [[q|]|]; try reflexivity.
  destruct lt; try apply IH. congruence.
Qed.

Lemma pot_cfg_std h typ : forall fuel p, pot_cfg false h fuel typ p = get_parent_of_type h fuel typ p.
Proof.
  induction fuel as [|f IH]; intro p; [reflexivity|]. simpl.
  destruct (lookup p h) as [ho|]; [|reflexivity]. destruct (hparent ho) as [[q|]|]; try reflexivity.
  destruct (lookup q h) as [hq|]; [|reflexivity]. destruct (str_eqb (hcls hq) typ); [reflexivity | apply IH].
Qed.

(* a configuration that differs from the standard one in the single-valued test only: not harmless
   (witness under C05_truthy_single_refuted) *)
Definition truthy_cfg : gc_cfg :=
  {| g_seen := SeenId; g_pre := WhenNotCf; g_post := WhenCf;
     g_single := (Truthy, true); g_elem := (NotNone, true); g_root_sf := false |}.

