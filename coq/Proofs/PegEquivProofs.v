(* Soundness of the equivalence checker Model/PegEquiv.v against the interpreter Model/Peg.v
   (memoization off): if every pair of R passes its local check (or is semantically related by
   hypothesis), the two grammars give related outcomes on every input, for every oracle.

   There is one simulation, indexed by the mode w of the checker.  In strong mode (w = false) the two runs
   go through EQUAL states, which gives equal acceptance and equal error positions.  In weak mode (w = true)
   they go through states equal UP TO the failure bookkeeping nm, which is what the two extra rules of that
   mode need (an ordered choice of two regex matches registers the failure of its first alternative, a single
   equivalent regex does not) and gives equal acceptance only; those rules re-run Match.parse's whitespace and
   comment skipping and rely on the comment-position cache, consulted only when skipws is on, so in weak mode
   the simulation also carries the whitespace context of the states and assumes skipws.  Section Sound below
   reads the strong statement off the simulation; Proofs/PegEquivAccProofs.v reads off the weak one. *)
From TxV Require Import Core.Base Model.PegSyntax Model.Peg Proofs.PegProofs Model.PegEquiv.

Definition tt (r : res) : Prop := truthy r = true /\ flatten r <> [].
Definition good (r : res) : Prop := truthy r = true -> flatten r <> [].
Definition fnn (r : res) : Prop := truthy r = false -> r = RNone.
Definition vrel (c : bool) (r1 r2 : res) : Prop :=
  good r1 /\ good r2 /\ truthy r1 = truthy r2 /\ (c = true -> is_none r1 = is_none r2).

Lemma tt_good r : tt r -> good r.
Proof. intros [_ H] _. exact H. Qed.

Lemma tt_not_none r : truthy r = true -> is_none r = false.
Proof. destruct r; simpl; congruence. Qed.

Lemma vrel_tt c r1 r2 : tt r1 -> tt r2 -> vrel c r1 r2.
Proof.
  intros H1 H2. repeat split; try (apply tt_good; assumption).
  - destruct H1 as [H1 _], H2 as [H2 _]. congruence.
  - intros _. destruct H1 as [H1 _], H2 as [H2 _]. rewrite (tt_not_none _ H1), (tt_not_none _ H2). reflexivity.
Qed.

Lemma good_falsy r : truthy r = false -> good r.
Proof. intros H H'. congruence. Qed.

Lemma vrel_none c : vrel c RNone RNone.
Proof. repeat split; try (apply good_falsy; reflexivity). Qed.

Lemma vrel_nil c : vrel c (RList []) (RList []).
Proof. repeat split; try (apply good_falsy; reflexivity). Qed.

Lemma vrel_weaken c r1 r2 : vrel c r1 r2 -> vrel false r1 r2.
Proof. intros (A & B & C & _). repeat split; try assumption. discriminate. Qed.

Definition eqx (s1 s2 : st) : Prop := set_pos 0 s1 = set_pos 0 s2.

Lemma eqx_nm s1 s2 : eqx s1 s2 -> nm s1 = nm s2.
Proof. destruct s1, s2. unfold eqx, set_pos. simpl. intro H. inversion H. reflexivity. Qed.

(* sequence accumulators *)
Definition accok (a : list res) : Prop := Forall tt a.
Definition accrel (a1 a2 : list res) : Prop := accok a1 /\ accok a2 /\ (a1 = [] <-> a2 = []).

Lemma accrel_nil : accrel [] [].
Proof. repeat split; constructor. Qed.

Lemma accrel_app a1 a2 d1 d2 : accrel a1 a2 -> accrel d1 d2 -> accrel (a1 ++ d1) (a2 ++ d2).
Proof.
  intros (A1 & A2 & A3) (D1 & D2 & D3). repeat split.
  - apply Forall_app; split; assumption.
  - apply Forall_app; split; assumption.
  - intro H. apply app_eq_nil in H as [H1 H2]. apply A3 in H1. apply D3 in H2. subst. reflexivity.
  - intro H. apply app_eq_nil in H as [H1 H2]. apply A3 in H1. apply D3 in H2. subst. reflexivity.
Qed.

Lemma accrel_push r1 r2 c : vrel c r1 r2 ->
  accrel (if truthy r1 then [r1] else []) (if truthy r2 then [r2] else []).
Proof.
  intros (G1 & G2 & T & _). rewrite <- T. destruct (truthy r1) eqn:E.
  - assert (T2 : truthy r2 = true) by congruence.
    split; [|split].
    + constructor; [split; [assumption | apply G1; assumption] | constructor].
    + constructor; [split; [assumption | apply G2; assumption] | constructor].
    + split; discriminate.
  - apply accrel_nil.
Qed.

Lemma push_app (a : list res) r : (if truthy r then a ++ [r] else a) = a ++ (if truthy r then [r] else []).
Proof. destruct (truthy r); [reflexivity | rewrite app_nil_r; reflexivity]. Qed.

Fixpoint flat_list (l : list res) : list tree :=
  match l with [] => [] | x :: l' => flatten x ++ flat_list l' end.

Lemma flatten_RList l : flatten (RList l) = flat_list l.
Proof. induction l as [|x l IH]; simpl; [reflexivity | f_equal; exact IH]. Qed.

Lemma accok_flat a : accok a -> a <> [] -> flatten (RList a) <> [].
Proof.
  intros H N. rewrite flatten_RList. destruct a as [|x a]; [congruence|].
  inversion H as [|? ? [_ Hx] _]; subst. simpl. intro E. apply app_eq_nil in E as [E _]. contradiction.
Qed.

Lemma accok_head_not_none a : accok a -> head_is_none (RList a) = false.
Proof.
  intro H. destruct a as [|x a]; [reflexivity|]. inversion H as [|? ? [Hx _] _]; subst.
  destruct x; simpl in *; try reflexivity. discriminate.
Qed.

(* post on the value of a sequence / repetition body *)
Lemma post_list_tt nid nd a : n_suppress nd = false -> accok a -> a <> [] -> tt (post nid nd (RList a)).
Proof.
  intros S A N. unfold post. rewrite S, (accok_head_not_none a A). cbn [orb]. cbv beta iota zeta.
  assert (T : truthy (RList a) = true) by (destruct a; [congruence | reflexivity]).
  rewrite T. destruct (n_root nd); cbn [andb negb is_ptnode].
  - pose proof (accok_flat a A N) as F. split.
    + cbn [truthy]. destruct (flatten (RList a)) eqn:E; [congruence | reflexivity].
    + cbn [flatten]. discriminate.
  - split; [exact T | apply accok_flat; assumption].
Qed.

Lemma post_none nid nd : post nid nd RNone = RNone.
Proof. unfold post. simpl. destruct (n_suppress nd); simpl; destruct (n_root nd); reflexivity. Qed.

Lemma post_nil nid nd : post nid nd (RList []) = (if n_suppress nd then RNone else RList []).
Proof. unfold post. simpl. destruct (n_suppress nd); simpl; destruct (n_root nd); reflexivity. Qed.

Lemma post_suppress nid nd r : n_suppress nd = true -> post nid nd r = RNone.
Proof. intro S. unfold post. rewrite S. simpl. destruct (n_root nd); reflexivity. Qed.

Section Unfold.
Variable g : grammar.
Variable input : list N.
Variable orc : nat -> nat -> option nat.

Notation P := (parse g input orc false).

Lemma parse_0 i psq s : P 0 i psq s = Abort 0.
Proof. reflexivity. Qed.

Lemma parse_nonmatch f i nd psq s :
  get_node g i = Some nd -> is_match_kind (n_kind nd) = false ->
  P (S f) i psq s =
  match body (P f) f nd s with
  | Ok r s1 => Ok (post i nd r) s1
  | Fail s1 => Fail (set_pos (pos s) s1)
  | Abort w => Abort w
  end.
Proof. intros G M. simpl. rewrite G, M. reflexivity. Qed.

Lemma parse_match f i nd psq s :
  get_node g i = Some nd -> is_match_kind (n_kind nd) = true ->
  P (S f) i psq s =
  match match_pre g input (P f) f s with
  | Ok _ s1 =>
    match term_parse input orc i (n_kind nd) psq s1 with
    | Ok r s2 => Ok (if n_suppress nd then RNone else r) s2
    | o => o
    end
  | o => o
  end.
Proof. intros G M. simpl. rewrite G, M. reflexivity. Qed.

Lemma seq_loop_shape rec psq l a s :
  match seq_loop rec psq l a s with Ok r _ => exists a', r = RList a' | _ => True end.
Proof.
  revert a s. induction l as [|c l IH]; intros a s; simpl.
  - exists a. reflexivity.
  - destruct (rec c psq s); try exact I. apply IH.
Qed.

Lemma seq_loop_app rec psq l l' a s :
  seq_loop rec psq (l ++ l') a s =
  match seq_loop rec psq l a s with
  | Ok (RList a') s' => seq_loop rec psq l' a' s'
  | Ok _ _ => Abort 1
  | Fail s' => Fail s'
  | Abort w => Abort w
  end.
Proof.
  revert a s. induction l as [|c l IH]; intros a s; simpl.
  - reflexivity.
  - destruct (rec c psq s); try reflexivity. apply IH.
Qed.

Lemma body_seq rec k nd s :
  n_kind nd = KSeq -> plain nd = true ->
  body rec k nd s =
  match seq_loop rec true (n_kids nd) [] s with
  | Ok (RList []) s1 => Ok RNone s1
  | Ok r s1 => Ok r s1
  | Fail s1 => Fail (set_pos (pos s) s1)
  | Abort w => Abort w
  end.
Proof.
  intros K Pl. unfold body. rewrite K. unfold plain in Pl.
  destruct (n_ws nd) eqn:W; [discriminate|]. destruct (n_skipws nd) eqn:Sk; [discriminate|].
  unfold enter_ws, leave_ws. rewrite W, Sk.
  destruct (seq_loop rec true (n_kids nd) [] s) as [r s1|s1|w]; try reflexivity.
Qed.

Lemma cmt_loop_no_fail rec cm k s : forall s', cmt_loop input rec cm k s <> Fail s'.
Proof.
  revert s. induction k as [|k IH]; intros s s'; simpl; [discriminate|].
  destruct (rec cm false s); try discriminate. apply IH.
Qed.

Lemma seq_node_cases f y nd psq s :
  get_node g y = Some nd -> n_kind nd = KSeq -> plain nd = true -> n_suppress nd = false ->
  match seq_loop (P f) true (n_kids nd) [] s with
  | Ok (RList d) s1 =>
    P (S f) y psq s = Ok (match d with [] => RNone | _ => post y nd (RList d) end) s1
  | Ok _ _ => True
  | Fail s1 => P (S f) y psq s = Fail (set_pos (pos s) (set_pos (pos s) s1))
  | Abort w => P (S f) y psq s = Abort w
  end.
Proof.
  intros G K Pl Su.
  rewrite (parse_nonmatch f y nd psq s G) by (rewrite K; reflexivity).
  rewrite (body_seq _ _ _ _ K Pl).
  destruct (seq_loop (P f) true (n_kids nd) [] s) as [r s1|s1|w]; try reflexivity.
  destruct r as [| |d]; try exact I. destruct d; [rewrite post_none|]; reflexivity.
Qed.

Lemma body_choice rec k nd s :
  n_kind nd = KChoice -> plain nd = true ->
  body rec k nd s =
  match choice_loop rec (pos s) (n_kids nd) s with
  | Ok r s1 => if is_none r then nm_raise (pos s) s1 else Ok (RList [r]) s1
  | Fail s1 => Fail s1
  | Abort w => Abort w
  end.
Proof.
  intros K Pl. unfold body. rewrite K. unfold plain in Pl.
  destruct (n_ws nd) eqn:W; [discriminate|]. destruct (n_skipws nd) eqn:Sk; [discriminate|].
  unfold enter_ws, leave_ws. rewrite W, Sk. reflexivity.
Qed.

Lemma body_rep rec k nd e s :
  (n_kind nd = KStar \/ n_kind nd = KPlus) -> plain nd = true -> n_kids nd = [e] ->
  body rec k nd s =
  rep_loop rec e (n_sep nd) (match n_kind nd with KPlus => true | _ => false end) k true [] s.
Proof.
  intros K Pl Ki. unfold plain in Pl.
  destruct (n_ws nd); [discriminate|]. destruct (n_skipws nd); [discriminate|].
  assert (E : n_eolterm nd = false) by (destruct (n_eolterm nd); [discriminate | reflexivity]).
  unfold body, enter_eol, leave_eol. rewrite Ki, E.
  destruct K as [K|K]; rewrite K;
    destruct (rep_loop rec e (n_sep nd) _ k true [] s); reflexivity.
Qed.

End Unfold.

Section Nodes.
Variables g1 g2 : grammar.
Variable ne : list nat.
Variable R : list (nat * nat * bool).
Variable input : list N.
Variable orc : nat -> nat -> option nat.
(* the oracle hypothesis: the regular expressions listed in [ne] never match the empty string *)
Hypothesis Hne : forall o p, In o ne -> orc o p <> Some 0.

Lemma pin_any_In i j : pin_any R i j = true -> exists c, In (i, j, c) R.
Proof.
  unfold pin_any. rewrite existsb_exists. intros [[[a b] c] [H E]].
  apply andb_true_iff in E as [E1 E2]. apply Nat.eqb_eq in E1. apply Nat.eqb_eq in E2. subst. exists c. exact H.
Qed.

Lemma pin_strong_In i j : pin_strong R i j = true -> In (i, j, true) R.
Proof.
  unfold pin_strong. rewrite existsb_exists. intros [[[a b] c] [H E]].
  apply andb_true_iff in E as [E E3]. apply andb_true_iff in E as [E1 E2].
  apply Nat.eqb_eq in E1. apply Nat.eqb_eq in E2. subst. exact H.
Qed.

Definition anyT (l : list nat) : Prop := exists d, existsb (atrue g1 ne d) l = true.

Lemma anyT_nil : ~ anyT [].
Proof. intros [d H]. discriminate. Qed.

Lemma anyT_cons x t : anyT (x :: t) -> (exists d, atrue g1 ne d x = true) \/ anyT t.
Proof. intros [d H]. cbn [existsb] in H. apply orb_true_iff in H as [H|H]; [left | right]; exists d; exact H. Qed.

Lemma anyT_app l l' : anyT (l ++ l') -> anyT l \/ anyT l'.
Proof. intros [d H]. rewrite existsb_app in H. apply orb_true_iff in H as [H|H]; [left | right]; exists d; exact H. Qed.

Lemma seq_kids_node g y ks : seq_kids g y = Some ks ->
  exists nd, get_node g y = Some nd /\ n_kind nd = KSeq /\ plain nd = true /\ n_suppress nd = false /\ n_kids nd = ks.
Proof.
  unfold seq_kids. destruct (get_node g y) as [nd|]; [|discriminate].
  destruct (n_kind nd) eqn:K; try discriminate.
  destruct (plain nd) eqn:Pl; simpl; [|discriminate]. destruct (n_suppress nd) eqn:Su; simpl; [discriminate|].
  intro H. inversion H. exists nd. repeat split; assumption.
Qed.

Lemma atrue_seq0 d i a : get_node g1 i = Some a -> n_kind a = KSeq -> atrue g1 ne d i = true -> anyT (n_kids a).
Proof.
  intros G K A. destruct d; simpl in A; rewrite G, K in A; destruct (n_suppress a); try discriminate.
  exists d. exact A.
Qed.

Lemma star_sep_node g st s x : star_sep g st = Some (s, x) ->
  exists nd q, get_node g st = Some nd /\ n_kind nd = KStar /\ plain nd = true /\ n_suppress nd = false /\
               n_kids nd = [q] /\ n_sep nd = None /\ seq_kids g q = Some [s; x].
Proof.
  unfold star_sep. destruct (get_node g st) as [nd|]; [|discriminate].
  destruct (n_kind nd) eqn:K; try discriminate. destruct (n_kids nd) as [|q [|? ?]] eqn:Ki; try discriminate.
  destruct (n_sep nd) eqn:Se; [discriminate|].
  destruct (plain nd) eqn:Pl; simpl; [|discriminate]. destruct (n_suppress nd) eqn:Su; simpl; [discriminate|].
  destruct (seq_kids g q) as [[|a [|b [|? ?]]]|] eqn:SK; try discriminate.
  intro H. inversion H; subst. exists nd, q. repeat split; assumption.
Qed.

Lemma plus_sep_node g y e t : plus_sep g y = Some (e, t) ->
  exists nd, get_node g y = Some nd /\ n_kind nd = KPlus /\ plain nd = true /\ n_suppress nd = false /\
             n_kids nd = [e] /\ n_sep nd = Some t.
Proof.
  unfold plus_sep. destruct (get_node g y) as [nd|]; [|discriminate].
  destruct (n_kind nd) eqn:K; try discriminate. destruct (n_kids nd) as [|e' [|? ?]] eqn:Ki; try discriminate.
  destruct (n_sep nd) as [t'|] eqn:Se; [|discriminate].
  destruct (plain nd) eqn:Pl; simpl; [|discriminate]. destruct (n_suppress nd) eqn:Su; simpl; [discriminate|].
  intro H. inversion H; subst. exists nd. repeat split; assumption.
Qed.

Lemma accok_push (b : list res) r c r' : accok b -> vrel c r r' -> accok (if truthy r then b ++ [r] else b).
Proof.
  intros B (G & _ & _). destruct (truthy r) eqn:T; [|exact B].
  apply Forall_app. split; [exact B|]. constructor; [split; [exact T | apply G; exact T] | constructor].
Qed.

Lemma accok_push2 (b : list res) r c r' : accok b -> vrel c r' r -> accok (if truthy r then b ++ [r] else b).
Proof.
  intros B (_ & G & _). destruct (truthy r) eqn:T; [|exact B].
  apply Forall_app. split; [exact B|]. constructor; [split; [exact T | apply G; exact T] | constructor].
Qed.

Lemma fnn_tt r : fnn r -> good r -> is_none r = false -> tt r.
Proof.
  intros F G Nn. assert (T : truthy r = true).
  { destruct (truthy r) eqn:E; [reflexivity|]. unfold fnn in F. rewrite (F E) in Nn. discriminate. }
  split; [exact T | apply G; exact T].
Qed.

Definition starlike (nd : node) : Prop := n_kind nd = KStar \/ n_kind nd = KPlus.

Lemma vrel_any c r1 r2 : vrel true r1 r2 -> vrel c r1 r2.
Proof. intros (A & B & C & D). repeat split; try assumption. intros _. apply D. reflexivity. Qed.

Lemma fnn_none : fnn RNone.
Proof. intros _. reflexivity. Qed.

Lemma fnn_of_tt r : tt r -> fnn r.
Proof. intros [T _] F. congruence. Qed.

Lemma post_optnone nid nd : post nid nd (RList [RNone]) = RNone.
Proof. unfold post. cbn [head_is_none]. rewrite orb_true_r. simpl. destruct (n_root nd); reflexivity. Qed.

Lemma efree_starlike g d i nd : get_node g i = Some nd -> starlike nd -> efree g d i = true -> n_suppress nd = true.
Proof.
  intros G K E. destruct d; simpl in E; rewrite G in E; destruct (n_suppress nd); try reflexivity;
    destruct K as [K|K]; rewrite K in E; discriminate.
Qed.

Lemma nonterminal_of g i nd : get_node g i = Some nd -> is_match_kind (n_kind nd) = false -> nonterminal g i = true.
Proof. intros G M. unfold nonterminal. rewrite G, M. reflexivity. Qed.

Lemma atrue_unsup g d i nd : get_node g i = Some nd -> atrue g ne d i = true -> n_suppress nd = false.
Proof. intros G A. destruct d; simpl in A; rewrite G in A; destruct (n_suppress nd); try reflexivity; discriminate. Qed.

Lemma tt_T nid p len sup : tt (RTree (T nid p len sup)).
Proof. split; [reflexivity | discriminate]. Qed.

Lemma term_eqb_eq k1 k2 : term_eqb k1 k2 = true -> k1 = k2 /\ is_match_kind k1 = true.
Proof.
  destruct k1, k2; simpl; try discriminate; intro H.
  - split; reflexivity.
  - apply andb_true_iff in H as [H1 H2]. apply str_eqb_eq in H1. subst.
    destruct oid, oid0; simpl in H2; try discriminate.
    + apply Nat.eqb_eq in H2. subst. split; reflexivity.
    + split; reflexivity.
  - apply Nat.eqb_eq in H. subst. split; reflexivity.
Qed.

Lemma term_atrue i a psq s1 : get_node g1 i = Some a ->
  forall d v t, atrue g1 ne d i = true -> term_parse input orc i (n_kind a) psq s1 = Ok v t -> truthy v = true.
Proof.
  intros G d v t A. assert (A' : (if n_suppress a then false else
            match n_kind a with
            | KStr _ _ | KEOF | KChoice => true
            | KRegex o => existsb (Nat.eqb o) ne
            | _ => match n_kind a with KSeq | KPlus => true | _ => false end
            end) = true).
  { destruct d; simpl in A; rewrite G in A; destruct (n_suppress a); try discriminate;
      destruct (n_kind a); try discriminate; try reflexivity; exact A. }
  clear A. destruct (n_suppress a); [discriminate|]. destruct (n_kind a) as [| | | | | | | | | |str oid|o]; simpl; try discriminate.
  - destruct (Nat.eqb (length input) (pos s1)); [|discriminate]. intro H; inversion H; reflexivity.
  - destruct (match oid with Some o => match orc o (pos s1) with Some _ => true | None => false end
                           | None => is_prefix str (skipn (pos s1) input) end); [|discriminate].
    intro H; inversion H; reflexivity.
  - destruct (orc o (pos s1)) as [len|] eqn:O; [|discriminate].
    destruct (Nat.eqb len 0) eqn:Z.
    + apply Nat.eqb_eq in Z. subst len. exfalso. apply existsb_exists in A' as [o' [I E]].
      apply Nat.eqb_eq in E. subst o'. apply (Hne o (pos s1) I O).
    + intro H; inversion H; reflexivity.
Qed.

Lemma accok1 r : tt r -> accok [r].
Proof. intro T. constructor; [exact T | constructor]. Qed.

Lemma atrue_kind_false d i a : get_node g1 i = Some a ->
  (n_kind a = KOpt \/ n_kind a = KStar) -> atrue g1 ne d i = true -> False.
Proof.
  intros G K A. destruct d; simpl in A; rewrite G in A; destruct (n_suppress a); try discriminate;
    destruct K as [K|K]; rewrite K in A; discriminate.
Qed.

Lemma atrue_plus d i a x : get_node g1 i = Some a -> n_kind a = KPlus -> n_kids a = [x] ->
  atrue g1 ne d i = true -> exists d', atrue g1 ne d' x = true.
Proof.
  intros G K Ki A. destruct d; simpl in A; rewrite G, K in A; destruct (n_suppress a); try discriminate.
  rewrite Ki in A. exists d. exact A.
Qed.

End Nodes.

(* states, by mode
   w = false: equal states.  w = true: equal up to nm. *)
Definition unm (w : bool) (s : st) : st := if w then set_nm None s else s.
Definition eqw (w : bool) (s1 s2 : st) : Prop := unm w s1 = unm w s2.
(* ... and up to pos: what a failed node leaves behind *)
Definition eqxw (w : bool) (s1 s2 : st) : Prop := unm w (set_pos 0 s1) = unm w (set_pos 0 s2).
(* the whitespace context of a state, carried in weak mode only *)
Definition ctxw (w : bool) (s1 s2 : st) : Prop :=
  if w then ws s1 = ws s2 /\ skipws s1 = skipws s2 /\ in_cmt s1 = in_cmt s2 else True.
Definition invw (w : bool) (s : st) : Prop := if w then skipws s = true else True.

Lemma reg_fail_fields p s : ws (reg_fail p s) = ws s /\ skipws (reg_fail p s) = skipws s /\
  in_cmt (reg_fail p s) = in_cmt s /\ cpos (reg_fail p s) = cpos s /\ pos (reg_fail p s) = pos s.
Proof.
  unfold reg_fail. destruct (nm s); [destruct (in_cmt s) eqn:IC; [|destruct (Nat.ltb n p)]|]; repeat split; assumption.
Qed.


(* nm is all that reg_fail changes *)
Lemma reg_fail_eqs p s : eqw true (reg_fail p s) s.
Proof. unfold reg_fail. destruct (nm s); [destruct (in_cmt s); [|destruct (Nat.ltb n p)]|]; reflexivity. Qed.


Section States.
Context {w : bool}.
Notation eqs := (eqw w).
Notation eqxs := (eqxw w).
Notation ctxs := (ctxw w).
Notation inv := (invw w).

(* unm touches nm only: it commutes with the other setters and keeps the other fields *)
Lemma unm_set_pos p s : unm w (set_pos p s) = set_pos p (unm w s).
Proof. destruct w; reflexivity. Qed.
Lemma unm_set_in_cmt b s : unm w (set_in_cmt b s) = set_in_cmt b (unm w s).
Proof. destruct w; reflexivity. Qed.
Lemma unm_set_cpos c s : unm w (set_cpos c s) = set_cpos c (unm w s).
Proof. destruct w; reflexivity. Qed.
Lemma unm_fields s : pos (unm w s) = pos s /\ ws (unm w s) = ws s /\ skipws (unm w s) = skipws s /\
  in_cmt (unm w s) = in_cmt s /\ cpos (unm w s) = cpos s.
Proof. destruct w; repeat split. Qed.

Lemma eqs_refl s : eqs s s.
Proof. reflexivity. Qed.
Lemma eqs_sym s1 s2 : eqs s1 s2 -> eqs s2 s1.
Proof. unfold eqw. intro H. symmetry. exact H. Qed.
Lemma eqs_trans s1 s2 s3 : eqs s1 s2 -> eqs s2 s3 -> eqs s1 s3.
Proof. unfold eqw. intros A B. rewrite A. exact B. Qed.
Lemma eqxs_refl s : eqxs s s.
Proof. reflexivity. Qed.
Lemma eqxs_sym s1 s2 : eqxs s1 s2 -> eqxs s2 s1.
Proof. unfold eqxw. intro H. symmetry. exact H. Qed.
Lemma eqxs_trans s1 s2 s3 : eqxs s1 s2 -> eqxs s2 s3 -> eqxs s1 s3.
Proof. unfold eqxw. intros A B. rewrite A. exact B. Qed.

Lemma eqs_fields s1 s2 : eqs s1 s2 -> pos s1 = pos s2 /\ ws s1 = ws s2 /\ skipws s1 = skipws s2 /\
  in_cmt s1 = in_cmt s2 /\ cpos s1 = cpos s2.
Proof.
  intro H. destruct (unm_fields s1) as (A1 & A2 & A3 & A4 & A5), (unm_fields s2) as (B1 & B2 & B3 & B4 & B5).
  hnf in H. rewrite H in *. repeat split; congruence.
Qed.
Lemma eqs_pos s1 s2 : eqs s1 s2 -> pos s1 = pos s2.
Proof. intro H. apply (eqs_fields _ _ H). Qed.
Lemma eqs_cpos s1 s2 : eqs s1 s2 -> cpos s1 = cpos s2.
Proof. intro H. apply (eqs_fields _ _ H). Qed.
Lemma eqs_ctx s1 s2 : eqs s1 s2 -> ctxs s1 s2.
Proof. intro H. destruct (eqs_fields _ _ H) as (_ & A & B & C & _). destruct w; [repeat split; assumption | exact I]. Qed.

Lemma eqs_set_pos p s1 s2 : eqs s1 s2 -> eqs (set_pos p s1) (set_pos p s2).
Proof. unfold eqw. intro H. rewrite !unm_set_pos, H. reflexivity. Qed.
Lemma eqs_set_in_cmt b s1 s2 : eqs s1 s2 -> eqs (set_in_cmt b s1) (set_in_cmt b s2).
Proof. unfold eqw. intro H. rewrite !unm_set_in_cmt, H. reflexivity. Qed.
Lemma eqs_set_cpos c s1 s2 : eqs s1 s2 -> eqs (set_cpos c s1) (set_cpos c s2).
Proof. unfold eqw. intro H. rewrite !unm_set_cpos, H. reflexivity. Qed.
Lemma eqs_eqxs s1 s2 : eqs s1 s2 -> eqxs s1 s2.
Proof. apply eqs_set_pos. Qed.
(* set_pos p (set_pos 0 s) is set_pos p s by computation *)
Lemma eqxs_set_pos p s1 s2 : eqxs s1 s2 -> eqs (set_pos p s1) (set_pos p s2).
Proof. intro H. exact (eqs_set_pos p _ _ H). Qed.
Lemma eqxs_set_pos_l p s1 s2 : eqxs s1 s2 -> eqxs (set_pos p s1) s2.
Proof. intro H. exact H. Qed.
Lemma eqxs_set_pos_r p s1 s2 : eqxs s1 s2 -> eqxs s1 (set_pos p s2).
Proof. intro H. exact H. Qed.
Lemma eqxs_pos_eqs s1 s2 : eqxs s1 s2 -> pos s1 = pos s2 -> eqs s1 s2.
Proof. intros H E. rewrite <- (set_pos_same s1), <- (set_pos_same s2), E. apply eqxs_set_pos. exact H. Qed.
Lemma ctxs_refl s : ctxs s s.
Proof. destruct w; repeat split. Qed.
Lemma ctxs_trans s1 s2 s3 : ctxs s1 s2 -> ctxs s2 s3 -> ctxs s1 s3.
Proof. destruct w; [|trivial]. intros (A & B & C) (D & E & F). repeat split; congruence. Qed.
Lemma ctxs_sym s1 s2 : ctxs s1 s2 -> ctxs s2 s1.
Proof. destruct w; [|trivial]. intros (A & B & C). repeat split; congruence. Qed.
Lemma ctxs_set_pos p s : ctxs (set_pos p s) s.
Proof. destruct w; repeat split. Qed.
Lemma ctxs_reg_fail p s : ctxs (reg_fail p s) s.
Proof. destruct w; [|exact I]. destruct (reg_fail_fields p s) as (A & B & C & _). repeat split; assumption. Qed.
Lemma inv_ctx s1 s : ctxs s1 s -> inv s -> inv s1.
Proof. destruct w; [|trivial]. intros (_ & A & _) B. hnf in *. congruence. Qed.

Lemma eqs_maybe_skip_ws input s1 s2 : eqs s1 s2 -> eqs (maybe_skip_ws input s1) (maybe_skip_ws input s2).
Proof.
  intro H. unfold maybe_skip_ws, do_skip_ws. destruct (eqs_fields _ _ H) as (P & W & K & _). rewrite K, W, P.
  destruct (skipws s2); [apply eqs_set_pos|]; exact H.
Qed.
Lemma ctxs_maybe_skip_ws input s : ctxs (maybe_skip_ws input s) s.
Proof. unfold maybe_skip_ws, do_skip_ws. destruct (skipws s); [apply ctxs_set_pos | apply ctxs_refl]. Qed.

Lemma eqs_upd_cpos k a b : eqs a b ->
  eqs (set_cpos (upd k (pos a) (cpos a)) a) (set_cpos (upd k (pos b) (cpos b)) b).
Proof. intro H. rewrite (eqs_pos _ _ H), (eqs_cpos _ _ H). apply eqs_set_cpos. exact H. Qed.

(* leaving a comment: the context of the state before the comment, whatever the position cache holds *)
Lemma ctxs_leave_cmt c t z s : ctxs t (set_in_cmt true z) -> ctxs z s -> in_cmt z = false ->
  ctxs (set_cpos c (set_in_cmt false t)) s.
Proof.
  destruct w; [|trivial]. intros (A & B & _) (A1 & B1 & D1) IC. repeat split; simpl.
  - rewrite A. exact A1. - rewrite B. exact B1. - rewrite <- D1. symmetry. exact IC.
Qed.
End States.

Lemma eqs_reg_fail {w} p s1 s2 : eqw w s1 s2 -> eqw w (reg_fail p s1) (reg_fail p s2).
Proof.
  destruct w; intro H.
  - apply (eqs_trans _ s1); [apply reg_fail_eqs|]. apply (eqs_trans _ s2); [exact H | apply eqs_sym, reg_fail_eqs].
  - cbv [eqw unm] in H. subst. reflexivity.
Qed.

Lemma eqxs_reg_fail_l p s1 s2 : eqxw true s1 s2 -> eqxw true (reg_fail p s1) s2.
Proof. intro H. apply (eqxs_trans _ s1); [apply eqs_eqxs; apply reg_fail_eqs | exact H]. Qed.
Lemma eqxs_reg_fail_r p s1 s2 : eqxw true s1 s2 -> eqxw true s1 (reg_fail p s2).
Proof. intro H. apply eqxs_sym. apply eqxs_reg_fail_l. apply eqxs_sym. exact H. Qed.

(* ---------------------------------------------------------------- related outcomes
   All relations between the outcomes of the two runs have one shape: running out of fuel on either side
   relates to anything; otherwise both succeed, both fail, or both abort. *)
Definition rel3 (Rok : res -> st -> res -> st -> Prop) (Rfail : st -> st -> Prop) (o1 o2 : out) : Prop :=
  o1 = Abort 0 \/ o2 = Abort 0 \/
  match o1, o2 with
  | Ok r1 s1, Ok r2 s2 => Rok r1 s1 r2 s2
  | Fail s1, Fail s2 => Rfail s1 s2
  | Abort _, Abort _ => True
  | _, _ => False
  end.

Lemma rel3_mono (Rok Rok' : res -> st -> res -> st -> Prop) (Rf Rf' : st -> st -> Prop) o1 o2 :
  (forall r1 s1 r2 s2, Rok r1 s1 r2 s2 -> Rok' r1 s1 r2 s2) -> (forall s1 s2, Rf s1 s2 -> Rf' s1 s2) ->
  rel3 Rok Rf o1 o2 -> rel3 Rok' Rf' o1 o2.
Proof.
  intros HO HF [H|[H|H]]; [left; exact H | right; left; exact H | right; right].
  destruct o1, o2; try exact H; [apply HO | apply HF]; exact H.
Qed.

(* Both interpreters continue on the outcome of a pair of related calls: it is enough to relate the
   continuations on related successes and on related failures. *)
Lemma rel3_bind (Rok Rok' : res -> st -> res -> st -> Prop) (Rf Rf' : st -> st -> Prop) o1 o2
      (k1 k2 : res -> st -> out) (f1 f2 : st -> out) :
  rel3 Rok Rf o1 o2 ->
  (forall r1 s1 r2 s2, Rok r1 s1 r2 s2 -> rel3 Rok' Rf' (k1 r1 s1) (k2 r2 s2)) ->
  (forall s1 s2, Rf s1 s2 -> rel3 Rok' Rf' (f1 s1) (f2 s2)) ->
  rel3 Rok' Rf' (match o1 with Ok r s => k1 r s | Fail s => f1 s | Abort w => Abort w end)
                (match o2 with Ok r s => k2 r s | Fail s => f2 s | Abort w => Abort w end).
Proof.
  intros [H|[H|H]] HO HF; [rewrite H; left; reflexivity | rewrite H; right; left; reflexivity |].
  destruct o1, o2; try contradiction; [apply HO | apply HF | right; right]; exact H.
Qed.

Section Gen.
Variables g1 g2 : grammar.
Variable ne : list nat.
Variable alts : list (nat * nat * nat).
Variable R : list (nat * nat * bool).
Variable input : list N.
Variable orc : nat -> nat -> option nat.
Variable w : bool.
Hypothesis Hne : forall o p, In o ne -> orc o p <> Some 0.

Notation P1 := (parse g1 input orc false).
Notation P2 := (parse g2 input orc false).
Notation eqs := (eqw w).
Notation eqxs := (eqxw w).
Notation ctxs := (ctxw w).
Notation inv := (invw w).

(* related outcomes of a pair (i, j) started in related states s, s'; running out of fuel on either side
   relates to anything *)
Definition orelG (i j : nat) (c : bool) (s s' : st) : out -> out -> Prop :=
  rel3 (fun r1 s1 r2 s2 =>
    eqs s1 s2 /\ ctxs s1 s /\ vrel c r1 r2 /\ (forall d, efree g1 d i = true -> fnn r1)
    /\ (forall d, efree g2 d j = true -> fnn r2) /\ (forall d, atrue g1 ne d i = true -> truthy r1 = true))
  (fun s1 s2 =>
    eqxs s1 s2 /\ ctxs s1 s /\ (nonterminal g1 i = true -> pos s1 = pos s) /\ (nonterminal g2 j = true -> pos s2 = pos s')).

Definition simG (fa fb : nat) : Prop :=
  forall i j c, In (i, j, c) R -> forall psq1 psq2 s s', eqs s s' -> inv s ->
  orelG i j c s s' (P1 fa i psq1 s) (P2 fb j psq2 s').

Definition sem_okG (p : nat * nat * bool) : Prop :=
  match p with
  | (i, j, c) => forall fa fb psq1 psq2 s s', eqs s s' -> inv s ->
                 orelG i j c s s' (P1 fa i psq1 s) (P2 fb j psq2 s')
  end.

(* what it takes for a further rule of the pair check to be sound, given the simulation below some fuel *)
Definition rule_sound (ok : node -> node -> bool) : Prop :=
  forall n, (forall fa fb, fa + fb <= n -> simG fa fb) ->
  forall i j c a b fa fb psq1 psq2 s s', fa + fb <= n -> get_node g1 i = Some a -> get_node g2 j = Some b ->
  plain a = true -> plain b = true -> n_suppress a = n_suppress b -> ok a b = true -> eqs s s' -> inv s ->
  orelG i j c s s' (P1 (S fa) i psq1 s) (P2 (S fb) j psq2 s').

(* the two rules of the weak mode *)
Definition weak_rules (a b : node) : bool :=
  match n_kind a, n_kind b with
  | KChoice, KRegex o3 => choice_regex g1 ne alts a o3
  | KRegex o3, KChoice => regex_choice_r g2 ne alts o3 b
  | _, _ => false
  end.

Hypothesis Hweak : w = true -> rule_sound weak_rules.
Hypothesis HR : forall p, In p R -> local_ok g1 g2 ne w alts R p = true \/ sem_okG p.
Hypothesis HF : frame_ok g1 g2 R = true.

Lemma orelG_weaken i j c s s' o1 o2 : orelG i j c s s' o1 o2 -> orelG i j false s s' o1 o2.
Proof.
  apply rel3_mono; [|trivial]. intros r1 s1 r2 s2 (A & A' & B & C).
  split; [exact A|]. split; [exact A'|]. split; [eapply vrel_weaken; exact B | exact C].
Qed.

Section StepG.
Variable n : nat.
Hypothesis IH : forall fa fb, fa + fb <= n -> simG fa fb.

Lemma kid_any fa fb i j : fa + fb <= n -> pin_any R i j = true ->
  forall psq1 psq2 s s', eqs s s' -> inv s -> orelG i j false s s' (P1 fa i psq1 s) (P2 fb j psq2 s').
Proof.
  intros L H psq1 psq2 s s' E K. apply (pin_any_In R) in H as [c H]. eapply orelG_weaken. apply (IH fa fb L i j c H); assumption.
Qed.

Lemma kid_strong fa fb i j : fa + fb <= n -> pin_strong R i j = true ->
  forall psq1 psq2 s s', eqs s s' -> inv s -> orelG i j true s s' (P1 fa i psq1 s) (P2 fb j psq2 s').
Proof. intros L H psq1 psq2 s s' E K. apply (pin_strong_In R) in H. apply (IH fa fb L i j true H); assumption. Qed.


Definition srel (s : st) (a1 a2 : list res) (Q : Prop) : out -> out -> Prop :=
  rel3 (fun r1 s1 r2 s2 =>
    eqs s1 s2 /\ ctxs s1 s /\ exists d1 d2, r1 = RList (a1 ++ d1) /\ r2 = RList (a2 ++ d2) /\ accrel d1 d2 /\ (Q -> d1 <> []))
  (fun s1 s2 =>
    eqxs s1 s2 /\ ctxs s1 s).

Lemma srel_shift s0 s a1 a2 e1 e2 (Q Q' : Prop) o1 o2 :
  accrel e1 e2 -> (Q -> e1 <> [] \/ Q') -> ctxs s0 s -> srel s0 (a1 ++ e1) (a2 ++ e2) Q' o1 o2 -> srel s a1 a2 Q o1 o2.
Proof.
  intros E HQ CT. apply rel3_mono.
  - intros r1 s1 r2 s2 (A & A' & d1 & d2 & B & C & D & F). split; [exact A|]. split; [eapply ctxs_trans; eassumption|].
    exists (e1 ++ d1), (e2 ++ d2).
    split; [rewrite app_assoc; exact B | split; [rewrite app_assoc; exact C | split; [apply accrel_app; assumption|]]].
    intros q X. apply app_eq_nil in X as [X1 X2]. destruct (HQ q) as [N|N]; [contradiction | apply (F N X2)].
  - intros s1 s2 (A & A'). split; [exact A | eapply ctxs_trans; eassumption].
Qed.

Lemma srel_done s s' a1 a2 (Q : Prop) : eqs s s' -> ~ Q -> srel s a1 a2 Q (Ok (RList a1) s) (Ok (RList a2) s').
Proof.
  intros E NQ. right; right. split; [exact E|]. split; [apply ctxs_refl|]. exists [], []. rewrite !app_nil_r.
  split; [reflexivity | split; [reflexivity | split; [apply accrel_nil | intro q; contradiction]]].
Qed.

Notation anyT := (anyT g1 ne).

Lemma seq_head fa fb x y t1 t2 psq1 psq2 a1 a2 s s' :
  fa + fb <= n -> pin_any R x y = true -> eqs s s' -> inv s ->
  (forall b1 b2 z z', eqs z z' -> inv z ->
     srel z b1 b2 (anyT t1) (seq_loop (P1 fa) psq1 t1 b1 z) (seq_loop (P2 fb) psq2 t2 b2 z')) ->
  srel s a1 a2 (anyT (x :: t1)) (seq_loop (P1 fa) psq1 (x :: t1) a1 s) (seq_loop (P2 fb) psq2 (y :: t2) a2 s').
Proof.
  intros L H E K Kt. cbn [seq_loop].
  apply (rel3_bind _ _ _ _ _ _ _ _ _ _ (kid_any fa fb x y L H psq1 psq2 s s' E K)).
  - intros r1 s1 r2 s2 (E1 & C1 & V & _ & _ & AT). rewrite !push_app.
    eapply srel_shift; [eapply accrel_push; exact V | | exact C1 | apply Kt; [exact E1 | apply (inv_ctx _ _ C1 K)]].
    intro q. apply (anyT_cons g1 ne) in q as [[d q]|q]; [left | right; exact q].
    rewrite (AT d q). discriminate.
  - intros s1 s2 O. right; right. split; apply O.
Qed.

Lemma seq_zip l1 : forall l2, zip_in R false l1 l2 = true -> forall fa fb, fa + fb <= n ->
  forall psq1 psq2 a1 a2 s s', eqs s s' -> inv s ->
  srel s a1 a2 (anyT l1) (seq_loop (P1 fa) psq1 l1 a1 s) (seq_loop (P2 fb) psq2 l2 a2 s').
Proof.
  induction l1 as [|x t1 IHl]; intros [|y t2] Z fa fb L psq1 psq2 a1 a2 s s' E K; simpl in Z; try discriminate.
  - apply srel_done; [exact E | apply anyT_nil].
  - apply andb_true_iff in Z as [Z1 Z2]. apply seq_head; try assumption.
    intros b1 b2 z z' Ez Kz. apply IHl; assumption.
Qed.

(* `x (s x')*` against `e+[t]` *)
Definition lrel (s0 : st) (b2 : list res) : out -> out -> Prop :=
  rel3 (fun r1 s1 r2 s2 =>
    eqs s1 s2 /\ ctxs s1 s0 /\
    exists c1 c2, r1 = RList c1 /\ r2 = RList c2 /\ accok c1 /\ accok c2 /\ (b2 <> [] -> c2 <> []))
  (fun _ _ => False).

Lemma lrel_mono s0 s b2 b2' o1 o2 : b2' <> [] -> ctxs s0 s -> lrel s0 b2' o1 o2 -> lrel s b2 o1 o2.
Proof.
  intros N CT. apply rel3_mono; [|trivial]. intros r1 s1 r2 s2 (A & A' & c1 & c2 & B & C & D & E & F). split; [exact A|].
  split; [eapply ctxs_trans; eassumption|].
  exists c1, c2. repeat split; try assumption. intros _. apply F. exact N.
Qed.

Lemma sep_loop q qn s x' e t fa1 fb :
  fa1 + fb <= n -> get_node g1 q = Some qn -> n_kind qn = KSeq -> plain qn = true -> n_suppress qn = false ->
  n_kids qn = [s; x'] -> pin_any R s t = true -> pin_any R x' e = true -> atrue g1 ne EDEPTH x' = true ->
  forall k1 k2 f1 b1 b2 z z', eqs z z' -> inv z -> accok b1 -> accok b2 ->
  lrel z b2 (rep_loop (P1 fa1) q None false k1 f1 b1 z) (rep_loop (P2 fb) e (Some t) true k2 false b2 z').
Proof.
  intros L Gq Kq Plq Suq Kiq Hs Hx Hat. induction k1 as [|k1 IHk]; intros k2 f1 b1 b2 z z' Ez Kz B1 B2; [left; reflexivity|].
  destruct k2 as [|k2]; [right; left; reflexivity|].
  rewrite !rep_loop_S. unfold rep_elem at 1. rewrite <- (eqs_pos _ _ Ez).
  destruct fa1 as [|fa2]; [left; reflexivity|].
  pose proof (seq_node_cases g1 input orc fa2 q qn false z Gq Kq Plq Suq) as C. rewrite Kiq in C. cbn [seq_loop] in C.
  assert (L2 : fa2 + fb <= n) by lia.
  pose proof (kid_any fa2 fb s t L2 Hs true false z z' Ez Kz) as O.
  destruct O as [O|[O|O]].
  - rewrite O in C. rewrite C. left; reflexivity.
  - rewrite O. right; left; reflexivity.
  - destruct (P1 fa2 s true z) as [sr1 s1|s1|w1], (P2 fb t false z') as [sr2 s2|s2|w2]; try contradiction.
    + destruct O as (E & CT & V & _). unfold rep_elem.
      pose proof (kid_any fa2 fb x' e L2 Hx true false s1 s2 E (inv_ctx _ _ CT Kz)) as O2.
      destruct O2 as [O2|[O2|O2]].
      * rewrite O2 in C. rewrite C. left; reflexivity.
      * rewrite O2. right; left; reflexivity.
      * destruct (P1 fa2 x' true s1) as [r1 s3|s3|w1'], (P2 fb e false s2) as [r2 s3'|s3'|w2']; try contradiction.
        -- destruct O2 as (E2 & CT2 & V2 & _ & _ & AT).
           assert (T1 : truthy r1 = true) by (apply (AT EDEPTH Hat)).
           pose proof V2 as (G1 & G2 & TT & _). assert (T2 : truthy r2 = true) by congruence.
           rewrite T1 in C. rewrite T2.
           assert (AQ : accok ((if truthy sr1 then [] ++ [sr1] else []) ++ [r1])).
           { apply Forall_app. split; [apply (accok_push [] sr1 false sr2); [constructor | exact V]|].
             constructor; [split; [exact T1 | apply G1; exact T1] | constructor]. }
           assert (NQ : (if truthy sr1 then [] ++ [sr1] else []) ++ [r1] <> []).
           { intro X. apply app_eq_nil in X as [_ X]. discriminate. }
           pose proof (post_list_tt q qn _ Suq AQ NQ) as TV.
           destruct ((if truthy sr1 then [] ++ [sr1] else []) ++ [r1]) as [|y ys] eqn:EZ; [congruence|].
           rewrite C. destruct TV as [TV1 TV2]. rewrite TV1.
           assert (CT3 : ctxs s3 z) by (eapply ctxs_trans; eassumption).
           eapply lrel_mono; [| exact CT3 | apply IHk].
           ++ intro X. apply app_eq_nil in X as [_ X]. discriminate.
           ++ exact E2.
           ++ apply (inv_ctx _ _ CT3 Kz).
           ++ apply Forall_app. split; [exact B1 | constructor; [split; assumption | constructor]].
           ++ apply Forall_app. split; [apply (accok_push2 b2 sr2 false sr1); assumption|].
              constructor; [split; [exact T2 | apply G2; exact T2] | constructor].
        -- rewrite C. cbn [andb]. destruct O2 as (E2 & CT2 & _).
           right; right. split; [apply eqxs_set_pos; apply eqxs_set_pos_l; apply eqxs_set_pos_l; exact E2|].
           split; [eapply ctxs_trans; [apply ctxs_set_pos|]; eapply ctxs_trans; [apply ctxs_set_pos|];
                   eapply ctxs_trans; [apply ctxs_set_pos|]; eapply ctxs_trans; eassumption|].
           eexists; eexists. split; [reflexivity|]. split; [reflexivity|].
           split; [exact B1|]. split; [apply (accok_push2 b2 sr2 false sr1); assumption|].
           intro N. destruct (truthy sr2); [|exact N]. intro X. apply app_eq_nil in X as [_ X]. discriminate.
        -- rewrite C. right; right. exact I.
    + rewrite C. cbn [andb]. destruct O as (E & CT & _).
      right; right. split; [apply eqxs_set_pos; apply eqxs_set_pos_l; apply eqxs_set_pos_l; exact E|].
      split; [eapply ctxs_trans; [apply ctxs_set_pos|]; eapply ctxs_trans; [apply ctxs_set_pos|];
              eapply ctxs_trans; [apply ctxs_set_pos|]; exact CT|].
      exists b1, b2. repeat split; try assumption. intro N; exact N.
    + rewrite C. right; right. exact I.
Qed.

Definition rrel (s0 : st) (a1 : list res) : out -> out -> Prop :=
  rel3 (fun r1 s1 r2 s2 =>
    eqs s1 s2 /\ ctxs s1 s0 /\
    exists d1 d2, r1 = RList (a1 ++ d1) /\ r2 = RList d2 /\ accok d1 /\ accok d2 /\ d1 <> [] /\ d2 <> [])
  (fun s1 s2 =>
    eqxs s1 s2 /\ ctxs s1 s0).

Lemma sepform_core x st s x' e t fa fb k2 psq1 a1 z z' :
  fa + fb <= n -> star_sep g1 st = Some (s, x') ->
  pin_any R x e = true -> pin_any R x' e = true -> pin_any R s t = true ->
  atrue g1 ne EDEPTH x = true -> atrue g1 ne EDEPTH x' = true -> eqs z z' -> inv z ->
  rrel z a1 (seq_loop (P1 fa) psq1 [x; st] a1 z) (rep_loop (P2 fb) e (Some t) true k2 true [] z').
Proof.
  intros L SS Hx Hx' Hs Ax Ax' Ez Kz.
  destruct (star_sep_node g1 st s x' SS) as (stn & q & Gst & Kst & Plst & Sust & Kist & Sest & SK).
  destruct (seq_kids_node g1 q _ SK) as (qn & Gq & Kq & Plq & Suq & Kiq).
  destruct k2 as [|k2]; [right; left; reflexivity|]. rewrite rep_loop_S. unfold rep_elem. cbn [seq_loop].
  apply (rel3_bind _ _ _ _ _ _ _ _ _ _ (kid_any fa fb x e L Hx psq1 false z z' Ez Kz)).
  - intros r1 s1 r2 s2 O. destruct O as (E & CT & V & _ & _ & AT). assert (T1 : truthy r1 = true) by (apply (AT EDEPTH Ax)).
    pose proof V as (G1 & G2 & TT & _). assert (T2 : truthy r2 = true) by congruence. rewrite T1, T2.
    destruct fa as [|fa1]; [left; reflexivity|].
    rewrite (parse_nonmatch g1 input orc fa1 st stn psq1 s1 Gst) by (rewrite Kst; reflexivity).
    rewrite (body_rep (P1 fa1) fa1 stn q s1 (or_introl Kst) Plst Kist). rewrite Kst, Sest.
    assert (L1 : fa1 + fb <= n) by lia.
    assert (B2 : accok ([] ++ [r2])) by (constructor; [split; [exact T2 | apply G2; exact T2] | constructor]).
    pose proof (sep_loop q qn s x' e t fa1 fb L1 Gq Kq Plq Suq Kiq Hs Hx' Ax' fa1 k2 true [] ([] ++ [r2]) s1 s2
                          E (inv_ctx _ _ CT Kz) (Forall_nil _) B2) as Z.
    destruct Z as [Z|[Z|Z]]; [rewrite Z; left; reflexivity | rewrite Z; right; left; reflexivity |].
    destruct (rep_loop (P1 fa1) q None false fa1 true [] s1) as [v1 s3|s3|w1'],
             (rep_loop (P2 fb) e (Some t) true k2 false ([] ++ [r2]) s2) as [v2 s3'|s3'|w2']; try contradiction.
    + destruct Z as (E2 & CT2 & c1 & c2 & E3 & E4 & C1 & C2 & N2). subst v1 v2. right; right.
      split; [exact E2|]. split; [eapply ctxs_trans; eassumption|].
      assert (A1 : accok [r1]) by (constructor; [split; [exact T1 | apply G1; exact T1] | constructor]).
      destruct c1 as [|y ys].
      * rewrite post_nil, Sust. cbn [truthy]. exists [r1], c2.
        repeat split; try assumption; try discriminate. apply N2. discriminate.
      * pose proof (post_list_tt st stn (y :: ys) Sust C1) as TV. assert (NZ : y :: ys <> []) by discriminate.
        specialize (TV NZ). destruct TV as [TV1 TV2]. rewrite TV1.
        exists ([r1] ++ [post st stn (RList (y :: ys))]), c2. rewrite app_assoc.
        repeat split; try assumption; try discriminate.
        -- constructor; [split; [exact T1 | apply G1; exact T1] | constructor; [split; assumption | constructor]].
        -- apply N2. discriminate.
    + right; right. exact I.
  - intros s1 s2 O. cbn [andb]. destruct O as (E & CT & _). right; right. split; [apply eqxs_set_pos_r; exact E | exact CT].
Qed.

Lemma sepform_seq fa fb x st t1 y t2 psq1 psq2 a1 a2 z z' :
  fa + fb <= n -> sepform g1 g2 ne R x (st :: t1) y = true -> eqs z z' -> inv z ->
  (forall b1 b2 u u', eqs u u' -> inv u ->
     srel u b1 b2 (anyT t1) (seq_loop (P1 fa) psq1 t1 b1 u) (seq_loop (P2 fb) psq2 t2 b2 u')) ->
  srel z a1 a2 (anyT (x :: st :: t1)) (seq_loop (P1 fa) psq1 (x :: st :: t1) a1 z) (seq_loop (P2 fb) psq2 (y :: t2) a2 z').
Proof.
  intros L SF Ez Kz K. unfold sepform in SF.
  destruct (star_sep g1 st) as [[s0 x']|] eqn:SS; [|discriminate].
  destruct (plus_sep g2 y) as [[e t]|] eqn:PS; [|discriminate].
  apply andb_true_iff in SF as [SF Ax']. apply andb_true_iff in SF as [SF Ax].
  apply andb_true_iff in SF as [SF Hs]. apply andb_true_iff in SF as [Hx Hx'].
  destruct (plus_sep_node g2 y e t PS) as (yn & Gy & Ky & Ply & Suy & Kiy & Sey).
  change (x :: st :: t1) with ([x; st] ++ t1) at 2. rewrite seq_loop_app.
  destruct fb as [|fb]; [right; left; reflexivity|].
  set (S1 := seq_loop (P1 fa) psq1 [x; st] a1 z).
  cbn [seq_loop].
  rewrite (parse_nonmatch g2 input orc fb y yn psq2 z' Gy) by (rewrite Ky; reflexivity).
  rewrite (body_rep (P2 fb) fb yn e z' (or_intror Ky) Ply Kiy). rewrite Ky, Sey.
  unfold S1. clear S1.
  assert (L1 : fa + fb <= n) by lia.
  pose proof (sepform_core x st s0 x' e t fa fb fb psq1 a1 z z' L1 SS Hx Hx' Hs Ax Ax' Ez Kz) as Z.
  destruct Z as [Z|[Z|Z]]; [rewrite Z; left; reflexivity | rewrite Z; right; left; reflexivity |].
  destruct (seq_loop (P1 fa) psq1 [x; st] a1 z) as [r1 s1|s1|w1],
           (rep_loop (P2 fb) e (Some t) true fb true [] z') as [r2 s2|s2|w2]; try contradiction.
  - destruct Z as (E & CT & d1 & d2 & E1 & E2 & D1 & D2 & N1 & N2). subst r1 r2.
    pose proof (post_list_tt y yn d2 Suy D2 N2) as [TV1 TV2]. rewrite TV1.
    eapply srel_shift with (e1 := d1) (e2 := [post y yn (RList d2)]) (Q' := anyT t1).
    + repeat split; try assumption.
      * constructor; [split; assumption | constructor].
      * intro X. contradiction.
      * discriminate.
    + intros _. left. exact N1.
    + exact CT.
    + apply K; [exact E | apply (inv_ctx _ _ CT Kz)].
  - destruct Z as (E & CT). right; right. split; [apply eqxs_set_pos_r; exact E | exact CT].
  - right; right. exact I.
Qed.

Lemma seq_align_sim m : forall l1 l2 fa fb, fa + fb <= n -> seq_align g1 g2 ne R m l1 l2 = true ->
  forall psq1 psq2 a1 a2 s s', eqs s s' -> inv s ->
  srel s a1 a2 (anyT l1) (seq_loop (P1 fa) psq1 l1 a1 s) (seq_loop (P2 fb) psq2 l2 a2 s').
Proof.
  induction m as [|m IHm]; intros l1 l2 fa fb L A psq1 psq2 a1 a2 s s' Es Ks; [discriminate|].
  cbn [seq_align] in A. destruct l1 as [|x t1], l2 as [|y t2]; try discriminate.
  - apply srel_done; [exact Es | apply anyT_nil].
  - apply orb_true_iff in A as [A|A]; [apply orb_true_iff in A as [A|A]; [apply orb_true_iff in A as [A|A]|]|].
    + apply andb_true_iff in A as [A1 A2]. apply seq_head; try assumption.
      intros b1 b2 z z' Ez Kz. apply IHm; assumption.
    + apply andb_true_iff in A as [A1 A2]. destruct t1 as [|st t1]; [discriminate A1|]. cbn [tl] in A2.
      apply sepform_seq; try assumption. intros b1 b2 z z' Ez Kz. apply IHm; assumption.
    + destruct (seq_kids g2 y) as [ks|] eqn:SK; [|discriminate].
      apply andb_true_iff in A as [A A3]. apply andb_true_iff in A as [A1 A2].
      destruct (seq_kids_node g2 y ks SK) as (nd & G & K & Pl & Su & Ki).
      assert (QS : anyT (x :: t1) -> anyT (firstn (length ks) (x :: t1)) \/ anyT (skipn (length ks) (x :: t1))).
      { intro q. apply (anyT_app g1 ne). rewrite firstn_skipn. exact q. }
      assert (EQ : seq_loop (P1 fa) psq1 (x :: t1) a1 s =
                   seq_loop (P1 fa) psq1 (firstn (length ks) (x :: t1) ++ skipn (length ks) (x :: t1)) a1 s)
        by (rewrite firstn_skipn; reflexivity).
      rewrite EQ. clear EQ. rewrite seq_loop_app.
      cbn [seq_loop]. destruct fb as [|fb]; [right; left; reflexivity|].
      assert (L' : fa + fb <= n) by lia.
      pose proof (seq_zip _ _ A2 fa fb L' psq1 true a1 [] s s' Es Ks) as Z.
      pose proof (seq_node_cases g2 input orc fb y nd psq2 s' G K Pl Su) as C. rewrite Ki in C.
      destruct Z as [Z|[Z|Z]].
      * rewrite Z. left; reflexivity.
      * rewrite Z in C. rewrite C. right; left; reflexivity.
      * destruct (seq_loop (P1 fa) psq1 (firstn (length ks) (x :: t1)) a1 s) as [r1 s1|s1|w1],
                 (seq_loop (P2 fb) true ks [] s') as [r2 s2|s2|w2]; try contradiction.
        -- destruct Z as (E & CT & d1 & d2 & E1 & E2 & D & F). subst r1 r2. cbn [app] in C. rewrite C.
           assert (L2 : fa + S fb <= n) by lia.
           destruct d2 as [|v d2].
           ++ cbn [truthy]. eapply srel_shift with (e1 := d1) (e2 := []) (Q' := anyT (skipn (length ks) (x :: t1))).
              ** exact D.
              ** intro q. destruct (QS q) as [q1|q2]; [left; apply F; exact q1 | right; exact q2].
              ** exact CT.
              ** rewrite app_nil_r. apply IHm; try assumption. apply (inv_ctx _ _ CT Ks).
           ++ pose proof (post_list_tt y nd (v :: d2) Su (proj1 (proj2 D))) as T.
              assert (N : v :: d2 <> []) by discriminate. specialize (T N).
              destruct T as [T1 T2]. rewrite T1.
              eapply srel_shift with (e1 := d1) (e2 := [post y nd (RList (v :: d2))])
                                      (Q' := anyT (skipn (length ks) (x :: t1))).
              ** destruct D as (D1 & D2 & D3). repeat split.
                 --- exact D1.
                 --- constructor; [split; assumption | constructor].
                 --- intro H. apply D3 in H. discriminate.
                 --- discriminate.
              ** intro q. destruct (QS q) as [q1|q2]; [left; apply F; exact q1 | right; exact q2].
              ** exact CT.
              ** apply IHm; try assumption. apply (inv_ctx _ _ CT Ks).
        -- rewrite C. destruct Z as (E & CT). right; right.
           split; [apply eqxs_set_pos_r; apply eqxs_set_pos_r; exact E | exact CT].
        -- rewrite C. right; right. exact I.
    + destruct (seq_kids g1 x) as [ks|] eqn:SK; [|discriminate].
      apply andb_true_iff in A as [A A3]. apply andb_true_iff in A as [A1 A2].
      destruct (seq_kids_node g1 x ks SK) as (nd & G & K & Pl & Su & Ki).
      assert (EQ : seq_loop (P2 fb) psq2 (y :: t2) a2 s' =
                   seq_loop (P2 fb) psq2 (firstn (length ks) (y :: t2) ++ skipn (length ks) (y :: t2)) a2 s')
        by (rewrite firstn_skipn; reflexivity).
      rewrite EQ. clear EQ. rewrite seq_loop_app.
      cbn [seq_loop]. destruct fa as [|fa]; [left; reflexivity|].
      assert (L' : fa + fb <= n) by lia.
      pose proof (seq_zip _ _ A2 fa fb L' true psq2 [] a2 s s' Es Ks) as Z.
      pose proof (seq_node_cases g1 input orc fa x nd psq1 s G K Pl Su) as C. rewrite Ki in C.
      assert (QX : anyT (x :: t1) -> anyT ks \/ anyT t1).
      { intro q. apply (anyT_cons g1 ne) in q as [[d q]|q]; [left | right; exact q].
        rewrite <- Ki. apply (atrue_seq0 g1 ne d x nd G K q). }
      destruct Z as [Z|[Z|Z]].
      * rewrite Z in C. rewrite C. left; reflexivity.
      * rewrite Z. right; left; reflexivity.
      * destruct (seq_loop (P1 fa) true ks [] s) as [r1 s1|s1|w1],
                 (seq_loop (P2 fb) psq2 (firstn (length ks) (y :: t2)) a2 s') as [r2 s2|s2|w2]; try contradiction.
        -- destruct Z as (E & CT & d1 & d2 & E1 & E2 & D & F). subst r1 r2. cbn [app] in C. rewrite C.
           assert (L2 : S fa + fb <= n) by lia.
           destruct d1 as [|v d1].
           ++ cbn [truthy]. eapply srel_shift with (e1 := []) (e2 := d2) (Q' := anyT t1).
              ** exact D.
              ** intro q. destruct (QX q) as [q1|q2]; [exfalso; apply (F q1); reflexivity | right; exact q2].
              ** exact CT.
              ** rewrite app_nil_r. apply IHm; try assumption. apply (inv_ctx _ _ CT Ks).
           ++ pose proof (post_list_tt x nd (v :: d1) Su (proj1 D)) as T.
              assert (N : v :: d1 <> []) by discriminate. specialize (T N).
              destruct T as [T1 T2]. rewrite T1.
              eapply srel_shift with (e1 := [post x nd (RList (v :: d1))]) (e2 := d2) (Q' := anyT t1).
              ** destruct D as (D1 & D2 & D3). repeat split.
                 --- constructor; [split; assumption | constructor].
                 --- exact D2.
                 --- discriminate.
                 --- intro H. apply D3 in H. discriminate.
              ** intros _. left. discriminate.
              ** exact CT.
              ** apply IHm; try assumption. apply (inv_ctx _ _ CT Ks).
        -- rewrite C. destruct Z as (E & CT). right; right.
           split; [apply eqxs_set_pos_l; apply eqxs_set_pos_l; exact E|].
           eapply ctxs_trans; [apply ctxs_set_pos|]. eapply ctxs_trans; [apply ctxs_set_pos|]. exact CT.
        -- rewrite C. right; right. exact I.
Qed.

Definition crel (s : st) : out -> out -> Prop :=
  rel3 (fun r1 s1 r2 s2 =>
    eqs s1 s2 /\ ctxs s1 s /\ ((r1 = RNone /\ r2 = RNone) \/ (tt r1 /\ tt r2)))
  (fun _ _ => False).

Lemma crel_ctx s0 s o1 o2 : ctxs s0 s -> crel s0 o1 o2 -> crel s o1 o2.
Proof.
  intro CT. apply rel3_mono; [|trivial]. intros r1 s1 r2 s2 (A & B & C).
  split; [exact A|]. split; [eapply ctxs_trans; eassumption | exact C].
Qed.

Lemma choice_sim l1 : forall l2, zip_in R true l1 l2 = true ->
  forallb (efree g1 EDEPTH) l1 = true -> forallb (efree g2 EDEPTH) l2 = true ->
  forall fa fb, fa + fb <= n -> forall cp s s', eqs s s' -> inv s ->
  crel s (choice_loop (P1 fa) cp l1 s) (choice_loop (P2 fb) cp l2 s').
Proof.
  induction l1 as [|x t1 IHl]; intros [|y t2] Z F1 F2 fa fb L cp s s' Es Ks; simpl in Z; try discriminate.
  - right; right. split; [exact Es|]. split; [apply ctxs_refl | left; split; reflexivity].
  - apply andb_true_iff in Z as [Z1 Z2]. cbn [forallb] in F1, F2.
    apply andb_true_iff in F1 as [F1 F1']. apply andb_true_iff in F2 as [F2 F2'].
    cbn [choice_loop].
    apply (rel3_bind _ _ _ _ _ _ _ _ _ _ (kid_strong fa fb x y L Z1 false false s s' Es Ks)).
    + intros r1 s1 r2 s2 O. destruct O as (E & CT & V & N1 & N2 & AT). destruct V as (G1 & G2 & T & Nn). specialize (Nn eq_refl).
      rewrite <- Nn. destruct (is_none r1) eqn:I1.
      * eapply crel_ctx; [exact CT|]. apply IHl; try assumption. apply (inv_ctx _ _ CT Ks).
      * right; right. split; [exact E|]. split; [exact CT | right]. split; apply fnn_tt; try assumption.
        -- apply (N1 EDEPTH F1). -- apply (N2 EDEPTH F2). -- congruence.
    + intros s1 s2 O. destruct O as (E & CT & _).
      eapply crel_ctx; [eapply ctxs_trans; [apply ctxs_set_pos | exact CT]|].
      apply IHl; try assumption; [apply eqxs_set_pos; exact E|].
      apply (inv_ctx (set_pos cp s1) s); [eapply ctxs_trans; [apply ctxs_set_pos | exact CT] | exact Ks].
Qed.

Definition sep_rel (sp1 sp2 : option nat) : Prop :=
  match sp1, sp2 with
  | None, None => True
  | Some x, Some y => pin_any R x y = true
  | _, _ => False
  end.

Lemma rep_sim e1 e2 sp1 sp2 plus fa fb : fa + fb <= n -> pin_any R e1 e2 = true -> sep_rel sp1 sp2 ->
  forall k1 k2 first a1 a2 s s', eqs s s' -> inv s ->
  srel s a1 a2 (first = true /\ plus = true /\ exists d, atrue g1 ne d e1 = true)
        (rep_loop (P1 fa) e1 sp1 plus k1 first a1 s) (rep_loop (P2 fb) e2 sp2 plus k2 first a2 s').
Proof.
  intros L He Hs. induction k1 as [|k1 IHk]; intros k2 first a1 a2 s s' Es Ks; [left; reflexivity|].
  destruct k2 as [|k2]; [right; left; reflexivity|].
  assert (EL : forall cp b1 b2 z z', eqs z z' -> inv z ->
    srel z b1 b2 (first = true /\ plus = true /\ exists d, atrue g1 ne d e1 = true)
          (rep_elem (P1 fa) e1 sp1 plus k1 first cp b1 z) (rep_elem (P2 fb) e2 sp2 plus k2 first cp b2 z')).
  { intros cp b1 b2 z z' Ez Kz. unfold rep_elem.
    apply (rel3_bind _ _ _ _ _ _ _ _ _ _ (kid_any fa fb e1 e2 L He false false z z' Ez Kz)).
    - intros r1 s2 r2 s2' (E & CT & V & _ & _ & AT). pose proof V as (G1 & G2 & T & _). rewrite <- T.
      destruct (truthy r1) eqn:T1.
      + eapply srel_shift with (e1 := [r1]) (e2 := [r2]); [| | exact CT | apply IHk; [exact E | apply (inv_ctx _ _ CT Kz)]].
        * pose proof (accrel_push r1 r2 false V) as AP. rewrite <- T, T1 in AP. exact AP.
        * intros _. left. discriminate.
      + eapply srel_shift with (e1 := []) (e2 := []) (Q' := False); [apply accrel_nil | | exact CT |].
        * intros (_ & _ & d & q). specialize (AT d q). congruence.
        * rewrite !app_nil_r. apply srel_done; [exact E | tauto].
    - intros s2 s2' (E & CT & _). destruct (plus && first)%bool eqn:PF.
      + right; right. split; [apply eqxs_set_pos_l; apply eqxs_set_pos_r; exact E|].
        eapply ctxs_trans; [apply ctxs_set_pos | exact CT].
      + eapply srel_shift with (e1 := []) (e2 := []) (Q' := False);
          [apply accrel_nil | | eapply ctxs_trans; [apply (ctxs_set_pos cp) | exact CT] |].
        * intros (F1 & F2 & _). subst. discriminate.
        * rewrite !app_nil_r. apply srel_done; [apply eqxs_set_pos; exact E | tauto]. }
  rewrite !rep_loop_S. rewrite <- (eqs_pos _ _ Es). destruct sp1 as [x|], sp2 as [y|]; try contradiction.
  - destruct first; [apply EL; assumption|].
    apply (rel3_bind _ _ _ _ _ _ _ _ _ _ (kid_any fa fb x y L Hs false false s s' Es Ks)).
    + intros r1 s1 r2 s2 O. destruct O as (E & CT & V & _). rewrite !push_app.
      eapply srel_shift; [eapply accrel_push; exact V | | exact CT | apply EL; [exact E | apply (inv_ctx _ _ CT Ks)]].
      intros (F1 & _). discriminate.
    + intros s1 s2 O. destruct O as (E & CT & _). cbn [andb]. rewrite andb_false_r.
      eapply srel_shift with (e1 := []) (e2 := []) (Q' := False);
        [apply accrel_nil | | eapply ctxs_trans; [apply (ctxs_set_pos (pos s)) | exact CT] |].
      * intros (F1 & _). discriminate.
      * rewrite !app_nil_r. apply srel_done; [apply eqxs_set_pos; exact E | tauto].
  - apply EL; assumption.
Qed.

Definition mrel (s : st) : out -> out -> Prop :=
  rel3 (fun _ s1 _ s2 =>
    eqs s1 s2 /\ ctxs s1 s)
  (fun _ _ => False).

Lemma mrel_ctx s0 s o1 o2 : ctxs s0 s -> mrel s0 o1 o2 -> mrel s o1 o2.
Proof.
  intro CT. apply rel3_mono; [|trivial]. intros r1 s1 r2 s2 (A & B). split; [exact A | eapply ctxs_trans; eassumption].
Qed.

Lemma cmt_sim cm1 cm2 fa fb : fa + fb <= n -> pin_any R cm1 cm2 = true ->
  nonterminal g1 cm1 = true -> nonterminal g2 cm2 = true ->
  forall k1 k2 s s', eqs s s' -> inv s ->
  mrel s (cmt_loop input (P1 fa) cm1 k1 s) (cmt_loop input (P2 fb) cm2 k2 s').
Proof.
  intros L H N1 N2. induction k1 as [|k1 IHk]; intros k2 s s' Es Ks; [left; reflexivity|].
  destruct k2 as [|k2]; [right; left; reflexivity|]. cbn [cmt_loop].
  apply (rel3_bind _ _ _ _ _ _ _ _ _ _ (kid_any fa fb cm1 cm2 L H false false s s' Es Ks)).
  - intros r1 s1 r2 s2 O. destruct O as (E & CT & _).
    eapply mrel_ctx; [eapply ctxs_trans; [apply ctxs_maybe_skip_ws | exact CT]|].
    apply IHk; [apply eqs_maybe_skip_ws; exact E|].
    apply (inv_ctx (maybe_skip_ws input s1) s); [eapply ctxs_trans; [apply ctxs_maybe_skip_ws | exact CT] | exact Ks].
  - intros s1 s2 O. destruct O as (E & CT & Q1 & Q2). right; right. split; [|exact CT].
    apply eqxs_pos_eqs; [exact E|]. rewrite (Q1 N1), (Q2 N2). exact (eqs_pos _ _ Es).
Qed.

Lemma match_pre_sim fa fb k1 k2 s s' : fa + fb <= n -> eqs s s' -> inv s ->
  mrel s (match_pre g1 input (P1 fa) k1 s) (match_pre g2 input (P2 fb) k2 s').
Proof.
  intros L Es Ks. unfold match_pre.
  pose proof (eqs_maybe_skip_ws input s s' Es) as E1.
  pose proof (ctxs_maybe_skip_ws (w:=w) input s) as C1.
  destruct (eqs_fields _ _ E1) as (_ & W1 & K1 & I1 & _).
  rewrite <- K1, <- (eqs_pos _ _ E1), <- (eqs_cpos _ _ E1), <- I1.
  set (z := maybe_skip_ws input s) in *. set (z' := maybe_skip_ws input s') in *.
  destruct (if skipws z then lookup (pos z) (cpos z) else None).
  { right; right. split; [apply eqs_set_pos; exact E1 | eapply ctxs_trans; [apply ctxs_set_pos | exact C1]]. }
  destruct (in_cmt z) eqn:IC; [right; right; split; assumption|].
  assert (Kz : inv z) by (apply (inv_ctx _ _ C1 Ks)).
  unfold parse_comments. pose proof HF as HF'. unfold frame_ok in HF'. apply andb_true_iff in HF' as [_ HC].
  destruct (g_comments g1) as [c1|], (g_comments g2) as [c2|]; try discriminate.
  - apply andb_true_iff in HC as [HC N2]. apply andb_true_iff in HC as [HC N1].
    pose proof (cmt_sim c1 c2 fa fb L HC N1 N2 k1 k2 (set_in_cmt true z) (set_in_cmt true z')
                         (eqs_set_in_cmt true _ _ E1) Kz) as M.
    destruct M as [M|[M|M]]; [rewrite M; left; reflexivity | rewrite M; right; left; reflexivity |].
    destruct (cmt_loop input (P1 fa) c1 k1 _) as [r1 t1|t1|w1], (cmt_loop input (P2 fb) c2 k2 _) as [r2 t2|t2|w2];
      try contradiction.
    + destruct M as (E & CT). right; right. split.
      * apply (eqs_upd_cpos (pos z) (set_in_cmt false t1) (set_in_cmt false t2)). apply eqs_set_in_cmt. exact E.
      * apply (ctxs_leave_cmt _ t1 z s CT C1 IC).
    + right; right. exact I.
  - right; right. split.
    + apply (eqs_upd_cpos (pos z) (set_in_cmt false (set_in_cmt true z)) (set_in_cmt false (set_in_cmt true z'))).
      apply eqs_set_in_cmt. apply eqs_set_in_cmt. exact E1.
    + apply (ctxs_leave_cmt _ (set_in_cmt true z) z s (ctxs_refl _) C1 IC).
Qed.

Definition brel (s : st) (a b : node) (Q : Prop) : out -> out -> Prop :=
  rel3 (fun r1 s1 r2 s2 =>
    eqs s1 s2 /\ ctxs s1 s /\
    ((r1 = RNone /\ r2 = RNone /\ ~ Q)
     \/ (r1 = RList [RNone] /\ r2 = RList [RNone] /\ ~ Q)
     \/ (r1 = RList [] /\ r2 = RList [] /\ starlike a /\ starlike b /\ ~ Q)
     \/ (exists d1 d2, r1 = RList d1 /\ r2 = RList d2 /\ accok d1 /\ accok d2 /\ d1 <> [] /\ d2 <> [])))
  (fun s1 s2 =>
    eqxs s1 s2 /\ ctxs s1 s).

(* the value part of a finished non-terminal pair *)
Lemma finish_vals i j c a b (Q : Prop) r1 r2 :
  get_node g1 i = Some a -> get_node g2 j = Some b -> n_suppress a = n_suppress b ->
  ((exists d, atrue g1 ne d i = true) -> Q) ->
  ((r1 = RNone /\ r2 = RNone /\ ~ Q)
   \/ (r1 = RList [RNone] /\ r2 = RList [RNone] /\ ~ Q)
   \/ (r1 = RList [] /\ r2 = RList [] /\ starlike a /\ starlike b /\ ~ Q)
   \/ (exists d1 d2, r1 = RList d1 /\ r2 = RList d2 /\ accok d1 /\ accok d2 /\ d1 <> [] /\ d2 <> [])) ->
  vrel c (post i a r1) (post j b r2) /\ (forall d, efree g1 d i = true -> fnn (post i a r1))
  /\ (forall d, efree g2 d j = true -> fnn (post j b r2))
  /\ (forall d, atrue g1 ne d i = true -> truthy (post i a r1) = true).
Proof.
  intros G1 G2 Su HQ B.
  assert (NA : ~ Q -> forall d, atrue g1 ne d i = true -> truthy RNone = true).
  { intros NQ d q. exfalso. apply NQ. apply HQ. exists d. exact q. }
  destruct B as [(E1 & E2 & NQ)|[(E1 & E2 & NQ)|[(E1 & E2 & K1 & K2 & NQ)|(d1 & d2 & E1 & E2 & A1 & A2 & N1 & N2)]]];
    subst r1 r2.
  - rewrite !post_none. split; [apply vrel_none|]. split; [intros; apply fnn_none|]. split; [intros; apply fnn_none|].
    apply NA; exact NQ.
  - rewrite !post_optnone. split; [apply vrel_none|]. split; [intros; apply fnn_none|].
    split; [intros; apply fnn_none|]. apply NA; exact NQ.
  - rewrite !post_nil. rewrite <- Su. destruct (n_suppress a) eqn:Sa.
    + split; [apply vrel_none|]. split; [intros; apply fnn_none|]. split; [intros; apply fnn_none|].
      apply NA; exact NQ.
    + split; [apply vrel_nil|]. split; [|split].
      * intros d Ef. rewrite (efree_starlike g1 d i a G1 K1 Ef) in Sa. discriminate.
      * intros d Ef. rewrite (efree_starlike g2 d j b G2 K2 Ef) in Su. discriminate.
      * intros d q. exfalso. apply NQ. apply HQ. exists d. exact q.
  - destruct (n_suppress a) eqn:Sa.
    + rewrite (post_suppress i a _ Sa), (post_suppress j b _ (eq_sym Su)).
      split; [apply vrel_none|]. split; [intros; apply fnn_none|]. split; [intros; apply fnn_none|].
      intros d q. rewrite (atrue_unsup ne g1 d i a G1 q) in Sa. discriminate.
    + pose proof (post_list_tt i a d1 Sa A1 N1) as T1.
      pose proof (post_list_tt j b d2 (eq_sym Su) A2 N2) as T2.
      split; [apply vrel_tt; assumption|]. split; [intros; apply fnn_of_tt; assumption|].
      split; [intros; apply fnn_of_tt; assumption|]. intros _ _. apply T1.
Qed.

Lemma finish i j c a b (Q : Prop) fa fb psq1 psq2 s s' :
  get_node g1 i = Some a -> get_node g2 j = Some b ->
  is_match_kind (n_kind a) = false -> is_match_kind (n_kind b) = false ->
  n_suppress a = n_suppress b -> eqs s s' ->
  ((exists d, atrue g1 ne d i = true) -> Q) ->
  brel s a b Q (body (P1 fa) fa a s) (body (P2 fb) fb b s') ->
  orelG i j c s s' (P1 (S fa) i psq1 s) (P2 (S fb) j psq2 s').
Proof.
  intros G1 G2 M1 M2 Su Es HQ B.
  rewrite (parse_nonmatch g1 input orc fa i a psq1 s G1 M1), (parse_nonmatch g2 input orc fb j b psq2 s' G2 M2).
  apply (rel3_bind _ _ _ _ _ _ _ _ _ _ B).
  - intros r1 s1 r2 s2 (E & CT & V). right; right. split; [exact E|]. split; [exact CT|].
    apply (finish_vals i j c a b Q r1 r2 G1 G2 Su HQ V).
  - intros s1 s2 (E & CT). right; right. split; [apply eqxs_set_pos_l; apply eqxs_set_pos_r; exact E|].
    split; [eapply ctxs_trans; [apply ctxs_set_pos | exact CT]|]. split; intros _; apply pos_set_pos.
Qed.

Definition trel (s : st) (o1 o2 : out) : Prop :=
  match o1, o2 with
  | Ok r1 s1, Ok r2 s2 => eqs s1 s2 /\ ctxs s1 s /\ ((r1 = RNone /\ r2 = RNone) \/ (tt r1 /\ tt r2))
  | Fail s1, Fail s2 => eqs s1 s2 /\ ctxs s1 s
  | Abort _, Abort _ => True
  | _, _ => False
  end.


Lemma term_rel k i j psq1 psq2 s1 s2 : eqs s1 s2 ->
  trel s1 (term_parse input orc i k psq1 s1) (term_parse input orc j k psq2 s2).
Proof.
  intro E. destruct k; simpl; try exact I; rewrite <- (eqs_pos _ _ E).
  - destruct (Nat.eqb (length input) (pos s1)); simpl.
    + split; [exact E|]. split; [apply ctxs_refl | right; split; apply tt_T].
    + split; [apply eqs_reg_fail; exact E | apply ctxs_reg_fail].
  - destruct (match oid with Some o => match orc o (pos s1) with Some _ => true | None => false end
                           | None => is_prefix s (skipn (pos s1) input) end); simpl.
    + split; [apply eqs_set_pos; exact E|]. split; [apply ctxs_set_pos | right; split; apply tt_T].
    + split; [apply eqs_reg_fail; exact E | apply ctxs_reg_fail].
  - destruct (orc oid (pos s1)) as [len|]; simpl.
    + destruct (Nat.eqb len 0); simpl.
      * split; [exact E|]. split; [apply ctxs_refl | left; split; reflexivity].
      * split; [apply eqs_set_pos; exact E|]. split; [apply ctxs_set_pos | right; split; apply tt_T].
    + split; [apply eqs_reg_fail; exact E | apply ctxs_reg_fail].
Qed.

Lemma step_term i j c a b fa fb psq1 psq2 s s' :
  fa + fb <= n -> get_node g1 i = Some a -> get_node g2 j = Some b ->
  is_match_kind (n_kind a) = true -> n_kind a = n_kind b -> n_suppress a = n_suppress b ->
  eqs s s' -> inv s ->
  orelG i j c s s' (P1 (S fa) i psq1 s) (P2 (S fb) j psq2 s').
Proof.
  intros L G1 G2 M K Su Es Ks.
  assert (M2 : is_match_kind (n_kind b) = true) by (rewrite <- K; exact M).
  rewrite (parse_match g1 input orc fa i a psq1 s G1 M), (parse_match g2 input orc fb j b psq2 s' G2 M2).
  apply (rel3_bind _ _ _ _ _ _ _ _ _ _ (match_pre_sim fa fb fa fb s s' L Es Ks)).
  - intros r1 s1 r2 s2 Z. destruct Z as (E & CT). rewrite <- K. pose proof (term_rel (n_kind a) i j psq1 psq2 s1 s2 E) as T.
    pose proof (term_atrue g1 ne input orc Hne i a psq1 s1 G1) as TA.
    destruct (term_parse input orc i (n_kind a) psq1 s1) as [v1 t1|t1|x1],
             (term_parse input orc j (n_kind a) psq2 s2) as [v2 t2|t2|x2]; try contradiction.
    + right; right. destruct T as (E2 & CT2 & T). split; [exact E2|]. split; [eapply ctxs_trans; eassumption|].
      rewrite <- Su. destruct (n_suppress a) eqn:Sa.
      * split; [apply vrel_none|]. split; [intros; apply fnn_none|]. split; [intros; apply fnn_none|].
        intros d q. rewrite (atrue_unsup ne g1 d i a G1 q) in Sa. discriminate.
      * destruct T as [[E1 E3]|[T1 T2]].
        -- subst. split; [apply vrel_none|]. split; [intros; apply fnn_none|]. split; [intros; apply fnn_none|].
           intros d q. apply (TA d RNone t1 q eq_refl).
        -- split; [apply vrel_tt; assumption|]. split; [intros; apply fnn_of_tt; assumption|].
           split; [intros; apply fnn_of_tt; assumption|]. intros _ _. apply T1.
    + right; right. destruct T as (E2 & CT2). split; [apply eqs_eqxs; exact E2|].
      split; [eapply ctxs_trans; eassumption|].
      unfold nonterminal. rewrite G1, G2, M, M2. split; discriminate.
    + right; right. exact I.
  - intros ? ? [].
Qed.

(* ZeroOrMore / OneOrMore against the same *)
Lemma step_rep (plus : bool) i j c a b x y fa fb psq1 psq2 s s' :
  fa + fb <= n -> get_node g1 i = Some a -> get_node g2 j = Some b ->
  n_kind a = (if plus then KPlus else KStar) -> n_kind b = (if plus then KPlus else KStar) ->
  plain a = true -> plain b = true -> n_suppress a = n_suppress b -> n_kids a = [x] -> n_kids b = [y] ->
  pin_any R x y = true -> sep_ok R a b = true -> eqs s s' -> inv s ->
  orelG i j c s s' (P1 (S fa) i psq1 s) (P2 (S fb) j psq2 s').
Proof.
  intros L G1 G2 Ka Kb Pa Pb Su Kia Kib HK HS Es Ks.
  assert (SL : forall nd, n_kind nd = (if plus then KPlus else KStar) -> starlike nd)
    by (intros nd K; destruct plus; [right | left]; exact K).
  apply (finish i j c a b (plus = true /\ exists d, atrue g1 ne d x = true) fa fb psq1 psq2 s s' G1 G2);
    try assumption; try (rewrite ?Ka, ?Kb; destruct plus; reflexivity).
  { intros [d q]. destruct plus.
    - split; [reflexivity | apply (atrue_plus g1 ne d i a x G1 Ka Kia q)].
    - destruct (atrue_kind_false g1 ne d i a G1 (or_intror Ka) q). }
  rewrite (body_rep (P1 fa) fa a x s (SL a Ka) Pa Kia), (body_rep (P2 fb) fb b y s' (SL b Kb) Pb Kib).
  rewrite Ka, Kb.
  assert (EP : match (if plus then KPlus else KStar) with KPlus => true | _ => false end = plus) by (destruct plus; reflexivity).
  rewrite EP. clear EP.
  assert (SR : sep_rel (n_sep a) (n_sep b)).
  { unfold sep_ok in HS. unfold sep_rel. destruct (n_sep a), (n_sep b); try discriminate; auto. }
  apply (rel3_mono _ _ _ _ _ _) with (3 := rep_sim x y (n_sep a) (n_sep b) plus fa fb L HK SR fa fb true [] [] s s' Es Ks);
    [|trivial].
  - intros r1 s1 r2 s2 (E & CT & d1 & d2 & E1 & E2 & D & F). cbn [app] in E1, E2. subst r1 r2.
    destruct D as (D1 & D2 & D3). split; [exact E|]. split; [exact CT|].
    destruct d1 as [|v1 d1], d2 as [|v2 d2].
    + right; right; left. repeat split; try (apply SL; assumption).
      intros [P q]. apply F; [|reflexivity]. split; [reflexivity|]. split; assumption.
    + exfalso. assert (X : v2 :: d2 = []) by (apply D3; reflexivity). discriminate.
    + exfalso. assert (X : v1 :: d1 = []) by (apply D3; reflexivity). discriminate.
    + right; right; right. exists (v1 :: d1), (v2 :: d2). repeat split; try assumption; discriminate.
Qed.

Lemma step_struct i j c a b fa fb psq1 psq2 s s' :
  fa + fb <= n -> get_node g1 i = Some a -> get_node g2 j = Some b -> struct_ok g1 g2 ne w alts R a b = true ->
  eqs s s' -> inv s ->
  orelG i j c s s' (P1 (S fa) i psq1 s) (P2 (S fb) j psq2 s').
Proof.
  intros L G1 G2 H Es Ks. unfold struct_ok in H.
  apply andb_true_iff in H as [H HK]. apply andb_true_iff in H as [H Su]. apply andb_true_iff in H as [Pa Pb].
  apply eqb_prop in Su.
  (* a kind of the first node without a rule of its own leaves the terminal test, and is not a terminal *)
  destruct (n_kind a) eqn:Ka; try (destruct (term_eqb_eq _ _ HK) as [_ M]; discriminate M);
    destruct (n_kind b) eqn:Kb; try discriminate HK.
  - (* KSeq, KSeq *)
    apply (finish i j c a b (anyT (n_kids a)) fa fb psq1 psq2 s s' G1 G2); try (rewrite ?Ka, ?Kb; reflexivity); try assumption.
    { intros [d q]. apply (atrue_seq0 g1 ne d i a G1 Ka q). }
    rewrite (body_seq _ _ _ _ Ka Pa), (body_seq _ _ _ _ Kb Pb).
    apply (rel3_bind _ _ _ _ _ _ _ _ _ _ (seq_align_sim _ _ _ fa fb L HK true true [] [] s s' Es Ks)).
    + intros r1 s1 r2 s2 Z. destruct Z as (E & CT & d1 & d2 & E1 & E2 & D & F). cbn [app] in E1, E2. subst r1 r2.
      destruct D as (D1 & D2 & D3). right; right.
      destruct d1 as [|v1 d1], d2 as [|v2 d2].
      * split; [exact E|]. split; [exact CT | left]. split; [reflexivity|]. split; [reflexivity|].
        intro q. apply (F q). reflexivity.
      * exfalso. assert (X : v2 :: d2 = []) by (apply D3; reflexivity). discriminate.
      * exfalso. assert (X : v1 :: d1 = []) by (apply D3; reflexivity). discriminate.
      * split; [exact E|]. split; [exact CT|]. right; right; right. exists (v1 :: d1), (v2 :: d2).
        repeat split; try assumption; discriminate.
    + intros s1 s2 Z. destruct Z as (E & CT). right; right.
      split; [apply eqxs_set_pos_l; apply eqxs_set_pos_r; exact E | eapply ctxs_trans; [apply ctxs_set_pos | exact CT]].
  - (* KSeq, KPlus: x (s x')* against e+[t] *)
    destruct (n_kids a) as [|x [|st [|? ?]]] eqn:Kia; try discriminate HK.
    destruct (n_kids b) as [|e [|? ?]] eqn:Kib; try discriminate HK.
    destruct (n_sep b) as [t|] eqn:Seb; [|discriminate HK].
    destruct (star_sep g1 st) as [[s0 x']|] eqn:SS; [|discriminate HK].
    apply andb_true_iff in HK as [HK Ax']. apply andb_true_iff in HK as [HK Ax].
    apply andb_true_iff in HK as [HK Hs]. apply andb_true_iff in HK as [Hx Hx'].
    apply (finish i j c a b True fa fb psq1 psq2 s s' G1 G2); try (rewrite ?Ka, ?Kb; reflexivity); try assumption;
      try (intros _; exact I).
    rewrite (body_seq _ _ _ _ Ka Pa). rewrite (body_rep (P2 fb) fb b e s' (or_intror Kb) Pb Kib). rewrite Kia, Kb, Seb.
    pose proof (sepform_core x st s0 x' e t fa fb fb true [] s s' L SS Hx Hx' Hs Ax Ax' Es Ks) as Z.
    destruct Z as [Z|[Z|Z]]; [rewrite Z; left; reflexivity | rewrite Z; right; left; reflexivity |].
    destruct (seq_loop (P1 fa) true [x; st] [] s) as [r1 s1|s1|w1],
             (rep_loop (P2 fb) e (Some t) true fb true [] s') as [r2 s2|s2|w2]; try contradiction.
    + destruct Z as (E & CT & d1 & d2 & E1 & E2 & D1 & D2 & N1 & N2). cbn [app] in E1. subst r1 r2.
      right; right. destruct d1 as [|v1 d1]; [congruence|].
      split; [exact E|]. split; [exact CT|]. right; right; right. exists (v1 :: d1), d2.
      repeat split; try assumption; discriminate.
    + destruct Z as (E & CT). right; right.
      split; [apply eqxs_set_pos_l; exact E | eapply ctxs_trans; [apply ctxs_set_pos | exact CT]].
    + right; right. exact I.
  - (* KChoice, KChoice *)
    apply andb_true_iff in HK as [HK C2]. apply andb_true_iff in HK as [HK C1].
    apply (finish i j c a b True fa fb psq1 psq2 s s' G1 G2); try (rewrite ?Ka, ?Kb; reflexivity); try assumption;
      try (intros _; exact I).
    rewrite (body_choice _ _ _ _ Ka Pa), (body_choice _ _ _ _ Kb Pb). rewrite <- (eqs_pos _ _ Es).
    apply (rel3_bind _ _ _ _ _ _ _ _ _ _ (choice_sim _ _ HK C1 C2 fa fb L (pos s) s s' Es Ks)).
    + intros r1 s1 r2 s2 Z. destruct Z as (E & CT & [[E1 E2]|[T1 T2]]).
      * subst r1 r2. cbn [is_none]. right; right.
        split; [apply eqs_eqxs; apply eqs_reg_fail; exact E | eapply ctxs_trans; [apply ctxs_reg_fail | exact CT]].
      * rewrite (tt_not_none _ (proj1 T1)), (tt_not_none _ (proj1 T2)). right; right.
        split; [exact E|]. split; [exact CT|]. right; right; right. exists [r1], [r2].
        repeat split; try (apply accok1; assumption); discriminate.
    + intros ? ? [].
  - (* KChoice, KRegex: weak mode *)
    apply andb_true_iff in HK as [W HK].
    apply (Hweak W n IH i j c a b fa fb psq1 psq2 s s' L G1 G2 Pa Pb Su); [|exact Es | exact Ks].
    unfold weak_rules. rewrite Ka, Kb. exact HK.
  - (* KOpt *)
    destruct (n_kids a) as [|x [|? ?]] eqn:Kia; try discriminate HK.
    destruct (n_kids b) as [|y [|? ?]] eqn:Kib; try discriminate HK.
    apply andb_true_iff in HK as [HK C2]. apply andb_true_iff in HK as [HK C1].
    unfold cho_ok in C1, C2. rewrite Kia in C1. rewrite Kib in C2. cbn [forallb] in C1, C2.
    rewrite andb_true_r in C1, C2.
    apply (finish i j c a b False fa fb psq1 psq2 s s' G1 G2); try (rewrite ?Ka, ?Kb; reflexivity); try assumption.
    { intros [d q]. apply (atrue_kind_false g1 ne d i a G1 (or_introl Ka) q). }
    unfold body. rewrite Ka, Kb, Kia, Kib. rewrite <- (eqs_pos _ _ Es).
    apply (rel3_bind _ _ _ _ _ _ _ _ _ _ (kid_strong fa fb x y L HK false false s s' Es Ks)).
    + intros r1 s1 r2 s2 O. destruct O as (E & CT & V & N1 & N2 & AT). destruct V as (Gd1 & Gd2 & T & Nn). specialize (Nn eq_refl).
      right; right. split; [exact E|]. split; [exact CT|]. destruct (is_none r1) eqn:I1.
      * right; left. destruct r1; try discriminate. destruct r2; try discriminate.
        split; [reflexivity|]. split; [reflexivity|]. intro F; exact F.
      * right; right; right. exists [r1], [r2].
        assert (T1 : tt r1) by (apply fnn_tt; [apply (N1 EDEPTH C1) | assumption | assumption]).
        assert (T2 : tt r2) by (apply fnn_tt; [apply (N2 EDEPTH C2) | assumption | congruence]).
        repeat split; try (apply accok1; assumption); discriminate.
    + intros s1 s2 O. destruct O as (E & CT & _). right; right.
      split; [apply eqxs_set_pos; exact E|]. split; [eapply ctxs_trans; [apply ctxs_set_pos | exact CT]|].
      left. split; [reflexivity|]. split; [reflexivity|]. intro F; exact F.
  - (* KStar *)
    destruct (n_kids a) as [|x [|? ?]] eqn:Kia; try discriminate HK.
    destruct (n_kids b) as [|y [|? ?]] eqn:Kib; try discriminate HK.
    apply andb_true_iff in HK as [HK HS]. apply (step_rep false i j c a b x y); assumption.
  - (* KPlus *)
    destruct (n_kids a) as [|x [|? ?]] eqn:Kia; try discriminate HK.
    destruct (n_kids b) as [|y [|? ?]] eqn:Kib; try discriminate HK.
    apply andb_true_iff in HK as [HK HS]. apply (step_rep true i j c a b x y); assumption.
  - (* KEOF *)
    apply (step_term i j c a b fa fb psq1 psq2 s s' L G1 G2); try assumption; rewrite ?Ka, ?Kb; reflexivity.
  - (* KStr *)
    destruct (term_eqb_eq _ _ HK) as [E _].
    apply (step_term i j c a b fa fb psq1 psq2 s s' L G1 G2); try assumption; rewrite ?Ka, ?Kb; try reflexivity; exact E.
  - (* KRegex, KChoice: weak mode *)
    apply andb_true_iff in HK as [W HK].
    apply (Hweak W n IH i j c a b fa fb psq1 psq2 s s' L G1 G2 Pa Pb Su); [|exact Es | exact Ks].
    unfold weak_rules. rewrite Ka, Kb. exact HK.
  - (* KRegex *)
    destruct (term_eqb_eq _ _ HK) as [E _].
    apply (step_term i j c a b fa fb psq1 psq2 s s' L G1 G2); try assumption; rewrite ?Ka, ?Kb; try reflexivity; exact E.
Qed.

Lemma step_unwrap i j c y fa fb psq1 psq2 s s' :
  S fa + fb <= n -> unit_kid g2 j = Some y -> pin_any R i y = true ->
  (negb c || efree g1 EDEPTH i)%bool = true -> eqs s s' -> inv s ->
  orelG i j c s s' (P1 (S fa) i psq1 s) (P2 (S fb) j psq2 s').
Proof.
  intros L U H Hc Es Ks. unfold unit_kid in U. destruct (seq_kids g2 j) as [[|y' [|? ?]]|] eqn:SK; try discriminate.
  inversion U; subst y'. destruct (seq_kids_node g2 j [y] SK) as (nd & G & K & Pl & Su & Ki).
  pose proof (seq_node_cases g2 input orc fb j nd psq2 s' G K Pl Su) as C. rewrite Ki in C. cbn [seq_loop] in C.
  pose proof (kid_any (S fa) fb i y L H psq1 true s s' Es Ks) as O.
  destruct O as [O|[O|O]]; [left; exact O | rewrite O in C; right; left; exact C |].
  destruct (P1 (S fa) i psq1 s) as [r1 s1|s1|w1], (P2 fb y true s') as [r2 s2|s2|w2]; try contradiction.
  - destruct O as (E & CT & V & N1 & N2 & AT). destruct V as (Gd1 & Gd2 & T & _). right; right.
    destruct (truthy r2) eqn:T2; cbn [app] in C; rewrite C.
    + assert (TT : tt (post j nd (RList [r2]))).
      { apply post_list_tt; [exact Su | apply accok1; split; [exact T2 | apply Gd2; exact T2] | discriminate]. }
      split; [exact E|]. split; [exact CT|]. split.
      * split; [exact Gd1|]. split; [apply tt_good; exact TT|]. split; [destruct TT; congruence|].
        intros _. rewrite (tt_not_none r1 T), (tt_not_none _ (proj1 TT)). reflexivity.
      * split; [exact N1 | split; [intros; apply fnn_of_tt; exact TT | exact AT]].
    + split; [exact E|]. split; [exact CT|]. split.
      * split; [exact Gd1|]. split; [apply good_falsy; reflexivity|]. split; [exact T|].
        intro Ec. subst c. cbn [negb orb] in Hc. rewrite (N1 EDEPTH Hc T). reflexivity.
      * split; [exact N1 | split; [intros; apply fnn_none | exact AT]].
  - rewrite C. destruct O as (E & CT & Q1 & Q2). right; right.
    split; [apply eqxs_set_pos_r; apply eqxs_set_pos_r; exact E|]. split; [exact CT|].
    split; [exact Q1 | intros _; apply pos_set_pos].
  - rewrite C. right; right. exact I.
Qed.

Lemma step_unwrap_l i j c x fa fb psq1 psq2 s s' :
  fa + S fb <= n -> unit_kid g1 i = Some x -> pin_any R x j = true ->
  (negb c || efree g2 EDEPTH j)%bool = true -> eqs s s' -> inv s ->
  orelG i j c s s' (P1 (S fa) i psq1 s) (P2 (S fb) j psq2 s').
Proof.
  intros L U H Hc Es Ks. unfold unit_kid in U. destruct (seq_kids g1 i) as [[|x' [|? ?]]|] eqn:SK; try discriminate.
  inversion U; subst x'. destruct (seq_kids_node g1 i [x] SK) as (nd & G & K & Pl & Su & Ki).
  pose proof (seq_node_cases g1 input orc fa i nd psq1 s G K Pl Su) as C. rewrite Ki in C. cbn [seq_loop] in C.
  pose proof (kid_any fa (S fb) x j L H true psq2 s s' Es Ks) as O.
  destruct O as [O|[O|O]]; [rewrite O in C; left; exact C | right; left; exact O |].
  destruct (P1 fa x true s) as [r1 s1|s1|w1], (P2 (S fb) j psq2 s') as [r2 s2|s2|w2]; try contradiction.
  - destruct O as (E & CT & V & N1 & N2 & AT). destruct V as (Gd1 & Gd2 & T & _). right; right.
    destruct (truthy r1) eqn:T1; cbn [app] in C; rewrite C.
    + assert (TT : tt (post i nd (RList [r1]))).
      { apply post_list_tt; [exact Su | apply accok1; split; [exact T1 | apply Gd1; exact T1] | discriminate]. }
      split; [exact E|]. split; [exact CT|]. split.
      * split; [apply tt_good; exact TT|]. split; [exact Gd2|]. split; [destruct TT; congruence|].
        intros _. rewrite (tt_not_none _ (proj1 TT)), (tt_not_none r2 (eq_sym T)). reflexivity.
      * split; [intros; apply fnn_of_tt; exact TT|]. split; [exact N2 | intros _ _; apply TT].
    + split; [exact E|]. split; [exact CT|]. split.
      * split; [apply good_falsy; reflexivity|]. split; [exact Gd2|]. split; [exact T|].
        intro Ec. subst c. cbn [negb orb] in Hc. rewrite (N2 EDEPTH Hc (eq_sym T)). reflexivity.
      * split; [intros; apply fnn_none|]. split; [exact N2|].
        intros d q. destruct (atrue_seq0 g1 ne d i nd G K q) as [d' q']. rewrite Ki in q'. cbn [existsb] in q'.
        rewrite orb_false_r in q'. specialize (AT d' q'). congruence.
  - rewrite C. destruct O as (E & CT & Q1 & Q2). right; right.
    split; [apply eqxs_set_pos_l; apply eqxs_set_pos_l; exact E|].
    split; [eapply ctxs_trans; [apply ctxs_set_pos|]; eapply ctxs_trans; [apply ctxs_set_pos | exact CT]|].
    split; [intros _; apply pos_set_pos | exact Q2].
  - rewrite C. right; right. exact I.
Qed.

Lemma stepG fa fb : fa + fb <= S n -> simG fa fb.
Proof.
  intros L i j c HIn psq1 psq2 s s' Es Ks. destruct (HR _ HIn) as [Hl|Hs]; [|apply Hs; assumption].
  destruct fa as [|fa]; [left; reflexivity|]. destruct fb as [|fb]; [right; left; reflexivity|].
  unfold local_ok in Hl. destruct (get_node g1 i) as [a|] eqn:G1; [|discriminate].
  destruct (get_node g2 j) as [b|] eqn:G2; [|discriminate].
  apply orb_true_iff in Hl as [Hl|Hl]; [apply orb_true_iff in Hl as [Hl|Hl]|].
  - apply (step_struct i j c a b); try assumption. lia.
  - destruct (unit_kid g2 j) as [y|] eqn:U; [|discriminate]. apply andb_true_iff in Hl as [H1 H2].
    apply (step_unwrap i j c y); try assumption. lia.
  - destruct (unit_kid g1 i) as [x|] eqn:U; [|discriminate]. apply andb_true_iff in Hl as [H1 H2].
    apply (step_unwrap_l i j c x); try assumption. lia.
Qed.

End StepG.

Lemma sim_allG n : forall fa fb, fa + fb <= n -> simG fa fb.
Proof.
  induction n as [|n IHn]; intros fa fb L.
  - assert (fa = 0) by lia. subst. intros i j c _ psq1 psq2 s s' _ _. left. reflexivity.
  - apply (stepG n IHn). exact L.
Qed.
End Gen.

(* strong mode: equal states *)
Section Sound.
Variables g1 g2 : grammar.
Variable ne : list nat.
Variable R : list (nat * nat * bool).
Variable input : list N.
Variable orc : nat -> nat -> option nat.
(* the oracle hypothesis: the regular expressions listed in [ne] never match the empty string *)
Hypothesis Hne : forall o p, In o ne -> orc o p <> Some 0.

Notation P1 := (parse g1 input orc false).
Notation P2 := (parse g2 input orc false).

(* related outcomes of a pair (i, j); running out of fuel on either side relates to anything *)
Definition orel (i j : nat) (c : bool) (s : st) (o1 o2 : out) : Prop :=
  o1 = Abort 0 \/ o2 = Abort 0 \/
  match o1, o2 with
  | Ok r1 s1, Ok r2 s2 =>
    s1 = s2 /\ vrel c r1 r2 /\ (forall d, efree g1 d i = true -> fnn r1) /\ (forall d, efree g2 d j = true -> fnn r2)
    /\ (forall d, atrue g1 ne d i = true -> truthy r1 = true)
  | Fail s1, Fail s2 =>
    eqx s1 s2 /\ (nonterminal g1 i = true -> pos s1 = pos s) /\ (nonterminal g2 j = true -> pos s2 = pos s)
  | Abort _, Abort _ => True
  | _, _ => False
  end.

Definition sim (fa fb : nat) : Prop :=
  forall i j c, In (i, j, c) R -> forall psq1 psq2 s, orel i j c s (P1 fa i psq1 s) (P2 fb j psq2 s).

Definition sem_ok (p : nat * nat * bool) : Prop :=
  match p with
  | (i, j, c) => forall fa fb psq1 psq2 s, orel i j c s (P1 fa i psq1 s) (P2 fb j psq2 s)
  end.

Hypothesis HR : forall p, In p R -> local_ok g1 g2 ne false [] R p = true \/ sem_ok p.
Hypothesis HF : frame_ok g1 g2 R = true.

(* orel is the general relation at w = false, where the context component is trivial *)
Lemma orel_iff i j c s o1 o2 : orel i j c s o1 o2 <-> orelG g1 g2 ne false i j c s s o1 o2.
Proof.
  unfold orel, orelG, rel3. destruct o1, o2; try reflexivity.
  - split; (intros [H|[H|H]]; [left; exact H | right; left; exact H | right; right]).
    + split; [apply H | split; [exact I | apply H]].
    + split; [apply H | apply H].
  - split; (intros [H|[H|H]]; [left; exact H | right; left; exact H | right; right]).
    + split; [apply H | split; [exact I | apply H]].
    + split; [apply H | apply H].
Qed.

Lemma sim_iff fa fb : sim fa fb <-> simG g1 g2 ne R input orc false fa fb.
Proof.
  split.
  - intros H i j c HIn psq1 psq2 s s' E _. cbv [eqw unm] in E. subst s'. apply orel_iff. apply H. exact HIn.
  - intros H i j c HIn psq1 psq2 s. apply orel_iff. apply H; [exact HIn | reflexivity | exact I].
Qed.

Lemma HRG p : In p R -> local_ok g1 g2 ne false [] R p = true \/ sem_okG g1 g2 ne input orc false p.
Proof.
  intro HIn. destruct (HR p HIn) as [H|H]; [left; exact H | right].
  destruct p as [[i j] c]. intros fa fb psq1 psq2 s s' E _. cbv [eqw unm] in E. subst s'. apply orel_iff. apply H.
Qed.

Lemma no_weak_rules : false = true -> rule_sound g1 g2 ne R input orc false (weak_rules g1 g2 ne []).
Proof. discriminate. Qed.

Section Step.
Variable n : nat.
Hypothesis IH : forall fa fb, fa + fb <= n -> sim fa fb.

Lemma step fa fb : fa + fb <= S n -> sim fa fb.
Proof.
  intro L. apply sim_iff. apply (stepG g1 g2 ne [] R input orc false Hne no_weak_rules HRG HF n); [|exact L].
  intros fa' fb' L'. apply sim_iff. apply IH. exact L'.
Qed.

End Step.

Lemma sim_all n : forall fa fb, fa + fb <= n -> sim fa fb.
Proof.
  induction n as [|n IHn]; intros fa fb L.
  - assert (fa = 0) by lia. subst. intros i j c _ psq1 psq2 s. left. reflexivity.
  - apply (step n IHn). exact L.
Qed.

(* outcomes of whole runs *)
Definition outcome_rel (o1 o2 : outcome) : Prop :=
  o1 = Aborted 0 \/ o2 = Aborted 0 \/
  match o1, o2 with
  | Parsed _, Parsed _ => True
  | SyntaxErr p, SyntaxErr q => p = q
  | Aborted _, Aborted _ => True
  | _, _ => False
  end.

Lemma run_rel cfg f1 f2 : outcome_rel (run g1 cfg orc false f1 input) (run g2 cfg orc false f2 input).
Proof.
  unfold run. pose proof HF as F. unfold frame_ok in F. apply andb_true_iff in F as [F _].
  apply pin_any_In in F as [c F].
  pose proof (sim_all (f1 + f2) f1 f2 (le_n _) _ _ _ F false false (init_st cfg)) as O.
  destruct O as [O|[O|O]]; [rewrite O; left; reflexivity | rewrite O; right; left; reflexivity |].
  destruct (P1 f1 (g_top g1) false (init_st cfg)) as [r1 s1|s1|w1],
           (P2 f2 (g_top g2) false (init_st cfg)) as [r2 s2|s2|w2]; try contradiction.
  - right; right. exact I.
  - right; right. destruct O as (E & _). unfold nm_pos. rewrite (eqx_nm _ _ E). reflexivity.
  - right; right. exact I.
Qed.

End Sound.

(* what the checker reports: no report means the frame check and every local check passed ... *)
Lemma diffs_gen_nil ne weak alts seeds g1 g2 :
  peg_equiv_diffs_gen ne weak alts seeds g1 g2 = [] ->
  frame_ok g1 g2 (reach_all g1 g2 seeds) = true /\
  forall p, In p (reach_all g1 g2 seeds) -> local_ok g1 g2 ne weak alts (reach_all g1 g2 seeds) p = true.
Proof.
  unfold peg_equiv_diffs_gen. intro H. apply app_eq_nil in H as [H1 H2]. split.
  - destruct (frame_ok g1 g2 (reach_all g1 g2 seeds)); [reflexivity | discriminate].
  - intros p HIn. apply negb_false_iff. apply (proj1 (filter_nil _ _) H2 p HIn).
Qed.

(* ... and if every traversed pair passes its local check or satisfies Q, every reported pair satisfies Q.
   R is tied to the traversal by an equation so that a caller who has named its traversal can pass the name:
   a conversion between the name and the unfolded traversal of two concrete tables may evaluate it. *)
Lemma diffs_gen_forall ne weak alts seeds g1 g2 R (Q : nat * nat * bool -> bool) :
  R = reach_all g1 g2 seeds ->
  frame_ok g1 g2 R = true ->
  forallb (fun p => local_ok g1 g2 ne weak alts R p || Q p) R = true ->
  forallb Q (peg_equiv_diffs_gen ne weak alts seeds g1 g2) = true.
Proof.
  unfold peg_equiv_diffs_gen. intros <- F A. rewrite F. rewrite forallb_forall in A. apply forallb_forall.
  intros p HIn. apply filter_In in HIn as [HIn N]. specialize (A p HIn).
  apply negb_true_iff in N. rewrite N in A. exact A.
Qed.

Lemma incl_diff_labels labs1 labs2 acc d :
  incl_b (diff_labels labs1 labs2 d) acc =
  forallb (fun p => match p with (i, j, _) => existsb (lp_eqb (label_of labs1 i, label_of labs2 j)) acc end) d.
Proof.
  unfold incl_b, diff_labels. induction d as [|[[i j] c] d IH]; [reflexivity|].
  cbn [map forallb]. rewrite IH. reflexivity.
Qed.

(* the weak mode only adds rules *)
Lemma struct_ok_weaken g1 g2 ne alts R a b :
  struct_ok g1 g2 ne false [] R a b = true -> struct_ok g1 g2 ne true alts R a b = true.
Proof.
  unfold struct_ok. destruct (n_kind a), (n_kind b); trivial; cbn [andb]; rewrite andb_false_r; discriminate.
Qed.

Lemma local_ok_weaken g1 g2 ne alts R p :
  local_ok g1 g2 ne false [] R p = true -> local_ok g1 g2 ne true alts R p = true.
Proof.
  destruct p as [[i j] c]. unfold local_ok.
  destruct (get_node g1 i) as [a|]; [|trivial]. destruct (get_node g2 j) as [b|]; [|trivial].
  destruct (struct_ok g1 g2 ne false [] R a b) eqn:S.
  - rewrite (struct_ok_weaken _ _ _ alts _ _ _ S). trivial.
  - cbn [orb]. intro H. rewrite <- orb_assoc, H. apply orb_true_r.
Qed.

(* the oracle hypothesis: the listed oracle ids never report an empty match *)
Definition orc_nonempty (ne : list nat) (orc : nat -> nat -> option nat) : Prop :=
  forall o p, In o ne -> orc o p <> Some 0.

Theorem rel_sound g1 g2 ne R input orc :
  orc_nonempty ne orc ->
  frame_ok g1 g2 R = true ->
  (forall p, In p R -> local_ok g1 g2 ne false [] R p = true \/ sem_ok g1 g2 ne input orc p) ->
  forall cfg f1 f2, outcome_rel (run g1 cfg orc false f1 input) (run g2 cfg orc false f2 input).
Proof. intros Hne HF HR cfg f1 f2. apply (run_rel g1 g2 ne R input orc Hne HR HF). Qed.

Theorem diffs_sound ne seeds g1 g2 :
  peg_equiv_diffs ne seeds g1 g2 = [] ->
  forall input orc, orc_nonempty ne orc ->
  forall cfg f1 f2, outcome_rel (run g1 cfg orc false f1 input) (run g2 cfg orc false f2 input).
Proof.
  intros H input orc Hne. destruct (diffs_gen_nil _ _ _ _ _ _ H) as [F A].
  apply (rel_sound g1 g2 ne (reach_all g1 g2 seeds) input orc Hne F).
  intros p HIn. left. apply A. exact HIn.
Qed.

Lemma orc_nonempty_nil orc : orc_nonempty [] orc.
Proof. intros o p []. Qed.

(* small grammars for the non-vacuity statements (Props/C24.v) *)
(* Model: 'a' 'x'* ;  without and with textX-style wrappers around the two parts *)
Definition mk (k : kind) (kids : list nat) (root : bool) : node := mkNode k kids None false [] root false None None.
Definition g_plain : grammar :=
  mkGrammar [mk KSeq [1; 5] true; mk KSeq [2; 3] true; mk (KStr [97]%N None) [] false; mk KStar [4] false;
             mk (KStr [120]%N None) [] false; mk KEOF [] false] 0 None.
Definition g_wrapped : grammar :=
  mkGrammar [mk KSeq [1; 7] true; mk KSeq [2; 3] true; mk KSeq [4] true; mk KStar [5] true;
             mk (KStr [97]%N None) [] false; mk KSeq [6] true; mk (KStr [120]%N None) [] false; mk KEOF [] false] 0 None.
(* the same with 'y' instead of 'x' *)
Definition g_other : grammar :=
  mkGrammar [mk KSeq [1; 7] true; mk KSeq [2; 3] true; mk KSeq [4] true; mk KStar [5] true;
             mk (KStr [97]%N None) [] false; mk KSeq [6] true; mk (KStr [121]%N None) [] false; mk KEOF [] false] 0 None.
Definition cfg0 : config := mkConfig true [9; 10; 13; 32]%N.
Definition no_orc (o p : nat) : option nat := None.

(* Model: '[' 'x' (',' 'x')* ']'   against   '[' 'x'+[','] ']'  (segment form), and
   Model: 'x' (',' 'x')*           against   'x'+[',']          (whole-node form) *)
Definition g_sep1 : grammar :=
  mkGrammar [mk KSeq [1; 8] true; mk KSeq [2; 3; 4; 7] true; mk (KStr [91]%N None) [] false; mk (KStr [120]%N None) [] false;
             mk KStar [5] false; mk KSeq [6; 3] false; mk (KStr [44]%N None) [] false; mk (KStr [93]%N None) [] false;
             mk KEOF [] false] 0 None.
Definition g_sep2 : grammar :=
  mkGrammar [mk KSeq [1; 7] true; mk KSeq [2; 3; 6] true; mk (KStr [91]%N None) [] false;
             mkNode KPlus [4] (Some 5) false [] true false None None; mk (KStr [120]%N None) [] false;
             mk (KStr [44]%N None) [] false; mk (KStr [93]%N None) [] false; mk KEOF [] false] 0 None.
Definition g_sep3 : grammar :=
  mkGrammar [mk KSeq [1; 6] true; mk KSeq [2; 3] true; mk (KStr [120]%N None) [] false;
             mk KStar [4] false; mk KSeq [5; 2] false; mk (KStr [44]%N None) [] false; mk KEOF [] false] 0 None.
Definition g_sep4 : grammar :=
  mkGrammar [mk KSeq [1; 4] true; mkNode KPlus [2] (Some 3) false [] true false None None; mk (KStr [120]%N None) [] false;
             mk (KStr [44]%N None) [] false; mk KEOF [] false] 0 None.
