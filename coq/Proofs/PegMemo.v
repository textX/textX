(* C19: for context-constant grammars the memoized interpreter returns what the un-memoized one
   returns.  Three layers, tied by induction on the fuel:
     A0 (good)    a run only extends nm / comment_positions and keeps context and cache;
     A  (rerun)   re-running a node at the same position from any later state (dom) reproduces
                  the result and changes nothing but the position;
     S  (sim)     simulation memo / no-memo with the invariant "every cache entry is what the
                  un-memoized interpreter returns at that position".
   A0 is proved per helper of Model/Peg.v with the recursive parser abstracted.  A and S both compare
   two runs from related states; that comparison is made once (Section Lift) and instantiated twice. *)
From TxV Require Import Core.Base Model.PegSyntax Model.Peg Proofs.PegProofs Proofs.PegFuel.

Section Memo.
Variable g : grammar.
Variable input : list N.
Variable orc : nat -> nat -> option nat.
Hypothesis H : ctx_constant g = true.

Notation parser := (nat -> bool -> st -> out) (only parsing).

Lemma comment_node cm :
  g_comments g = Some cm -> exists nd, get_node g cm = Some nd /\ is_match_kind (n_kind nd) = true.
Proof.
  intro E. unfold ctx_constant in H. apply andb_true_iff in H as [_ H2]. unfold comments_ok in H2.
  rewrite E in H2. destruct (get_node g cm) as [nd|]; [|discriminate]. exists nd. auto.
Qed.

Lemma node_free nid nd :
  get_node g nid = Some nd -> n_ws nd = None /\ n_skipws nd = None /\ n_eolterm nd = false.
Proof.
  intro Hn. unfold ctx_constant in H. apply andb_true_iff in H as [H1 _].
  rewrite forallb_forall in H1. unfold get_node in Hn. apply nth_error_In in Hn.
  specialize (H1 _ Hn). unfold node_ctx_free in H1.
  destruct (n_ws nd); [discriminate|]. destruct (n_skipws nd); [discriminate|].
  destruct (n_eolterm nd); [discriminate|]. auto.
Qed.

(* the Comment rule is a single terminal: tried in comment mode it is a function of the state that
   does not involve the recursive parser (and is never memoized) *)
Definition cjump (s1 : st) : st :=
  match (if skipws s1 then lookup (pos s1) (cpos s1) else None) with
  | Some p' => set_pos p' s1
  | None => s1
  end.
Definition cterm (cm : nat) (s : st) : out :=
  match get_node g cm with
  | None => Abort 1
  | Some nd =>
    match term_parse input orc cm (n_kind nd) false (cjump (maybe_skip_ws input s)) with
    | Ok r s3 => Ok (if n_suppress nd then RNone else r) s3
    | o => o
    end
  end.
Fixpoint cloop (cm k : nat) (s : st) : out :=
  match k with
  | 0 => Abort 0
  | S k' =>
    match cterm cm s with
    | Ok _ s1 => cloop cm k' (maybe_skip_ws input s1)
    | Fail s1 => Ok RNone s1
    | Abort w => Abort w
    end
  end.

(* [v] is the position at which the comment loop started at [k] ends (whitespace skipping off), whatever
   the fuel and the rest of the state *)
Definition CV (cm k v : nat) : Prop :=
  forall f s r s2, in_cmt s = true -> skipws s = false -> pos s = k -> cloop cm f s = Ok r s2 -> pos s2 = v.

(* state invariant of main-mode parsing: not inside comment parsing, and comment_positions entries are
   never overwritten with a different value: with skipws they are written only when absent; without
   skipws every entry is what re-computation gives (k |-> k without a comment model, the end of the
   comment loop started at k otherwise) *)
Definition cpos_ok (c : list (nat * nat)) : Prop :=
  match g_comments g with
  | None => cpos_id c
  | Some cm => forall k v, lookup k c = Some v -> CV cm k v
  end.
Definition sinv (s : st) : Prop :=
  in_cmt s = false /\ (skipws s = true \/ cpos_ok (cpos s)).

Lemma skipws_reg_fail p s : skipws (reg_fail p s) = skipws s.
Proof. unfold reg_fail. destruct (nm s); [destruct (in_cmt s); [|destruct (Nat.ltb _ _)]|]; reflexivity. Qed.
Lemma sinv_reg_fail p s : sinv s -> sinv (reg_fail p s).
Proof. unfold sinv. now rewrite in_cmt_reg_fail, skipws_reg_fail, cpos_reg_fail. Qed.

Definition is_abort (o : out) : bool := match o with Abort _ => true | _ => false end.
Definition ostate (d : st) (o : out) : st := match o with Ok _ s | Fail s => s | Abort _ => d end.
Definition omap (f : st -> st) (o : out) : out :=
  match o with Ok r s => Ok r (f s) | Fail s => Fail (f s) | Abort w => Abort w end.

Definition good (s : st) (o : out) : Prop :=
  match o with
  | Ok _ s1 | Fail s1 => dom s s1 /\ sinv s1
  | Abort _ => True
  end.

Lemma good_trans s s1 o : dom s s1 -> good s1 o -> good s o.
Proof. intros D G. destruct o; cbn in *; auto; destruct G; split; eauto using dom_trans. Qed.
Lemma good_omap_pos s o (f : st -> nat) :
  good s o -> good s (omap (fun s1 => set_pos (f s1) s1) o).
Proof. destruct o; cbn; auto; intros [D C]; split; auto using dom_set_pos_r. Qed.
Lemma good_pos_l p s o : good s o -> good (set_pos p s) o.
Proof. destruct o; cbn; auto; intros [D C]; split; auto using dom_set_pos_l. Qed.
Lemma good_pos_l_inv p s o : good (set_pos p s) o -> good s o.
Proof. destruct o; cbn; auto; intros [D C]; split; eauto using dom_set_pos_l_inv. Qed.

Lemma good_ok s r p : sinv s -> good s (Ok r (set_pos p s)).
Proof. intro C. split; [apply dom_set_pos_r, dom_refl | exact C]. Qed.
Lemma good_ok0 s r : sinv s -> good s (Ok r s).
Proof. intro C. split; [apply dom_refl | exact C]. Qed.
Lemma good_raise s p : sinv s -> good s (nm_raise p s).
Proof. intro C. split; [apply dom_reg_fail | now apply sinv_reg_fail]. Qed.

Lemma term_good nid k psq s : sinv s -> good s (term_parse input orc nid k psq s).
Proof.
  intro C. destruct (term_parse_cases input orc nid k psq s) as [(r & p' & E)|[E|E]]; rewrite E by reflexivity;
    [now apply good_ok | now apply good_raise | exact I].
Qed.

Lemma raise_rerun p s s' :
  dom (reg_fail p s) s' -> pos s' = pos s ->
  nm_raise p s' = omap (fun s1 => set_pos (pos s1) s') (nm_raise p s).
Proof.
  intros D P. unfold nm_raise. cbn. rewrite (reg_fail_saturated _ _ _ D), pos_reg_fail, <- P.
  now rewrite set_pos_same.
Qed.

Lemma term_rerun nid k psq s s' :
  is_abort (term_parse input orc nid k psq s) = false ->
  dom (ostate s (term_parse input orc nid k psq s)) s' -> pos s' = pos s ->
  term_parse input orc nid k psq s' = omap (fun s1 => set_pos (pos s1) s') (term_parse input orc nid k psq s).
Proof.
  intros NA D P. destruct (term_parse_cases input orc nid k psq s) as [(r & p' & E)|[E|E]].
  - now rewrite (E s' P), (E s eq_refl).
  - rewrite (E s' P), (E s eq_refl) in *. now apply raise_rerun.
  - rewrite E in NA. discriminate NA.
Qed.

Lemma reg_fail_cache c p s : reg_fail p (set_cache c s) = set_cache c (reg_fail p s).
Proof. unfold reg_fail. cbn [nm in_cmt set_cache]. destruct (nm s); [destruct (in_cmt s); [|destruct (Nat.ltb _ _)]|]; reflexivity. Qed.

Lemma term_cache c nid k psq s :
  term_parse input orc nid k psq (set_cache c s) = omap (set_cache c) (term_parse input orc nid k psq s).
Proof.
  destruct (term_parse_cases input orc nid k psq s) as [(r & p' & E)|[E|E]].
  - now rewrite (E (set_cache c s) eq_refl), (E s eq_refl).
  - rewrite (E (set_cache c s) eq_refl), (E s eq_refl). unfold nm_raise. cbn [omap]. now rewrite reg_fail_cache.
  - now rewrite !E.
Qed.

Lemma msw_dom s : dom s (maybe_skip_ws input s).
Proof. unfold maybe_skip_ws, do_skip_ws. destruct (skipws s); [apply dom_set_pos_r|]; apply dom_refl. Qed.
Lemma msw_cpos s : cpos (maybe_skip_ws input s) = cpos s.
Proof. unfold maybe_skip_ws, do_skip_ws. destruct (skipws s); reflexivity. Qed.
Lemma msw_rerun s s' :
  dom s s' -> pos s' = pos s ->
  maybe_skip_ws input s' = set_pos (pos (maybe_skip_ws input s)) s'.
Proof.
  intros D P. unfold maybe_skip_ws, do_skip_ws. rewrite (d_skip _ _ D), (d_ws _ _ D), P.
  destruct (skipws s); [reflexivity|]. rewrite <- P. symmetry. apply set_pos_same.
Qed.
Lemma msw_cache c s : maybe_skip_ws input (set_cache c s) = set_cache c (maybe_skip_ws input s).
Proof. unfold maybe_skip_ws, do_skip_ws. cbn. destruct (skipws s); reflexivity. Qed.
Lemma set_cpos_same s : set_cpos (cpos s) s = s.
Proof. destruct s; reflexivity. Qed.

Definition cgood (s : st) (o : out) : Prop :=
  match o with Ok _ s1 | Fail s1 => dom s s1 /\ cpos s1 = cpos s | Abort _ => True end.

Lemma cjump_dom s : dom s (cjump s) /\ cpos (cjump s) = cpos s.
Proof.
  unfold cjump. destruct (if skipws s then lookup (pos s) (cpos s) else None);
    split; auto using dom_set_pos_r, dom_refl.
Qed.

Lemma term_cgood nid k psq s : cgood s (term_parse input orc nid k psq s).
Proof.
  destruct (term_parse_cases input orc nid k psq s) as [(r & p' & E)|[E|E]]; rewrite E by reflexivity;
    [split; [apply dom_set_pos_r, dom_refl | reflexivity] | split; [apply dom_reg_fail | apply cpos_reg_fail] | exact I].
Qed.

Lemma cterm_good cm s : cgood s (cterm cm s).
Proof.
  unfold cterm. destruct (get_node g cm) as [nd|]; [|exact I].
  destruct (cjump_dom (maybe_skip_ws input s)) as [D1 C1].
  pose proof (term_cgood cm (n_kind nd) false (cjump (maybe_skip_ws input s))) as G.
  destruct (term_parse input orc cm (n_kind nd) false (cjump (maybe_skip_ws input s))); cbn in G |- *; auto;
    destruct G as [D2 C2]; (split; [eapply dom_trans; [apply msw_dom|]; eapply dom_trans; eassumption|]);
    now rewrite C2, C1, msw_cpos.
Qed.

Lemma cloop_good cm k : forall s,
  match cloop cm k s with Ok _ s1 => dom s s1 /\ cpos s1 = cpos s | Fail _ => False | Abort _ => True end.
Proof.
  induction k as [|k IH]; intro s; cbn [cloop]; [exact I|].
  pose proof (cterm_good cm s) as G. destruct (cterm cm s) as [r s1|s1|w]; cbn in G; auto.
  destruct G as [D1 C1]. specialize (IH (maybe_skip_ws input s1)).
  destruct (cloop cm k (maybe_skip_ws input s1)); auto. destruct IH as [D2 C2].
  split; [eapply dom_trans; [exact D1|]; eapply dom_trans; [apply msw_dom | exact D2]|].
  now rewrite C2, msw_cpos.
Qed.

Lemma parse_cterm m f cm s :
  g_comments g = Some cm -> in_cmt s = true ->
  parse g input orc m (S f) cm false s = cterm cm s.
Proof.
  intros E IC. destruct (comment_node cm E) as (nd & Hn & MK).
  cbn [parse]. unfold cterm. rewrite Hn, MK. unfold match_pre, cjump.
  assert (IC1 : in_cmt (maybe_skip_ws input s) = true) by (rewrite (d_cmt _ _ (msw_dom s)); exact IC).
  destruct (if skipws (maybe_skip_ws input s) then _ else None); [reflexivity|].
  rewrite IC1. reflexivity.
Qed.

Lemma cmt_loop_eq m f cm : g_comments g = Some cm -> forall k s, in_cmt s = true ->
  cmt_loop input (parse g input orc m (S f)) cm k s = cloop cm k s.
Proof.
  intros E. induction k as [|k IH]; intros s IC; cbn [cmt_loop cloop]; [reflexivity|].
  rewrite (parse_cterm m f cm s E IC).
  pose proof (cterm_good cm s) as G. destruct (cterm cm s) as [r s1|s1|w]; cbn in G; auto.
  destruct G as [D1 _]. apply IH.
  rewrite (d_cmt _ _ (msw_dom s1)), (d_cmt _ _ D1). exact IC.
Qed.

Definition mprec (f : nat) (s : st) : out :=
  let s1 := maybe_skip_ws input s in
  match (if skipws s1 then lookup (pos s1) (cpos s1) else None) with
  | Some p' => Ok RNone (set_pos p' s1)
  | None =>
    if in_cmt s1 then Ok RNone s1
    else match g_comments g with
         | None => Ok RNone (set_cpos (upd (pos s1) (pos s1) (cpos s1)) s1)
         | Some cm =>
           match cloop cm f (set_in_cmt true s1) with
           | Ok _ s2 => Ok RNone (set_cpos (upd (pos s1) (pos s2) (cpos s2)) (set_in_cmt false s2))
           | Fail s2 => Fail s2
           | Abort w => Abort w
           end
         end
  end.

Lemma match_pre_eq m f s : match_pre g input (parse g input orc m f) f s = mprec f s.
Proof.
  unfold match_pre, mprec, parse_comments.
  set (s1 := maybe_skip_ws input s).
  destruct (if skipws s1 then lookup (pos s1) (cpos s1) else None); [reflexivity|].
  destruct (in_cmt s1) eqn:C; [reflexivity|].
  destruct (g_comments g) as [cm|] eqn:E.
  - destruct f as [|f]; [reflexivity|].
    rewrite (cmt_loop_eq m f cm E (S f) (set_in_cmt true s1) eq_refl).
    destruct (cloop cm (S f) (set_in_cmt true s1)); reflexivity.
  - f_equal. destruct s1; cbn in *; subst; reflexivity.
Qed.

Lemma cpos_le_upd_absent k v c : lookup k c = None -> cpos_le c (upd k v c).
Proof.
  intros L k2 v2 L2. destruct (Nat.eq_dec k2 k) as [->|Hne]; [congruence|]. now rewrite lookup_upd_other.
Qed.

Definition rerun_ok (o : out) (s' : st) (o' : out) : Prop :=
  is_abort o' = true \/ o' = omap (fun s1 => set_pos (pos s1) s') o.

(* the comment loop without whitespace skipping: a function of the position *)
Lemma msw_nosk s : skipws s = false -> maybe_skip_ws input s = s.
Proof. intro SK. unfold maybe_skip_ws. now rewrite SK. Qed.
Lemma cjump_nosk s : skipws s = false -> cjump s = s.
Proof. intro SK. unfold cjump. now rewrite SK. Qed.

Definition same_shape (o o' : out) : Prop :=
  match o, o' with
  | Ok r s1, Ok r' s1' => r = r' /\ pos s1 = pos s1'
  | Fail s1, Fail s1' => pos s1 = pos s1'
  | Abort w, Abort w' => w = w'
  | _, _ => False
  end.

Lemma term_shape nid k psq s s' : pos s = pos s' ->
  same_shape (term_parse input orc nid k psq s) (term_parse input orc nid k psq s').
Proof.
  intro P. destruct (term_parse_cases input orc nid k psq s) as [(r & p' & E)|[E|E]].
  - rewrite (E s eq_refl), (E s' (eq_sym P)). split; reflexivity.
  - rewrite (E s eq_refl), (E s' (eq_sym P)). cbn. now rewrite !pos_reg_fail.
  - now rewrite !E.
Qed.

Lemma cterm_shape cm s s' : skipws s = false -> skipws s' = false -> pos s = pos s' ->
  same_shape (cterm cm s) (cterm cm s').
Proof.
  intros SK SK' P. unfold cterm. destruct (get_node g cm) as [nd|]; [|reflexivity].
  rewrite !msw_nosk, !cjump_nosk by assumption.
  pose proof (term_shape cm (n_kind nd) false s s' P) as T.
  destruct (term_parse input orc cm (n_kind nd) false s), (term_parse input orc cm (n_kind nd) false s');
    cbn in T |- *; auto. destruct T as [-> T]. auto.
Qed.

(* a comment loop that ends is reproduced, up to the position, from every state at the same position
   and with every fuel that is not smaller *)
Lemma cloop_repro cm f : forall f' s s' r s2,
  skipws s = false -> skipws s' = false -> pos s = pos s' -> f <= f' ->
  cloop cm f s = Ok r s2 -> exists r' s2', cloop cm f' s' = Ok r' s2' /\ pos s2 = pos s2'.
Proof.
  induction f as [|f IH]; intros f' s s' r s2 SK SK' P L E; cbn [cloop] in E; [discriminate|].
  destruct f' as [|f']; [lia|]. cbn [cloop].
  pose proof (cterm_shape cm s s' SK SK' P) as T.
  pose proof (cterm_good cm s) as G. pose proof (cterm_good cm s') as G'.
  destruct (cterm cm s) as [r1 s1|s1|w], (cterm cm s') as [r1' s1'|s1'|w']; cbn in T; try contradiction;
    try discriminate.
  - destruct T as [_ T]. destruct G as [D _], G' as [D' _].
    assert (SK1 : skipws s1 = false) by (rewrite (d_skip _ _ D); exact SK).
    assert (SK1' : skipws s1' = false) by (rewrite (d_skip _ _ D'); exact SK').
    rewrite msw_nosk in E |- * by assumption.
    apply (IH f' s1 s1' r s2 SK1 SK1' T); [lia | exact E].
  - injection E as _ <-. eauto.
Qed.

Lemma CV_of_run cm f s r s2 :
  in_cmt s = true -> skipws s = false -> cloop cm f s = Ok r s2 -> CV cm (pos s) (pos s2).
Proof.
  intros IC SK E f' s' r' s2' IC' SK' P E'. destruct (Nat.le_ge_cases f f') as [L|L].
  - destruct (cloop_repro cm f f' s s' r s2 SK SK' (eq_sym P) L E) as (r1 & s3 & E1 & P1). congruence.
  - destruct (cloop_repro cm f' f s' s r' s2' SK' SK P L E') as (r1 & s3 & E1 & P1). congruence.
Qed.

Lemma reg_fail_cmt p s : in_cmt s = true -> nm s <> None -> reg_fail p s = s.
Proof. intros IC N. unfold reg_fail. destruct (nm s); [now rewrite IC | contradiction]. Qed.

Lemma term_saturated nid k psq s : in_cmt s = true -> nm s <> None ->
  match term_parse input orc nid k psq s with
  | Ok _ s1 | Fail s1 => s1 = set_pos (pos s1) s
  | Abort _ => True
  end.
Proof.
  intros IC N. destruct (term_parse_cases input orc nid k psq s) as [(r & p' & E)|[E|E]]; rewrite E by reflexivity; [reflexivity | | exact I].
  unfold nm_raise. rewrite (reg_fail_cmt _ _ IC N). symmetry. apply set_pos_same.
Qed.

Lemma cloop_saturated cm f : forall s r s2,
  in_cmt s = true -> skipws s = false -> nm s <> None ->
  cloop cm f s = Ok r s2 -> s2 = set_pos (pos s2) s.
Proof.
  induction f as [|f IH]; intros s r s2 IC SK N E; cbn [cloop] in E; [discriminate|].
  unfold cterm in E. destruct (get_node g cm) as [nd|]; [|discriminate].
  rewrite msw_nosk, cjump_nosk in E by assumption.
  pose proof (term_saturated cm (n_kind nd) false s IC N) as T.
  destruct (term_parse input orc cm (n_kind nd) false s) as [r1 s1|s1|w]; try discriminate.
  - assert (SK1 : skipws s1 = false) by (rewrite T; exact SK).
    rewrite msw_nosk in E by assumption.
    assert (E2 : s2 = set_pos (pos s2) s1).
    { eapply IH; [| |  | exact E]; rewrite T; cbn; assumption. }
    rewrite E2, T. cbn. now rewrite set_pos_set_pos.
  - injection E as _ <-. exact T.
Qed.

Lemma term_fail_nm nid k psq s s1 : term_parse input orc nid k psq s = Fail s1 -> nm s1 <> None.
Proof.
  destruct (term_parse_cases input orc nid k psq s) as [(r & p' & E)|[E|E]]; rewrite E by reflexivity; [discriminate | | discriminate].
  intro Q. injection Q as <-. destruct (nm_reg_fail (pos s) s) as [q [Hq _]]. congruence.
Qed.

Lemma cloop_nm cm f : forall s r s2, cloop cm f s = Ok r s2 -> nm s2 <> None.
Proof.
  induction f as [|f IH]; intros s r s2 E; cbn [cloop] in E; [discriminate|].
  destruct (cterm cm s) as [r1 s1|s1|w] eqn:EC; try discriminate.
  - eapply IH; exact E.
  - injection E as _ <-. unfold cterm in EC. destruct (get_node g cm) as [nd|]; [|discriminate].
    destruct (term_parse input orc cm (n_kind nd) false (cjump (maybe_skip_ws input s))) as [r2 s3|s3|w] eqn:ET;
      try discriminate. injection EC as <-. eapply term_fail_nm; exact ET.
Qed.

Lemma mprec_good f s : sinv s -> good s (mprec f s).
Proof.
  intros [IC SK]. unfold mprec. pose proof (msw_dom s) as D. pose proof (msw_cpos s) as C.
  set (s1 := maybe_skip_ws input s) in *.
  assert (IC1 : in_cmt s1 = false) by (rewrite (d_cmt _ _ D); exact IC).
  assert (SK1 : skipws s1 = skipws s) by apply (d_skip _ _ D).
  assert (S1 : sinv s1) by (split; [exact IC1 | now rewrite SK1, C]).
  destruct (if skipws s1 then lookup (pos s1) (cpos s1) else None) eqn:L.
  - split; [now apply dom_set_pos_r | exact S1].
  - rewrite IC1. unfold sinv, cpos_ok in *. destruct (g_comments g) as [cm|] eqn:E.
    + pose proof (cloop_good cm f (set_in_cmt true s1)) as G.
      destruct (cloop cm f (set_in_cmt true s1)) as [r s2|s2|w] eqn:EL; try exact I; [|contradiction].
      destruct G as [D2 C2]. cbn in C2.
      assert (SK2 : skipws s2 = skipws s) by (rewrite (d_skip _ _ D2); cbn; exact SK1).
      destruct (skipws s) eqn:SKv.
      * (* skipws: the key is absent *)
        rewrite SK1 in L. split.
        -- eapply dom_trans; [exact D|]. destruct D2. constructor; cbn in *; auto.
           rewrite C2. now apply cpos_le_upd_absent.
        -- split; [reflexivity | left]. cbn. exact SK2.
      * (* no skipws: an existing entry already has this value *)
        destruct SK as [SK|SK]; [discriminate SK|].
        assert (CVn : CV cm (pos s1) (pos s2)).
        { apply (CV_of_run cm f (set_in_cmt true s1) r s2); [reflexivity | cbn; now rewrite SK1 | exact EL]. }
        assert (Hc : cpos_le (cpos s1) (upd (pos s1) (pos s2) (cpos s2)) /\
                     (forall k v, lookup k (upd (pos s1) (pos s2) (cpos s2)) = Some v -> CV cm k v)).
        { rewrite C2. split.
          - destruct (lookup (pos s1) (cpos s1)) as [v0|] eqn:L0.
            + rewrite C in L0. pose proof (SK _ _ L0) as CV0.
              assert (v0 = pos s2).
              { symmetry. apply (CV0 f (set_in_cmt true s1) r s2); [reflexivity | cbn; now rewrite SK1 | reflexivity | exact EL]. }
              subst v0. rewrite <- C in L0. rewrite (upd_idem _ _ _ L0). intros k v L1; exact L1.
            + now apply cpos_le_upd_absent.
          - intros k v Lk. destruct (Nat.eq_dec k (pos s1)) as [->|Hne].
            + rewrite lookup_upd_same in Lk. injection Lk as <-. exact CVn.
            + rewrite lookup_upd_other in Lk by assumption. rewrite C in Lk. now apply SK. }
        destruct Hc as [Hle Hcv]. split.
        -- eapply dom_trans; [exact D|]. destruct D2. constructor; cbn in *; auto.
        -- split; [reflexivity | right]. cbn. unfold cpos_ok. rewrite E. exact Hcv.
    + split.
      * eapply dom_trans; [exact D|]. constructor; try reflexivity; [apply nm_le_refl|]. cbn.
        destruct SK as [SK|SK].
        -- rewrite SK1, SK in L. now apply cpos_le_upd_absent.
        -- apply cpos_le_upd. now rewrite C.
      * split; [exact IC1|]. cbn. destruct SK as [SK|SK]; [left; now rewrite SK1 | right].
        unfold cpos_ok. rewrite E. apply cpos_id_upd. now rewrite C.
Qed.

Lemma mprec_rerun f s s' :
  sinv s -> sinv s' -> is_abort (mprec f s) = false ->
  dom (ostate s (mprec f s)) s' -> pos s' = pos s ->
  mprec f s' = omap (fun s1 => set_pos (pos s1) s') (mprec f s).
Proof.
  intros [IC SK] [IC' SK'] NA D P.
  assert (D0 : dom s s').
  { pose proof (mprec_good f s (conj IC SK)) as G. destruct (mprec f s); try discriminate NA;
      destruct G as [G _]; eapply dom_trans; eassumption. }
  unfold mprec in *. rewrite (msw_rerun s s' D0 P).
  pose proof (msw_cpos s) as C. pose proof (msw_dom s) as Dm.
  set (s1 := maybe_skip_ws input s) in *.
  assert (IC1 : in_cmt s1 = false) by (rewrite (d_cmt _ _ Dm); exact IC).
  assert (SK1 : skipws s1 = skipws s) by apply (d_skip _ _ Dm).
  cbn [skipws pos cpos set_pos in_cmt]. rewrite (d_skip _ _ D0), IC', <- SK1.
  rewrite IC1 in *.
  destruct (skipws s1) eqn:SKv.
  - destruct (lookup (pos s1) (cpos s1)) as [p'|] eqn:L.
    + rewrite (d_cpos _ _ D0 (pos s1) p') by (rewrite <- C; exact L).
      cbn. now rewrite set_pos_set_pos.
    + destruct (g_comments g) as [cm|] eqn:E.
      * destruct (cloop cm f (set_in_cmt true s1)) as [r s2|s2|w] eqn:EL; try discriminate NA.
        -- cbn in D.
           assert (L' : lookup (pos s1) (cpos s') = Some (pos s2)).
           { apply (d_cpos _ _ D). cbn. apply lookup_upd_same. }
           rewrite L'. cbn. now rewrite set_pos_set_pos.
        -- exfalso. pose proof (cloop_good cm f (set_in_cmt true s1)) as G. rewrite EL in G. exact G.
      * cbn in D.
        assert (L' : lookup (pos s1) (cpos s') = Some (pos s1)).
        { apply (d_cpos _ _ D). cbn. apply lookup_upd_same. }
        rewrite L'. cbn. now rewrite set_pos_set_pos.
  - destruct (g_comments g) as [cm|] eqn:E.
    + (* no skipws, Comment rule: the loop is run again and reproduces the entry *)
      destruct (cloop cm f (set_in_cmt true s1)) as [r s2|s2|w] eqn:EL; try discriminate NA;
        [|exfalso; pose proof (cloop_good cm f (set_in_cmt true s1)) as G; rewrite EL in G; exact G].
      cbn in D.
      assert (L' : lookup (pos s1) (cpos s') = Some (pos s2)).
      { apply (d_cpos _ _ D). cbn. apply lookup_upd_same. }
      set (t := set_in_cmt true (set_pos (pos s1) s')).
      assert (SKt : skipws t = false) by (cbn; rewrite (d_skip _ _ D0); now rewrite <- SK1).
      destruct (cloop_repro cm f f (set_in_cmt true s1) t r s2 SKv SKt eq_refl (Nat.le_refl f) EL)
        as (r' & s2' & EL' & Pv).
      rewrite EL'. cbn [omap].
      assert (Nt : nm t <> None).
      { cbn. pose proof (cloop_nm cm f _ _ _ EL) as N2. pose proof (d_nm _ _ D) as Hn. cbn in Hn.
        destruct (nm s2); [|contradiction]. destruct (nm s'); [discriminate | contradiction]. }
      pose proof (cloop_saturated cm f t r' s2' eq_refl SKt Nt EL') as Sat.
      rewrite Sat, <- Pv. cbn. rewrite (upd_idem _ _ _ L'). f_equal.
      destruct s'; cbn in *; subst; reflexivity.
    + cbn in D.
      assert (L' : lookup (pos s1) (cpos s') = Some (pos s1)).
      { apply (d_cpos _ _ D). cbn. apply lookup_upd_same. }
      cbn. rewrite (upd_idem _ _ _ L'). destruct s'; reflexivity.
Qed.

Lemma cterm_cache c cm s : cterm cm (set_cache c s) = omap (set_cache c) (cterm cm s).
Proof.
  unfold cterm. destruct (get_node g cm) as [nd|]; [|reflexivity].
  rewrite msw_cache.
  assert (J : cjump (set_cache c (maybe_skip_ws input s)) = set_cache c (cjump (maybe_skip_ws input s))).
  { unfold cjump. cbn. destruct (if skipws (maybe_skip_ws input s) then _ else None); reflexivity. }
  rewrite J, term_cache.
  destruct (term_parse input orc cm (n_kind nd) false (cjump (maybe_skip_ws input s))); reflexivity.
Qed.

Lemma cloop_cache c cm k : forall s, cloop cm k (set_cache c s) = omap (set_cache c) (cloop cm k s).
Proof.
  induction k as [|k IH]; intro s; cbn [cloop]; [reflexivity|].
  rewrite cterm_cache. destruct (cterm cm s) as [r s1|s1|w]; cbn [omap]; try reflexivity.
  rewrite msw_cache. apply IH.
Qed.

Lemma mprec_cache c f s : mprec f (set_cache c s) = omap (set_cache c) (mprec f s).
Proof.
  unfold mprec. rewrite msw_cache. set (s1 := maybe_skip_ws input s).
  cbn [skipws pos cpos set_cache in_cmt].
  destruct (if skipws s1 then lookup (pos s1) (cpos s1) else None); [reflexivity|].
  destruct (in_cmt s1); [reflexivity|].
  destruct (g_comments g) as [cm|]; [|reflexivity].
  change (set_in_cmt true (set_cache c s1)) with (set_cache c (set_in_cmt true s1)).
  rewrite cloop_cache. destruct (cloop cm f (set_in_cmt true s1)); reflexivity.
Qed.

(* A0: runs only extend *)
Definition rec_good (rec : parser) : Prop :=
  forall c psq s, sinv s -> good s (rec c psq s).

Section A0.
Variable rec : parser.
Hypothesis Hrec : rec_good rec.

Lemma seq_loop_good psq kids : forall acc s, sinv s -> good s (seq_loop rec psq kids acc s).
Proof.
  induction kids as [|c kids IH]; intros acc s C; cbn [seq_loop].
  - now apply good_ok0.
  - pose proof (Hrec c psq s C) as G. destruct (rec c psq s) as [r s1|s1|w]; cbn in G; auto.
    destruct G as [D C1]. eapply good_trans; [exact D | apply IH; exact C1].
Qed.

Lemma choice_loop_good cp kids : forall s, sinv s -> good s (choice_loop rec cp kids s).
Proof.
  induction kids as [|c kids IH]; intros s C; cbn [choice_loop].
  - now apply good_ok0.
  - pose proof (Hrec c false s C) as G. destruct (rec c false s) as [r s1|s1|w]; cbn in G; auto.
    + destruct G as [D C1]. destruct (is_none r).
      * eapply good_trans; [exact D | apply IH; exact C1].
      * split; assumption.
    + destruct G as [D C1]. eapply good_trans; [exact D|]. apply good_pos_l_inv with (p := cp).
      apply IH. exact C1.
Qed.

Lemma rep_elem_good e sep plus k :
  (forall first acc s, sinv s -> good s (rep_loop rec e sep plus k first acc s)) ->
  forall first cp acc s, sinv s -> good s (rep_elem rec e sep plus k first cp acc s).
Proof.
  intros IH first cp acc s C. unfold rep_elem.
  pose proof (Hrec e false s C) as G. destruct (rec e false s) as [r s1|s1|w]; cbn in G; auto; destruct G as [D1 C1].
  - destruct (truthy r); [eapply good_trans; [exact D1 | now apply IH] | split; assumption].
  - destruct (plus && first)%bool; (split; [now apply dom_set_pos_r | exact C1]).
Qed.

Lemma rep_loop_good e sep plus k : forall first acc s,
  sinv s -> good s (rep_loop rec e sep plus k first acc s).
Proof.
  induction k as [|k IH]; intros first acc s C; [exact I|]. rewrite rep_loop_S.
  pose proof (rep_elem_good e sep plus k IH) as Helem.
  destruct sep as [sp|]; [|now apply Helem]. destruct first; [now apply Helem|].
  pose proof (Hrec sp false s C) as G. destruct (rec sp false s) as [sr s1|s1|w]; cbn in G; auto; destruct G as [D1 C1].
  - eapply good_trans; [exact D1 | now apply Helem].
  - rewrite andb_false_r. split; [now apply dom_set_pos_r | exact C1].
Qed.

Definition ugr_good (s : st) (o : ugr) : Prop :=
  match o with UGHit _ _ s1 | UGNone _ s1 => dom s s1 /\ sinv s1 | UGAbort _ => True end.

Lemma ug_try_good sf cl todo : forall mt s, sinv s -> ugr_good s (ug_try rec sf cl todo mt s).
Proof.
  induction todo as [|e todo IH]; intros mt s C; cbn [ug_try].
  - split; [apply dom_refl | exact C].
  - pose proof (Hrec e false s C) as G. destruct (rec e false s) as [r s1|s1|w]; cbn in G; auto;
      destruct G as [D1 C1].
    + assert (T : forall o, ugr_good s1 o -> ugr_good s o).
      { intros o. destruct o; cbn; auto; intros [D2 C2]; split; eauto using dom_trans. }
      destruct (truthy r); [destruct sf|].
      * apply T. specialize (IH false (set_pos cl s1) C1).
        destruct (ug_try rec true cl todo false (set_pos cl s1)); cbn in *; auto;
          destruct IH; split; eauto using dom_set_pos_l_inv.
      * split; assumption.
      * apply T, IH, C1.
    + specialize (IH false (set_pos cl s1) C1).
      destruct (ug_try rec sf cl todo false (set_pos cl s1)); cbn in *; auto;
        destruct IH as [D2 C2]; split; eauto using dom_trans, dom_set_pos_l_inv.
Qed.

Definition ugo_good (s : st) (o : ugo) : Prop :=
  match o with UGDone _ _ s1 => dom s s1 /\ sinv s1 | UGOAbort _ => True end.
Lemma ugo_good_trans s s1 o : dom s s1 -> ugo_good s1 o -> ugo_good s o.
Proof. intros D. destruct o; cbn; auto; intros [D2 C2]; split; eauto using dom_trans. Qed.

Lemma ug_cont_good sep n todo acc :
  (forall todo first sr acc s, sinv s -> ugo_good s (ug_loop rec sep n todo first sr acc s)) ->
  forall cs sf sr1 s, sinv s -> ugo_good s (ug_cont rec sep n todo acc cs sf sr1 s).
Proof.
  intros IH cs sf sr1 s C. unfold ug_cont.
  pose proof (ug_try_good sf (pos s) todo true s C) as G.
  destruct (ug_try rec sf (pos s) todo true s); cbn in G; auto; destruct G as [D2 C2].
  - eapply ugo_good_trans; [exact D2 | now apply IH].
  - split; [now apply dom_set_pos_r | exact C2].
Qed.

Lemma ug_loop_good sep n : forall todo first sr acc s,
  sinv s -> ugo_good s (ug_loop rec sep n todo first sr acc s).
Proof.
  induction n as [|n IH]; intros todo first sr acc s C; destruct todo as [|t0 todo];
    try (split; [apply dom_refl | exact C]); try exact I.
  rewrite ug_loop_S. pose proof (ug_cont_good sep n (t0 :: todo) acc IH) as Hcont.
  destruct sep as [sp|]; [|now apply Hcont]. destruct first; [now apply Hcont|].
  pose proof (Hrec sp false s C) as G. destruct (rec sp false s) as [sr1 s1|s1|w]; cbn in G; auto; destruct G as [D1 C1].
  - eapply ugo_good_trans; [exact D1 | now apply Hcont].
  - apply (ugo_good_trans s (set_pos (pos s) s1)); [now apply dom_set_pos_r | exact (Hcont _ _ _ (set_pos (pos s) s1) C1)].
Qed.

End A0.

Lemma enter_ws_id nd s : n_ws nd = None -> n_skipws nd = None -> enter_ws nd s = s.
Proof. intros A B. unfold enter_ws. now rewrite A, B. Qed.
Lemma leave_ws_id nd old s : n_ws nd = None -> n_skipws nd = None -> leave_ws nd old s = s.
Proof. intros A B. unfold leave_ws. now rewrite A, B. Qed.
Lemma enter_eol_id nd s : n_eolterm nd = false -> enter_eol nd s = s.
Proof. intros A. unfold enter_eol. now rewrite A. Qed.
Lemma leave_eol_id nd old s : n_eolterm nd = false -> leave_eol nd old s = s.
Proof. intros A. unfold leave_eol. now rewrite A. Qed.

(* body with the context bookkeeping removed (valid for context-constant grammars) *)
Definition body0 (rec : parser) (k : nat) (nd : node) (s : st) : out :=
  let c_pos := pos s in
  match n_kind nd with
  | KSeq =>
    match seq_loop rec true (n_kids nd) [] s with
    | Ok (RList []) s1 => Ok RNone s1
    | Ok r s1 => Ok r s1
    | Fail s1 => Fail (set_pos c_pos s1)
    | Abort w => Abort w
    end
  | KChoice =>
    match choice_loop rec c_pos (n_kids nd) s with
    | Ok r s1 => if is_none r then nm_raise c_pos s1 else Ok (RList [r]) s1
    | Fail s1 => Fail s1
    | Abort w => Abort w
    end
  | KOpt =>
    match n_kids nd with
    | e :: _ =>
      match rec e false s with
      | Ok r s1 => Ok (RList [r]) s1
      | Fail s1 => Ok RNone (set_pos c_pos s1)
      | Abort w => Abort w
      end
    | [] => Abort 1
    end
  | KStar =>
    match n_kids nd with
    | e :: _ => rep_loop rec e (n_sep nd) false k true [] s
    | [] => Abort 1
    end
  | KPlus =>
    match n_kids nd with
    | e :: _ => rep_loop rec e (n_sep nd) true k true [] s
    | [] => Abort 1
    end
  | KUnord =>
    match n_kids nd with
    | [] => Abort 1
    | _ :: _ =>
      match ug_loop rec (n_sep nd) (S (length (n_kids nd))) (n_kids nd) true RNone [] s with
      | UGDone mt acc s1 =>
        if mt then Ok (match acc with [] => RNone | _ => RList acc end) s1
        else nm_raise c_pos (set_pos c_pos s1)
      | UGOAbort w => Abort w
      end
    end
  | KAnd =>
    match seq_loop rec false (n_kids nd) [] s with
    | Ok _ s1 => Ok RNone (set_pos c_pos s1)
    | Fail s1 => Fail (set_pos c_pos s1)
    | Abort w => Abort w
    end
  | KNot =>
    match seq_loop rec false (n_kids nd) [] s with
    | Ok _ s1 => nm_raise c_pos (set_pos c_pos s1)
    | Fail s1 => Ok RNone (set_pos c_pos s1)
    | Abort w => Abort w
    end
  | KEmpty => Ok RNone s
  | _ => Abort 1
  end.

Lemma body_eq rec k nid nd s : get_node g nid = Some nd -> body rec k nd s = body0 rec k nd s.
Proof.
  intro Hn. destruct (node_free _ _ Hn) as (A & B & C). unfold body, body0.
  rewrite !enter_ws_id, !enter_eol_id by assumption.
  destruct (n_kind nd); try reflexivity.
  - destruct (seq_loop rec true (n_kids nd) [] s) as [r s1|s1|w]; try reflexivity;
      rewrite !leave_ws_id by assumption; reflexivity.
  - destruct (choice_loop rec (pos s) (n_kids nd) s) as [r s1|s1|w]; try reflexivity;
      rewrite !leave_ws_id by assumption; reflexivity.
  - destruct (n_kids nd); [reflexivity|].
    destruct (rep_loop rec n (n_sep nd) false k true [] s); try reflexivity;
      rewrite !leave_eol_id by assumption; reflexivity.
  - destruct (n_kids nd); [reflexivity|].
    destruct (rep_loop rec n (n_sep nd) true k true [] s); try reflexivity;
      rewrite !leave_eol_id by assumption; reflexivity.
  - destruct (n_kids nd) eqn:E; [reflexivity|]. rewrite <- E.
    destruct (ug_loop rec (n_sep nd) (S (length (n_kids nd))) (n_kids nd) true RNone [] s); try reflexivity.
    rewrite !leave_eol_id by assumption. reflexivity.
Qed.

Lemma body0_good rec k nd s : rec_good rec -> sinv s -> good s (body0 rec k nd s).
Proof.
  intros Hrec C. unfold body0. destruct (n_kind nd); try exact I.
  - pose proof (seq_loop_good rec Hrec true (n_kids nd) [] s C) as G.
    destruct (seq_loop rec true (n_kids nd) [] s) as [r s1|s1|w]; cbn in G; auto; destruct G as [D1 C1].
    + destruct r as [|t|[|x l]]; split; assumption.
    + split; [now apply dom_set_pos_r | assumption].
  - pose proof (choice_loop_good rec Hrec (pos s) (n_kids nd) s C) as G.
    destruct (choice_loop rec (pos s) (n_kids nd) s) as [r s1|s1|w]; cbn in G; auto; destruct G as [D1 C1].
    destruct (is_none r); [eapply good_trans; [exact D1 | now apply good_raise] | split; assumption].
  - destruct (n_kids nd) as [|e l]; [exact I|].
    pose proof (Hrec e false s C) as G. destruct (rec e false s) as [r s1|s1|w]; cbn in G; auto;
      destruct G as [D1 C1]; split; auto using dom_set_pos_r.
  - destruct (n_kids nd) as [|e l]; [exact I|]. now apply rep_loop_good.
  - destruct (n_kids nd) as [|e l]; [exact I|]. now apply rep_loop_good.
  - destruct (n_kids nd) as [|e l] eqn:E; [exact I|]. rewrite <- E.
    pose proof (ug_loop_good rec Hrec (n_sep nd) (S (length (n_kids nd))) (n_kids nd) true RNone [] s C) as G.
    destruct (ug_loop rec (n_sep nd) (S (length (n_kids nd))) (n_kids nd) true RNone [] s); cbn in G; auto.
    destruct G as [D1 C1]. destruct mt; [split; assumption|].
    eapply good_trans; [apply dom_set_pos_r; exact D1 | now apply good_raise].
  - pose proof (seq_loop_good rec Hrec false (n_kids nd) [] s C) as G.
    destruct (seq_loop rec false (n_kids nd) [] s) as [r s1|s1|w]; cbn in G; auto; destruct G as [D1 C1];
      split; auto using dom_set_pos_r.
  - pose proof (seq_loop_good rec Hrec false (n_kids nd) [] s C) as G.
    destruct (seq_loop rec false (n_kids nd) [] s) as [r s1|s1|w]; cbn in G; auto; destruct G as [D1 C1].
    + eapply good_trans; [apply dom_set_pos_r; exact D1 | now apply good_raise].
    + split; auto using dom_set_pos_r.
  - now apply good_ok0.
Qed.

Lemma parse_good fuel : rec_good (parse g input orc false fuel).
Proof.
  induction fuel as [|f IH]; intros nid psq s C; cbn [parse]; [exact I|].
  destruct (get_node g nid) as [nd|] eqn:Hn; [|exact I].
  destruct (is_match_kind (n_kind nd)).
  - rewrite match_pre_eq. pose proof (mprec_good f s C) as G0.
    destruct (mprec f s) as [r0 s0|s0|w0]; cbn in G0 |- *; auto. destruct G0 as [D1 C1].
    pose proof (term_good nid (n_kind nd) psq s0 C1) as G.
    destruct (term_parse input orc nid (n_kind nd) psq s0); cbn in G |- *; auto;
      destruct G as [D2 C2]; split; eauto using dom_trans.
  - cbn. rewrite (body_eq _ _ _ _ _ Hn).
    pose proof (body0_good (parse g input orc false f) f nd s IH C) as G.
    destruct (body0 (parse g input orc false f) f nd s); cbn in G |- *; auto;
      destruct G as [D1 C1]; split; auto using dom_set_pos_r.
Qed.

Lemma parse_S m f nid psq s :
  parse g input orc m (S f) nid psq s =
  match get_node g nid with
  | None => Abort 1
  | Some nd =>
    if is_match_kind (n_kind nd) then
      match match_pre g input (parse g input orc m f) f s with
      | Ok _ s1 =>
        match term_parse input orc nid (n_kind nd) psq s1 with
        | Ok r s2 => Ok (if n_suppress nd then RNone else r) s2
        | o => o
        end
      | o => o
      end
    else
      let c_pos := pos s in
      match (if m then clookup nid c_pos (cache s) else None) with
      | Some (CNoMatch, np) => Fail (set_pos np s)
      | Some (CRes r, np) => Ok r (set_pos np s)
      | None =>
        match body (parse g input orc m f) f nd s with
        | Ok r s1 =>
          let r' := post nid nd r in
          Ok r' (if m then cput nid c_pos (CRes r', pos s1) s1 else s1)
        | Fail s1 =>
          let s2 := set_pos c_pos s1 in
          Fail (if m then cput nid c_pos (CNoMatch, c_pos) s2 else s2)
        | Abort w => Abort w
        end
      end
  end.
Proof. reflexivity. Qed.

(* a non-terminal without memoization: the body, then post-processing *)
Lemma parse_nonterm f nid nd psq s :
  get_node g nid = Some nd -> is_match_kind (n_kind nd) = false ->
  parse g input orc false (S f) nid psq s =
  match body0 (parse g input orc false f) f nd s with
  | Ok r s1 => Ok (post nid nd r) s1
  | Fail s1 => Fail (set_pos (pos s) s1)
  | Abort w => Abort w
  end.
Proof. intros Hn MK. rewrite parse_S, Hn, MK. cbn. now rewrite (body_eq _ _ _ _ _ Hn). Qed.

Lemma parse_psq m f nid nd psq psq' s :
  get_node g nid = Some nd -> is_match_kind (n_kind nd) = false ->
  parse g input orc m f nid psq s = parse g input orc m f nid psq' s.
Proof. intros Hn MK. destruct f; [reflexivity|]. rewrite !parse_S, Hn, MK. reflexivity. Qed.

(* lifting a relation on states through the interpreter
   The two remaining layers compare two runs of the same code from states related by some R that commutes
   with moving the position and with registering a failure: re-running from a later state (A), and running
   with the cache (S).  The comparison is made once, for abstract recursive parsers.  [G] is a condition on
   the state in which the first run ends that every earlier state inherits (A needs it: the later state
   must dominate what the first run ends with). *)
Definition ends (G : st -> Prop) (o : out) : Prop :=
  match o with Ok _ s1 | Fail s1 => G s1 | Abort _ => False end.
Definition orel (R : st -> st -> Prop) (o o' : out) : Prop :=
  match o with
  | Ok r s1 => exists x1, o' = Ok r x1 /\ R s1 x1
  | Fail s1 => exists x1, o' = Fail x1 /\ R s1 x1
  | Abort _ => True
  end.
Definition ugr_ends (G : st -> Prop) (o : ugr) : Prop :=
  match o with UGHit _ _ s1 | UGNone _ s1 => G s1 | UGAbort _ => False end.
Definition ugr_rel (R : st -> st -> Prop) (o o' : ugr) : Prop :=
  match o with
  | UGHit e r s1 => exists x1, o' = UGHit e r x1 /\ R s1 x1
  | UGNone mt s1 => exists x1, o' = UGNone mt x1 /\ R s1 x1
  | UGAbort _ => True
  end.
Definition ugo_ends (G : st -> Prop) (o : ugo) : Prop :=
  match o with UGDone _ _ s1 => G s1 | UGOAbort _ => False end.
Definition ugo_rel (R : st -> st -> Prop) (o o' : ugo) : Prop :=
  match o with
  | UGDone mt acc s1 => exists x1, o' = UGDone mt acc x1 /\ R s1 x1
  | UGOAbort _ => True
  end.

Lemma ends_na G o : ends G o -> is_abort o = false.
Proof. destruct o; [reflexivity | reflexivity | contradiction]. Qed.

Section Lift.
Variables rec rec' : parser.
Variable R : st -> st -> Prop.
Variable G : st -> Prop.
Hypothesis Hg : rec_good rec.
Hypothesis R_pos : forall s x, R s x -> pos x = pos s.
Hypothesis R_set_pos : forall p s x, R s x -> R (set_pos p s) (set_pos p x).
Hypothesis R_raise : forall p s x, R s x -> G (reg_fail p s) -> R (reg_fail p s) (reg_fail p x).
Hypothesis G_dom : forall s s1, dom s s1 -> G s1 -> G s.
Hypothesis Hrel : forall c psq s x, sinv s -> R s x ->
  ends G (rec c psq s) -> orel R (rec c psq s) (rec' c psq x).

Lemma G_set_pos p s : G (set_pos p s) -> G s.
Proof. apply G_dom, dom_set_pos_r, dom_refl. Qed.
Lemma G_raise p s : G (reg_fail p s) -> G s.
Proof. apply G_dom, dom_reg_fail. Qed.
Lemma ends_back s o : good s o -> ends G o -> G s.
Proof. destruct o; cbn; [| |contradiction]; intros [D _]; now apply G_dom. Qed.
Lemma ugr_ends_back s o : ugr_good s o -> ugr_ends G o -> G s.
Proof. destruct o; cbn; [| |contradiction]; intros [D _]; now apply G_dom. Qed.
Lemma ugo_ends_back s o : ugo_good s o -> ugo_ends G o -> G s.
Proof. destruct o; cbn; [|contradiction]; intros [D _]; now apply G_dom. Qed.

Lemma seq_loop_lift psq kids : forall acc s x, sinv s -> R s x ->
  ends G (seq_loop rec psq kids acc s) -> orel R (seq_loop rec psq kids acc s) (seq_loop rec' psq kids acc x).
Proof.
  induction kids as [|c kids IH]; intros acc s x C Rx E; cbn [seq_loop] in *.
  - exists x. auto.
  - pose proof (Hg c psq s C) as Gd. pose proof (Hrel c psq s x C Rx) as Hr.
    destruct (rec c psq s) as [r s1|s1|w]; [ | |destruct E]; destruct Gd as [_ C1].
    + assert (E1 : G s1) by exact (ends_back _ _ (seq_loop_good rec Hg psq kids _ s1 C1) E).
      destruct (Hr E1) as (x1 & -> & R1). now apply IH.
    + destruct (Hr E) as (x1 & -> & R1). exists x1. auto.
Qed.

Lemma choice_loop_lift cp kids : forall s x, sinv s -> R s x ->
  ends G (choice_loop rec cp kids s) -> orel R (choice_loop rec cp kids s) (choice_loop rec' cp kids x).
Proof.
  induction kids as [|c kids IH]; intros s x C Rx E; cbn [choice_loop] in *.
  - exists x. auto.
  - pose proof (Hg c false s C) as Gd. pose proof (Hrel c false s x C Rx) as Hr.
    destruct (rec c false s) as [r s1|s1|w]; [ | |destruct E]; destruct Gd as [_ C1].
    + destruct (is_none r) eqn:N.
      * assert (E1 : G s1) by exact (ends_back _ _ (choice_loop_good rec Hg cp kids s1 C1) E).
        destruct (Hr E1) as (x1 & -> & R1). rewrite N. now apply IH.
      * destruct (Hr E) as (x1 & -> & R1). rewrite N. exists x1. auto.
    + assert (E1 : G s1)
        by exact (G_set_pos _ _ (ends_back _ _ (choice_loop_good rec Hg cp kids (set_pos cp s1) C1) E)).
      destruct (Hr E1) as (x1 & -> & R1). apply IH; auto.
Qed.

Lemma rep_elem_lift e sep plus k :
  (forall first acc s x, sinv s -> R s x -> ends G (rep_loop rec e sep plus k first acc s) ->
     orel R (rep_loop rec e sep plus k first acc s) (rep_loop rec' e sep plus k first acc x)) ->
  forall first cp acc s x, sinv s -> R s x -> ends G (rep_elem rec e sep plus k first cp acc s) ->
    orel R (rep_elem rec e sep plus k first cp acc s) (rep_elem rec' e sep plus k first cp acc x).
Proof.
  intros IH first cp acc s x C Rx E. unfold rep_elem in *.
  pose proof (Hg e false s C) as Gd. pose proof (Hrel e false s x C Rx) as Hr.
  destruct (rec e false s) as [r s1|s1|w]; [ | |destruct E]; destruct Gd as [_ C1].
  - destruct (truthy r) eqn:Tr.
    + assert (E1 : G s1) by exact (ends_back _ _ (rep_loop_good rec Hg e sep plus k false _ s1 C1) E).
      destruct (Hr E1) as (x1 & -> & R1). rewrite Tr. now apply IH.
    + destruct (Hr E) as (x1 & -> & R1). rewrite Tr. exists x1. auto.
  - assert (E1 : G s1) by (destruct (plus && first)%bool; exact (G_set_pos _ _ E)).
    destruct (Hr E1) as (x1 & -> & R1).
    destruct (plus && first)%bool; exists (set_pos cp x1); auto.
Qed.

Lemma rep_loop_lift e sep plus k : forall first acc s x, sinv s -> R s x ->
  ends G (rep_loop rec e sep plus k first acc s) ->
  orel R (rep_loop rec e sep plus k first acc s) (rep_loop rec' e sep plus k first acc x).
Proof.
  induction k as [|k IH]; intros first acc s x C Rx E; [destruct E|].
  rewrite !rep_loop_S in *. rewrite (R_pos _ _ Rx).
  pose proof (rep_elem_lift e sep plus k IH) as Helem.
  pose proof (rep_elem_good rec Hg e sep plus k (rep_loop_good rec Hg e sep plus k)) as Ge.
  destruct sep as [sp|]; [|now apply Helem]. destruct first; [now apply Helem|].
  pose proof (Hg sp false s C) as Gd. pose proof (Hrel sp false s x C Rx) as Hr.
  destruct (rec sp false s) as [sr s1|s1|w]; [ | |destruct E]; destruct Gd as [_ C1].
  - assert (E1 : G s1) by exact (ends_back _ _ (Ge false (pos s) _ s1 C1) E).
    destruct (Hr E1) as (x1 & -> & R1). now apply Helem.
  - rewrite andb_false_r in *. destruct (Hr (G_set_pos _ _ E)) as (x1 & -> & R1).
    exists (set_pos (pos s) x1). auto.
Qed.

Lemma ug_try_lift sf cl todo : forall mt s x, sinv s -> R s x ->
  ugr_ends G (ug_try rec sf cl todo mt s) -> ugr_rel R (ug_try rec sf cl todo mt s) (ug_try rec' sf cl todo mt x).
Proof.
  induction todo as [|e todo IH]; intros mt s x C Rx E; cbn [ug_try] in *.
  - exists x. auto.
  - pose proof (Hg e false s C) as Gd. pose proof (Hrel e false s x C Rx) as Hr.
    destruct (rec e false s) as [r s1|s1|w]; [ | |destruct E]; destruct Gd as [_ C1].
    + destruct (truthy r) eqn:Tr; [destruct sf|].
      * assert (E1 : G s1)
          by exact (G_set_pos _ _ (ugr_ends_back _ _ (ug_try_good rec Hg true cl todo false (set_pos cl s1) C1) E)).
        destruct (Hr E1) as (x1 & -> & R1). rewrite Tr. apply IH; auto.
      * destruct (Hr E) as (x1 & -> & R1). rewrite Tr. exists x1. auto.
      * assert (E1 : G s1) by exact (ugr_ends_back _ _ (ug_try_good rec Hg sf cl todo mt s1 C1) E).
        destruct (Hr E1) as (x1 & -> & R1). rewrite Tr. now apply IH.
    + assert (E1 : G s1)
        by exact (G_set_pos _ _ (ugr_ends_back _ _ (ug_try_good rec Hg sf cl todo false (set_pos cl s1) C1) E)).
      destruct (Hr E1) as (x1 & -> & R1). apply IH; auto.
Qed.

Lemma ug_cont_lift sep n todo acc :
  (forall todo first sr acc s x, sinv s -> R s x -> ugo_ends G (ug_loop rec sep n todo first sr acc s) ->
     ugo_rel R (ug_loop rec sep n todo first sr acc s) (ug_loop rec' sep n todo first sr acc x)) ->
  forall cs sf sr1 s x, sinv s -> R s x -> ugo_ends G (ug_cont rec sep n todo acc cs sf sr1 s) ->
    ugo_rel R (ug_cont rec sep n todo acc cs sf sr1 s) (ug_cont rec' sep n todo acc cs sf sr1 x).
Proof.
  intros IH cs sf sr1 s x C Rx E. unfold ug_cont in *. rewrite (R_pos _ _ Rx).
  pose proof (ug_try_good rec Hg sf (pos s) todo true s C) as Gd.
  pose proof (ug_try_lift sf (pos s) todo true s x C Rx) as Hr.
  destruct (ug_try rec sf (pos s) todo true s) as [e r s1|mt s1|w]; [ | |destruct E]; destruct Gd as [_ C1].
  - assert (E1 : G s1) by exact (ugo_ends_back _ _ (ug_loop_good rec Hg sep n _ false sr1 _ s1 C1) E).
    destruct (Hr E1) as (x1 & -> & R1). now apply IH.
  - destruct (Hr (G_set_pos _ _ E)) as (x1 & -> & R1). exists (set_pos cs x1). auto.
Qed.

Lemma ug_loop_lift sep n : forall todo first sr acc s x, sinv s -> R s x ->
  ugo_ends G (ug_loop rec sep n todo first sr acc s) ->
  ugo_rel R (ug_loop rec sep n todo first sr acc s) (ug_loop rec' sep n todo first sr acc x).
Proof.
  induction n as [|n IH]; intros todo first sr acc s x C Rx E; destruct todo as [|t0 todo].
  1, 3: exists x; auto.
  - destruct E.
  - rewrite !ug_loop_S in *. rewrite (R_pos _ _ Rx).
    pose proof (ug_cont_lift sep n (t0 :: todo) acc IH) as Hcont.
    pose proof (ug_cont_good rec Hg sep n (t0 :: todo) acc (ug_loop_good rec Hg sep n)) as Gc.
    destruct sep as [sp|]; [|now apply Hcont]. destruct first; [now apply Hcont|].
    pose proof (Hg sp false s C) as Gd. pose proof (Hrel sp false s x C Rx) as Hr.
    destruct (rec sp false s) as [sr1 s1|s1|w]; [ | |destruct E]; destruct Gd as [_ C1].
    + assert (E1 : G s1) by exact (ugo_ends_back _ _ (Gc (pos s) false sr1 s1 C1) E).
      destruct (Hr E1) as (x1 & -> & R1). now apply Hcont.
    + assert (E1 : G s1)
        by exact (G_set_pos _ _ (ugo_ends_back _ _ (Gc (pos s) true sr (set_pos (pos s) s1) C1) E)).
      destruct (Hr E1) as (x1 & -> & R1). apply Hcont; auto.
Qed.

Lemma body0_lift k nd s x : sinv s -> R s x ->
  ends G (body0 rec k nd s) -> orel R (body0 rec k nd s) (body0 rec' k nd x).
Proof.
  intros C Rx E. unfold body0, nm_raise in *. rewrite (R_pos _ _ Rx).
  destruct (n_kind nd); try (destruct E; fail).
  - (* Sequence *)
    pose proof (seq_loop_lift true (n_kids nd) [] s x C Rx) as L.
    destruct (seq_loop rec true (n_kids nd) [] s) as [r s1|s1|w]; [ | |destruct E].
    + assert (E1 : G s1) by (destruct r as [|t|[|y l]]; exact E).
      destruct (L E1) as (x1 & -> & R1). destruct r as [|t|[|y l]]; exists x1; auto.
    + destruct (L (G_set_pos _ _ E)) as (x1 & -> & R1). exists (set_pos (pos s) x1). auto.
  - (* OrderedChoice *)
    pose proof (choice_loop_lift (pos s) (n_kids nd) s x C Rx) as L.
    destruct (choice_loop rec (pos s) (n_kids nd) s) as [r s1|s1|w]; [ | |destruct E].
    + destruct (is_none r) eqn:N.
      * destruct (L (G_raise _ _ E)) as (x1 & -> & R1). rewrite N.
        exists (reg_fail (pos s) x1). split; [reflexivity | now apply R_raise].
      * destruct (L E) as (x1 & -> & R1). rewrite N. exists x1. auto.
    + destruct (L E) as (x1 & -> & R1). exists x1. auto.
  - (* Optional *)
    destruct (n_kids nd) as [|e l]; [destruct E|].
    pose proof (Hrel e false s x C Rx) as Hr.
    destruct (rec e false s) as [r s1|s1|w]; [ | |destruct E].
    + destruct (Hr E) as (x1 & -> & R1). exists x1. auto.
    + destruct (Hr (G_set_pos _ _ E)) as (x1 & -> & R1). exists (set_pos (pos s) x1). auto.
  - destruct (n_kids nd) as [|e l]; [destruct E | now apply rep_loop_lift].
  - destruct (n_kids nd) as [|e l]; [destruct E | now apply rep_loop_lift].
  - (* UnorderedGroup *)
    destruct (n_kids nd) as [|e l] eqn:K; [destruct E|]. rewrite <- K in *.
    pose proof (ug_loop_lift (n_sep nd) (S (length (n_kids nd))) (n_kids nd) true RNone [] s x C Rx) as L.
    destruct (ug_loop rec (n_sep nd) (S (length (n_kids nd))) (n_kids nd) true RNone [] s) as [mt acc s1|w];
      [|destruct E].
    destruct mt.
    + destruct (L E) as (x1 & -> & R1). exists x1. auto.
    + destruct (L (G_set_pos _ _ (G_raise _ _ E))) as (x1 & -> & R1).
      exists (reg_fail (pos s) (set_pos (pos s) x1)). split; [reflexivity | apply R_raise; auto].
  - (* And *)
    pose proof (seq_loop_lift false (n_kids nd) [] s x C Rx) as L.
    destruct (seq_loop rec false (n_kids nd) [] s) as [r s1|s1|w]; [ | |destruct E];
      destruct (L (G_set_pos _ _ E)) as (x1 & -> & R1); exists (set_pos (pos s) x1); auto.
  - (* Not *)
    pose proof (seq_loop_lift false (n_kids nd) [] s x C Rx) as L.
    destruct (seq_loop rec false (n_kids nd) [] s) as [r s1|s1|w]; [ | |destruct E].
    + destruct (L (G_set_pos _ _ (G_raise _ _ E))) as (x1 & -> & R1).
      exists (reg_fail (pos s) (set_pos (pos s) x1)). split; [reflexivity | apply R_raise; auto].
    + destruct (L (G_set_pos _ _ E)) as (x1 & -> & R1). exists (set_pos (pos s) x1). auto.
  - exists x. auto.
Qed.

End Lift.

(* A: re-running is idempotent
   [T] is any later state; re-running from T moved to where the first run started gives the same
   result and ends in T moved to where the first run ended, if T dominates the state in which the first
   run ended (nothing is left to add to nm and comment_positions). *)
Section Rerun.
Variable T : st.
Hypothesis CT : sinv T.

Definition repos (s1 : st) : st := set_pos (pos s1) T.
Definition rr (s x : st) : Prop := x = repos s.

Lemma rr_set_pos p s x : rr s x -> rr (set_pos p s) (set_pos p x).
Proof. intros ->. apply set_pos_set_pos. Qed.
Lemma rr_raise p s x : rr s x -> dom (reg_fail p s) T -> rr (reg_fail p s) (reg_fail p x).
Proof.
  intros -> D. unfold rr, repos. rewrite pos_reg_fail.
  apply (reg_fail_saturated p s). now apply dom_set_pos_r.
Qed.

Lemma parse_rerun_T f : forall nid psq s, sinv s ->
  ends (fun s1 => dom s1 T) (parse g input orc false f nid psq s) ->
  orel rr (parse g input orc false f nid psq s) (parse g input orc false f nid psq (repos s)).
Proof.
  induction f as [|f IH]; intros nid psq s C E; [destruct E|].
  destruct (get_node g nid) as [nd|] eqn:Hn; [|rewrite parse_S, Hn in E; destruct E].
  destruct (is_match_kind (n_kind nd)) eqn:MK.
  - rewrite !parse_S, Hn, MK, !match_pre_eq in *.
    pose proof (mprec_good f s C) as G0. pose proof (mprec_rerun f s (repos s) C CT) as R0.
    destruct (mprec f s) as [r0 s0|s0|w0]; [ | |destruct E].
    + destruct G0 as [_ C0].
      pose proof (term_good nid (n_kind nd) psq s0 C0) as G1.
      pose proof (term_rerun nid (n_kind nd) psq s0 (repos s0)) as R1.
      assert (D0 : dom s0 T).
      { destruct (term_parse input orc nid (n_kind nd) psq s0); [ | |destruct E]; destruct G1 as [D1 _];
          exact (dom_trans _ _ _ D1 E). }
      rewrite (R0 eq_refl (dom_set_pos_r _ _ _ D0) eq_refl). cbn [omap].
      change (set_pos (pos s0) (repos s)) with (repos s0).
      destruct (term_parse input orc nid (n_kind nd) psq s0) as [r s1|s1|w]; [ | |destruct E];
        rewrite (R1 eq_refl (dom_set_pos_r _ _ _ E) eq_refl); cbn [omap];
        (eexists; split; [reflexivity | apply set_pos_set_pos]).
    + rewrite (R0 eq_refl (dom_set_pos_r _ _ _ E) eq_refl). cbn [omap].
      eexists; split; [reflexivity | apply set_pos_set_pos].
  - rewrite !(parse_nonterm f nid nd) in * by assumption. change (pos (repos s)) with (pos s).
    assert (L : ends (fun s1 => dom s1 T) (body0 (parse g input orc false f) f nd s) ->
                orel rr (body0 (parse g input orc false f) f nd s) (body0 (parse g input orc false f) f nd (repos s))).
    { apply body0_lift; auto using parse_good, rr_set_pos, rr_raise.
      - intros s0 x ->. reflexivity.
      - intros s0 s1 D1 D2. exact (dom_trans _ _ _ D1 D2).
      - intros c psq' s0 x C0 Rx. rewrite Rx. now apply IH.
      - reflexivity. }
    destruct (body0 (parse g input orc false f) f nd s) as [r s1|s1|w]; [ | |destruct E].
    + destruct (L E) as (x1 & -> & R1). exists x1. auto.
    + destruct (L (dom_set_pos_l_inv _ _ _ E)) as (x1 & -> & R1).
      exists (set_pos (pos s) x1). split; [reflexivity | now apply rr_set_pos].
Qed.

End Rerun.

(* with two fuels: the second run may run out of fuel, otherwise the fuel does not matter *)
Lemma parse_rerun f f' nid psq s s' :
  sinv s -> sinv s' -> is_abort (parse g input orc false f nid psq s) = false ->
  dom (ostate s (parse g input orc false f nid psq s)) s' -> pos s' = pos s ->
  rerun_ok (parse g input orc false f nid psq s) s' (parse g input orc false f' nid psq s').
Proof.
  intros C C' NA D P.
  destruct (is_abort (parse g input orc false f' nid psq s')) eqn:A; [now left | right].
  assert (EF : parse g input orc false (Nat.max f f') nid psq s = parse g input orc false f nid psq s).
  { apply parse_fuel_mono; [lia | intro Z; rewrite Z in NA; discriminate NA]. }
  assert (EF' : parse g input orc false (Nat.max f f') nid psq s' = parse g input orc false f' nid psq s').
  { apply parse_fuel_mono; [lia | intro Z; rewrite Z in A; discriminate A]. }
  pose proof (parse_rerun_T s' C' (Nat.max f f') nid psq s C) as L.
  unfold repos in L. rewrite <- P, set_pos_same, EF, EF' in L.
  destruct (parse g input orc false f nid psq s) as [r s1|s1|w]; [ | |discriminate NA];
    destruct (L D) as (x1 & -> & ->); reflexivity.
Qed.

Lemma rerun_same o s : pos s = pos (ostate s o) -> rerun_ok o s (omap (fun _ => s) o).
Proof. intro P. right. destruct o; cbn in *; try reflexivity; now rewrite <- P, set_pos_same. Qed.

(* S: simulation memo / no-memo *)
Notation cache_t := (list ((nat * nat) * (cres * nat))) (only parsing).

Definition expected (cr : cres) (np : nat) (s' : st) : out :=
  match cr with CNoMatch => Fail (set_pos np s') | CRes r => Ok r (set_pos np s') end.

(* a cache entry is what the un-memoized interpreter returns at that position, from any later state *)
Definition valid (nid p : nat) (cr : cres) (np : nat) (s : st) : Prop :=
  forall fuel psq s', sinv s' -> dom s s' -> pos s' = p ->
    is_abort (parse g input orc false fuel nid psq s') = true \/
    parse g input orc false fuel nid psq s' = expected cr np s'.

Definition INV (c : cache_t) (s : st) : Prop :=
  forall nid p cr np, clookup nid p c = Some (cr, np) -> valid nid p cr np s.

Lemma INV_mono c s s2 : dom s s2 -> INV c s -> INV c s2.
Proof.
  intros D I nid p cr np L fuel psq s' C' D' P'. apply (I nid p cr np L); auto. eapply dom_trans; eassumption.
Qed.

Lemma INV_cons nid p cr np c s : valid nid p cr np s -> INV c s -> INV (((nid, p), (cr, np)) :: c) s.
Proof.
  intros V I nid2 p2 cr2 np2 L. cbn [clookup] in L.
  destruct (Nat.eqb nid2 nid && Nat.eqb p2 p)%bool eqn:K; [|exact (I _ _ _ _ L)].
  apply andb_true_iff in K as [K1 K2]. apply Nat.eqb_eq in K1, K2. subst nid2 p2.
  injection L as <- <-. exact V.
Qed.

(* what a run of a non-terminal returns may be entered *)
Lemma run_valid f nid nd psq s :
  get_node g nid = Some nd -> is_match_kind (n_kind nd) = false -> sinv s ->
  match parse g input orc false f nid psq s with
  | Ok r s1 => valid nid (pos s) (CRes r) (pos s1) s1
  | Fail s1 => valid nid (pos s) CNoMatch (pos s1) s1
  | Abort _ => True
  end.
Proof.
  intros Hn MK C. pose proof (fun f' s' => parse_rerun f f' nid psq s s' C) as RR.
  destruct (parse g input orc false f nid psq s) as [r s1|s1|w]; [ | |exact I];
    intros f' psq' s' C' D' P'; rewrite (parse_psq false f' nid nd psq' psq s' Hn MK);
    exact (RR f' s' C' eq_refl D' P').
Qed.

(* the memoized run is in a state that differs by the cache only, and every entry is valid *)
Definition sr (s x : st) : Prop := exists c : cache_t, x = set_cache c s /\ INV c s.

Lemma sr_set_pos p s x : sr s x -> sr (set_pos p s) (set_pos p x).
Proof.
  intros (c & -> & I). exists c. split; [reflexivity|].
  eapply INV_mono; [apply dom_set_pos_r, dom_refl | exact I].
Qed.
Lemma sr_raise p s x : sr s x -> sr (reg_fail p s) (reg_fail p x).
Proof.
  intros (c & -> & I). exists c. split; [apply reg_fail_cache|].
  eapply INV_mono; [apply dom_reg_fail | exact I].
Qed.
Lemma sr_dom c s s1 : dom s s1 -> INV c s -> sr s1 (set_cache c s1).
Proof. intros D I. exists c. split; [reflexivity | exact (INV_mono _ _ _ D I)]. Qed.

Lemma parse_sim f : forall nid psq s x, sinv s -> sr s x ->
  ends (fun _ => True) (parse g input orc false f nid psq s) ->
  orel sr (parse g input orc false f nid psq s) (parse g input orc true f nid psq x).
Proof.
  induction f as [|f IH]; intros nid psq s x C (c & -> & Ic) E; [destruct E|].
  pose proof (ends_na _ _ E) as NA. pose proof (parse_good (S f) nid psq s C) as GG.
  rewrite (parse_S true).
  destruct (get_node g nid) as [nd|] eqn:Hn; [|rewrite parse_S, Hn in E; destruct E].
  destruct (is_match_kind (n_kind nd)) eqn:MK.
  - (* terminals are not memoized: the cache rides along *)
    rewrite parse_S, Hn, MK, !match_pre_eq in *. rewrite mprec_cache.
    destruct (mprec f s) as [r0 s0|s0|w0]; [ | |destruct E]; cbn [omap].
    + rewrite term_cache.
      destruct (term_parse input orc nid (n_kind nd) psq s0) as [r s1|s1|w]; [ | |destruct E];
        cbn [omap]; (eexists; split; [reflexivity | exact (sr_dom _ _ _ (proj1 GG) Ic)]).
    + eexists; split; [reflexivity | exact (sr_dom _ _ _ (proj1 GG) Ic)].
  - cbn [pos set_cache cache].
    destruct (clookup nid (pos s) c) as [[cr np]|] eqn:L.
    + (* cache hit *)
      destruct (Ic nid (pos s) cr np L (S f) psq s C (dom_refl s) eq_refl) as [A|Eq]; [congruence|].
      rewrite Eq. destruct cr; cbn [expected];
        (eexists; split; [reflexivity | exact (sr_dom _ _ _ (dom_set_pos_r _ _ _ (dom_refl s)) Ic)]).
    + (* cache miss *)
      pose proof (run_valid (S f) nid nd psq s Hn MK C) as RV. rewrite (parse_nonterm f nid nd) in * by assumption.
      rewrite (body_eq _ _ _ _ _ Hn).
      assert (Lf : orel sr (body0 (parse g input orc false f) f nd s)
                     (body0 (parse g input orc true f) f nd (set_cache c s))).
      { apply body0_lift with (G := fun _ => True); auto using parse_good, sr_set_pos, sr_raise.
        - intros s0 x (c0 & -> & _). reflexivity.
        - now exists c.
        - destruct (body0 (parse g input orc false f) f nd s); [exact I | exact I | destruct E]. }
      destruct (body0 (parse g input orc false f) f nd s) as [r s1|s1|w]; [ | |destruct E];
        destruct Lf as (x1 & -> & c1 & -> & I1); (eexists; split; [reflexivity|]).
      * exists (((nid, pos s), (CRes (post nid nd r), pos s1)) :: c1). split; [reflexivity|].
        now apply INV_cons.
      * exists (((nid, pos s), (CNoMatch, pos s)) :: c1). split; [reflexivity|].
        apply INV_cons; [exact RV|]. eapply INV_mono; [apply dom_set_pos_r, dom_refl | exact I1].
Qed.

Definition not_aborted (o : outcome) : Prop := match o with Aborted _ => False | _ => True end.

Theorem memo_safe c fuel :
  not_aborted (run g c orc false fuel input) ->
  run g c orc true fuel input = run g c orc false fuel input.
Proof.
  unfold run. intros NA.
  assert (C0 : sinv (init_st c)).
  { split; [reflexivity|]. right. unfold cpos_ok. destruct (g_comments g); intros k v L; discriminate L. }
  assert (S0 : sr (init_st c) (init_st c)).
  { exists []. split; [reflexivity|]. intros nid p cr np L; discriminate L. }
  pose proof (parse_sim fuel (g_top g) false (init_st c) (init_st c) C0 S0) as R.
  destruct (parse g input orc false fuel (g_top g) false (init_st c)) as [r s1|s1|w];
    [ | |contradiction]; destruct (R I) as (x1 & -> & c1 & -> & _); reflexivity.
Qed.

End Memo.
