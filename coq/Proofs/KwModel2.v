(* C20 / C21 at the level of the constructed model: the parse-level theorems composed with the simulation of
   model construction (Proofs/KwBuild.v), for any use_regexp_group; for ignore_case keywords the up-to-case
   statement (the extent of the known finding icase-keyword-spelling as a theorem). *)
From TxV Require Import Core.Base Model.PegSyntax Model.Peg Model.Build Model.KwDefs Gen.SrcKw Model.Kw
     Proofs.PegCongr Proofs.PegInv Proofs.KwProofs Proofs.KwBuild Proofs.KwModel.

(* group(1) of a base-type match (BOOL is the only built-in with exactly one group) is not re-cased either *)
Definition base_groups_unchanged (g : grammar) (grp : nat -> nat -> option (nat * nat)) (s s' : list N) (r : res) : Prop :=
  forall nid nd o p len gs gl, In (nid, p, len) (res_terminals r) -> is_base5 (rule_of g nid) = true ->
    get_node g nid = Some nd -> n_kind nd = KRegex o -> grp o p = Some (gs, gl) ->
    KwProofs.slice s' gs gl = KwProofs.slice s gs gl.

(* the hypotheses about groups are needed with use_regexp_group only: group spans are positions, so the group
   oracle is the same for both texts *)
Theorem icase_model_rel lo g cfg (O : list N -> nat -> nat -> option nat) memo fuel s s' mm grp grp' auto ug r :
  all_str_icase g = true ->
  (forall nid nd o, get_node g nid = Some nd -> kind_oid (n_kind nd) = Some o -> case_blind lo O o) ->
  case_variant lo s s' ->
  Forall2 (char_ok (ws_universe g cfg)) s s' ->
  run g cfg (O s) memo fuel s = Parsed r ->
  base_matches_unchanged g s s' r ->
  (ug = true -> (forall o p, grp' o p = grp o p) /\ base_groups_unchanged g grp s s' r) ->
  run g cfg (O s') memo fuel s' = Parsed r /\
  vbrel lo (build g mm s grp auto ug r) (build g mm s' grp' auto ug r).
Proof.
  intros Hall Hblind Hcv Hws Hrun Hbase Hug.
  split; [rewrite (icase_invariant lo g cfg O memo fuel s s' Hall Hblind Hcv Hws); exact Hrun|].
  enough (B : vbrel lo (build g mm s grp auto ug r) (build g mm s' grp' auto ug (fr (fun _ b => b) r)))
    by (rewrite fr_id in B; exact B).
  apply build_rel.
  - reflexivity.
  - intros asg t. rewrite ft_id. reflexivity.
  - intros nid p len Hin. apply term_ok_intro; [reflexivity | |].
    + unfold term_text. destruct (get_node g nid) as [nd|]; [|left; reflexivity].
      destruct (n_kind nd); try (left; reflexivity). apply slice_trel; [exact Hcv | exact (Hbase nid p len Hin)].
    + intro Eug. destruct (Hug Eug) as [Hgrp Hbg]. apply opt_rel_diag. intros o Eo.
      destruct (grp_oid_some mm g nid o Eo) as [nd [En Ek]]. split; [apply Hgrp|]. intros gs gl Eg.
      apply slice_trel; [exact Hcv | intro Eb; exact (Hbg nid nd o p len gs gl Hin Eb En Ek Eg)].
Qed.

(* the literals autokwd replaces are not rules named like a converting base type *)
Definition kw_rules_not_base (g g' : grammar) : Prop :=
  forall nid nd nd' t oid o', get_node g nid = Some nd -> get_node g' nid = Some nd' ->
    n_kind nd = KStr t oid -> n_kind nd' = KRegex o' -> is_base5 (rule_of g nid) = false.
(* the keyword regex <literal>\b has no group *)
Definition kw_no_group (mm : list ninfo) (g g' : grammar) : Prop :=
  forall nid nd nd' t oid o' rr, get_node g nid = Some nd -> get_node g' nid = Some nd' ->
    n_kind nd = KStr t oid -> n_kind nd' = KRegex o' -> info mm nid <> ITerm rr 1.
(* the group oracle of a regex terminal present in both tables answers alike (oracle ids may be renumbered) *)
Definition grp_related (g g' : grammar) (grp grp' : nat -> nat -> option (nat * nat)) : Prop :=
  forall nid nd nd' o o', get_node g nid = Some nd -> get_node g' nid = Some nd' ->
    n_kind nd = KRegex o -> n_kind nd' = KRegex o' -> forall p, grp' o' p = grp o p.

(* The object graphs are compared up to a case folding [lo'] of their own.  Every terminal has the same text in
   both worlds but those of a replaced literal: the grammar's spelling without autokwd, the input's with it.  The
   two are equal if the literal is case sensitive, else equal up to [lo]; so [lo'] may be any folding that
   identifies what [lo] identifies, and the identity if all replaced literals are case sensitive. *)
Theorem autokwd_objects_gen wordc digitc lo lo' g g' cfg orc orc' memo fuel input mm grp grp' auto ug r :
  (forall a b, lo a = lo b -> wordc a = wordc b) ->
  kw_tables_spec wordc digitc lo g g' input orc orc' ->
  no_glued_keyword wordc digitc lo g input ->
  meta_same g g' ->
  (forall nid nd nd' t oid o', get_node g nid = Some nd -> get_node g' nid = Some nd' ->
     n_kind nd = KStr t oid -> n_kind nd' = KRegex o' ->
     oid = None \/ (is_base5 (rule_of g nid) = false /\ forall s s', cv lo s s' -> cv lo' s s')) ->
  (ug = true -> kw_no_group mm g g' /\ grp_related g g' grp grp') ->
  run g cfg orc memo fuel input = Parsed r ->
  run g' cfg orc' memo fuel input = Parsed (fr (kw_supf g g') r) /\
  vbrel lo' (build g mm input grp auto ug r) (build g' mm input grp' auto ug (fr (kw_supf g g') r)).
Proof.
  intros Hwl Hspec Hglue Hmeta Hrepl Hug Hrun.
  split.
  { rewrite (autokwd_same_model wordc digitc lo g g' cfg orc orc' memo fuel input Hwl Hspec Hglue), Hrun. reflexivity. }
  apply (build_rel lo' (kw_supf g g') g g' mm input input grp grp' auto ug).
  - intro nid. exact (proj1 (Hmeta nid)).
  - apply meta_same_sep, Hmeta.
  - intros nid p len Hin.
    pose proof (term_ok_intro lo' g g' mm input input grp grp' ug (fun n => proj1 (Hmeta n)) nid p len)
      as Hok. unfold term_text, grp_oid in Hok.
    destruct (node_case _ g g' nid (proj1 Hspec nid)) as [En En'|nd nd' En En' Em Hsup Hk|nd En En' Em];
      rewrite En, En' in Hok.
    { apply Hok; [left; reflexivity | exact (fun _ => I)]. }
    2:{ apply Hok; [left; reflexivity | intros _]. destruct (n_kind nd); try discriminate Em; exact I. }
    destruct (kw_kind_case _ _ _ _ _ _ _ _ Hk) as [Ek Ek'|t Ek Ek'|t o o' Ek Ek' Ho|o o' Ek Ek' Ho|t oid o' Ek Ek' [Hkw [Ho' Ho]]];
      rewrite Ek, Ek' in Hok; apply Hok; try solve [left; reflexivity | exact (fun _ => I)].
    + (* a regex in both tables *)
      intro Eug. destruct (info mm nid) as [| |rr [|[|n]]|]; try exact I.
      split; [exact (proj2 (Hug Eug) nid nd nd' o o' En En' Ek Ek' p) | left; reflexivity].
    + (* a replaced literal: the grammar's spelling against the input's *)
      destruct (replaced_spelling wordc digitc lo g g' cfg orc orc' memo fuel input r nid p len nd nd' t oid o'
                  Hspec Hrun Hin En En' Ek Ek') as [Hci Hex].
      destruct (Hrepl nid nd nd' t oid o' En En' Ek Ek') as [E|[Hnb Hlo]];
        [left; exact (Hex E) | right; split; [exact Hnb | exact (Hlo _ _ Hci)]].
    + intro Eug. destruct (info mm nid) as [| |rr [|[|n]]|] eqn:Ei; try exact I.
      destruct (proj1 (Hug Eug) nid nd nd' t oid o' rr En En' Ek Ek' Ei).
Qed.

