(* Composition of the error-location theorems with Model/Peg.v and Model/Build.v. *)
From TxV Require Import Core.Base Model.PegSyntax Model.Peg Model.Build Proofs.BuildProofs Proofs.BuildObjProofs.
From TxV Require Import Proofs.PegCongr Proofs.PegInv Proofs.PegTerm Proofs.PegErrPos.
From TxV Require Import Model.ErrLoc Gen.SrcLoc Proofs.ErrLocProofs Proofs.ErrLocSrcProofs Model.ErrLocLoad.
Require Import Lia.

(* the two transcriptions of Arpeggio's pos_to_linecol (Model/Build.v for C06, Model/ErrLoc.v)
   are the same function, for every text and every offset (also beyond the end) *)
Lemma line_ends_from_same : forall l p, Build.line_ends_from l p = ErrLoc.line_ends_from p l.
Proof.
  induction l as [|c r IH]; intro p; cbn [Build.line_ends_from ErrLoc.line_ends_from]; [reflexivity|].
  rewrite IH. reflexivity.
Qed.

(* counting the elements below x and walking up to the first one that is not: the same on ascending lists *)
Lemma bisect_left_same : forall l x, ascending l -> Build.bisect_left l x = ErrLoc.bisect_left l x.
Proof.
  unfold Build.bisect_left. induction l as [|a r IH]; intros x Ha; [reflexivity|].
  cbn [filter ErrLoc.bisect_left]. destruct (Nat.ltb_spec a x) as [Hlt|Hge].
  - cbn [length]. rewrite IH by (eapply ascending_tail; exact Ha). reflexivity.
  - rewrite (proj2 (filter_nil _ _)); [reflexivity|].
    intros e He. apply In_nth with (d := 0) in He. destruct He as [i [Hi <-]].
    apply Nat.ltb_ge. specialize (Ha 0 (S i)). cbn in Ha. lia.
Qed.

Theorem linecol_models_agree : forall input p, Build.pos_to_linecol input p = ErrLoc.pos_to_linecol input p.
Proof.
  intros input p. unfold Build.pos_to_linecol, ErrLoc.pos_to_linecol, line_ends.
  rewrite line_ends_from_same.
  rewrite bisect_left_same by apply line_ends_ascending.
  set (les := ErrLoc.line_ends_from 0 input).
  destruct (ErrLoc.bisect_left les p) as [|l1] eqn:El; [reflexivity|].
  cbn [Nat.ltb Nat.leb Nat.sub]. rewrite Nat.sub_0_r.
  (* the character at a line end is "\n", so Arpeggio's test for "\n\r" there always succeeds *)
  assert (Hl : l1 < length les) by (pose proof (bisect_left_le_length les p); lia).
  destruct (line_ends_In input 0 _ (nth_In les 0 Hl)) as (j & -> & Hn). cbn [Nat.add].
  rewrite (nth_error_nth _ _ _ Hn). reflexivity.
Qed.

(* the same location in the terms of C06: newlines before p, and the start ls of p's line *)
Lemma cnt_count_nl : forall t n, cnt t n = count_nl (firstn n t).
Proof.
  unfold count_nl. induction t as [|c r IH]; intros [|n]; try reflexivity.
  cbn [cnt firstn filter]. rewrite IH. destruct (N.eqb c 10); reflexivity.
Qed.

Lemma get_location_exact input p e line col nchar :
  p <= List.length input ->
  Build.get_location input p e = ((line, col), nchar) ->
  nchar = e - p /\
  line = 1 + count_nl (firstn p input) /\
  exists ls, ls <= p /\ col = p - ls + 1 /\
             (ls = 0 \/ nth_error input (ls - 1) = Some 10%N) /\
             (forall q, ls <= q < p -> nth_error input q <> Some 10%N).
Proof.
  intros Hp H. unfold Build.get_location in H.
  rewrite linecol_models_agree, (pos_to_linecol_closed _ _ Hp) in H. injection H as <- <- <-.
  split; [reflexivity|]. split; [rewrite cnt_count_nl; reflexivity|].
  destruct (lastnl 0 input p) as [i|] eqn:L.
  - apply lastnl_some in L as (j & -> & A & B & C). cbn [Nat.add].
    exists (S j). split; [lia|]. split; [lia|]. split.
    + right. cbn [Nat.sub]. rewrite Nat.sub_0_r. exact B.
    + intros q Hq. apply C. lia.
  - exists 0. split; [lia|]. split; [lia|]. split; [left; reflexivity|].
    intros q Hq. apply (lastnl_none _ _ _ L). lia.
Qed.

(* positions of an accepted parse stay inside the text when the regex oracle does (orc_sane, Proofs/PegTerm.v):
   the terminal invariant of Proofs/PegInv.v, with "empty or inside the input" *)
Definition inside (input : list N) (nid p len : nat) : bool := Nat.eqb len 0 || Nat.leb (p + len) (length input).

Lemma term_inside : forall g input orc, orc_sane g input orc ->
  forall nid nd psq s r s', get_node g nid = Some nd ->
    term_parse input orc nid (n_kind nd) psq s = Ok r s' -> res_okb (inside input) r = true.
Proof.
  intros g input orc [S1 S2] nid nd psq s r s' Hn H. unfold term_parse in H. cbv zeta in H.
  destruct (n_kind nd) as [| | | | | | | | | |t oid|o] eqn:K; try discriminate.
  - (* EOF *)
    destruct (Nat.eqb (length input) (pos s)); [|discriminate]. inversion H; subst. reflexivity.
  - (* StrMatch *)
    destruct oid as [o|].
    + destruct (orc o (pos s)) as [x|] eqn:O; [|discriminate]. inversion H; subst.
      cbn. unfold inside. pose proof (S2 nid nd t o (pos s) x Hn K O) as B.
      apply orb_true_iff. right. apply Nat.leb_le. exact B.
    + destruct (is_prefix t (skipn (pos s) input)) eqn:P; [|discriminate]. inversion H; subst.
      cbn. unfold inside. apply is_prefix_len in P. rewrite skipn_length in P.
      destruct (length t) as [|k] eqn:L; [reflexivity|]. apply orb_true_iff. right. apply Nat.leb_le. lia.
  - (* RegExMatch *)
    destruct (orc o (pos s)) as [len|] eqn:O; [|discriminate].
    destruct (Nat.eqb len 0); inversion H; subst; [reflexivity|].
    cbn. unfold inside. apply orb_true_iff. right. apply Nat.leb_le. exact (S1 o (pos s) len O).
Qed.

Lemma subtrees_ok : forall pt t, tree_okb pt t = true -> forall x, In x (subtrees t) -> tree_okb pt x = true.
Proof.
  intros pt t. induction t as [nid p len sup | nid kids IH] using PegProofs.tree_ind2; intros H x Hin.
  - cbn in Hin. destruct Hin as [<-|[]]. exact H.
  - cbn [subtrees] in Hin. destruct Hin as [<-|Hin]; [exact H|].
    cbn [tree_okb] in H. induction IH as [|k l Hk Hl IHl]; [destruct Hin|].
    cbn [forallb] in H. apply andb_true_iff in H as [H1 H2].
    cbn [flat_map] in Hin. apply in_app_or in Hin as [Hin|Hin]; [exact (Hk H1 x Hin) | exact (IHl H2 Hin)].
Qed.

Lemma res_subtrees_ok : forall pt r, res_okb pt r = true -> forall x, In x (res_subtrees r) -> tree_okb pt x = true.
Proof.
  intros pt r. induction r as [| t | l IH] using PegCongr.res_ind2; intros H x Hin.
  - destruct Hin.
  - exact (subtrees_ok pt t H x Hin).
  - cbn [res_okb] in H. cbn [res_subtrees] in Hin.
    induction IH as [|k l Hk Hl IHl]; [destruct Hin|].
    cbn [forallb] in H. apply andb_true_iff in H as [H1 H2].
    cbn [flat_map] in Hin. apply in_app_or in Hin as [Hin|Hin]; [exact (Hk H1 x Hin) | exact (IHl H2 Hin)].
Qed.

Lemma wf_inside_tpos : forall input t, tree_okb (inside input) t = true -> wf_tree t = true -> tpos t <= length input.
Proof.
  intros input t. induction t as [nid p len sup | nid kids IH] using PegProofs.tree_ind2; intros H W.
  - cbn [tree_okb wf_tree tpos] in *. unfold inside in H. destruct len as [|k]; [cbn in W; discriminate|].
    apply orb_true_iff in H as [H|H]; [cbn in H; discriminate|].
    apply Nat.leb_le in H. lia.
  - destruct kids as [|k r]; [cbn in W; discriminate|].
    cbn [tpos]. cbn [tree_okb forallb] in H. apply andb_true_iff in H as [H1 _].
    cbn [wf_tree forallb] in W. apply andb_true_iff in W as [W _]. apply andb_true_iff in W as [_ W].
    apply andb_true_iff in W as [W1 _]. inversion IH as [|? ? Hk _]; subst. exact (Hk H1 W1).
Qed.

Theorem parsed_node_in_text : forall g c orc memo fuel input r t,
  orc_sane g input orc -> Peg.run g c orc memo fuel input = Parsed r ->
  In t (res_subtrees r) -> wf_tree t = true -> tpos t <= length input.
Proof.
  intros g c orc memo fuel input r t S R Hin W.
  pose proof (run_ok (inside input) g input orc memo (term_inside g input orc S) c fuel r R) as Ok.
  exact (wf_inside_tpos input t (res_subtrees_ok _ r Ok t Hin) W).
Qed.

(* C28: the syntax error of a failed parse is located at the interpreter's failure position *)
Theorem load_syntax_error_spec : forall g c orc memo fuel fs m,
  match Peg.run g c orc memo fuel (s_text (file_at fs m)) with
  | SyntaxErr p =>
      in_text fs m p -> load_syntax_error syntax_desc g c orc memo fuel fs m = Some (located_at fs m p)
  | _ => load_syntax_error syntax_desc g c orc memo fuel fs m = None
  end.
Proof.
  intros. unfold load_syntax_error.
  destruct (Peg.run g c orc memo fuel (s_text (file_at fs m))) as [r|p|w]; try reflexivity.
  intro H. exact (f_equal Some (locate_ref fs main_ix m m p H)).
Qed.

(* the failure position lies inside the text (Proofs/PegErrPos.v run_syntaxerr_in_text) *)
Theorem load_syntax_error_sane : forall g c orc memo fuel fs m,
  orc_sane g (s_text (file_at fs m)) orc ->
  match Peg.run g c orc memo fuel (s_text (file_at fs m)) with
  | SyntaxErr p => load_syntax_error syntax_desc g c orc memo fuel fs m = Some (located_at fs m p)
  | _ => load_syntax_error syntax_desc g c orc memo fuel fs m = None
  end.
Proof.
  intros g c orc memo fuel fs m S.
  pose proof (load_syntax_error_spec g c orc memo fuel fs m) as H.
  destruct (Peg.run g c orc memo fuel (s_text (file_at fs m))) as [r|p|w] eqn:E; try exact H.
  apply H. exact (run_syntaxerr_in_text g c orc memo fuel _ p S E).
Qed.

(* C33: the object built from a common-rule node is processed with the location of that node, whatever
   the processor does *)
Theorem built_node_dispatch : forall g mm grp auto use_grp fs m n kids top v top' wrapped r,
  pnode g mm (s_text (file_at fs m)) grp auto use_grp (NT n kids) top = BOk (v, top') ->
  (exists c a, info mm n = IRule RCommon c a) ->
  in_text fs m (tpos (NT n kids)) ->
  process_built_node process_fills location_keys g mm grp auto use_grp fs m (NT n kids) top wrapped r
  = Some (dispatched (obj_location fs m (tpos (NT n kids)) (tend (NT n kids))) wrapped r).
Proof.
  intros g mm grp auto use_grp fs m n kids top v top' w r H [c [a Ei]] Hin.
  destruct (common_node_object _ _ _ _ _ _ _ _ _ _ _ _ _ Ei H) as [_ [c1 [_ ->]]].
  unfold process_built_node. rewrite H, (obj_dispatch_spec _ _ _ _ _ _ Hin). reflexivity.
Qed.

Lemma built_object_nchar_positive : forall fs m t, wf_tree t = true ->
  exists k, r_nchar (obj_location fs m (tpos t) (tend t)) = Some k /\ 0 < k /\ tpos t + k = tend t.
Proof.
  intros fs m t H. pose proof (wf_tree_nonempty t H). exists (tend t - tpos t). cbn. repeat split; lia.
Qed.

(* the location is a function of the object (its span and its model), not of its start offset:
   objects with the same start and different ends get different nchar; objects at the same offsets of
   two models with different file names get different file names *)
Lemma location_distinguishes_ends : forall fs m pos e1 e2 wrapped, in_text fs m pos ->
  pos <= e1 -> pos <= e2 -> e1 <> e2 ->
  obj_dispatch process_fills location_keys fs m pos e1 wrapped (RaisesTx no_loc)
  <> obj_dispatch process_fills location_keys fs m pos e2 wrapped (RaisesTx no_loc).
Proof.
  intros fs m pos e1 e2 w H H1 H2 Hne. rewrite !obj_dispatch_spec by assumption.
  intro E. inversion E. lia.
Qed.

Lemma location_distinguishes_models : forall fs m1 m2 pos e wrapped, in_text fs m1 pos -> in_text fs m2 pos ->
  s_name (file_at fs m1) <> s_name (file_at fs m2) ->
  obj_dispatch process_fills location_keys fs m1 pos e wrapped (RaisesTx no_loc)
  <> obj_dispatch process_fills location_keys fs m2 pos e wrapped (RaisesTx no_loc).
Proof.
  intros fs m1 m2 pos e w H1 H2 Hne. rewrite !obj_dispatch_spec by assumption.
  intro E. inversion E. contradiction.
Qed.
