(* C21, parse level: the terminal predicate (for the invariant of Proofs/PegInv.v) that says that no terminal of a
   keyword regex is immediately followed by a word character; Props/C21.v (C21_boundary_parse) concludes. *)
From TxV Require Import Core.Base Model.PegSyntax Model.Peg Model.KwDefs Gen.SrcKw Model.Kw
     Proofs.PegCongr Proofs.PegInv Proofs.KwProofs.

Section KwInv.
Variable wordc : N -> bool.
Variable digitc : N -> bool.
Variable lower : N -> N.
(* which nodes are keyword regexes: node id -> (literal, ignore_case) *)
Variable kwt : nat -> option (list N * bool).

Definition kw_pt (input : list N) (nid p len : nat) : bool :=
  match kwt nid with
  | Some _ => negb (word_at wordc input (p + len))
  | None => true
  end.

(* the designated nodes are RegExMatch nodes whose oracle is the keyword regex of a keyword-like literal *)
Definition kw_oracle_spec (g : grammar) (input : list N) (orc : nat -> nat -> option nat) : Prop :=
  forall nid t ic, kwt nid = Some (t, ic) ->
    exists nd o, get_node g nid = Some nd /\ n_kind nd = KRegex o /\
                 kw_like wordc digitc t = true /\
                 forall p, orc o p = kw_match wordc lower ic t input p.

Lemma kw_term_ok g input orc :
  (forall a b, lower a = lower b -> wordc a = wordc b) ->
  kw_oracle_spec g input orc ->
  forall nid nd psq s r s',
    get_node g nid = Some nd -> term_parse input orc nid (n_kind nd) psq s = Ok r s' ->
    res_okb (kw_pt input) r = true.
Proof.
  intros Hwl Hspec nid nd psq s r s' Hn H.
  destruct (term_parse_ok _ _ _ _ _ _ _ _ H) as [->|[len [sup [-> Hm]]]]; [reflexivity|].
  cbn [res_okb tree_okb]. unfold kw_pt. destruct (kwt nid) as [[t ic]|] eqn:Ekw; [|reflexivity].
  destruct (Hspec nid t ic Ekw) as [nd' [o [Hn' [Hk [Hkw Ho]]]]].
  rewrite Hn in Hn'. injection Hn' as <-.
  rewrite Hk, Ho, (kw_match_char wordc digitc lower ic t input (pos s) (fun _ => Hwl) Hkw) in Hm.
  destruct (lit_prefix lower ic t (skipn (pos s) input)); [|discriminate].
  destruct (word_at wordc input (pos s + length t)) eqn:Ew; [discriminate|].
  injection Hm as <-. rewrite Ew. reflexivity.
Qed.

End KwInv.
