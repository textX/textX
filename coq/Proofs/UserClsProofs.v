(* Model/UserCls.v, the class side: the method slots under replace and restore, the load machine as
   elementary moves, and the instrumentation counter as the number of parsers that have replaced
   and not restored. *)
From TxV Require Import Core.Base Gen.SrcUserCls Model.UserCls.

Section MethodsProofs.
  Variable rep res : list (list N).

  Lemma upd_same {A} (f : list N -> A) k v : upd f k v k = v.
  Proof. unfold upd. rewrite str_eqb_refl. reflexivity. Qed.

  Lemma upd_other {A} (f : list N -> A) k v x : x <> k -> upd f k v x = f x.
  Proof. intro H. unfold upd. apply str_eqb_neq in H. rewrite H. reflexivity. Qed.

  (* the two loops over method names, seen at one name a *)
  Lemma install_fold_spec : forall names ds a, NoDup names ->
    fst (fold_left install1 names ds) a = (if mem_str a names then TxFn else fst ds a) /\
    snd (fold_left install1 names ds) a = (if mem_str a names then Some (fst ds a) else snd ds a).
  Proof.
    induction names as [|n names IH]; intros ds a Hnd; [split; reflexivity|].
    inversion Hnd as [|? ? Hnotin Hnd']; subst. cbn [fold_left].
    destruct (IH (install1 ds n) a Hnd') as [H1 H2]. rewrite H1, H2.
    unfold install1, upd, mem_str. cbn [fst snd existsb]. fold (mem_str a names).
    destruct (str_eqb a n) eqn:E; [|split; reflexivity].
    (* a is installed now, and not a second time, which would save the replacement *)
    apply str_eqb_eq in E. subst a.
    rewrite (proj2 (mem_str_false _ _) Hnotin). split; reflexivity.
  Qed.

  Lemma uninstall_fold_spec : forall names ds a,
    fst (fold_left uninstall1 names ds) a
      = (if mem_str a names then match snd ds a with Some v => v | None => fst ds a end else fst ds a) /\
    snd (fold_left uninstall1 names ds) a = (if mem_str a names then None else snd ds a).
  Proof.
    induction names as [|n names IH]; intros ds a; [split; reflexivity|]. cbn [fold_left].
    destruct (IH (uninstall1 ds n) a) as [H1 H2]. rewrite H1, H2.
    clear IH H1 H2. unfold uninstall1, mem_str. cbn [existsb]. fold (mem_str a names).
    destruct (snd ds n) as [v|] eqn:Sn; cbn [fst snd]; unfold upd;
      destruct (str_eqb a n) eqn:E; try (split; reflexivity).
    (* a = n is left, with and without a saved entry *)
    all: apply str_eqb_eq in E; subst a; rewrite Sn; destruct (mem_str n names); split; reflexivity.
  Qed.

  (* the class-state invariant of the method slots, relative to the original entries d0 *)
  Definition meth_inv (d0 : list N -> slot) (k : cls) : Prop :=
    (k_count k = 0 -> forall a, k_dict k a = d0 a /\ k_saved k a = None) /\
    (k_count k <> 0 -> forall a, k_dict k a = (if mem_str a rep then TxFn else d0 a) /\
                                 k_saved k a = (if mem_str a rep then Some (d0 a) else None)).

  Lemma meth_inv_cls0 d0 : meth_inv d0 (cls0 d0).
  Proof. split; cbn [cls0 k_count k_dict k_saved]; [intros _ a; split; reflexivity | congruence]. Qed.

  Hypothesis rep_nodup : NoDup rep.
  Hypothesis rep_in_res : forall a, In a rep -> In a res.

  Lemma meth_inv_replace d0 k : meth_inv d0 k -> meth_inv d0 (cls_replace rep k).
  Proof.
    intros [H0 H1]. unfold cls_replace. destruct (k_count k) as [|n] eqn:C.
    - split; cbn [k_count k_dict k_saved]; [discriminate|]. intros _ a.
      unfold install. destruct (install_fold_spec rep (k_dict k, k_saved k) a rep_nodup) as [E1 E2].
      rewrite E1, E2. cbn [fst snd].
      destruct (H0 eq_refl a) as [Hd Hs]. rewrite Hd, Hs. split; reflexivity.
    - split; cbn [k_count k_dict k_saved]; [discriminate|]. intros _. apply H1. discriminate.
  Qed.

  Lemma meth_inv_restore d0 k : meth_inv d0 k -> meth_inv d0 (cls_restore res k).
  Proof.
    intros [H0 H1]. unfold cls_restore. destruct (k_count k) as [|[|n]] eqn:C.
    - split; [intros _; apply H0; reflexivity | intro H; rewrite C in H; congruence].
    - split; cbn [k_count k_dict k_saved]; [|congruence]. intros _ a.
      unfold uninstall. destruct (uninstall_fold_spec res (k_dict k, k_saved k) a) as [E1 E2].
      rewrite E1, E2. cbn [fst snd]. assert (Hne : 1 <> 0) by discriminate.
      destruct (H1 Hne a) as [Hd Hs]. rewrite Hd, Hs.
      destruct (mem_str a rep) eqn:M.
      + apply mem_str_In in M. apply rep_in_res in M. apply mem_str_In in M. rewrite M. split; reflexivity.
      + destruct (mem_str a res); split; reflexivity.
    - split; cbn [k_count k_dict k_saved]; [discriminate|]. intros _. apply H1. discriminate.
  Qed.

  Lemma count_replace k : k_count (cls_replace rep k) = S (k_count k).
  Proof. unfold cls_replace. destruct (k_count k); reflexivity. Qed.

  Lemma count_restore k : k_count (cls_restore res k) = pred (k_count k).
  Proof. unfold cls_restore. destruct (k_count k) as [|[|n]] eqn:C; cbn [k_count pred]; try reflexivity. exact C. Qed.

  Lemma store_replace k : k_store (cls_replace rep k) = k_store k.
  Proof. unfold cls_replace. destruct (k_count k); reflexivity. Qed.

  Lemma store_restore k : k_store (cls_restore res k) = k_store k.
  Proof. unfold cls_restore. destruct (k_count k) as [|[|n]]; reflexivity. Qed.

  (* a full install/uninstall round trip on an uninstrumented class *)
  Lemma replace_restore_roundtrip d0 :
    cls_same d0 (cls_restore res (cls_replace rep (cls0 d0))).
  Proof.
    pose proof (meth_inv_restore d0 _ (meth_inv_replace d0 _ (meth_inv_cls0 d0))) as [H0 _].
    pose proof (count_restore (cls_replace rep (cls0 d0))) as C. rewrite count_replace in C. cbn [cls0 k_count pred] in C.
    unfold cls_same. split; [|split; [|split]].
    - exact C.
    - rewrite store_restore, store_replace. reflexivity.
    - intro a. apply (H0 C a).
    - intro a. apply (H0 C a).
  Qed.
End MethodsProofs.

Lemma in_remove_id x y l : In x (remove_id y l) <-> In x l /\ x <> y.
Proof.
  unfold remove_id. rewrite filter_In. split; intros [H1 H2]; split; try exact H1.
  - intro E. subst. rewrite Nat.eqb_refl in H2. discriminate.
  - apply negb_true_iff. apply Nat.eqb_neq. exact H2.
Qed.

Lemma in_remove_ids x xs l : In x (remove_ids xs l) <-> In x l /\ ~ In x xs.
Proof.
  unfold remove_ids. rewrite filter_In. split; intros [H1 H2]; split; try exact H1.
  - intro E. apply existsb_nat_In in E. rewrite E in H2. discriminate.
  - apply negb_true_iff. destruct (existsb (Nat.eqb x) xs) eqn:E; [|reflexivity].
    apply existsb_nat_In in E. contradiction.
Qed.

Lemma on_last_app (g : frame -> frame) pre f : on_last g (pre ++ [f]) = pre ++ [g f].
Proof.
  induction pre as [|p pre IH]; [reflexivity|].
  cbn [app on_last]. rewrite IH. destruct (pre ++ [f]) eqn:E; [destruct pre; discriminate | reflexivity].
Qed.

Lemma last_frame_some fs f : last_frame fs = Some f -> exists pre, fs = pre ++ [f].
Proof.
  unfold last_frame. destruct fs as [|f0 fs] using rev_ind; [discriminate|].
  rewrite map_app. cbn [map]. rewrite last_last. intro H. inversion H. subst. exists fs. reflexivity.
Qed.

Lemma on_last_Forall (P : frame -> Prop) g fs :
  (forall f, P f -> P (g f)) -> Forall P fs -> Forall P (on_last g fs).
Proof.
  intros Hg H. destruct fs as [|f pre _] using rev_ind; [exact H|].
  rewrite on_last_app. apply Forall_app in H as [Hpre Hf]. apply Forall_app. split; [exact Hpre|].
  inversion Hf; subst. constructor; [apply Hg; assumption | constructor].
Qed.

Section MachineProofs.
  Variable rep res : list (list N).

  Notation step := (step rep res).
  Notation run := (run rep res).
  Notation fail_ctx := (fail_ctx res).
  Notation abort_frame := (abort_frame res).

  (* The elementary moves of the machine.  Every operation is a no-op or one move of the head
     context; Begin of a main model pushes a fresh context first, and the failing forms (syntax
     error, Init false, Proc false) are the move followed by the unwinding of the head context.
     The premises are named as the case analyses of a move refer to them. *)
  Inductive move : state -> state -> Prop :=
  | m_push s glob :
      move s (set_ctxs s ({| c_id := s_next s; c_global := glob; c_frames := []; c_phase := Loading;
                              c_mids := []; c_objs := []; c_trace := [] |} :: s_ctxs s))
  | m_unwind s c rest (E : s_ctxs s = c :: rest) : move s (fail_ctx s c rest)
  | m_begin s c rest (E : s_ctxs s = c :: rest) (Eph : c_phase c = Loading) :
      move s {| s_cls := cls_replace rep (s_cls s);
                s_ctxs := {| c_id := c_id c; c_global := c_global c;
                             c_frames := c_frames c ++ [new_frame (S (s_next s))]; c_phase := Loading;
                             c_mids := c_mids c ++ [S (s_next s)]; c_objs := c_objs c;
                             c_trace := c_trace c |} :: rest;
                s_repo := if c_global c then s_repo s ++ [S (s_next s)] else s_repo s;
                s_next := S (S (s_next s)); s_log := s_log s |}
  | m_syntax s c rest (E : s_ctxs s = c :: rest) :
      move s {| s_cls := s_cls s; s_ctxs := c :: rest; s_repo := s_repo s; s_next := S (S (s_next s));
                s_log := ev (KSyntax (c_id c)) (s_cls s) :: s_log s |}
  | m_alloc s c rest f (E : s_ctxs s = c :: rest) (Eph : c_phase c = Loading)
            (El : last_frame (c_frames c) = Some f) :
      move s {| s_cls := cls_alloc (s_next s) (s_cls s);
                s_ctxs := {| c_id := c_id c; c_global := c_global c;
                             c_frames := on_last (alloc_frame (s_next s)) (c_frames c); c_phase := Loading;
                             c_mids := c_mids c; c_objs := c_objs c ++ [s_next s];
                             c_trace := KAlloc (c_id c) (f_id f) (s_next s) (hd_error (f_ostack f)) :: c_trace c |} :: rest;
                s_repo := s_repo s; s_next := S (s_next s);
                s_log := ev (KAlloc (c_id c) (f_id f) (s_next s) (hd_error (f_ostack f))) (s_cls s) :: s_log s |}
  | m_complete s c rest (E : s_ctxs s = c :: rest) (Eph : c_phase c = Loading) :
      move s (set_ctxs s ({| c_id := c_id c; c_global := c_global c;
                              c_frames := on_last complete_frame (c_frames c); c_phase := Loading;
                              c_mids := c_mids c; c_objs := c_objs c; c_trace := c_trace c |} :: rest))
  | m_resolve s c rest (E : s_ctxs s = c :: rest) (Eph : c_phase c = Loading) :
      move s {| s_cls := s_cls s;
                s_ctxs := {| c_id := c_id c; c_global := c_global c; c_frames := c_frames c; c_phase := Ending [];
                             c_mids := c_mids c; c_objs := c_objs c;
                             c_trace := KResolved (c_id c) :: c_trace c |} :: rest;
                s_repo := s_repo s; s_next := s_next s;
                s_log := ev (KResolved (c_id c)) (s_cls s) :: s_log s |}
  | m_endmodel s c rest f fs (E : s_ctxs s = c :: rest) (Eph : c_phase c = Ending [])
               (Efr : c_frames c = f :: fs) (Eos : f_ostack f = []) :
      move s {| s_cls := if f_replaced f then cls_restore res (s_cls s) else s_cls s;
                s_ctxs := {| c_id := c_id c; c_global := c_global c; c_frames := fs; c_phase := Ending (f_inst f);
                             c_mids := c_mids c; c_objs := c_objs c; c_trace := c_trace c |} :: rest;
                s_repo := s_repo s; s_next := s_next s; s_log := s_log s |}
  | m_init s c rest x cur (E : s_ctxs s = c :: rest) (Eph : c_phase c = Ending (x :: cur)) :
      move s {| s_cls := cls_pop x (s_cls s);
                s_ctxs := {| c_id := c_id c; c_global := c_global c; c_frames := c_frames c; c_phase := Ending cur;
                             c_mids := c_mids c; c_objs := c_objs c;
                             c_trace := KInit (c_id c) x :: c_trace c |} :: rest;
                s_repo := s_repo s; s_next := s_next s;
                s_log := ev (KInit (c_id c) x) (cls_pop x (s_cls s)) :: s_log s |}
  | m_proc s c rest (E : s_ctxs s = c :: rest) (Eph : phase_cur (c_phase c) = []) :
      move s {| s_cls := s_cls s;
                s_ctxs := {| c_id := c_id c; c_global := c_global c; c_frames := c_frames c; c_phase := Processing;
                             c_mids := c_mids c; c_objs := c_objs c;
                             c_trace := KProc (c_id c) :: c_trace c |} :: rest;
                s_repo := s_repo s; s_next := s_next s;
                s_log := ev (KProc (c_id c)) (s_cls s) :: s_log s |}
  | m_finish s c rest (E : s_ctxs s = c :: rest) (Eph : phase_cur (c_phase c) = []) (Efr : c_frames c = []) :
      move s {| s_cls := s_cls s; s_ctxs := rest; s_repo := s_repo s; s_next := s_next s;
                s_log := ev (KFinish (c_id c)) (s_cls s) :: s_log s |}.

  Section Preserved.
    Variable P : state -> Prop.
    Hypothesis P_move : forall a b, move a b -> P a -> P b.

    Lemma step_moves s o : P s -> P (step s o).
    Proof.
      assert (P_unwind : forall s c rest, s_ctxs s = c :: rest -> P s -> P (fail_ctx s c rest))
        by exact (fun s c rest E => P_move _ _ (m_unwind s c rest E)).
      intro Hs. destruct o as [main glob syn_ok| | | | |ok|ok| |]; unfold UserCls.step.
      1: destruct main.
      1: { pose proof (P_move _ _ (m_push s glob) Hs) as Hp. cbn [c_phase]. destruct syn_ok.
           - refine (P_move _ _ (m_begin _ _ _ _ _) Hp); reflexivity.
           - apply P_unwind; [reflexivity|]. refine (P_move _ _ (m_syntax _ _ _ _) Hp). reflexivity. }
      (* no load is running: every other operation is a no-op *)
      all: destruct (s_ctxs s) as [|c rest] eqn:E; [exact Hs|].
      - destruct (c_phase c) eqn:Eph; try exact Hs. destruct syn_ok.
        + exact (P_move _ _ (m_begin _ _ _ E Eph) Hs).
        + apply P_unwind; [reflexivity|]. exact (P_move _ _ (m_syntax _ _ _ E) Hs).
      - destruct (c_phase c) eqn:Eph; try exact Hs.
        destruct (last_frame (c_frames c)) as [f|] eqn:El; [|exact Hs].
        exact (P_move _ _ (m_alloc _ _ _ _ E Eph El) Hs).
      - destruct (c_phase c) eqn:Eph; try exact Hs.
        exact (P_move _ _ (m_complete _ _ _ E Eph) Hs).
      - destruct (c_phase c) eqn:Eph; try exact Hs.
        exact (P_move _ _ (m_resolve _ _ _ E Eph) Hs).
      - destruct (c_phase c) as [|[|? ?]|] eqn:Eph; try exact Hs.
        destruct (c_frames c) as [|f fs] eqn:Efr; [exact Hs|].
        destruct (f_ostack f) eqn:Eos; [|exact Hs].
        exact (P_move _ _ (m_endmodel _ _ _ _ _ E Eph Efr Eos) Hs).
      - destruct (c_phase c) as [|[|x cur]|] eqn:Eph; try exact Hs.
        pose proof (P_move _ _ (m_init _ _ _ _ _ E Eph) Hs) as Hi.
        destruct ok; [exact Hi | apply P_unwind; [reflexivity | exact Hi]].
      - assert (Hi : phase_cur (c_phase c) = [] -> _) by exact (fun Hp => P_move _ _ (m_proc _ _ _ E Hp) Hs).
        destruct (c_phase c) as [|[|? ?]|]; try exact Hs;
          (destruct (c_frames c); [|exact Hs]);
          (destruct ok; [exact (Hi eq_refl) | apply P_unwind; [reflexivity | exact (Hi eq_refl)]]).
      - exact (P_unwind _ _ _ E Hs).
      - assert (Hi : phase_cur (c_phase c) = [] -> c_frames c = [] -> _)
          by exact (fun Hp Hf => P_move _ _ (m_finish _ _ _ E Hp Hf) Hs).
        destruct (c_phase c) as [|[|? ?]|]; try exact Hs;
          (destruct (c_frames c); [exact (Hi eq_refl eq_refl) | exact Hs]).
    Qed.

    Lemma run_moves ops : forall s, P s -> P (run s ops).
    Proof.
      induction ops as [|o ops IH]; intros s H; [exact H|]. apply IH, step_moves, H.
    Qed.
  End Preserved.

  Hypothesis rep_nodup : NoDup rep.
  Hypothesis rep_in_res : forall a, In a rep -> In a res.
  Variable d0 : list N -> slot.

  Definition nrep_f (fs : list frame) : nat := length (filter f_replaced fs).
  Fixpoint nrep (cs : list ctx) : nat :=
    match cs with [] => 0 | c :: cs' => nrep_f (c_frames c) + nrep cs' end.
  Definition owns (c : ctx) (x : nat) : Prop :=
    In x (phase_cur (c_phase c)) \/ In x (flat_map f_alloc (c_frames c)).
  Definition owned (cs : list ctx) (x : nat) : Prop := exists c, In c cs /\ owns c x.

  (* the counter is the number of parsers that have replaced and not restored *)
  Definition inv (s : state) : Prop :=
    k_count (s_cls s) = nrep (s_ctxs s) /\ meth_inv rep d0 (s_cls s).

  Lemma nrep_f_app a b : nrep_f (a ++ b) = nrep_f a + nrep_f b.
  Proof. unfold nrep_f. rewrite filter_app, app_length. reflexivity. Qed.

  Lemma nrep_f_on_last g fs : (forall f, f_replaced (g f) = f_replaced f) -> nrep_f (on_last g fs) = nrep_f fs.
  Proof.
    intro Hg. destruct fs as [|f pre _] using rev_ind; [reflexivity|].
    rewrite on_last_app, !nrep_f_app. unfold nrep_f. cbn [filter]. rewrite Hg. destruct (f_replaced f); reflexivity.
  Qed.

  Lemma replaced_complete f : f_replaced (complete_frame f) = f_replaced f.
  Proof. unfold complete_frame. destruct (f_ostack f); reflexivity. Qed.

  Lemma abort_count fs : forall k m,
    k_count k = nrep_f fs + m -> k_count (fold_left abort_frame fs k) = m.
  Proof.
    induction fs as [|f fs IH]; intros k m H; [exact H|].
    apply IH. unfold UserCls.abort_frame, cls_discard. cbn [k_count].
    unfold nrep_f in H. cbn [filter] in H. destruct (f_replaced f); [|exact H].
    rewrite count_restore, H. reflexivity.
  Qed.

  Lemma abort_store fs : forall k x,
    In x (k_store (fold_left abort_frame fs k)) -> In x (k_store k) /\ ~ In x (flat_map f_alloc fs).
  Proof.
    induction fs as [|f fs IH]; intros k x Hx; cbn [fold_left flat_map] in *; [split; [exact Hx | intros []]|].
    apply IH in Hx as [Hx Hn]. apply in_remove_ids in Hx as [Hx Hf]. split.
    - destruct (f_replaced f); [rewrite store_restore in Hx|]; exact Hx.
    - intro H. apply in_app_iff in H as [H|H]; contradiction.
  Qed.

  Lemma abort_meth fs : forall k, meth_inv rep d0 k -> meth_inv rep d0 (fold_left abort_frame fs k).
  Proof.
    induction fs as [|f fs IH]; intros k H; cbn [fold_left]; [exact H|].
    apply IH. change (meth_inv rep d0 (if f_replaced f then cls_restore res k else k)).
    destruct (f_replaced f); [apply meth_inv_restore; assumption | exact H].
  Qed.

  (* cls_alloc, cls_pop and cls_discard change the store only, which meth_inv does not look at *)
  Lemma move_inv a b : move a b -> inv a -> inv b.
  Proof.
    intros M [Hc Hm]. unfold inv.
    destruct M;
      cbn [s_cls s_ctxs set_ctxs UserCls.fail_ctx]; try (rewrite E in Hc; cbn [nrep] in Hc).
    - split; assumption.
    - split; [|exact (abort_meth _ _ Hm)].
      exact (abort_count _ _ _ Hc).
    - split; [|apply meth_inv_replace; assumption].
      rewrite count_replace, Hc. cbn [nrep c_frames]. rewrite nrep_f_app. change (nrep_f [_]) with 1.
      rewrite Nat.add_1_r. reflexivity.
    - split; assumption.
    - split; [|exact Hm]. cbn [nrep c_frames cls_alloc k_count]. rewrite nrep_f_on_last; [exact Hc | reflexivity].
    - split; [|exact Hm]. cbn [nrep c_frames]. rewrite nrep_f_on_last; [exact Hc | exact replaced_complete].
    - split; assumption.
    - rewrite Efr in Hc. change (f :: fs) with ([f] ++ fs) in Hc. rewrite nrep_f_app in Hc.
      unfold nrep_f at 1 in Hc. cbn [filter nrep c_frames] in *.
      destruct (f_replaced f); cbn [length] in Hc; [|split; assumption].
      split; [rewrite count_restore, Hc; reflexivity | apply meth_inv_restore; assumption].
    - split; assumption.
    - split; assumption.
    - rewrite Efr in Hc. split; assumption.
  Qed.

  Lemma reach_inv ops : inv (run (init d0) ops).
  Proof. apply (run_moves inv move_inv). split; [reflexivity | apply meth_inv_cls0]. Qed.
End MachineProofs.

Fixpoint nodupb (l : list (list N)) : bool :=
  match l with [] => true | x :: l' => negb (mem_str x l') && nodupb l' end.
Definition inclb (a b : list (list N)) : bool := forallb (fun x => mem_str x b) a.

Lemma nodupb_sound l : nodupb l = true -> NoDup l.
Proof.
  induction l as [|x l IH]; intro H; [constructor|]. cbn [nodupb] in H.
  apply andb_true_iff in H as [H1 H2]. constructor; [|apply IH; exact H2].
  intro Hin. apply mem_str_In in Hin. rewrite Hin in H1. discriminate.
Qed.

Lemma inclb_sound a b : inclb a b = true -> forall x, In x a -> In x b.
Proof.
  unfold inclb. rewrite forallb_forall. intros H x Hx. apply mem_str_In. apply H. exact Hx.
Qed.

(* the method-name tuples of textx/model.py (Gen/SrcUserCls.v), checked against the current source
   on every run *)
Lemma src_rep_nodup : NoDup replace_names.
Proof. apply nodupb_sound. vm_compute. reflexivity. Qed.

Lemma src_rep_in_res : forall a, In a replace_names -> In a restore_names.
Proof. apply inclb_sound. vm_compute. reflexivity. Qed.

Lemma src_parent_key : init_extra_key = parent_key.
Proof. vm_compute. reflexivity. Qed.

Lemma src_has_set : In n_setattr replace_names. Proof. apply mem_str_In. vm_compute. reflexivity. Qed.
Lemma src_has_get : In n_getattribute replace_names. Proof. apply mem_str_In. vm_compute. reflexivity. Qed.
Lemma src_has_del : In n_delattr replace_names. Proof. apply mem_str_In. vm_compute. reflexivity. Qed.

Lemma init_kwargs_spec {V} tx_attrs (attrs : list (list N * V)) kv :
  In kv (init_kwargs tx_attrs attrs) <-> In kv attrs /\ (In (fst kv) tx_attrs \/ fst kv = parent_key).
Proof.
  unfold init_kwargs. rewrite filter_In, orb_true_iff, mem_str_In, str_eqb_eq. tauto.
Qed.

(* what __init__ receives for an object whose storage was filled by the loader *)
Lemma init_kwargs_collected {V} tx_attrs (vals : list (list N * V)) pos pos_end parent :
  (forall kv, In kv vals -> In (fst kv) tx_attrs) ->
  ~ In tx_pos_key tx_attrs -> ~ In tx_pos_end_key tx_attrs ->
  init_kwargs tx_attrs (collected vals pos pos_end parent)
  = vals ++ match parent with Some p => [(parent_key, p)] | None => [] end.
Proof.
  intros Hvals Hp Hpe. unfold init_kwargs, collected. rewrite !filter_app. f_equal.
  - apply filter_all. intros kv Hkv. apply orb_true_iff. left. apply mem_str_In. apply Hvals. exact Hkv.
  - cbn [filter fst]. rewrite (proj2 (mem_str_false _ _) Hp), (proj2 (mem_str_false _ _) Hpe).
    replace (str_eqb tx_pos_key parent_key) with false by (vm_compute; reflexivity).
    replace (str_eqb tx_pos_end_key parent_key) with false by (vm_compute; reflexivity).
    cbn [orb app]. destruct parent as [p|]; [|reflexivity].
    cbn [filter fst]. rewrite str_eqb_refl, orb_true_r. reflexivity.
Qed.
