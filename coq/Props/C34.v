(* C34 — editor-support positions identify references and objects exactly. *)
From Coq Require Import Sorting.Sorted Sorting.Permutation.
From TxV Require Import Model.PegSyntax Model.Peg Model.Build.
From TxV Require Import Core.Base Model.EdPosDefs Gen.SrcEdPos Model.EdPos Proofs.EdPosProofs Model.EdPosBuild Proofs.EdPosBuildProofs.

(* The facts tools/translate/edpos_tr.py reads off the current textx/model.py (Gen/SrcEdPos.v):
   RefRulePosition takes the span of the reference node and the span of the resolved object,
   resolve_one_step sorts the list by ref_pos_start after its loop, process_node registers
   with setdefault after the children, the map is sorted by (-start, end).  The model is
   defined FROM these constants, so every theorem below is re-proved against them. *)
Theorem C34_source_facts :
  src_ref_pos_start = RefStart /\ src_ref_pos_end = RefEnd /\
  src_def_pos_start = TgtStart /\ src_def_pos_end = TgtEnd /\
  src_list_sorted = true /\ src_list_key = KRefStart /\
  src_dict_register = KeepFirst /\ src_dict_order = (Desc, Asc).
Proof. repeat split; reflexivity. Qed.
Print Assumptions C34_source_facts.

(* For EVERY scope provider (any function of the reference and of the history of provider
   calls: every postponement schedule), every builtins table (bi x = the name of x is in
   metamodel.builtins with a matching class), every number of models under construction and
   every list of references per model: if the load succeeds, the _pos_crossref_list of EACH
   model
   - is sorted by ref_pos_start,
   - has exactly one entry for each reference the provider resolved to a model object (xts) and
     none for the references resolved through the builtins fallback (bs); xts and bs together
     are all the references of the model,
   - each entry (mk_entry) carries the start and end of the reference text and the file,
     start and end of a target the provider answered for that very reference. *)
Theorem C34_refs : forall (ans : provider) (bi : cref -> bool) models outs,
  load ans bi models = Ok outs ->
  Forall2 (fun rs es =>
             StronglySorted (fun a b => (e_start a <= e_start b)%N) es /\
             exists xts bs,
               Permutation rs (map fst xts ++ bs) /\
               Forall (fun xt => exists h, ans (fst xt) h = Resolved (snd xt)) xts /\
               Forall (fun b => bi b = true /\ exists h, ans b h = NotFound) bs /\
               Permutation es (map mk_entry xts)) models outs.
Proof. exact load_listed. Qed.
Print Assumptions C34_refs.

(* Without builtins (the default) every reference of the model has its entry. *)
Theorem C34_refs_no_builtins : forall (ans : provider) (bi : cref -> bool) models outs,
  (forall x, bi x = false) ->
  load ans bi models = Ok outs ->
  Forall2 (fun rs es =>
             StronglySorted (fun a b => (e_start a <= e_start b)%N) es /\
             exists xts, map fst xts = rs /\
                         Forall (fun xt => exists h, ans (fst xt) h = Resolved (snd xt)) xts /\
                         Permutation es (map mk_entry xts)) models outs.
Proof.
  intros ans bi models outs Hbi Hl. eapply Forall2_impl_in; [apply load_listed; exact Hl|].
  intros rs es _. exact (listed_no_builtins ans bi rs es Hbi).
Qed.
Print Assumptions C34_refs_no_builtins.

(* Multi-model loads: at the end of the main load the list of EVERY model taking part in it
   (main and imported ones) is sorted, not only the main model's. *)
Theorem C34_all_models_sorted : forall (ans : provider) (bi : cref -> bool) models outs,
  load ans bi models = Ok outs ->
  length outs = length models /\
  Forall (StronglySorted (fun a b => (e_start a <= e_start b)%N)) outs.
Proof.
  intros ans bi models outs Hl. apply load_listed in Hl.
  induction Hl as [|rs es rss ess [Hs _] _ [IH1 IH2]]; [split; [reflexivity | constructor]|].
  split; [cbn [length]; rewrite IH1; reflexivity | constructor; assumption].
Qed.
Print Assumptions C34_all_models_sorted.

(* Models that were completely loaded earlier (global repository) are not under construction:
   they keep their list unchanged, the models loaded now satisfy C34_refs, and if the old lists
   were sorted every model reachable from the main model has a sorted list afterwards. *)
Theorem C34_repo : forall (ans : provider) (bi : cref -> bool) gms outs,
  load_repo ans bi gms = Ok outs ->
  Forall2 (fun g es => match g with
                       | Done es0 => es = es0
                       | Fresh rs =>
                           StronglySorted (fun a b => (e_start a <= e_start b)%N) es /\
                           exists xts bs,
                             Permutation rs (map fst xts ++ bs) /\
                             Forall (fun xt => exists h, ans (fst xt) h = Resolved (snd xt)) xts /\
                             Forall (fun b => bi b = true /\ exists h, ans b h = NotFound) bs /\
                             Permutation es (map mk_entry xts)
                       end) gms outs.
Proof. exact load_repo_listed. Qed.
Print Assumptions C34_repo.

Theorem C34_repo_all_sorted : forall (ans : provider) (bi : cref -> bool) gms outs,
  Forall (fun g => match g with
                   | Done es => StronglySorted (fun a b => (e_start a <= e_start b)%N) es
                   | Fresh _ => True end) gms ->
  load_repo ans bi gms = Ok outs ->
  Forall (StronglySorted (fun a b => (e_start a <= e_start b)%N)) outs.
Proof.
  intros ans bi gms outs Hd Hl. apply load_repo_listed in Hl.
  induction Hl as [|g es gms' outs' Hg _ IH]; [constructor|].
  constructor; [|apply IH; exact (Forall_inv_tail Hd)]. apply Forall_inv in Hd.
  destruct g as [rs|es0]; cbn in Hg; [destruct Hg as [Hs _]; exact Hs | subst; exact Hd].
Qed.
Print Assumptions C34_repo_all_sorted.

(* The fuel of [load] (number of references + 1) always suffices: the hypothesis [= Ok] of the
   theorems excludes only failed loads (unknown object / unresolvable), never a fuel artefact. *)
Theorem C34_load_terminates : forall (ans : provider) (bi : cref -> bool) gms,
  load_repo ans bi gms <> OutOfFuel /\ forall models, load ans bi models <> OutOfFuel.
Proof. intros ans bi gms. split; [apply load_repo_terminates | intro models; apply load_terminates]. Qed.
Print Assumptions C34_load_terminates.

(* What an entry made for reference x and target t contains. *)
Theorem C34_entry_exact : forall x t,
  let e := mk_entry (x, t) in
  e_start e = cstart x /\ e_end e = cend x /\ e_name e = cname x /\
  e_file e = tfile t /\ e_dstart e = tstart t /\ e_dend e = tend t.
Proof. intros x t. repeat split; reflexivity. Qed.
Print Assumptions C34_entry_exact.

(* When the reference texts of each model are at increasing positions (what the parser
   delivers, see C34_tree_refs_increasing), the list is exactly the entries of the
   provider-resolved references in text order, whatever the schedule was. *)
Theorem C34_refs_in_text_order : forall (ans : provider) (bi : cref -> bool) models outs,
  Forall (fun rs => StronglySorted N.lt (map cstart rs)) models ->
  load ans bi models = Ok outs ->
  Forall2 (fun rs es => exists xts bs,
             es = map mk_entry xts /\ Permutation rs (map fst xts ++ bs) /\
             Forall (fun xt => exists h, ans (fst xt) h = Resolved (snd xt)) xts /\
             Forall (fun b => bi b = true /\ exists h, ans b h = NotFound) bs /\
             StronglySorted N.lt (map cstart (map fst xts))) models outs.
Proof. exact load_listed_in_order. Qed.
Print Assumptions C34_refs_in_text_order.

(* The references the builder collects are the reference nodes of the tree, with the node's
   span: entry.(start, end) of C34_refs is exactly the extent of the reference text. *)
Theorem C34_ref_is_node : forall t x, In x (refs_pre t) ->
  In (NRef (cid x) (cstart x) (cend x) (cname x)) (subnodes t).
Proof. exact ref_is_node. Qed.
Print Assumptions C34_ref_is_node.

(* In a well-formed parse tree (children inside their parent, in document order, reference
   texts not empty) the references are collected at strictly increasing positions. *)
Theorem C34_tree_refs_increasing : forall t, wfb t = true -> StronglySorted N.lt (map cstart (refs_pre t)).
Proof. exact tree_refs_increasing. Qed.
Print Assumptions C34_tree_refs_increasing.

(* Whole load of a set of files, any provider, no builtins: the list of every model is, entry
   by entry and in document order, the list of that model's reference nodes. *)
Theorem C34_load_trees : forall (ans : provider) (bi : cref -> bool) trees outs,
  (forall x, bi x = false) ->
  Forall (fun t => wfb t = true) trees ->
  load_trees ans bi trees = Ok outs ->
  Forall2 (fun t es => exists xts, map fst xts = refs_pre t /\
                         Forall (fun xt => exists h, ans (fst xt) h = Resolved (snd xt)) xts /\
                         es = map mk_entry xts) trees outs.
Proof.
  intros ans bi trees outs Hbi Hwf Hl.
  apply (Forall2_map_l refs_pre (listed_exactly ans)), (load_listed_exactly _ bi);
    [exact Hbi | apply trees_increasing; exact Hwf | exact Hl].
Qed.
Print Assumptions C34_load_trees.

(* With builtins: the entries of the provider-resolved reference nodes, in document order. *)
Theorem C34_load_trees_builtins : forall (ans : provider) (bi : cref -> bool) trees outs,
  Forall (fun t => wfb t = true) trees ->
  load_trees ans bi trees = Ok outs ->
  Forall2 (fun t es => exists xts bs,
             es = map mk_entry xts /\ Permutation (refs_pre t) (map fst xts ++ bs) /\
             Forall (fun xt => exists h, ans (fst xt) h = Resolved (snd xt)) xts /\
             Forall (fun b => bi b = true /\ exists h, ans b h = NotFound) bs /\
             StronglySorted N.lt (map cstart (map fst xts))) trees outs.
Proof.
  intros ans bi trees outs Hwf Hl.
  apply (Forall2_map_l refs_pre (listed_in_order ans bi)), load_listed_in_order;
    [apply trees_increasing; exact Hwf | exact Hl].
Qed.
Print Assumptions C34_load_trees_builtins.

(* The position map (_pos_rule_dict), for every tree. *)

(* every key is the span of its value: (s, e) -> i is listed only if object i spans (s, e) *)
Theorem C34_dict_key_is_span : forall t s e i, In (s, e, i) (rule_dict t) -> In (s, e, i) (objs_post t).
Proof. intros t s e i. exact (dict_sound t (s, e, i)). Qed.
Print Assumptions C34_dict_key_is_span.

(* every object's span is a key, and no key is listed twice *)
Theorem C34_dict_complete : forall t,
  (forall s e i, In (s, e, i) (objs_post t) -> exists j, In (s, e, j) (rule_dict t)) /\
  NoDup (map fst (rule_dict t)).
Proof.
  intro t. split; [intros s e i H; exact (dict_complete t (s, e, i) H) | exact (dict_keys_nodup t)].
Qed.
Print Assumptions C34_dict_complete.

(* innermost wins: the object listed for a span contains no other object with that span
   (object identities are unique) *)
Theorem C34_dict_innermost : forall t i s e kids,
  NoDup (map snd (objs_post t)) ->
  In (NObj i s e kids) (subnodes t) -> In (s, e, i) (rule_dict t) ->
  forall j kids', ~ In (NObj j s e kids') (flat_map subnodes kids).
Proof. exact dict_innermost. Qed.
Print Assumptions C34_dict_innermost.

(* order: nothing listed after a span is contained in it (keys are distinct), i.e. every span
   comes before all different spans that contain it *)
Theorem C34_dict_order : forall t,
  StronglySorted (fun x y => ~ contains (fst x) (fst y)) (rule_dict t).
Proof.
  intro t. pose proof (dict_keys_nodup t) as Hnd. unfold rule_dict in *.
  pose proof (sort_items_sorted (dict_raw t)) as Hs.
  induction Hs as [|x l Hl IH Hall]; [constructor|].
  cbn [map] in Hnd. apply NoDup_cons_iff in Hnd as [Hx Hnd].
  constructor; [apply IH; exact Hnd|].
  rewrite Forall_forall in *. intros y Hy. apply key_le_not_contains; [apply Hall; exact Hy|].
  intro E. apply Hx. unfold ikey. rewrite E. apply (in_map fst). exact Hy.
Qed.
Print Assumptions C34_dict_order.

(* On the parse trees of the builder model (Model/Build.v, C01/C06):
   [abs g mm meta t] is the object/reference/token tree process_node sees in the Peg parse tree t
   (it follows pnode's choice of children; meta = _tx_attrs of the enclosing object's class);
   object nodes are the common-rule nodes with (tpos, tend), reference nodes are the children read
   by non-containment reference assignments with (tpos, tend). *)

(* "key = span of the object's node in the parse tree": every key of the position map is
   (tpos, tend) of a common-rule node t' of the parse tree, the value is that node's rule. *)
Theorem C34_dict_key_is_node_span : forall g mm meta t nd s e i,
  In nd (abs g mm meta t) -> In (s, e, i) (rule_dict nd) ->
  exists t', In t' (subtrees t) /\ is_common mm t' /\
             i = tree_nid t' /\ s = N.of_nat (Build.tpos t') /\ e = N.of_nat (Build.tend t').
Proof. exact dict_key_is_node_span. Qed.
Print Assumptions C34_dict_key_is_node_span.

(* every collected reference carries the span of a node of the parse tree *)
Theorem C34_ref_is_tree_node : forall g mm meta t nd x,
  In nd (abs g mm meta t) -> In x (refs_pre nd) ->
  exists k, In k (subtrees t) /\ cstart x = N.of_nat (Build.tpos k) /\ cend x = N.of_nat (Build.tend k).
Proof. exact ref_is_tree_node. Qed.
Print Assumptions C34_ref_is_tree_node.

(* Every object the builder creates (every VObj inside the value pnode returns, at any depth,
   for every grammar/metamodel table, input and option setting of Build.v) carries the span of a
   common-rule node of the parse tree, and that span is a key of the position map. *)
Theorem C34_built_objects_are_keys : forall g mm input grp auto use_grp t v top',
  pnode g mm input grp auto use_grp t None = BOk (v, top') ->
  forall p e, In (IObj (N.of_nat p) (N.of_nat e)) (vitems v) ->
  (exists t', In t' (subtrees t) /\ is_common mm t' /\ p = Build.tpos t' /\ e = Build.tend t') /\
  exists nd i, In nd (abs g mm [] t) /\ In (N.of_nat p, N.of_nat e, i) (rule_dict nd).
Proof.
  intros g mm input grp auto use_grp t v top' H p e Hin.
  destruct (built_items _ _ _ _ _ _ _ _ _ H _ Hin) as (nd & Hnd & Hk).
  destruct (nitems_obj _ _ _ Hk) as [i Hi2].
  destruct (dict_complete nd _ Hi2) as [j Hj]. cbn [ikey fst] in Hj.
  split; [|exists nd, j; split; assumption].
  destruct (dict_key_is_node_span g mm [] t nd _ _ _ Hnd Hj) as (t' & H1 & H2 & _ & H3 & H4).
  exists t'. split; [exact H1|]. split; [exact H2|]. split; apply Nat2N.inj; assumption.
Qed.
Print Assumptions C34_built_objects_are_keys.

(* C34_entry_exact connected to the builder: every pending reference the builder creates
   (VRef name position class, at any depth of the value) is a collected reference; the entry
   made for it has ref_pos_start = the VRef's position = start of the reference node k of the
   parse tree, and ref_pos_end = end of that node. *)
Theorem C34_built_ref_entry : forall g mm input grp auto use_grp t v top',
  pnode g mm input grp auto use_grp t None = BOk (v, top') ->
  forall p, In (IRef (N.of_nat p)) (vitems v) ->
  exists nd x k, In nd (abs g mm [] t) /\ In x (refs_pre nd) /\ In k (subtrees t) /\ p = Build.tpos k /\
                 forall tg, e_start (mk_entry (x, tg)) = N.of_nat p /\
                            e_end (mk_entry (x, tg)) = N.of_nat (Build.tend k).
Proof.
  intros g mm input grp auto use_grp t v top' H p Hin.
  destruct (built_refs_are_collected g mm input grp auto use_grp t v top' H p Hin) as (nd & x & k & H1 & H2 & H3 & H4 & H5 & H6).
  exists nd, x, k. repeat split; try assumption; rewrite mk_entry_eq; cbn [e_start e_end]; assumption.
Qed.
Print Assumptions C34_built_ref_entry.

(* A: b=B r=[C] ; the reference child is the terminal at 9..11 *)
Example C34_build_nonvacuous :
  let g := mkGrammar [] 0 None in
  let mm := [IRule RCommon [65]%N [mkAttr [98]%N M1 true false [66]%N false; mkAttr [114]%N M1 false true [67]%N false];
             IAsgn [98]%N OpPlain; IRule RCommon [66]%N []; IOther; IAsgn [114]%N OpPlain] in
  let t := NT 0 [NT 1 [NT 2 [T 3 2 3 false; T 3 7 1 false]]; NT 4 [T 3 9 2 false]] in
  (match pnode g mm [] (fun _ _ => None) false false t None with
   | BOk (v, _) => vitems v = [IObj 2 11; IObj 2 8; IRef 9]%N
   | _ => False end) /\
  map rule_dict (abs g mm [] t) = [[(2%N, 8%N, 2); (2%N, 11%N, 0)]] /\
  map (fun nd => map (fun x => (cstart x, cend x)) (refs_pre nd)) (abs g mm [] t) = [[(9%N, 11%N)]].
Proof. vm_compute. repeat split; reflexivity. Qed.
Print Assumptions C34_build_nonvacuous.

(* non-vacuity for the position map: Wrap(1) = Mid(2) = Core(3) share a span, a second Wrap(4)
   shares only the start with its Mid(5); 6 is the model *)
Definition demo_tree : node :=
  NObj 6 0 30 [ NObj 1 0 6 [NObj 2 0 6 [NObj 3 0 6 [NTok 0 4; NTok 5 6]]];
                NObj 4 7 30 [NObj 5 7 13 [NObj 7 7 13 [NTok 7 11; NTok 12 13]]; NTok 14 18; NRef 0 19 30 [112;46;99]] ]%N.
Definition demo_dict : list (N * N * nat) := [ (7%N, 13%N, 7); (7%N, 30%N, 4); (0%N, 6%N, 3); (0%N, 30%N, 6) ].
Example C34_dict_nonvacuous :
  (rule_dict demo_tree = demo_dict) /\ (wfb demo_tree = true) /\ NoDup (map snd (objs_post demo_tree)).
Proof. vm_compute. repeat split. repeat constructor; cbn; intuition discriminate. Qed.
Print Assumptions C34_dict_nonvacuous.

(* non-vacuity: three references, the first postponed twice and the second once *)
Definition demo_refs := [ {| cid := 0; cstart := 10; cend := 13; cname := [112;46;99] |};
                          {| cid := 1; cstart := 15; cend := 16; cname := [99] |};
                          {| cid := 2; cstart := 20; cend := 25; cname := [112;46;99] |} ]%N.
Definition demo_tbl : list (nat * (nat * option target)) :=
  [ (0, (2, Some {| tfile := 0; tstart := 0%N; tend := 5%N |}));
    (1, (1, Some {| tfile := 1; tstart := 3%N; tend := 9%N |}));
    (2, (0, Some {| tfile := 0; tstart := 0%N; tend := 5%N |})) ]%nat.
Example C34_refs_nonvacuous :
  match load (table_ans demo_tbl) (fun _ => false) [demo_refs] with
  | Ok [es] => map e_ref es = [0; 1; 2] /\ map e_end es = [13; 16; 25]%N /\ map e_file es = [0; 1; 0]
  | _ => False
  end.
Proof. vm_compute. repeat split. Qed.
Print Assumptions C34_refs_nonvacuous.

(* builtins and repository: reference 1 is not found by the provider (after one postponement) and
   is a builtin name: it gets no entry; the second model was loaded earlier and keeps its list *)
Definition demo_tbl2 : list (nat * (nat * option target)) :=
  [ (0, (1, Some {| tfile := 1; tstart := 0%N; tend := 5%N |}));
    (1, (1, None));
    (2, (0, Some {| tfile := 0; tstart := 0%N; tend := 5%N |})) ]%nat.
Definition demo_old : list entry :=
  [ {| e_ref := 9; e_name := [99]%N; e_start := 4%N; e_end := 5%N; e_file := 1; e_dstart := 0%N; e_dend := 3%N |} ].
Example C34_repo_nonvacuous :
  match load_repo (table_ans demo_tbl2) (fun x => Nat.eqb (cid x) 1) [Fresh demo_refs; Done demo_old] with
  | Ok [es; old] => map e_ref es = [0; 2] /\ old = demo_old
  | _ => False
  end /\
  load (table_ans demo_tbl2) (fun _ => false) [demo_refs] = UnknownObject.
Proof. vm_compute. repeat split. Qed.
Print Assumptions C34_repo_nonvacuous.

(* The converse of C34_built_objects_are_keys is false, also in textX: an object created for a rule
   referenced without an assignment is registered in the position map and then dropped, so the
   keys are NOT exactly the spans of the objects of the returned model (witness and replay in
   Proofs/EdPosBuildProofs.v and design/C34.md).  C34 itself is not affected: the key still is the
   span of the object it maps to. *)
Theorem C34_keys_exactly_built_refuted :
  exists g mm input grp auto use_grp t v top',
    pnode g mm input grp auto use_grp t None = BOk (v, top') /\
    exists nd s e i, In nd (abs g mm [] t) /\ In (s, e, i) (rule_dict nd) /\ ~ In (IObj s e) (vitems v).
Proof.
  exists (mkGrammar [] 0 None), drop_mm, [], (fun _ _ => None), false, false, drop_tree.
  eexists. eexists. split; [vm_compute; reflexivity|].
  eexists. exists 4%N, 7%N, 4. split; [vm_compute; left; reflexivity|]. split.
  - vm_compute. left. reflexivity.
  - vm_compute. intros [H|[H|[]]]; discriminate.
Qed.
Print Assumptions C34_keys_exactly_built_refuted.
