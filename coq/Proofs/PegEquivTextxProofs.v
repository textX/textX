(* The textX instance of the checker soundness theorem: depends on the generated parser tables
   (Gen/SrcLangPeg.v, Gen/SrcTxPeg.v), so it is re-proved whenever the source under test changes,
   while the general proofs in Proofs/PegEquivProofs.v are not rebuilt. *)
From TxV Require Import Core.Base Model.PegSyntax Model.Peg Proofs.PegProofs Model.PegEquiv Proofs.PegEquivProofs
  Proofs.PegEquivAccProofs.
From TxV Require Import Gen.SrcLangPeg Gen.SrcTxPeg.

Definition textx_R : list (nat * nat * bool) :=
  reach_all lang_grammar tx_grammar (seeds_of lang_labels tx_labels textx_seeds).

(* oracle ids of the regular expressions assumed never to match the empty string *)
Definition textx_ne : list nat := ne_of lang_oracles textx_nonempty_patterns.

Definition accepted_pair (p : nat * nat * bool) : bool :=
  match p with
  | (i, j, _) => existsb (lp_eqb (label_of lang_labels i, label_of tx_labels j)) textx_accepted_diffs
  end.

Definition textx_alts : list (nat * nat * nat) := alts_of lang_oracles textx_alt_patterns.

Definition accepted_pair_acc (p : nat * nat * bool) : bool :=
  match p with
  | (i, j, _) => existsb (lp_eqb (label_of lang_labels i, label_of tx_labels j)) textx_accepted_diffs_acc
  end.

(* The traversal is evaluated here, once; the sweep below runs over its value. *)
Definition textx_R_nf : list (nat * nat * bool) := Eval vm_compute in textx_R.

Lemma textx_R_eq : textx_R = textx_R_nf.
Proof. vm_compute. reflexivity. Qed.

(* Stated with the name on the left: the kernel then unfolds the name and finds the two sides identical;
   the other way round it evaluates the traversal. *)
Lemma textx_R_unfold : textx_R = reach_all lang_grammar tx_grammar (seeds_of lang_labels tx_labels textx_seeds).
Proof. reflexivity. Qed.

(* One sweep for both modes: a pair passes the strong local check, or it is an accepted difference of the
   strong mode and then either an accepted difference of the weak mode or passes the weak local check.
   The weak check only adds rules (local_ok_weaken), so it is evaluated only where the strong one fails. *)
Lemma textx_sweep :
  frame_ok lang_grammar tx_grammar textx_R = true /\
  forallb (fun p => local_ok lang_grammar tx_grammar textx_ne false [] textx_R p
                    || accepted_pair p && (accepted_pair_acc p || local_ok lang_grammar tx_grammar textx_ne true textx_alts textx_R p))
          textx_R = true.
Proof. rewrite textx_R_eq. vm_compute. split; reflexivity. Qed.

(* every pair of the traversal passes the local check or is an accepted difference *)
Lemma textx_pairs :
  frame_ok lang_grammar tx_grammar textx_R = true /\
  forallb (fun p => local_ok lang_grammar tx_grammar textx_ne false [] textx_R p || accepted_pair p) textx_R = true.
Proof.
  split; [exact (proj1 textx_sweep)|]. apply forallb_forall. intros p HIn.
  pose proof (proj1 (forallb_forall _ _) (proj2 textx_sweep) p HIn) as S. cbv beta in S.
  destruct (local_ok lang_grammar tx_grammar textx_ne false [] textx_R p); [reflexivity|].
  destruct (accepted_pair p); [reflexivity | exact S].
Qed.

(* the same in the weak mode (acceptance only) *)
Lemma textx_pairs_acc :
  frame_ok lang_grammar tx_grammar textx_R = true /\
  forallb (fun p => local_ok lang_grammar tx_grammar textx_ne true textx_alts textx_R p || accepted_pair_acc p) textx_R = true.
Proof.
  split; [exact (proj1 textx_sweep)|]. apply forallb_forall. intros p HIn.
  pose proof (proj1 (forallb_forall _ _) (proj2 textx_sweep) p HIn) as S. cbv beta in S.
  destruct (local_ok lang_grammar tx_grammar textx_ne false [] textx_R p) eqn:L.
  - rewrite (local_ok_weaken _ _ _ textx_alts _ _ L). reflexivity.
  - destruct (accepted_pair p); [|discriminate S]. cbn [orb andb] in S. rewrite orb_comm. exact S.
Qed.

