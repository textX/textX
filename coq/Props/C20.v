(* C20 - ignore_case makes grammar literals case-insensitive.

   Setting: tools/pegdump.py dumps the parser model that textX built with ignore_case=True into a
   [grammar] table; regex terminals and ignore_case StrMatches are answered by an oracle
   (Python's re / str.lower on the concrete text).  Model/Peg.v interprets the table.
   All statements below are for EVERY table, text, oracle, fuel and both memoization settings. *)
From TxV Require Import Core.Base Model.PegSyntax Model.Peg Model.Build Model.KwDefs Gen.SrcKw Model.Kw
     Proofs.PegCongr Proofs.KwProofs Proofs.PegInv Proofs.KwBuild Proofs.KwModel Proofs.KwModel2 Proofs.KwWitness Proofs.KwStatements.

(* (1) What visit_str_match / visit_re_match of the CURRENT source construct under ignore_case=True:
   every string literal (plain or keyword-like under autokwd) and every user regex gets the flag.
   Depends on Gen/SrcKw.v (regenerated from textx/lang.py on every run). *)
Theorem C20_compile : forall wordc digitc autokwd t pat,
  spec_icase (compile_lit wordc digitc autokwd true t) = true /\
  spec_icase (compile_regex true pat) = true.
Proof.
  exact (fun wordc digitc autokwd t pat =>
           conj (compile_lit_icase wordc digitc autokwd t eq_refl eq_refl) (compile_regex_icase pat eq_refl)).
Qed.
Print Assumptions C20_compile.

(* (2) Terminal congruence: two texts on which every terminal of the table answers alike at every
   position, and which differ only at characters that belong to no whitespace set of the
   grammar, are parsed identically: same acceptance, same tree (rule nodes, positions, lengths),
   same error position. *)
Theorem C20_terminal_congruence : forall g cfg orc orc' memo fuel input input',
  Forall2 (char_ok (ws_universe g cfg)) input input' ->
  oracles_agree g orc orc' ->
  exact_agree g input input' ->
  run g cfg orc' memo fuel input' = run g cfg orc memo fuel input.
Proof. exact terminal_congruence. Qed.
Print Assumptions C20_terminal_congruence.

(* (3) The property: if the table has no case-sensitive StrMatch (decidable, checked on every dumped
   ignore_case table), the oracle of each of its terminals does not look at letter case, and s'
   is a case variant of s (not touching whitespace characters), the outcome is the same. *)
Theorem C20_invariant : forall lower g cfg (O : list N -> nat -> nat -> option nat) memo fuel s s',
  all_str_icase g = true ->
  (forall nid nd o, get_node g nid = Some nd -> kind_oid (n_kind nd) = Some o -> case_blind lower O o) ->
  case_variant lower s s' ->
  Forall2 (char_ok (ws_universe g cfg)) s s' ->
  run g cfg (O s') memo fuel s' = run g cfg (O s) memo fuel s.
Proof. exact icase_invariant. Qed.
Print Assumptions C20_invariant.

(* (3') The decidable instance check the harness evaluates on every (original, variant) pair is sound:
   when it says [true] for the dumped table, the two oracle tables computed by Python and the two
   texts, the two parses coincide (for every fuel and memoization setting). *)
Theorem C20_check_sound : forall lower g cfg tbl tbl' s s' memo fuel,
  c20_hyp_b lower g cfg tbl tbl' s s' = true ->
  run g cfg (orc_of tbl') memo fuel s' = run g cfg (orc_of tbl) memo fuel s.
Proof. exact c20_hyp_sound. Qed.
Print Assumptions C20_check_sound.

(* (4) The two literal terminals textX itself defines are case blind under ignore_case:
   StrMatch (lowered comparison) and the keyword regex <literal>\b (given that \w does not
   depend on case). *)
Theorem C20_literals_case_blind : forall lower wordc t s s' p,
  case_variant lower s s' ->
  str_match lower true t s' p = str_match lower true t s p /\
  (word_lower lower wordc -> kw_match wordc lower true t s' p = kw_match wordc lower true t s p).
Proof.
  exact (fun lower wordc t s s' p H =>
           conj (str_match_blind lower t s s' p H) (fun Hw => kw_match_blind lower wordc t s s' p Hw H)).
Qed.
Print Assumptions C20_literals_case_blind.

(* (5) Values: a regex terminal (ID, user regex, keyword regex) yields the slice of the text at its
   (unchanged) position and length: the slice of the variant is the variant of the slice, and
   is identical when no character inside it was changed. *)
Theorem C20_values_keep_case : forall lower s s' p len,
  case_variant lower s s' ->
  case_variant lower (slice s p len) (slice s' p len) /\
  ((forall i, p <= i < p + len -> nth_error s' i = nth_error s i) -> slice s' p len = slice s p len).
Proof.
  exact (fun lower s s' p len H => conj (slice_case_variant lower s s' p len H) (slice_unchanged s s' p len)).
Qed.
Print Assumptions C20_values_keep_case.

(* (5') The property at the level of the constructed model (Model/Build.v = textx/model.py
   parse_tree_to_objgraph on the dumped metamodel table [mm], validated by the C01/C06 correspondence):
   under the hypotheses of (3), if the original is accepted with tree [r] and no changed letter lies inside
   a match that a base type converts (INT FLOAT STRICTFLOAT BOOL STRING), then the variant is accepted with
   the same tree and the two object graphs are related by [vrel lower]: same classes, attribute names,
   positions, list shapes, the same error if construction fails; every string value is identical or - when it
   is (built from) an input slice of a regex terminal - equal up to letter case, i.e. it keeps the case it was
   written in; StrMatch values are the grammar's text in both.  (use_regexp_group=False.) *)
Theorem C20_model_structure : forall lower g cfg (O : list N -> nat -> nat -> option nat) memo fuel s s' mm grp grp' auto r,
  all_str_icase g = true ->
  (forall nid nd o, get_node g nid = Some nd -> kind_oid (n_kind nd) = Some o -> case_blind lower O o) ->
  case_variant lower s s' ->
  Forall2 (char_ok (ws_universe g cfg)) s s' ->
  run g cfg (O s) memo fuel s = Parsed r ->
  base_matches_unchanged g s s' r ->
  run g cfg (O s') memo fuel s' = Parsed r /\
  vbrel lower (build g mm s grp auto false r) (build g mm s' grp' auto false r).
Proof. intros. apply (icase_model_rel lower g cfg O memo fuel); try assumption. discriminate. Qed.
Print Assumptions C20_model_structure.

(* (5'') The same for any use_regexp_group setting: the value of a regex terminal with exactly one group is the
   slice of group(1), read from the group oracle; group spans are positions, so the oracle is the same for both
   texts, and group(1) of a base-type match (BOOL) must not have been re-cased either. *)
Theorem C20_model_structure_grp : forall lower g cfg (O : list N -> nat -> nat -> option nat) memo fuel s s' mm grp grp' auto ug r,
  all_str_icase g = true ->
  (forall nid nd o, get_node g nid = Some nd -> kind_oid (n_kind nd) = Some o -> case_blind lower O o) ->
  case_variant lower s s' ->
  Forall2 (char_ok (ws_universe g cfg)) s s' ->
  run g cfg (O s) memo fuel s = Parsed r ->
  base_matches_unchanged g s s' r ->
  (forall o p, grp' o p = grp o p) ->
  base_groups_unchanged g grp s s' r ->
  run g cfg (O s') memo fuel s' = Parsed r /\
  vbrel lower (build g mm s grp auto ug r) (build g mm s' grp' auto ug r).
Proof. intros. apply (icase_model_rel lower g cfg O memo fuel); try assumption. intros _. split; assumption. Qed.
Print Assumptions C20_model_structure_grp.

Example C20_model_structure_nonvacuous :
  exists r v,
    run g_begin cfg_default (orc_of tbl_begin) false 50 in_begin1 = Parsed r /\
    base_matches_unchanged g_begin in_begin1 in_begin2 r /\
    build g_begin mm_begin in_begin1 no_grp true false r = BOk v /\
    build g_begin mm_begin in_begin2 no_grp true false r = BOk v /\
    v = VObj [77;111;100;101;108]%N 0 11 [([110;97;109;101]%N, VTerm [73;68]%N [120]%N)].
Proof.
  eexists. eexists. split; [vm_compute; reflexivity|]. split.
  - intros nid p len Hin Hb. vm_compute in Hin.
    repeat (destruct Hin as [E|Hin]; [injection E as <- <- <-; first [discriminate Hb | reflexivity]|]). destruct Hin.
  - split; [vm_compute; reflexivity|]. split; vm_compute; reflexivity.
Qed.
Print Assumptions C20_model_structure_nonvacuous.

(* (6) Outside the hypothesis of (3) the statement fails: BOOL is a built-in whose regex is case
   sensitive whatever ignore_case says.  `Model: b=BOOL | 'true' x=ID;` accepts "TRUE a" through
   the literal and rejects its case variant "true a" (tables dumped from the real parser;
   replayed on the implementation by the check: corpus/C20/bool.json). *)
Theorem C20_refuted_case_sensitive_builtin :
  exists g cfg tbl tbl' s s',
    all_str_icase g = true /\ case_variant ascii_lower s s' /\
    accepted (run g cfg (orc_of tbl) false 50 s) = true /\
    run g cfg (orc_of tbl') false 50 s' = SyntaxErr 5.
Proof.
  exists g_bool, cfg_default, tbl_bool1, tbl_bool2, in_bool1, in_bool2.
  split; [reflexivity|]. split; [reflexivity|]. split; vm_compute; reflexivity.
Qed.
Print Assumptions C20_refuted_case_sensitive_builtin.

(* non-vacuity of (2)/(3): `Model: 'begin' name=ID 'end';`, "begin x end" vs "BEGIN x End" *)
Example C20_nonvacuous :
  in_begin1 <> in_begin2 /\
  run g_begin cfg_default (orc_of tbl_begin) false 50 in_begin2
  = run g_begin cfg_default (orc_of tbl_begin) false 50 in_begin1 /\
  accepted (run g_begin cfg_default (orc_of tbl_begin) false 50 in_begin1) = true.
Proof.
  split; [discriminate|]. split; [|reflexivity].
  apply (c20_hyp_sound ascii_lower). vm_compute. reflexivity.
Qed.
Print Assumptions C20_nonvacuous.

Example C20_check_nonvacuous :
  c20_hyp_b ascii_lower g_begin cfg_default tbl_begin tbl_begin in_begin1 in_begin2 = true.
Proof. vm_compute. reflexivity. Qed.
Print Assumptions C20_check_nonvacuous.

Example C20_literals_nonvacuous :
  str_match ascii_lower true [105;102]%N [73;70;32;120]%N 0 = Some 2 /\
  str_match ascii_lower false [105;102]%N [73;70;32;120]%N 0 = None /\
  kw_match ascii_word ascii_lower true [105;102]%N [73;70;32;120]%N 0 = Some 2 /\
  kw_match ascii_word ascii_lower true [105;102]%N [73;70;120]%N 0 = None.
Proof. vm_compute. repeat split. Qed.
Print Assumptions C20_literals_nonvacuous.
