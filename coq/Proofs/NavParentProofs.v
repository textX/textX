(* C05 — the attribute called `parent`: where the tree model is exact, and what happens outside *)
From TxV Require Import Core.Base Model.Nav Model.NavParent Proofs.NavProofs.

(* inside the class `no_parent_attr` Python's getattr is the slot value: followp = follow *)
Section Agree.
  Variable root : obj.
  Variable h : heap.
  Variables sel sf : obj -> bool.
  Variable cf : bool.

  Lemma elemsp_ok (F : obj -> state -> fres) (F' : obj -> state -> state) vs :
    Forall (fun v => forall st, F v st = FOk (F' v st)) vs ->
    forall st, elemsp F sf vs st = FOk (follow_elems F' sf vs st).
  Proof.
    induction 1 as [|v vs Hv Hvs IH]; intro st; simpl; [reflexivity|].
    destruct (sf v); [rewrite Hv|]; simpl; apply IH.
  Qed.

  Lemma attrsp_ok id (F : obj -> state -> fres) (F' : obj -> state -> state) ss :
    find_slot s_parent ss = None ->
    Forall (fun v => forall st, F v st = FOk (F' v st)) (held ss) ->
    forall st, attrsp root h id F sf ss st = FOk (follow_attrs F' sf ss st).
  Proof.
    induction ss as [|[m vs] ss IH]; intros Hn HF st; [reflexivity|].
    unfold find_slot in Hn. cbn [find fst] in Hn.
    destruct (str_eqb (aname m) s_parent) eqn:En; [discriminate|].
    rewrite held_cons in HF. apply Forall_app in HF as [Hv Hs].
    cbn [attrsp follow_attrs]. unfold py_getattr. rewrite En.
    destruct (acont m); [|simpl; apply IH; assumption].
    unfold slot_vals in Hv. destruct (amany m).
    - rewrite (elemsp_ok F F' vs Hv). simpl. apply IH; assumption.
    - destruct vs as [|v vs']; [simpl; apply IH; assumption|].
      inversion Hv as [|v0 l0 Hv0 _]; subst. destruct (sf v); [rewrite Hv0|]; simpl; apply IH; assumption.
  Qed.

  Lemma followp_follow : forall elem,
    no_parent_attr elem = true ->
    forall fuel st, length (nodes elem) < fuel ->
      followp root h fuel sel sf cf elem st = FOk (follow sel sf cf elem st).
  Proof.
    induction elem as [k t|t|id c slots IH] using obj_held_ind; intros Hnp fuel st Hf;
      (destruct fuel as [|f]; [inversion Hf|]); try reflexivity.
    cbn [followp follow]. destruct (mem_N id (snd st)); [reflexivity|].
    rewrite (attrsp_ok id _ (follow sel sf cf) slots); [reflexivity | |].
    - apply (no_parent_attr_slots _ (Node id c slots) Hnp), self_in_walk. reflexivity.
    - unfold no_parent_attr in *. rewrite nodes_node in Hf, Hnp. rewrite forallb_forall in Hnp.
      rewrite Forall_forall in *. intros v Hv st'. apply (IH v Hv).
      + apply forallb_forall. intros x Hx. apply Hnp. right. apply in_flat_map. exists v. auto.
      + simpl in Hf. apply Nat.succ_lt_mono in Hf.
        exact (Nat.le_lt_trans _ _ _ (flat_map_length_ge nodes _ v Hv) Hf).
  Qed.
End Agree.

(* outside: a cycle of parent links makes get_model run forever *)
Lemma get_model_cycle (h : heap) a b ca cb :
  lookup a h = Some {| hcls := ca; hparent := Some (PObj b) |} ->
  lookup b h = Some {| hcls := cb; hparent := Some (PObj a) |} ->
  forall fuel, get_model h fuel a = GFuel /\ get_model h fuel b = GFuel.
Proof.
  intros Ha Hb. induction fuel as [|f [IHa IHb]]; [split; reflexivity|].
  split; simpl; [rewrite Ha | rewrite Hb]; simpl; assumption.
Qed.

Local Open Scope N_scope.
(* R0{c0=[R1 n1{parent->n2}, R1 n2{parent->n1}]}: `parent=[R1]` in a nested rule *)
Definition ex_parent_ref : obj :=
  Node 0 [82;48] [ (mk_attr [99;48] true true,
    [ Node 1 [82;49] [ (mk_attr s_parent false false, [Ref 2]) ];
      Node 2 [82;49] [ (mk_attr s_parent false false, [Ref 1]) ] ]) ].
(* R0{c0=[R1 n1{parent=5}]}: a containment attribute `parent=INT` in a nested rule *)
Definition ex_parent_nested : obj :=
  Node 0 [82;48] [ (mk_attr [99;48] true true, [ Node 1 [82;49] [ (mk_attr s_parent true false, [Prim 1 [53]]) ] ]) ].
(* R0{c0=[R1 n1{parent=[R2 n2]}]}: a list attribute `parent+=R2` in a nested rule *)
Definition ex_parent_list : obj :=
  Node 0 [82;48] [ (mk_attr [99;48] true true,
    [ Node 1 [82;49] [ (mk_attr s_parent true true, [Node 2 [82;50] []]) ] ]) ].
Local Close Scope N_scope.

(* the call parse_tree_to_objgraph makes on every load: a selector nothing satisfies, from the root.
   getattr(n1, "parent") is the root again and nothing is ever collected, so root and n1 call each
   other at every depth. *)
Lemma parent_nested_diverges fuel :
  followp ex_parent_nested (heap_of ex_parent_nested) fuel (fun _ => false) (fun _ => true) false
          ex_parent_nested ([], []) = FRecursion /\
  followp ex_parent_nested (heap_of ex_parent_nested) fuel (fun _ => false) (fun _ => true) false
          (Node 1 [82;49] [ (mk_attr s_parent true false, [Prim 1 [53]]) ])%N ([], []) = FRecursion.
Proof.
  induction fuel as [|f [IHr IHn]]; [split; reflexivity|].
  assert (G0 : forall vs, py_getattr ex_parent_nested (heap_of ex_parent_nested) 0 (mk_attr [99;48]%N true true) vs
               = PyVals vs) by reflexivity.
  assert (G1 : forall vs, py_getattr ex_parent_nested (heap_of ex_parent_nested) 1 (mk_attr s_parent true false) vs
               = PyObj ex_parent_nested) by reflexivity.
  split.
  - unfold ex_parent_nested at 3.
    cbn [followp mem_N existsb snd negb andb attrsp acont mk_attr amany]. rewrite G0.
    cbn [elemsp bindf]. rewrite IHn. reflexivity.
  - cbn [followp mem_N existsb snd negb andb attrsp acont mk_attr amany]. rewrite G1, IHr. reflexivity.
Qed.

