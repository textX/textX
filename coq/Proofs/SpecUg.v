(* Unordered groups without separator whose members are all productive are inside the class of the refinement
   theorem (wfgu, SpecSepProofs.refinement_u): a table in the class, and the boundary. *)
From TxV Require Import Core.Base Model.PegSyntax.

(* Model: 'm' ('a' 'b' x=INT)#;   on "m b 3 a" *)
Definition g_ug : grammar := (mkGrammar [mkNode KSeq [1;8] None false [77;111;100;101;108]%N true false None None;
  mkNode KSeq [2;3] None false [77;111;100;101;108]%N true false None None;
  mkNode (KStr [109]%N None) [] None false []%N false false None None;
  mkNode KUnord [4;5;6] None false []%N false false None None;
  mkNode (KStr [97]%N None) [] None false []%N false false None None;
  mkNode (KStr [98]%N None) [] None false []%N false false None None;
  mkNode KSeq [7] None false [95;95;97;115;103;110;95;112;108;97;105;110]%N true false None None;
  mkNode (KRegex 0) [] None false [73;78;84]%N true false None None;
  mkNode KEOF [] None false [69;79;70]%N false false None None] 0 None).
(* boundary: with a separator the two clauses differ.  Model: ('a' 'b')#[','] 'b'?;  on "a b": after the
   separator is missing the interpreter fails the group (a member is left), the reference clause ends the group
   because the remaining member could still match, and the optional 'b' then takes it *)
Definition g_ugsep : grammar := (mkGrammar [mkNode KSeq [1;8] None false [77;111;100;101;108]%N true false None None;
  mkNode KSeq [2;6] None false [77;111;100;101;108]%N true false None None;
  mkNode KUnord [3;4] (Some 5) false []%N false false None None;
  mkNode (KStr [97]%N None) [] None false []%N false false None None;
  mkNode (KStr [98]%N None) [] None false []%N false false None None;
  mkNode (KStr [44]%N None) [] None false [115;101;112]%N false false None None;
  mkNode KOpt [7] None false []%N false false None None;
  mkNode (KStr [98]%N None) [] None false []%N false false None None;
  mkNode KEOF [] None false [69;79;70]%N false false None None] 0 None).
