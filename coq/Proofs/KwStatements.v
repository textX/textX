(* More dumped tables (tools/pegdump.py, tools/mmdump.py) for the examples of Props/C20.v and Props/C21.v: the
   metamodel tables of the grammars of Proofs/KwWitness.v and one more pair of parser models. *)
From TxV Require Import Core.Base Model.PegSyntax Model.Peg Model.Build.

(* the keyword regex of g_in_kw: node 4, literal "in", no ignore_case *)
Definition kwt_in (nid : nat) : option (list N * bool) :=
  if Nat.eqb nid 4 then Some ([105;110]%N, false) else None.

(* metamodel tables of g_begin and of g_in_plain / g_in_kw *)
Definition mm_begin : list ninfo := [IOther;
  IRule RCommon [77;111;100;101;108]%N [mkAttr [110;97;109;101]%N M1 true false [73;68]%N false];
  ITerm []%N 0;
  IAsgn [110;97;109;101]%N OpPlain;
  ITerm [73;68]%N 0;
  ITerm []%N 0;
  ITerm [69;79;70]%N 0].
Definition mm_in : list ninfo := [IOther;
  IRule RCommon [77;111;100;101;108]%N [mkAttr [120]%N M1 true false [73;68]%N false;mkAttr [121]%N M1 true false [73;68]%N false];
  IOther;
  IOther;
  ITerm []%N 0;
  IAsgn [120]%N OpPlain;
  ITerm [73;68]%N 0;
  IAsgn [121]%N OpPlain;
  ITerm []%N 0;
  ITerm [69;79;70]%N 0].
Definition no_grp : nat -> nat -> option (nat * nat) := fun _ _ => None.

(* `Model: k=Kw n=ID; Kw: 'foo'|'bar';` with ignore_case, plain / autokwd, on "FOO x" *)
Definition g_kwv_plain : grammar := (mkGrammar [mkNode KSeq [1;8] None false [77;111;100;101;108]%N true false None None;
  mkNode KSeq [2;6] None false [77;111;100;101;108]%N true false None None;
  mkNode KSeq [3] None false [95;95;97;115;103;110;95;112;108;97;105;110]%N true false None None;
  mkNode KChoice [4;5] None false [75;119]%N true false None None;
  mkNode (KStr [102;111;111]%N (Some 0)) [] None false []%N false false None None;
  mkNode (KStr [98;97;114]%N (Some 1)) [] None false []%N false false None None;
  mkNode KSeq [7] None false [95;95;97;115;103;110;95;112;108;97;105;110]%N true false None None;
  mkNode (KRegex 2) [] None false [73;68]%N true false None None;
  mkNode KEOF [] None false [69;79;70]%N false false None None] 0 None).
Definition g_kwv_kw : grammar := (mkGrammar [mkNode KSeq [1;8] None false [77;111;100;101;108]%N true false None None;
  mkNode KSeq [2;6] None false [77;111;100;101;108]%N true false None None;
  mkNode KSeq [3] None false [95;95;97;115;103;110;95;112;108;97;105;110]%N true false None None;
  mkNode KChoice [4;5] None false [75;119]%N true false None None;
  mkNode (KRegex 0) [] None false []%N false false None None;
  mkNode (KRegex 1) [] None false []%N false false None None;
  mkNode KSeq [7] None false [95;95;97;115;103;110;95;112;108;97;105;110]%N true false None None;
  mkNode (KRegex 2) [] None false [73;68]%N true false None None;
  mkNode KEOF [] None false [69;79;70]%N false false None None] 0 None).
Definition tbl_kwv := [((0,0),3);((2,0),3);((2,1),2);((2,2),1);((2,4),1)].
Definition mm_kwv : list ninfo := [IOther;
  IRule RCommon [77;111;100;101;108]%N [mkAttr [107]%N M1 true false [75;119]%N false;mkAttr [110]%N M1 true false [73;68]%N false];
  IAsgn [107]%N OpPlain;
  IRule RMatch [75;119]%N [];
  ITerm []%N 0;
  ITerm []%N 0;
  IAsgn [110]%N OpPlain;
  ITerm [73;68]%N 0;
  ITerm [69;79;70]%N 0].
Definition in_kwv : list N := [70;79;79;32;120]%N.     (* "FOO x" *)

