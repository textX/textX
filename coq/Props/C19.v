(* C19 - memoization never changes parse results.

   Model: Model/Peg.v ([run g cfg orc memo fuel input]: the Arpeggio interpreter on the parser model
   dumped from the live textX parser, parameterised by the terminal oracle and the memoization flag).

   The class: [ctx_constant g] = no node sets rule-level ws/skipws, no eolterm repetition, and the
   comment model is absent or a single terminal (a Match node is never memoized, so no memoizable
   node is shared with the main grammar).  Each exclusion is shown necessary by a refuted theorem with
   a vm_compute witness that replays on the implementation (corpus/C19): rule modifier, eolterm, rule
   shared with the Comment rule, Comment rule that is not a single terminal. *)
From TxV Require Import Core.Base Model.PegSyntax Model.Peg Proofs.PegProofs Proofs.PegMemo Proofs.PegFuel Proofs.PegTerm Proofs.PegErrPos.

(* For every grammar in the class (sequences, ordered choice, optional, repetitions with separators,
   unordered groups, predicates, suppression, any terminals; optional single-terminal Comment rule),
   every parser configuration (skipws on or off, any ws), every terminal oracle, every input and every
   fuel for which the un-memoized interpreter terminates, the memoized interpreter returns exactly the
   same outcome: the same parse tree (node ids, positions, lengths, suppress flags) on acceptance, the
   same error position on rejection. *)
Theorem C19_memo_safe :
  forall g cfg orc fuel input,
    ctx_constant g = true ->
    not_aborted (run g cfg orc false fuel input) ->
    run g cfg orc true fuel input = run g cfg orc false fuel input.
Proof. intros g cfg orc fuel input Hc Hn. exact (memo_safe g input orc Hc cfg fuel Hn). Qed.
Print Assumptions C19_memo_safe.

(* Fuel is irrelevant once it suffices (for EVERY grammar, also outside the class, and both
   memoization settings): an outcome other than "out of fuel" is the outcome for every larger fuel. *)
Theorem C19_run_fuel_mono :
  forall g cfg orc memo f f' input,
    f <= f' -> run g cfg orc memo f input <> Aborted 0 ->
    run g cfg orc memo f' input = run g cfg orc memo f input.
Proof. exact run_fuel_mono. Qed.
Print Assumptions C19_run_fuel_mono.

(* hence the two interpreters may be given different (sufficient) amounts of fuel *)
Theorem C19_memo_safe_any_fuel :
  forall g cfg orc f f' input,
    ctx_constant g = true ->
    not_aborted (run g cfg orc false f input) -> f <= f' ->
    run g cfg orc true f' input = run g cfg orc false f input.
Proof.
  intros g cfg orc f f' input Hc Hn L.
  pose proof (memo_safe g input orc Hc cfg f Hn) as E.
  rewrite <- E. apply run_fuel_mono; [exact L|]. rewrite E.
  destruct (run g cfg orc false f input); try discriminate. contradiction.
Qed.
Print Assumptions C19_memo_safe_any_fuel.

(* non-vacuity with a Comment rule: `Model: xs+=X[','] ';' | xs+=X[','] '.'; X: 'x' | /\d+/;
   Comment: /\/\/.*?$/;` accepts `x, // c\n 1, x.` with memoization on *)
Example C19_memo_safe_comment_nonvacuous :
  ctx_constant g_exc = true /\ c_skipws c_default = true /\
  accepts (run g_exc c_default (orc_of tbl_exc) true 100 in_exc) = true /\
  run g_exc c_default (orc_of tbl_exc) true 100 in_exc = run g_exc c_default (orc_of tbl_exc) false 100 in_exc.
Proof. vm_compute. repeat split. Qed.
Print Assumptions C19_memo_safe_comment_nonvacuous.

(* non-vacuity of the hypotheses: a grammar in the class with backtracking over a shared rule
   (`Model: xs+=X[','] ';' | xs+=X[','] '.'; X: 'x' | /\d+/;`), accepted `x, 1, x.` and rejected
   `x, 1, x!` (error position 7), with memoization on *)
Example C19_memo_safe_nonvacuous :
  ctx_constant g_ex = true /\
  accepts (run g_ex c_default (orc_of tbl_ex0) true 100 in_ex0) = true /\
  run g_ex c_default (orc_of tbl_ex0) true 100 in_ex0 = run g_ex c_default (orc_of tbl_ex0) false 100 in_ex0 /\
  run g_ex c_default (orc_of tbl_ex1) false 100 in_ex1 = SyntaxErr 7 /\
  run g_ex c_default (orc_of tbl_ex1) true 100 in_ex1 = SyntaxErr 7.
Proof. vm_compute. repeat split. Qed.
Print Assumptions C19_memo_safe_nonvacuous.

(* Outside the class the property fails in the faithful model (and on the implementation):
   a rule modifier changes the whitespace mode, the packrat cache is keyed by position only.
   `Model: a=A | b=B; A[noskipws]: x=X 'q'; B: x=X 'r'; X: 'x' 'y';` on `x y r` *)
Theorem C19_refuted :
  exists g c orc fuel input,
    ctx_constant g = false /\
    accepts (run g c orc false fuel input) = true /\
    run g c orc true fuel input = SyntaxErr 1.
Proof. exists g_probe, c_default, (fun _ _ => None), 100, in_probe. vm_compute. repeat split. Qed.
Print Assumptions C19_refuted.

(* eolterm: `Model: ('a' X 'q')*[eolterm] 'a' X 'r'; X: 'x' 'y';` on `a x\ny r` *)
Theorem C19_eolterm_refuted :
  exists g c orc fuel input,
    ctx_constant g = false /\
    accepts (run g c orc false fuel input) = true /\
    run g c orc true fuel input = SyntaxErr 3.
Proof. exists g_eol, c_default, (orc_of tbl_eol0), 100, in_eol0. vm_compute. repeat split. Qed.
Print Assumptions C19_eolterm_refuted.

(* a rule shared between the Comment rule and the main grammar:
   `Model: ('k' | CB) 'r'; Comment: CL | CB; CL: /\/\/.*?$/; CB: '#' 'x';` on `#// c\n x r` *)
Theorem C19_comment_shared_refuted :
  exists g c orc fuel input,
    ctx_constant g = false /\
    accepts (run g c orc false fuel input) = true /\
    run g c orc true fuel input = SyntaxErr 0.
Proof. exists g_cmt, c_default, (orc_of tbl_cmt0), 100, in_cmt0. vm_compute. repeat split. Qed.
Print Assumptions C19_comment_shared_refuted.

(* a Comment rule with two alternatives and no whitespace modifier anywhere:
   `Model: B 'q' | 'b'; B: /[^;\n]+/ 'x'; Comment: /\/\/.*?$/ | /\/\*(.|\n)*?\*\//;` on `b//\n/**/`
   is rejected without memoization (comment_positions is consulted while parsing comments, so the
   block comment at 4 is jumped over) and accepted with it (the Comment rule's own cache entry
   answers first).  So a memoizable comment model must be excluded from the class. *)
Theorem C19_comment_model_refuted :
  exists g c orc fuel input,
    ctx_constant g = false /\
    run g c orc false fuel input = SyntaxErr 8 /\
    accepts (run g c orc true fuel input) = true.
Proof.
  exists g_cm2, c_default, (orc_of tbl_cm2), 100, in_cm2. vm_compute. repeat split.
Qed.
Print Assumptions C19_comment_model_refuted.

(* Termination of the interpreter
   (PEG core; used by the properties that state interpreter-level theorems "if the run is not Aborted 0").
   For grammar tables accepted by the decidable check [terminating rxn g] (Proofs/PegTerm.v: no left
   recursion w.r.t. a nullability over-approximation, repetition elements that cannot be truthy without
   consuming, a Comment rule that cannot succeed without consuming; unordered groups included), every
   configuration, both memoization settings, every oracle that stays inside the input and whose regex
   matches are non-empty for the oracle ids with [rxn o = false], the interpreter does not run out of
   fuel once the fuel reaches the computable [fuel_bound rxn g input]. *)
Theorem PEG_run_terminates :
  forall rxn g c orc m input f,
    terminating rxn g = true -> orc_sane g input orc ->
    (forall o, rxn o = false -> forall p l, orc o p = Some l -> 0 < l) ->
    fuel_bound rxn g input <= f -> run g c orc m f input <> Aborted 0.
Proof. exact run_terminates. Qed.
Print Assumptions PEG_run_terminates.

Example PEG_run_terminates_nonvacuous :
  terminating none_nullable g_ex = true /\
  orc_sane g_ex [120;44;120;46]%N (fun _ _ => None) /\ orc_pos (fun _ _ => None) /\
  accepts (run g_ex c_default (fun _ _ => None) true (fuel_bound none_nullable g_ex [120;44;120;46]%N) [120;44;120;46]%N) = true.
Proof. exact terminates_example. Qed.
Print Assumptions PEG_run_terminates_nonvacuous.

(* outside the class, left recursion `Model: A; A: A 'x' | 'y';`: the check rejects the table and the
   model is out of fuel for EVERY fuel, input, oracle and configuration (the real parser dies with
   RecursionError) *)
Theorem PEG_leftrec_refuted :
  forall c orc input f,
    terminating all_nullable g_leftrec = false /\ run g_leftrec c orc false f input = Aborted 0.
Proof. exact leftrec_never_terminates. Qed.
Print Assumptions PEG_leftrec_refuted.

(* outside the class, a repetition whose element is truthy without consuming `Model: ('y'* | 'b')* 'c';`:
   rejected by the check; the real parser loops forever, the model is out of fuel (fuel 1500 shown;
   by C19_run_fuel_mono then for every smaller fuel) *)
Theorem PEG_loop_refuted :
  terminating all_nullable g_loop = false /\
  run g_loop (mkConfig true [9;10;13;32]%N) (fun _ _ => None) false 1500 [99]%N = Aborted 0.
Proof. exact loop_aborts_1500. Qed.
Print Assumptions PEG_loop_refuted.

(* the failure position reported for a rejected input lies inside the input (every grammar table,
   configuration, memoization setting, fuel; oracle inside the input) - used by C28 *)
Theorem PEG_run_syntaxerr_in_text :
  forall g c orc m f input p,
    orc_sane g input orc -> run g c orc m f input = SyntaxErr p -> p <= length input.
Proof. exact run_syntaxerr_in_text. Qed.
Print Assumptions PEG_run_syntaxerr_in_text.
