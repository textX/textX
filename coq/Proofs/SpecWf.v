(* Well-formedness of the parse trees the interpreter produces, for grammars in the class of the
   refinement theorem without separators: proved on the reference semantics and transported by
   SpecSepProofs.refinement. *)
From TxV Require Import Core.Base Model.PegSyntax Model.Peg Model.Spec Model.Build
     Proofs.BuildProofs Proofs.SpecProofs Proofs.SpecSepProofs.
Require Import Lia.

(* trees laid out left to right inside [lo, hi], each well formed *)
Fixpoint lay (lo hi : nat) (l : list tree) : Prop :=
  match l with
  | [] => lo <= hi
  | t :: l' => wf_tree t = true /\ lo <= tpos t /\ lay (tend t) hi l'
  end.

Lemma lay_le l : forall lo hi, lay lo hi l -> lo <= hi.
Proof.
  induction l as [|t l IH]; intros lo hi H; [exact H|].
  destruct H as [W [A B]]. pose proof (wf_tree_nonempty _ W). specialize (IH _ _ B). lia.
Qed.

Lemma lay_app a : forall lo mid hi b, lay lo mid a -> lay mid hi b -> lay lo hi (a ++ b).
Proof.
  induction a as [|t a IH]; intros lo mid hi b Ha Hb; cbn [app].
  - cbn in Ha. destruct b as [|u b]; [cbn in *; lia|]. destruct Hb as [W [A B]]. split; [exact W|]. split; [lia | exact B].
  - destruct Ha as [W [A B]]. split; [exact W|]. split; [exact A|]. apply (IH _ mid); assumption.
Qed.

Lemma lay_lo l lo lo' hi : lay lo hi l -> lo' <= lo -> lay lo' hi l.
Proof. destruct l as [|t l]; cbn; intros H L; [lia|]. destruct H as [W [A B]]. split; [exact W|]. split; [lia | exact B]. Qed.

Lemma lay_hi l : forall lo hi hi', lay lo hi l -> hi <= hi' -> lay lo hi' l.
Proof.
  induction l as [|t l IH]; intros lo hi hi' H L; [cbn in *; lia|].
  destruct H as [W [A B]]. split; [exact W|]. split; [exact A|]. apply (IH _ hi); assumption.
Qed.

Lemma wf_NT_cons n t u l :
  wf_tree (NT n (u :: l)) = true -> wf_tree t = true -> tend t <= tpos u -> wf_tree (NT n (t :: u :: l)) = true.
Proof.
  intros H W A. cbn [wf_tree forallb] in H |- *.
  change (ordered (t :: u :: l)) with (Nat.leb (tend t) (tpos u) && ordered (u :: l))%bool.
  apply andb_true_iff in H as [H1 H2]. cbn [andb] in H1. rewrite W, H1, H2. cbn [andb].
  rewrite andb_true_r. apply Nat.leb_le. exact A.
Qed.

(* a non-empty laid-out list makes a well-formed NonTerminal inside the same interval *)
Lemma lay_NT n t l lo hi :
  lay lo hi (t :: l) -> wf_tree (NT n (t :: l)) = true /\ lo <= tpos (NT n (t :: l)) /\ tend (NT n (t :: l)) <= hi.
Proof.
  revert t lo. induction l as [|u l IH]; intros t lo H.
  - destruct H as [W [A B]]. cbn in B. cbn [wf_tree forallb ordered]. rewrite W. cbn [andb].
    split; [reflexivity|]. rewrite tpos_NT, tend_single. split; lia.
  - destruct H as [W [A B]]. destruct (IH u (tend t) B) as [W' [A' B']].
    rewrite tpos_NT in *. rewrite tend_cons.
    split; [|split; [exact A | exact B']].
    apply wf_NT_cons; assumption.
Qed.

Lemma lay_T nid p len sp : 0 < len -> lay p (p + len) [T nid p len sp].
Proof.
  intro H. cbn [lay wf_tree tpos tend]. split; [apply Nat.ltb_lt; exact H|]. split; lia.
Qed.

Section Wf.
Variable g : grammar.
Variable input : list N.
Variable orc : nat -> nat -> option nat.
Variable pf : nat.
Hypothesis Hcm : g_comments g = None.
Hypothesis Horc : orc_pos orc.
Hypothesis Hwf : forall nid nd, get_node g nid = Some nd -> node_ok g (prodb g pf) nd = true.
Hypothesis Hnosep : forall nid nd, get_node g nid = Some nd -> n_sep nd = None.

(* nodes other than the top node and EOF *)
Definition inner (nid : nat) : Prop :=
  nid <> g_top g /\ match get_node g nid with Some nd => n_kind nd <> KEOF | None => False end.
Hypothesis Hinner : forall nid nd, get_node g nid = Some nd -> nid <> g_top g -> forall c, In c (n_kids nd) -> inner c.

Notation sparser := (nat -> bool -> sctx -> nat -> sres) (only parsing).

Definition wfP (srec : sparser) : Prop :=
  forall nid psq x p ts p', inner nid -> srec nid psq x p = SOk ts p' ->
    p <= p' /\ lay p p' (erase_all ts) /\
    (forall k, prodb g k nid = true -> erase_all ts <> [] /\ p < p').

Lemma sseq_wf srec psq x kids : wfP srec -> (forall c, In c kids -> inner c) ->
  forall acc p0 p ts p', lay p0 p (erase_all acc) -> sseq srec psq x kids acc p = SOk ts p' ->
    p <= p' /\ lay p0 p' (erase_all ts) /\ (exists rest, erase_all ts = erase_all acc ++ rest) /\
    (forall k, existsb (prodb g k) kids = true -> erase_all ts <> [] /\ p < p').
Proof.
  intros HP. induction kids as [|c kids IH]; intros Hin acc p0 p ts p' Hl H; cbn [sseq] in H.
  - inversion H; subst. split; [lia|]. split; [exact Hl|]. split; [exists []; rewrite app_nil_r; reflexivity|].
    intros k X; discriminate.
  - destruct (srec c psq x p) as [ts1 p1| |] eqn:E; try discriminate.
    destruct (HP c psq x p ts1 p1 (Hin c (or_introl eq_refl)) E) as [L1 [Y1 Pr1]].
    assert (Hl1 : lay p0 p1 (erase_all (acc ++ ts1))) by (rewrite erase_all_app; apply (lay_app _ p0 p); assumption).
    destruct (IH (fun c' Hc' => Hin c' (or_intror Hc')) (acc ++ ts1) p0 p1 ts p' Hl1 H) as [L2 [Y2 [[rest Er] Pr2]]].
    split; [lia|]. split; [exact Y2|]. split.
    + exists (erase_all ts1 ++ rest). rewrite Er, erase_all_app, app_assoc. reflexivity.
    + intros k Hk. cbn [existsb] in Hk. apply orb_true_iff in Hk as [Hk|Hk].
      * destruct (Pr1 k Hk) as [N1 Lt]. split; [|lia]. rewrite Er, erase_all_app. intro X.
        apply app_eq_nil in X as [X _]. apply app_eq_nil in X as [_ X]. contradiction.
      * destruct (Pr2 k Hk) as [N2 Lt]. split; [exact N2 | lia].
Qed.

Lemma schoice_wf srec x kids : wfP srec -> (forall c, In c kids -> inner c) ->
  (forall c, In c kids -> prodb g pf c = true) ->
  forall p ts p', schoice srec x kids p = SOk ts p' -> p < p' /\ lay p p' (erase_all ts) /\ erase_all ts <> [].
Proof.
  intros HP. induction kids as [|c kids IH]; intros Hin Hpr p ts p' H; cbn [schoice] in H; [discriminate|].
  destruct (srec c false x p) as [ts1 p1| |] eqn:E; try discriminate.
  - inversion H; subst. destruct (HP c false x p ts p' (Hin c (or_introl eq_refl)) E) as [L1 [Y1 Pr1]].
    destruct (Pr1 pf (Hpr c (or_introl eq_refl))) as [N Lt]. split; [exact Lt|]. split; [exact Y1 | exact N].
  - apply IH; [intros c' Hc'; apply Hin; right; exact Hc' | intros c' Hc'; apply Hpr; right; exact Hc' | exact H].
Qed.

Lemma srep_wf srec e plus x : wfP srec -> inner e -> prodb g pf e = true ->
  forall k first acc p0 p ts p', lay p0 p (erase_all acc) -> srep false srec e None plus x k first acc p = SOk ts p' ->
    p <= p' /\ lay p0 p' (erase_all ts) /\
    ((ts = acc /\ p' = p) \/ (erase_all ts <> [] /\ p < p')) /\
    ((plus && first)%bool = true -> erase_all ts <> [] /\ p < p').
Proof.
  intros HP Hie Hpe. induction k as [|k IH]; intros first acc p0 p ts p' Hl H; [discriminate|].
  cbn [srep] in H. cbn [app] in H.
  destruct (srec e false x p) as [ts1 p1| |] eqn:E; try discriminate.
  - destruct (HP e false x p ts1 p1 Hie E) as [L1 [Y1 Pr1]]. destruct (Pr1 pf Hpe) as [N1 Lt1].
    assert (Hb : Nat.ltb p p1 = true) by (apply Nat.ltb_lt; exact Lt1). rewrite Hb in H.
    assert (Hl1 : lay p0 p1 (erase_all (acc ++ ts1))) by (rewrite erase_all_app; apply (lay_app _ p0 p); assumption).
    destruct (IH false (acc ++ ts1) p0 p1 ts p' Hl1 H) as [L2 [Y2 [D2 _]]].
    assert (Hne : erase_all ts <> [] /\ p < p').
    { destruct D2 as [[-> ->]|[A B]].
      - split; [|exact Lt1]. rewrite erase_all_app. intro X. apply app_eq_nil in X as [_ X]. contradiction.
      - split; [exact A | lia]. }
    split; [lia|]. split; [exact Y2|]. split; [right; exact Hne | intros _; exact Hne].
  - destruct (plus && first)%bool; [discriminate|]. inversion H; subst.
    split; [lia|]. split; [exact Hl|]. split; [left; split; reflexivity | intro X; discriminate].
Qed.

Lemma seval_wf : forall f, wfP (seval g input orc false f).
Proof.
  induction f as [|f IH]; intros nid psq x p ts p' [Hnt Hk] H; [discriminate|].
  cbn [seval] in H. destruct (get_node g nid) as [nd|] eqn:En; [|discriminate].
  pose proof (Hwf _ _ En) as Hok. unfold node_ok in Hok.
  apply andb_true_iff in Hok as [Hok Hkind]. apply andb_true_iff in Hok as [Hok Hkids].
  assert (Hin : forall c, In c (n_kids nd) -> inner c) by (apply (Hinner nid nd En Hnt)).
  destruct (is_match_kind (n_kind nd)) eqn:Em.
  - (* terminals *)
    set (p1 := if x_skip x then sws input x p else p) in *.
    assert (Hp1 : p <= p1) by (subst p1; destruct (x_skip x); [apply skip_ws_from_ge | lia]).
    assert (Hs : skip g input (seval g input orc false f) f x p = Some p1).
    { unfold skip. rewrite Hcm. subst p1. destruct (x_skip x); [destruct (x_incmt x); reflexivity | reflexivity]. }
    rewrite Hs in H. clear Hs.
    assert (HT : forall ts0 p2, term_match input orc nid (n_kind nd) psq p1 = SOk ts0 p2 ->
                   p1 < p2 /\ lay p1 p2 (erase_all ts0) /\ erase_all ts0 <> []).
    { intros ts0 p2 HM. destruct (n_kind nd) as [| | | | | | | | | |t o|o] eqn:Ek; try discriminate.
      - exfalso. apply Hk. reflexivity.
      - assert (Hlen : 0 < length t) by (destruct t; [discriminate | cbn; lia]).
        cbn [term_match] in HM.
        assert (X : ts0 = [ST nid p1 (length t) psq] /\ p2 = p1 + length t).
        { destruct o as [o|]; [destruct (orc o p1) | destruct (is_prefix t (skipn p1 input))]; inversion HM; split; reflexivity. }
        destruct X as [-> ->]. change (erase_all [ST nid p1 (length t) psq]) with [T nid p1 (length t) psq].
        split; [lia|]. split; [apply lay_T; exact Hlen | discriminate].
      - cbn [term_match] in HM. destruct (orc o p1) as [len|] eqn:Eo; [|discriminate]. inversion HM; subst.
        pose proof (Horc _ _ _ Eo) as Hlen. change (erase_all [ST nid p1 len false]) with [T nid p1 len false].
        split; [lia|]. split; [apply lay_T; exact Hlen | discriminate]. }
    destruct (term_match input orc nid (n_kind nd) psq p1) as [ts0 p2| |] eqn:EM; try discriminate.
    destruct (HT ts0 p2 eq_refl) as [Lt [Y N]]. inversion H; subst.
    destruct (n_suppress nd) eqn:Hsup.
    + split; [lia|]. split; [cbn; lia|]. intros k Hkp. destruct (prodb_node g k nid nd En Hkp) as [X _]. congruence.
    + split; [lia|]. split; [apply (lay_lo _ p1); assumption|]. intros _ _. split; [exact N | lia].
  - (* non-terminals *)
    assert (HB : forall ts0 p2, sbody false (seval g input orc false f) f nd x p = SOk ts0 p2 ->
              p <= p2 /\ lay p p2 (erase_all ts0) /\
              (forall k, prod_nd (prodb g k) nd = true -> erase_all ts0 <> [] /\ p < p2) /\
              (live_root nd = true -> erase_all ts0 = [] -> ts0 = [] /\ (n_kind nd = KOpt \/ n_kind nd = KStar))).
    { intros ts0 p2 HS. unfold sbody in HS. pose proof (Hnosep _ _ En) as Hns.
      destruct (n_kind nd) eqn:Ek; try discriminate.
      - (* KSeq *)
        destruct (sseq_wf _ true (ctx_enter nd x) (n_kids nd) IH Hin [] p p ts0 p2 (le_n _) HS) as [L [Y [_ Pr]]].
        split; [exact L|]. split; [exact Y|]. split.
        + intros k Hp. unfold prod_nd in Hp. rewrite Ek in Hp. apply andb_true_iff in Hp as [_ Hp]. apply (Pr k Hp).
        + intros Hr X. exfalso. rewrite Hr in Hkind. unfold prod_nd in Hkind. rewrite Ek in Hkind.
          apply andb_true_iff in Hkind as [_ Hp]. destruct (Pr pf Hp) as [N _]. contradiction.
      - (* KChoice *)
        apply andb_true_iff in Hkind as [Hall _].
        assert (Hpr : forall c, In c (n_kids nd) -> prodb g pf c = true) by (rewrite forallb_forall in Hall; exact Hall).
        destruct (schoice_wf _ (ctx_enter nd x) (n_kids nd) IH Hin Hpr p ts0 p2 HS) as [Lt [Y N]].
        split; [lia|]. split; [exact Y|]. split; [intros _ _; split; [exact N | exact Lt]|]. intros _ X. contradiction.
      - (* KOpt *)
        destruct (n_kids nd) as [|e rest] eqn:Ekids; [discriminate|].
        destruct (seval g input orc false f e false x p) as [ts1 p1| |] eqn:E; try discriminate.
        + inversion HS; subst. destruct (IH e false x p ts0 p2 (Hin e (or_introl eq_refl)) E) as [L [Y Pr]].
          split; [exact L|]. split; [exact Y|]. split.
          * intros k Hp. unfold prod_nd in Hp. rewrite Ek, andb_false_r in Hp. discriminate.
          * intros Hr X. exfalso. rewrite Hr in Hkind. destruct (Pr pf Hkind) as [N _]. contradiction.
        + inversion HS; subst. split; [lia|]. split; [cbn; lia|]. split.
          * intros k Hp. unfold prod_nd in Hp. rewrite Ek, andb_false_r in Hp. discriminate.
          * intros _ _. split; [reflexivity | left; reflexivity].
      - (* KStar *)
        destruct (n_kids nd) as [|e rest] eqn:Ekids; [discriminate|]. rewrite Hns in HS.
        destruct (srep_wf _ e false (ctx_eol nd x) IH (Hin e (or_introl eq_refl)) Hkind f true [] p p ts0 p2 (le_n _) HS) as [L [Y [D _]]].
        split; [exact L|]. split; [exact Y|]. split.
        + intros k Hp. unfold prod_nd in Hp. rewrite Ek, andb_false_r in Hp. discriminate.
        + intros _ X. destruct D as [[-> _]|[N _]]; [split; [reflexivity | right; reflexivity] | contradiction].
      - (* KPlus *)
        destruct (n_kids nd) as [|e rest] eqn:Ekids; [discriminate|]. rewrite Hns in HS.
        destruct (srep_wf _ e true (ctx_eol nd x) IH (Hin e (or_introl eq_refl)) Hkind f true [] p p ts0 p2 (le_n _) HS) as [L [Y [_ Pf]]].
        destruct (Pf eq_refl) as [N Lt].
        split; [exact L|]. split; [exact Y|]. split; [intros _ _; split; assumption|]. intros _ X. contradiction.
      - (* KAnd *)
        apply negb_true_iff in Hkind.
        destruct (sseq (seval g input orc false f) false x (n_kids nd) [] p); try discriminate. inversion HS; subst.
        split; [lia|]. split; [cbn; lia|]. split.
        + intros k Hp. unfold prod_nd in Hp. rewrite Ek, andb_false_r in Hp. discriminate.
        + intro X. rewrite Hkind in X. discriminate.
      - (* KNot *)
        apply negb_true_iff in Hkind.
        destruct (sseq (seval g input orc false f) false x (n_kids nd) [] p); try discriminate. inversion HS; subst.
        split; [lia|]. split; [cbn; lia|]. split.
        + intros k Hp. unfold prod_nd in Hp. rewrite Ek, andb_false_r in Hp. discriminate.
        + intro X. rewrite Hkind in X. discriminate.
      - (* KEmpty *)
        apply negb_true_iff in Hkind. inversion HS; subst.
        split; [lia|]. split; [cbn; lia|]. split.
        + intros k Hp. unfold prod_nd in Hp. rewrite Ek, andb_false_r in Hp. discriminate.
        + intro X. rewrite Hkind in X. discriminate. }
    destruct (sbody false (seval g input orc false f) f nd x p) as [ts0 p2| |] eqn:EB; try discriminate.
    destruct (HB ts0 p2 eq_refl) as [L [Y [Pr0 Hroot]]]. inversion H; subst. clear H.
    assert (Pr : forall k, prodb g k nid = true -> erase_all ts0 <> [] /\ p < p').
    { intros k Hkp. destruct (prodb_node g k nid nd En Hkp) as [_ [j Hj]]. exact (Pr0 j Hj). }
    unfold wrap. destruct (n_suppress nd) eqn:Hsup.
    + split; [exact L|]. split; [cbn; exact L|]. intros k Hkp. destruct (prodb_node g k nid nd En Hkp) as [X _]. congruence.
    + destruct (n_root nd) eqn:Er.
      * assert (Hlive : live_root nd = true) by (unfold live_root; rewrite Er, Hsup; reflexivity).
        destruct (erase_all ts0) as [|t0 l0] eqn:Ee.
        -- destruct (Hroot Hlive eq_refl) as [-> Hk2].
           replace (match n_kind nd, @nil stree with KOpt, [] | KStar, [] => [] | _, _ => [SNT nid []] end) with (@nil stree)
             by (destruct Hk2 as [-> | ->]; reflexivity).
           split; [exact L|]. split; [cbn; exact L|]. intros k Hkp. destruct (Pr k Hkp) as [N _]. contradiction.
        -- assert (Hts : ts0 <> []) by (intro X; subst ts0; discriminate).
           assert (Ew : match n_kind nd, ts0 with KOpt, [] | KStar, [] => [] | _, _ => [SNT nid ts0] end = [SNT nid ts0]).
           { destruct ts0; [congruence|]. destruct (n_kind nd); reflexivity. }
           rewrite Ew. unfold erase_all at 1 2. cbn [flat_map]. rewrite erase_SNT, app_nil_r, Ee.
           destruct (lay_NT nid t0 l0 p p' Y) as [W [A B]].
           split; [exact L|]. split; [split; [exact W|]; split; [exact A | cbn; exact B]|].
           intros k Hkp. destruct (Pr k Hkp) as [_ Lt]. split; [discriminate | exact Lt].
      * split; [exact L|]. split; [exact Y|]. exact Pr.
Qed.
End Wf.

(* the decidable grammar condition behind [inner] *)
Definition is_eof_node (g : grammar) (nid : nat) : bool :=
  match get_node g nid with Some nd => match n_kind nd with KEOF => true | _ => false end | None => false end.
Definition innerb (g : grammar) (nid : nat) : bool :=
  negb (Nat.eqb nid (g_top g)) &&
  match get_node g nid with Some nd => match n_kind nd with KEOF => false | _ => true end | None => false end.
(* EOF occurs only as the second child of the top node, and nothing refers to the top node *)
Definition eof_ok (g : grammar) : bool :=
  forallb (fun i => Nat.eqb i (g_top g) ||
                    match get_node g i with Some nd => forallb (innerb g) (n_kids nd) | None => true end)
          (seq 0 (length (g_nodes g))) &&
  match get_node g (g_top g) with
  | Some nd =>
    match n_kind nd, n_kids nd with
    | KSeq, [rt; ef] => innerb g rt && is_eof_node g ef && n_root nd && negb (n_suppress nd)
    | _, _ => false
    end
  | None => false
  end.

Lemma innerb_inner g nid : innerb g nid = true -> inner g nid.
Proof.
  unfold innerb, inner. intro H. apply andb_true_iff in H as [A B]. apply negb_true_iff in A. apply Nat.eqb_neq in A.
  split; [exact A|]. destruct (get_node g nid) as [nd|]; [|discriminate]. destruct (n_kind nd); try discriminate; intro X; discriminate.
Qed.

Lemma prodb_eof g k nid : is_eof_node g nid = true -> prodb g k nid = false.
Proof.
  unfold is_eof_node. destruct (get_node g nid) as [nd|] eqn:En; [|discriminate]. intro H.
  destruct k as [|k]; [apply prodb_0|]. rewrite (prodb_S g k nid nd En). unfold prod_nd.
  destruct (n_kind nd); try discriminate. apply andb_false_r.
Qed.

(* For grammars in the class without separators, with EOF only under the top node, and a non-empty-match
   oracle: whenever the interpreter accepts, its result is the top NonTerminal and the subtree textX builds
   the model from (parse_tree[0]) is a well-formed tree. *)
Theorem run_wf g pf c orc fuel input r :
  wfg g pf = true -> nosep g = true -> eof_ok g = true -> orc_pos orc ->
  run g c orc false fuel input = Parsed r ->
  exists t rest, r = RTree (NT (g_top g) (t :: rest)) /\ wf_tree t = true.
Proof.
  intros Hwfg Hns Heof Horc Hrun.
  destruct (wfg_parts g pf Hwfg) as [Hnodes [Hcm Htop]].
  pose proof (refinement g pf c orc fuel input Hwfg Horc) as HR. rewrite Hrun in HR.
  destruct HR as [ts [p [Es [Htree _]]]]. specialize (Htree Hns).
  pose proof (nosep_nodes g Hns) as Hnosep.
  unfold eof_ok in Heof. apply andb_true_iff in Heof as [Hall Htopk].
  assert (Hinner : forall nid nd, get_node g nid = Some nd -> nid <> g_top g -> forall c0, In c0 (n_kids nd) -> inner g c0).
  { intros nid nd En Hne c0 Hc. pose proof (node_ids_forallb _ g Hall nid nd En) as X. cbv beta in X.
    apply orb_true_iff in X as [X|X]; [apply Nat.eqb_eq in X; contradiction|].
    rewrite En in X. rewrite forallb_forall in X. apply innerb_inner. apply X. exact Hc. }
  destruct (get_node g (g_top g)) as [nd|] eqn:En; [|discriminate].
  destruct (n_kind nd) eqn:Ek; try discriminate.
  destruct (n_kids nd) as [|rt [|ef [|]]] eqn:Ekids; try discriminate.
  apply andb_true_iff in Htopk as [Htopk Hsup]. apply andb_true_iff in Htopk as [Htopk Hroot].
  apply andb_true_iff in Htopk as [Hrt Hef]. apply negb_true_iff in Hsup.
  (* the root rule is productive *)
  pose proof (Hnodes _ _ En) as Hok. unfold node_ok in Hok. apply andb_true_iff in Hok as [_ Hkind]. rewrite Ek in Hkind.
  assert (Hlive : live_root nd = true) by (unfold live_root; rewrite Hroot, Hsup; reflexivity).
  rewrite Hlive in Hkind. unfold prod_nd in Hkind. rewrite Ek, Ekids, Hsup in Hkind. cbn [negb andb existsb] in Hkind.
  rewrite (prodb_eof g pf ef Hef) in Hkind. rewrite orb_false_r in Hkind.
  (* open the reference evaluation at the top node *)
  unfold spec_run in Es. destruct fuel as [|f]; [discriminate|].
  cbn [seval] in Es. rewrite En, Ek in Es. cbn [is_match_kind] in Es. unfold sbody in Es. rewrite Ek, Ekids in Es.
  cbn [sseq] in Es.
  destruct (seval g input orc false f rt true (ctx_enter nd (init_ctx c)) 0) as [ts1 p1| |] eqn:E1; try discriminate.
  destruct (seval_wf g input orc pf Hcm Horc Hnodes Hnosep Hinner f rt true _ 0 ts1 p1 (innerb_inner g rt Hrt) E1) as [_ [Y Pr]].
  destruct (Pr pf Hkind) as [N _].
  destruct (seval g input orc false f ef true (ctx_enter nd (init_ctx c)) p1) as [ts2 p2| |] eqn:E2; try discriminate.
  inversion Es; subst ts p. clear Es.
  unfold wrap in Htree. rewrite Hsup, Hroot, Ek in Htree.
  unfold erase_all in Htree at 1. cbn [flat_map] in Htree. rewrite erase_SNT, app_nil_r in Htree.
  cbn [app] in Htree. rewrite erase_all_app in Htree.
  destruct (erase_all ts1) as [|t1 l1] eqn:Ee1; [contradiction|]. destruct Y as [W _].
  exists t1, (l1 ++ erase_all ts2). split; [|exact W].
  destruct r as [|t|l].
  - discriminate.
  - cbn [flatten] in Htree. inversion Htree. reflexivity.
  - exfalso. destruct l as [|a l]; [discriminate|].
    assert (Hrt2 : root_top g = true).
    { unfold root_top. rewrite En, Hroot, Ek. reflexivity. }
    destruct (run_shape g c orc (S f) input (RList (a :: l)) Hrt2 Hrun eq_refl) as [t E]. discriminate.
Qed.

Lemma wf_boundary_refuted :
  exists g c orc fuel input t rest,
    wfg g 24 = true /\ nosep g = false /\ eof_ok g = true /\
    run g c orc false fuel input = Parsed (RTree (NT (g_top g) (t :: rest))) /\ wf_tree t = false.
Proof.
  exists g_trailsep, c_default, (fun _ _ => None), 50, [120;44;98]%N.
  eexists. eexists. vm_compute. repeat split.
Qed.

Lemma run_wf_nonvacuous :
  wfg g_items 24 = true /\ nosep g_items = true /\ eof_ok g_items = true /\
  accepts (run g_items c_default (orc_of t_items) false 60 in_items) = true.
Proof. vm_compute. repeat split. Qed.
