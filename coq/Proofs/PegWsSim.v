(* C22 - simulation of the interpreter (Model/Peg.v, memoization off) under the insertion of
   whitespace that is in the active set of every mode the grammar can install (class ins_wf),
   given the per-case shifted-oracle hypothesis (shift_okb). *)
From TxV Require Import Core.Base Proofs.PegProofs Model.PegSyntax Model.Peg Model.PegWsDefs Proofs.PegWs Proofs.PegRel.
Require Import Lia.

Notation pos_reg_fail := PegProofs.pos_reg_fail (only parsing).

Section Sim.
Variable g : grammar.
Variables a ins b : list N.
Variables orc orc' : nat -> nat -> option nat.
Let k := length a.
Let n := length ins.
Let s := a ++ b.
Let s' := a ++ ins ++ b.
Notation RP := (Rp a ins b).
Notation RQ := (Rq a ins b).
Notation sh := (shift_res k n).
Notation sht := (shift_tree k n).
Notation ph := (phi k n).

Lemma truthy_sh r : truthy (sh r) = truthy r.
Proof. destruct r as [|[? ? ? ?|? [|? ?]]|[|? ?]]; reflexivity. Qed.
Lemma is_none_sh r : is_none (sh r) = is_none r.
Proof. destruct r; reflexivity. Qed.
Lemma head_is_none_sh r : head_is_none (sh r) = head_is_none r.
Proof. destruct r as [| |[|[| |] ?]]; reflexivity. Qed.
Lemma is_ptnode_sh r : is_ptnode (sh r) = is_ptnode r.
Proof. destruct r; reflexivity. Qed.
Lemma flatten_sh : forall r, flatten (sh r) = map sht (flatten r).
Proof.
  fix IH 1. intros [|t|l]; simpl; try reflexivity.
  induction l as [|x l IHl]; simpl; [reflexivity|]. rewrite map_app, IH, IHl. reflexivity.
Qed.
Lemma post_sh nid nd r : post nid nd (sh r) = sh (post nid nd r).
Proof.
  unfold post. rewrite head_is_none_sh.
  destruct (n_suppress nd || head_is_none r)%bool; simpl.
  - destruct (n_root nd); reflexivity.
  - rewrite truthy_sh, is_ptnode_sh. destruct (n_root nd && truthy r && negb (is_ptnode r))%bool; [|reflexivity].
    simpl. rewrite flatten_sh. reflexivity.
Qed.

Definition Inv (x : st) : Prop :=
  skipws x = true /\ subset_ws ins (ws x) = true /\ subset_ws ins (real_ws x) = true /\
  (eolterm x = true -> noeol ins = true).

Definition Rc (c c' : list (nat * nat)) : Prop :=
  forall q, match lookup q c, lookup (ph q) c' with
            | None, None => True
            | Some e, Some e' => RQ e e'
            | _, _ => False
            end.

Definition ctx (x x' : st) : Prop :=
  ws x = ws x' /\ real_ws x = real_ws x' /\ skipws x = skipws x' /\ eolterm x = eolterm x' /\
  in_cmt x = in_cmt x' /\ Rc (cpos x) (cpos x') /\ Inv x.

Definition Rst (x x' : st) : Prop := RP (pos x) (pos x') /\ ctx x x'.

Definition scf (y x : st) : Prop :=
  ws y = ws x /\ real_ws y = real_ws x /\ skipws y = skipws x /\ eolterm y = eolterm x /\
  in_cmt y = in_cmt x /\ cpos y = cpos x.

Lemma ctx_ext x x' y y' : scf y x -> scf y' x' -> ctx x x' -> ctx y y'.
Proof.
  intros (A1 & A2 & A3 & A4 & A5 & A6) (B1 & B2 & B3 & B4 & B5 & B6) (C1 & C2 & C3 & C4 & C5 & C6 & I1 & I2 & I3 & I4).
  unfold ctx, Inv. rewrite A1, A2, A3, A4, A5, A6, B1, B2, B3, B4, B5, B6.
  exact (conj C1 (conj C2 (conj C3 (conj C4 (conj C5 (conj C6 (conj I1 (conj I2 (conj I3 I4))))))))).
Qed.

Lemma scf_refl x : scf x x. Proof. repeat split. Qed.
Lemma scf_set_pos p x : scf (set_pos p x) x. Proof. repeat split. Qed.
Lemma scf_set_nm o x : scf (set_nm o x) x. Proof. repeat split. Qed.
Lemma scf_reg_fail p x : scf (reg_fail p x) x.
Proof.
  unfold reg_fail. destruct (nm x); [|apply scf_set_nm].
  destruct (in_cmt x); [apply scf_refl|]. destruct (Nat.ltb _ _); [apply scf_set_nm | apply scf_refl].
Qed.
Lemma scf_tr z y x : scf z y -> scf y x -> scf z x.
Proof.
  intros (A1 & A2 & A3 & A4 & A5 & A6) (B1 & B2 & B3 & B4 & B5 & B6). unfold scf.
  rewrite A1, A2, A3, A4, A5, A6. exact (conj B1 (conj B2 (conj B3 (conj B4 (conj B5 B6))))).
Qed.
Lemma scf_trans z y x : scf z y -> scf y x -> scf z x.
Proof using ins orc orc'. exact (scf_tr z y x). Qed.

Lemma Rst_set_pos p p' x x' : RP p p' -> ctx x x' -> Rst (set_pos p x) (set_pos p' x').
Proof. intros Hp Hc. split; [exact Hp|]. eapply ctx_ext; [apply scf_set_pos | apply scf_set_pos | exact Hc]. Qed.

Lemma Rst_reg_fail p p' x x' : Rst x x' -> Rst (reg_fail p x) (reg_fail p' x').
Proof.
  intros [Hp Hc]. split; [rewrite !pos_reg_fail; exact Hp|].
  eapply ctx_ext; [apply scf_reg_fail | apply scf_reg_fail | exact Hc].
Qed.

Definition RRw (r r' : res) : Prop := r' = sh r.
Notation sim_out := (rel_out Rst Rst no_abort no_abort RRw).

Definition failq (o o' : out) : Prop :=
  match o, o' with Fail x, Fail x' => RQ (pos x) (pos x') | _, _ => True end.

Notation parser := (nat -> bool -> st -> out) (only parsing).
Notation W := (rel_parser Rst Rst RRw no_abort no_abort).
Definition SW (rec rec' : parser) : Prop :=
  forall nid psq x x', Rst x x' ->
    sim_out (rec nid psq x) (rec' nid psq x') /\
    (RQ (pos x) (pos x') -> failq (rec nid psq x) (rec' nid psq x')).

Lemma SW_W rec rec' : SW rec rec' -> W rec rec'.
Proof. intros H nid psq x x' HR. apply H, HR. Qed.

Lemma Rst_skip x x' :
  Rst x x' -> Rst (maybe_skip_ws (a ++ b) x) (maybe_skip_ws (a ++ ins ++ b) x') /\
              RQ (pos (maybe_skip_ws (a ++ b) x)) (pos (maybe_skip_ws (a ++ ins ++ b) x')).
Proof.
  intros [Hp Hc]. pose proof Hc as (E1 & E2 & E3 & E4 & E5 & E6 & (I1 & I2 & I3 & I4)).
  unfold maybe_skip_ws. rewrite <- E3, I1. unfold do_skip_ws. rewrite <- E1.
  pose proof (skip_absorb a ins b (ws x) (pos x) (pos x') I2 Hp) as Hq.
  split; [|exact Hq]. apply Rst_set_pos; [apply Rq_Rp; exact Hq | exact Hc].
Qed.

Lemma phi_inj p q : ph p = ph q -> p = q.
Proof. unfold phi. destruct (Nat.ltb_spec p k), (Nat.ltb_spec q k); lia. Qed.

Lemma lookup_upd q key v m : lookup q (upd key v m) = if Nat.eqb q key then Some v else lookup q m.
Proof.
  destruct (Nat.eqb_spec q key) as [->|H]; [apply lookup_upd_same | apply lookup_upd_other, H].
Qed.

Lemma Rc_upd c c' q e e' : Rc c c' -> RQ e e' -> Rc (upd q e c) (upd (ph q) e' c').
Proof.
  intros Hc He r. rewrite !lookup_upd.
  destruct (Nat.eqb_spec r q) as [->|Hne].
  - rewrite Nat.eqb_refl. exact He.
  - destruct (Nat.eqb_spec (ph r) (ph q)) as [E|_]; [apply phi_inj in E; contradiction | apply Hc].
Qed.

Lemma cmt_loop_no_fail rec inp cm kf x : forall y, cmt_loop inp rec cm kf x <> Fail y.
Proof.
  revert x; induction kf as [|kf IH]; intros x y; simpl; [discriminate|].
  destruct (rec cm false x); [apply IH | discriminate | discriminate].
Qed.

(* outcome of the pre-terminal phase: never a failure; positions aligned *)
Definition sim_pre (o o' : out) : Prop :=
  match o, o' with
  | Ok _ x, Ok _ x' => Rst x x' /\ RQ (pos x) (pos x')
  | Abort w, Abort w' => w = w'
  | _, _ => False
  end.

Lemma cmt_loop_sim rec rec' cm : SW rec rec' -> forall kf x x',
  Rst x x' -> RQ (pos x) (pos x') ->
  sim_pre (cmt_loop (a ++ b) rec cm kf x) (cmt_loop (a ++ ins ++ b) rec' cm kf x').
Proof.
  intros HS kf; induction kf as [|kf IH]; intros x x' HR HQ; simpl; [reflexivity|].
  destruct (HS cm false x x' HR) as [Hs Hf]. specialize (Hf HQ).
  destruct (rec cm false x) as [r x1|x1|w]; destruct (rec' cm false x') as [r' x1'|x1'|w'];
    simpl in Hs, Hf; try contradiction.
  - destruct Hs as [_ HR1]. destruct (Rst_skip x1 x1' HR1) as [HR2 HQ2]. apply IH; assumption.
  - split; assumption.
  - destruct Hs as [[]|[[]| ->]]. reflexivity.
Qed.

Lemma ctx_set_in_cmt v x x' : ctx x x' -> ctx (set_in_cmt v x) (set_in_cmt v x').
Proof.
  intros (C1 & C2 & C3 & C4 & _ & C6). exact (conj C1 (conj C2 (conj C3 (conj C4 (conj eq_refl C6))))).
Qed.

Lemma parse_comments_sim rec rec' : SW rec rec' -> forall kf x x',
  Rst x x' -> RQ (pos x) (pos x') ->
  sim_pre (parse_comments g (a ++ b) rec kf x) (parse_comments g (a ++ ins ++ b) rec' kf x').
Proof.
  intros HS kf x x' [Hp Hc] HQ. unfold parse_comments. destruct (g_comments g) as [cm|].
  - assert (HR1 : Rst (set_in_cmt true x) (set_in_cmt true x')) by (split; [exact Hp | apply ctx_set_in_cmt, Hc]).
    pose proof (cmt_loop_sim rec rec' cm HS kf _ _ HR1 HQ) as H.
    destruct (cmt_loop (a ++ b) rec cm kf (set_in_cmt true x)) as [r x1|x1|w];
      destruct (cmt_loop (a ++ ins ++ b) rec' cm kf (set_in_cmt true x')) as [r' x1'|x1'|w'];
      simpl in H; try contradiction; [|exact H].
    destruct H as [[Hp1 Hc1] HQ1]. simpl. split; [|exact HQ1]. split; [exact Hp1 | apply ctx_set_in_cmt, Hc1].
  - simpl. split; [|exact HQ]. split; [exact Hp|]. apply ctx_set_in_cmt, ctx_set_in_cmt, Hc.
Qed.

Lemma match_pre_sim rec rec' : SW rec rec' -> forall kf x x',
  Rst x x' ->
  sim_pre (match_pre g (a ++ b) rec kf x) (match_pre g (a ++ ins ++ b) rec' kf x').
Proof.
  intros HS kf x x' HR. unfold match_pre. cbv zeta.
  destruct (Rst_skip x x' HR) as [HR1 HQ1].
  set (x1 := maybe_skip_ws (a ++ b) x) in *. set (x1' := maybe_skip_ws (a ++ ins ++ b) x') in *.
  pose proof HR1 as [Hp1 Hc1]. pose proof Hc1 as (E1 & E2 & E3 & E4 & E5 & E6 & (I1 & I2 & I3 & I4)).
  rewrite <- E3, I1. destruct HQ1 as [HQa HQb].
  pose proof (E6 (pos x1)) as HL.
  change (ph (pos x1)) with (phi (length a) (length ins) (pos x1)) in HL. rewrite <- HQb in HL.
  destruct (lookup (pos x1) (cpos x1)) as [e|]; destruct (lookup (pos x1') (cpos x1')) as [e'|];
    try contradiction.
  - simpl. split; [|exact HL]. apply Rst_set_pos; [apply Rq_Rp, HL | exact Hc1].
  - rewrite <- E5. destruct (in_cmt x1).
    + simpl. split; [exact HR1 | split; assumption].
    + assert (HQ1 : RQ (pos x1) (pos x1')) by (split; assumption).
      pose proof (parse_comments_sim rec rec' HS kf x1 x1' HR1 HQ1) as H.
      destruct (parse_comments g (a ++ b) rec kf x1) as [r x2|x2|w];
        destruct (parse_comments g (a ++ ins ++ b) rec' kf x1') as [r' x2'|x2'|w'];
        simpl in H; try contradiction; [|exact H].
      destruct H as [[Hp2 Hc2] HQ2]. simpl. split; [|exact HQ2]. split; [exact Hp2|].
      unfold ctx in *. simpl. destruct Hc2 as (F1 & F2 & F3 & F4 & F5 & F6 & F7).
      repeat split; try assumption; try apply F7.
      rewrite HQb. apply Rc_upd; assumption.
Qed.

Definition tok (kd : kind) : Prop :=
  term_shift_okb (a ++ b) orc (a ++ ins ++ b) orc' k n kd = true.

Lemma opt_nat_eqb_eq x y : opt_nat_eqb x y = true -> x = y.
Proof. destruct x, y; simpl; try discriminate; [|reflexivity]. intro H. apply Nat.eqb_eq in H. congruence. Qed.

Lemma tok_spec kd p : tok kd -> p <= length (a ++ b) ->
  tmatch (a ++ ins ++ b) orc' kd (ph p) = tmatch (a ++ b) orc kd p /\
  forall len, tmatch (a ++ b) orc kd p = Some len -> p + len <= length (a ++ b) /\ (p < k -> p + len <= k).
Proof.
  unfold tok, term_shift_okb. intros H Hp. rewrite forallb_forall in H.
  specialize (H p). unfold term_shift_at in H.
  assert (Hin : In p (seq 0 (S (length (a ++ b))))) by (apply in_seq; lia).
  specialize (H Hin). apply andb_true_iff in H as [H1 H2]. apply opt_nat_eqb_eq in H1.
  split; [exact H1|]. intros len E. rewrite E in H2. apply andb_true_iff in H2 as [H2 H3].
  apply Nat.leb_le in H2. split; [exact H2|]. intro Hlt.
  apply orb_true_iff in H3 as [H3|H3].
  - apply negb_true_iff, Nat.ltb_ge in H3. lia.
  - apply Nat.leb_le in H3. exact H3.
Qed.

Lemma Rp_advance p len :
  p <= length (a ++ b) -> p + len <= length (a ++ b) -> (p < k -> p + len <= k) -> RP (p + len) (ph p + len).
Proof.
  intros H1 H2 H3. unfold Rp, phi. fold k n. split; [exact H2|].
  destruct (Nat.ltb_spec p k) as [Hlt|Hge]; [specialize (H3 Hlt)|]; lia.
Qed.

(* Terminals under the shifted oracle, for any relation on states that survives a failure and an
   advance by a match that neither leaves the input nor crosses the insertion point. *)
Lemma term_parse_shift (R : st -> st -> Prop) nid kd psq x x' :
  tok kd -> pos x' = ph (pos x) -> pos x <= length (a ++ b) -> R x x' ->
  (forall len, pos x + len <= length (a ++ b) -> (pos x < k -> pos x + len <= k) ->
               R (set_pos (pos x + len) x) (set_pos (ph (pos x) + len) x')) ->
  R (reg_fail (pos x) x) (reg_fail (ph (pos x)) x') ->
  rel_out R R no_abort no_abort RRw (term_parse (a ++ b) orc nid kd psq x) (term_parse (a ++ ins ++ b) orc' nid kd psq x').
Proof.
  intros Ht HQb HQa HR Hadv Hfail. destruct (tok_spec kd (pos x) Ht HQa) as [Heq Hlen].
  unfold term_parse, nm_raise. cbv zeta. rewrite HQb.
  destruct kd as [| | | | | | | | | |t [o|]|o]; try (right; right; reflexivity); cbn [tmatch] in Heq, Hlen.
  - destruct (Nat.eqb (length (a ++ b)) (pos x)), (Nat.eqb (length (a ++ ins ++ b)) (ph (pos x)));
      try discriminate Heq; [|exact Hfail].
    split; [reflexivity | exact HR].
  - destruct (orc o (pos x)) as [l|], (orc' o (ph (pos x))) as [l'|]; try discriminate Heq; [|exact Hfail].
    split; [reflexivity | apply Hadv; apply (Hlen _ eq_refl)].
  - destruct (is_prefix t (skipn (pos x) (a ++ b))), (is_prefix t (skipn (ph (pos x)) (a ++ ins ++ b)));
      try discriminate Heq; [|exact Hfail].
    split; [reflexivity | apply Hadv; apply (Hlen _ eq_refl)].
  - destruct (orc o (pos x)) as [l|], (orc' o (ph (pos x))) as [l'|]; try discriminate Heq; [|exact Hfail].
    injection Heq as ->. destruct (Nat.eqb l 0); [split; [reflexivity | exact HR]|].
    split; [reflexivity | apply Hadv; apply (Hlen _ eq_refl)].
Qed.

Lemma term_parse_fail_pos input o nid kd psq x y : term_parse input o nid kd psq x = Fail y -> pos y = pos x.
Proof.
  destruct (term_parse_cases input o nid kd psq x) as [(r & p' & E)|[E|E]];
    [rewrite (E x eq_refl) | rewrite (E x eq_refl) | rewrite (E x)]; try discriminate.
  intro F. injection F as <-. apply pos_reg_fail.
Qed.

Lemma term_parse_sim nid kd psq x x' :
  tok kd -> Rst x x' -> RQ (pos x) (pos x') ->
  sim_out (term_parse (a ++ b) orc nid kd psq x) (term_parse (a ++ ins ++ b) orc' nid kd psq x') /\
  failq (term_parse (a ++ b) orc nid kd psq x) (term_parse (a ++ ins ++ b) orc' nid kd psq x').
Proof.
  intros Ht HR [HQa HQb]. split.
  - apply term_parse_shift; try assumption.
    + intros len L1 L2. apply Rst_set_pos; [apply Rp_advance; assumption | exact (proj2 HR)].
    + apply Rst_reg_fail, HR.
  - destruct (term_parse (a ++ b) orc nid kd psq x) as [|y|] eqn:E; [exact I| |exact I].
    destruct (term_parse (a ++ ins ++ b) orc' nid kd psq x') as [|y'|] eqn:E'; [exact I| |exact I].
    cbn. rewrite (term_parse_fail_pos _ _ _ _ _ _ _ E), (term_parse_fail_pos _ _ _ _ _ _ _ E').
    split; assumption.
Qed.

Definition nok (nd : node) : Prop := node_ins_ok ins nd = true.

Lemma subset_strip w : noeol ins = true -> subset_ws ins w = true -> subset_ws ins (strip_eol w) = true.
Proof.
  unfold noeol, subset_ws. rewrite !forallb_forall. intros Hn Hw c Hc.
  specialize (Hn c Hc). specialize (Hw c Hc). unfold inw in *. rewrite existsb_exists in *.
  destruct Hw as [d [Hd E]]. exists d. split; [|exact E].
  unfold strip_eol. apply filter_In. split; [exact Hd|].
  apply N.eqb_eq in E. subst d. exact Hn.
Qed.

Lemma ctx_set_ws w x x' : subset_ws ins w = true -> ctx x x' -> ctx (set_ws w x) (set_ws w x').
Proof.
  unfold ctx, Inv. simpl. intros Hw (E1 & E2 & E3 & E4 & E5 & E6 & I1 & I2 & I3 & I4).
  rewrite <- E4. repeat split; try assumption.
  destruct (eolterm x); [apply subset_strip; auto | exact Hw].
Qed.

Lemma ctx_set_skipws x x' : ctx x x' -> ctx (set_skipws true x) (set_skipws true x').
Proof.
  intros (C1 & C2 & _ & C4 & C5 & C6 & _ & I).
  exact (conj C1 (conj C2 (conj eq_refl (conj C4 (conj C5 (conj C6 (conj eq_refl I))))))).
Qed.

Lemma ctx_set_eolterm v x x' : (v = true -> noeol ins = true) -> ctx x x' -> ctx (set_eolterm v x) (set_eolterm v x').
Proof.
  unfold ctx, Inv. simpl. intros Hv (E1 & E2 & E3 & E4 & E5 & E6 & I1 & I2 & I3 & I4).
  rewrite <- E1, <- E2. repeat split; try assumption.
  destruct v; [apply subset_strip; auto | exact I3].
Qed.

Lemma pos_enter_ws nd x : pos (enter_ws nd x) = pos x.
Proof. unfold enter_ws. destruct (n_ws nd), (n_skipws nd); reflexivity. Qed.
Lemma pos_leave_ws nd old x : pos (leave_ws nd old x) = pos x.
Proof. unfold leave_ws. destruct (n_ws nd), (n_skipws nd); reflexivity. Qed.
Lemma pos_enter_eol nd x : pos (enter_eol nd x) = pos x.
Proof. unfold enter_eol. destruct (n_eolterm nd); reflexivity. Qed.
Lemma pos_leave_eol nd old x : pos (leave_eol nd old x) = pos x.
Proof. unfold leave_eol. destruct (n_eolterm nd); reflexivity. Qed.

Lemma nok_spec nd : nok nd ->
  (forall v, n_skipws nd = Some v -> v = true) /\
  (forall w, n_ws nd = Some w -> subset_ws ins w = true) /\
  (n_eolterm nd = true -> noeol ins = true).
Proof.
  unfold nok, node_ins_ok. intro H. apply andb_true_iff in H as [H H3]. apply andb_true_iff in H as [H1 H2].
  repeat split.
  - intros v E. rewrite E in H1. destruct v; [reflexivity | discriminate].
  - intros w E. rewrite E in H2. exact H2.
  - intro E. rewrite E in H3. exact H3.
Qed.

Lemma Rst_enter_ws nd x x' : nok nd -> Rst x x' -> Rst (enter_ws nd x) (enter_ws nd x').
Proof.
  intros Hn [Hp Hc]. destruct (nok_spec nd Hn) as (N1 & N2 & _).
  split; [rewrite !pos_enter_ws; exact Hp|]. unfold enter_ws.
  assert (Hc1 : ctx (match n_ws nd with Some w => set_ws w x | None => x end)
                    (match n_ws nd with Some w => set_ws w x' | None => x' end)).
  { destruct (n_ws nd) as [w|]; [apply ctx_set_ws; [apply N2; reflexivity | exact Hc] | exact Hc]. }
  destruct (n_skipws nd) as [v|]; [|exact Hc1]. rewrite (N1 v eq_refl). apply ctx_set_skipws, Hc1.
Qed.

Lemma Rst_leave_ws nd old old' x x' : Rst old old' -> Rst x x' -> Rst (leave_ws nd old x) (leave_ws nd old' x').
Proof.
  intros [_ Ho] [Hp Hc]. split; [rewrite !pos_leave_ws; exact Hp|]. unfold leave_ws.
  pose proof Ho as (E1 & E2 & E3 & E4 & E5 & E6 & I1 & I2 & I3 & I4).
  assert (Hc1 : ctx (match n_ws nd with Some _ => set_ws (ws old) x | None => x end)
                    (match n_ws nd with Some _ => set_ws (ws old') x' | None => x' end)).
  { destruct (n_ws nd) as [w|]; [rewrite <- E1; apply ctx_set_ws; assumption | exact Hc]. }
  destruct (n_skipws nd) as [v|]; [|exact Hc1]. rewrite <- E3, I1. apply ctx_set_skipws, Hc1.
Qed.

Lemma Rst_enter_eol nd x x' : nok nd -> Rst x x' -> Rst (enter_eol nd x) (enter_eol nd x').
Proof.
  intros Hn [Hp Hc]. destruct (nok_spec nd Hn) as (_ & _ & N3).
  split; [rewrite !pos_enter_eol; exact Hp|]. unfold enter_eol.
  destruct (n_eolterm nd); [apply ctx_set_eolterm; [intros _; apply N3; reflexivity | exact Hc] | exact Hc].
Qed.

Lemma Rst_leave_eol nd old old' x x' : Rst old old' -> Rst x x' -> Rst (leave_eol nd old x) (leave_eol nd old' x').
Proof.
  intros [_ Ho] [Hp Hc]. split; [rewrite !pos_leave_eol; exact Hp|]. unfold leave_eol.
  pose proof Ho as (E1 & E2 & E3 & E4 & E5 & E6 & I1 & I2 & I3 & I4).
  destruct (n_eolterm nd); [|exact Hc]. rewrite <- E4. apply ctx_set_eolterm; assumption.
Qed.

Lemma body_sim rec rec' kf nd : W rec rec' -> nok nd -> forall x x',
  Rst x x' -> sim_out (body rec kf nd x) (body rec' kf nd x').
Proof.
  intros HW Hn x x' HR.
  apply (body_rel Rst Rst RRw RP nok no_abort no_abort); try assumption.
  - intros y y' H. exact (proj1 H).
  - exact (fun _ _ H => H).
  - intros p p' y y' Hp H. exact (Rst_set_pos p p' y y' Hp (proj2 H)).
  - intros p p' y y' _. apply Rst_reg_fail.
  - exact Rst_enter_ws.
  - intros nd0 o o' y y' _. apply Rst_leave_ws.
  - exact Rst_enter_eol.
  - intros nd0 o o' y y' _. apply Rst_leave_eol.
  - intros nd0 o o' y y' _. apply Rst_leave_eol.
  - reflexivity.
  - intros l l' H. unfold RRw. cbn [shift_res]. rewrite (Forall2_eq_map _ _ _ H). reflexivity.
  - intros r r' ->. apply truthy_sh.
  - intros r r' ->. apply is_none_sh.
Qed.

Definition gok : Prop :=
  forall nd, In nd (g_nodes g) -> nok nd /\ (is_match_kind (n_kind nd) = true -> tok (n_kind nd)).

Lemma parse_sim : gok -> forall fuel,
  SW (parse g (a ++ b) orc false fuel) (parse g (a ++ ins ++ b) orc' false fuel).
Proof.
  intros Hg fuel; induction fuel as [|f IH]; intros nid psq x x' HR; cbn [parse].
  - split; [right; right; reflexivity | intros _; exact I].
  - destruct (get_node g nid) as [nd|] eqn:EN; [|split; [right; right; reflexivity | intros _; exact I]].
    assert (Hin : In nd (g_nodes g)) by (unfold get_node in EN; eapply nth_error_In; exact EN).
    destruct (Hg nd Hin) as [Hn Ht].
    destruct (is_match_kind (n_kind nd)) eqn:EM.
    + (* Match.parse *)
      pose proof (match_pre_sim (parse g (a ++ b) orc false f) (parse g (a ++ ins ++ b) orc' false f) IH f x x' HR) as Hs.
      destruct (match_pre g (a ++ b) (parse g (a ++ b) orc false f) f x) as [r0 x1|x1|w];
        destruct (match_pre g (a ++ ins ++ b) (parse g (a ++ ins ++ b) orc' false f) f x') as [r0' x1'|x1'|w'];
        simpl in Hs; try contradiction.
      * destruct Hs as [HR1 HQ1].
        destruct (term_parse_sim nid (n_kind nd) psq x1 x1' (Ht eq_refl) HR1 HQ1) as [Hs2 Hf2].
        destruct (term_parse (a ++ b) orc nid (n_kind nd) psq x1) as [r x2|x2|w];
          destruct (term_parse (a ++ ins ++ b) orc' nid (n_kind nd) psq x1') as [r' x2'|x2'|w'];
          simpl in Hs2, Hf2; try contradiction.
        -- destruct Hs2 as [-> HR2]. split; [|intros _; exact I]. simpl.
           split; [destruct (n_suppress nd); reflexivity | exact HR2].
        -- split; [exact Hs2 | intros _; exact Hf2].
        -- split; [exact Hs2 | intros _; exact I].
      * subst w'. split; [right; right; reflexivity | intros _; exact I].
    + (* non-terminals, memoization off *)
      split.
      * apply (rel_case Rst Rst no_abort no_abort _ _ RRw);
          [apply abort_ok_out | apply body_sim; [exact (SW_W _ _ IH) | exact Hn | exact HR] | |].
        -- intros r r' x1 x1' -> H1. split; [apply post_sh | exact H1].
        -- intros x1 x1' H1. apply Rst_set_pos; [apply HR | apply H1].
      * intro HQ. destruct (body (parse g (a ++ b) orc false f) f nd x) as [r x1|x1|w];
          destruct (body (parse g (a ++ ins ++ b) orc' false f) f nd x') as [r' x1'|x1'|w']; try exact I.
        exact HQ.
Qed.

End Sim.

Lemma gok_of g a ins b orc orc' cfg :
  ins_wf g cfg ins = true ->
  shift_okb g (a ++ b) orc (a ++ ins ++ b) orc' (length a) (length ins) = true ->
  gok g a ins b orc orc'.
Proof.
  unfold ins_wf, shift_okb. intros Hw Hs nd Hin.
  apply andb_true_iff in Hw as [_ Hw]. rewrite forallb_forall in Hw, Hs.
  split; [apply Hw, Hin|]. intro EM. specialize (Hs nd Hin). rewrite EM in Hs. exact Hs.
Qed.

Theorem ws_insert_invariant g cfg orc orc' fuel a ins b :
  ins_wf g cfg ins = true ->
  shift_okb g (a ++ b) orc (a ++ ins ++ b) orc' (length a) (length ins) = true ->
  outcome_shifted (length a) (length ins)
                  (run g cfg orc false fuel (a ++ b)) (run g cfg orc' false fuel (a ++ ins ++ b)).
Proof.
  intros Hw Hs. pose proof (gok_of g a ins b orc orc' cfg Hw Hs) as Hg.
  unfold ins_wf in Hw. apply andb_true_iff in Hw as [Hw _]. apply andb_true_iff in Hw as [Hsk Hsub].
  assert (HR : Rst a ins b (init_st cfg) (init_st cfg)).
  { unfold Rst, ctx, Inv, init_st; simpl. split.
    - unfold Rp. split; [lia|]. destruct (length a); [right; left; lia | left; lia].
    - repeat split; try assumption; try discriminate. }
  destruct (parse_sim g a ins b orc orc' Hg fuel (g_top g) false _ _ HR) as [Hsim _].
  unfold run.
  destruct (parse g (a ++ b) orc false fuel (g_top g) false (init_st cfg)) as [r x1|x1|w];
    destruct (parse g (a ++ ins ++ b) orc' false fuel (g_top g) false (init_st cfg)) as [r' x1'|x1'|w'];
    simpl in Hsim; try contradiction; simpl.
  - apply Hsim.
  - exact I.
  - destruct Hsim as [[]|[[]| ->]]. reflexivity.
Qed.

Corollary ws_insert_accepts g cfg orc orc' fuel a ins b r :
  ins_wf g cfg ins = true ->
  shift_okb g (a ++ b) orc (a ++ ins ++ b) orc' (length a) (length ins) = true ->
  run g cfg orc false fuel (a ++ b) = Parsed r ->
  run g cfg orc' false fuel (a ++ ins ++ b) = Parsed (shift_res (length a) (length ins) r).
Proof.
  intros Hw Hs E. pose proof (ws_insert_invariant g cfg orc orc' fuel a ins b Hw Hs) as H.
  rewrite E in H. destruct (run g cfg orc' false fuel (a ++ ins ++ b)); simpl in H; try contradiction.
  congruence.
Qed.

(* noskipws / ws: only the active set is skipped *)
Definition cpos_id (c : list (nat * nat)) : Prop := forall p q, lookup p c = Some q -> q = p.

Lemma cpos_id_upd c p : cpos_id c -> cpos_id (upd p p c).
Proof.
  intros H r q. rewrite lookup_upd. destruct (Nat.eqb_spec r p) as [->|_]; [congruence | apply H].
Qed.

(* Without a comment model the pre-terminal phase of Match.parse moves the position exactly by
   skip_ws_from over the effective set when skipping is on, and not at all when it is off. *)
Lemma match_pre_exact g input rec kf x :
  g_comments g = None -> cpos_id (cpos x) ->
  exists x1, match_pre g input rec kf x = Ok RNone x1 /\ cpos_id (cpos x1) /\
             pos x1 = (if skipws x then skip_ws_from (ws x) (skipn (pos x) input) (pos x) else pos x) /\
             ws x1 = ws x /\ skipws x1 = skipws x.
Proof.
  intros Hc Hid. unfold match_pre, parse_comments, maybe_skip_ws, do_skip_ws. rewrite Hc. cbv zeta.
  destruct (skipws x) eqn:Esk; simpl; rewrite ?Esk.
  - destruct (lookup _ (cpos x)) as [q|] eqn:EL.
    + apply Hid in EL. subst q. eexists; split; [reflexivity|]. simpl. rewrite Esk. repeat split; assumption.
    + destruct (in_cmt x); eexists; (split; [reflexivity|]); simpl; rewrite Esk; repeat split; try assumption.
      apply cpos_id_upd, Hid.
  - destruct (in_cmt x); eexists; (split; [reflexivity|]); simpl; rewrite ?Esk; repeat split; try assumption.
    apply cpos_id_upd, Hid.
Qed.

Lemma skip_absorb_eq w a ins b p p' :
  subset_ws ins w = true -> Rp a ins b p p' ->
  skip_ws_from w (skipn p' (a ++ ins ++ b)) p' =
  phi (length a) (length ins) (skip_ws_from w (skipn p (a ++ b)) p).
Proof. intros Hw Hp. apply (skip_absorb a ins b w p p' Hw Hp). Qed.

(* every character the pre-terminal phase moves over is in the effective whitespace set of the
   current mode; nothing is skipped under noskipws (no comment model) *)
Lemma only_active_set g input rec kf x :
  g_comments g = None -> cpos_id (cpos x) ->
  exists x1, match_pre g input rec kf x = Ok RNone x1 /\ cpos_id (cpos x1) /\
             pos x <= pos x1 /\
             (skipws x = false -> pos x1 = pos x) /\
             forallb (inw (ws x)) (firstn (pos x1 - pos x) (skipn (pos x) input)) = true.
Proof.
  intros Hc Hid. destruct (match_pre_exact g input rec kf x Hc Hid) as (x1 & E & Hid1 & Hp & _).
  exists x1. split; [exact E|]. split; [exact Hid1|]. rewrite Hp. destruct (skipws x).
  - split; [apply skip_le|]. split; [discriminate | apply skip_only_active].
  - split; [lia|]. split; [reflexivity|]. rewrite Nat.sub_diag. reflexivity.
Qed.
