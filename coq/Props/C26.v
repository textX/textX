(* C26 — the language and generator registries behave as case-insensitive maps. *)
From TxV Require Import Core.Base Gen.SrcRegistry Model.Registry Proofs.RegistryProofs.

(* [run] / [step] is the machine of registration.py instantiated with the facts that
   tools/translate/registry_tr.py reads from the source on every run (Gen/SrcRegistry.v): every
   key expression (registration, lookup, cache) carries .lower(), clearing resets the table to
   None (so entry points are read again) and drops the cache, pattern-less languages are skipped
   by languages_for_file; the order "lazy entry-point load, duplicate refusal, insertion" is
   compared as text. *)

(* For every operation sequence (any length), the registry state machine of
   registration.py (lazily loaded tables) answers exactly like the specification machine:
   eagerly loaded insertion-ordered maps keyed by lowered names. *)
Theorem C26_refines : forall fnm ep_langs ep_gens ops,
  run fnm ep_langs ep_gens (init) ops = srun fnm ep_langs ep_gens (sinit ep_langs ep_gens) ops.
Proof.
  intros fnm ep_langs ep_gens ops. rewrite run_refines.
  unfold abs, sinit, force_l, force_g, fail_l, fail_g, init. cbn [langs gens cache serial].
  unfold load_langs, load_gens, load_langs_bad, load_gens_bad. rewrite iload_langs_eq, iload_gens_eq. reflexivity.
Qed.
Print Assumptions C26_refines.

(* Laws of the specification machine (hence, by C26_refines, of every reachable state).
   [slfail s] = "the entry points contain a duplicate name and its registration error has not been
   reported since the last clearing": the first operation that consults the language map reports
   it (C26_entry_point_duplicate_reported_once); laws about answers of the map assume it is not
   pending. *)
Theorem C26_lookup_case_insensitive : forall fnm epl epg s n n', lower n = lower n' ->
  snd (sstep fnm epl epg s (LangDescription n)) = snd (sstep fnm epl epg s (LangDescription n')).
Proof.
  intros fnm epl epg s n n' H. unfold sstep. cbn [sneeds_l needs_g andb]. destruct (slfail s); [reflexivity|].
  apply lang_lookup_ci_ok. exact H.
Qed.
Print Assumptions C26_lookup_case_insensitive.

Theorem C26_generator_lookup_case_insensitive : forall fnm epl epg s l l' t t' a,
  lower l = lower l' -> lower t = lower t' ->
  snd (sstep fnm epl epg s (GenDescription l t a)) = snd (sstep fnm epl epg s (GenDescription l' t' a)).
Proof.
  intros fnm epl epg s l l' t t' a H1 H2. unfold sstep. cbn [sneeds_l needs_g andb]. destruct (sgfail s); [reflexivity|].
  apply gen_lookup_ci_ok; assumption.
Qed.
Print Assumptions C26_generator_lookup_case_insensitive.

Theorem C26_register_then_found : forall fnm epl epg s d n,
  snd (sstep fnm epl epg s (RegLang d)) = RUnit -> lower n = lower (lname d) ->
  snd (sstep fnm epl epg (fst (sstep fnm epl epg s (RegLang d))) (LangDescription n)) = RLang d.
Proof.
  intros fnm epl epg s d n H Hn. pose proof (reg_lang_unit_no_failure _ _ _ s d H) as F.
  rewrite (sstep_lang _ _ _ s (RegLang d) eq_refl F) in *.
  rewrite (sstep_lang _ _ _ _ (LangDescription n) eq_refl); [|rewrite reg_lang_keeps_flag; exact F].
  apply reg_lang_then_lookup_ok; assumption.
Qed.
Print Assumptions C26_register_then_found.

Theorem C26_duplicate_refused : forall fnm epl epg s d d',
  snd (sstep fnm epl epg s (RegLang d)) = RUnit -> lower (lname d') = lower (lname d) ->
  snd (sstep fnm epl epg (fst (sstep fnm epl epg s (RegLang d))) (RegLang d')) = RErr.
Proof.
  intros fnm epl epg s d d' H Hn. pose proof (reg_lang_unit_no_failure _ _ _ s d H) as F.
  rewrite (sstep_lang _ _ _ s (RegLang d) eq_refl F) in *.
  rewrite (sstep_lang _ _ _ _ (RegLang d') eq_refl); [|rewrite reg_lang_keeps_flag; exact F].
  apply reg_lang_dup_refused_ok; assumption.
Qed.
Print Assumptions C26_duplicate_refused.

(* a registration refused because the name is taken changes nothing (a pending discovery failure
   is a different refusal: it is consumed) *)
Theorem C26_refused_changes_nothing : forall fnm epl epg s d, slfail s = false ->
  snd (sstep fnm epl epg s (RegLang d)) = RErr -> fst (sstep fnm epl epg s (RegLang d)) = s.
Proof. intros fnm epl epg s d F. rewrite (sstep_lang _ _ _ s (RegLang d) eq_refl F). apply reg_lang_refused_keeps_state_ok. Qed.
Print Assumptions C26_refused_changes_nothing.

Theorem C26_other_names_unaffected : forall fnm epl epg s d n, slfail s = false -> lower n <> lower (lname d) ->
  snd (sstep fnm epl epg (fst (sstep fnm epl epg s (RegLang d))) (LangDescription n))
  = snd (sstep fnm epl epg s (LangDescription n)).
Proof.
  intros fnm epl epg s d n F Hn.
  rewrite (sstep_lang _ _ _ s (RegLang d) eq_refl F), (sstep_lang _ _ _ s (LangDescription n) eq_refl F).
  rewrite (sstep_lang _ _ _ _ (LangDescription n) eq_refl); [|rewrite reg_lang_keeps_flag; exact F].
  apply reg_lang_other_unaffected_ok. exact Hn.
Qed.
Print Assumptions C26_other_names_unaffected.

Theorem C26_entry_points_survive_clear : forall fnm epl epg s d,
  load_langs_bad epl = false ->
  lookup (lower (lname d)) (load_langs epl) = Some d ->
  snd (sstep fnm epl epg (fst (sstep fnm epl epg s ClearLangs)) (LangDescription (lname d))) = RLang d.
Proof.
  intros fnm epl epg s d B H. unfold sstep at 2. cbn [sneeds_l needs_g andb].
  rewrite (sstep_lang _ _ _ _ (LangDescription (lname d)) eq_refl); [|exact B].
  apply entry_point_lang_found_after_clear_ok. exact H.
Qed.
Print Assumptions C26_entry_points_survive_clear.

(* discovery of entry points whose names collide (case-insensitively) raises TextXRegistrationError
   out of the first operation that consults the language map after start / clearing, whatever that
   operation is; the map then holds the entry points before the duplicate and the error is not
   reported again until the next clearing *)
Theorem C26_entry_point_duplicate_reported_once : forall fnm epl epg s o n,
  load_langs_bad epl = true -> sneeds_l o [] = true ->
  let s1 := fst (sstep fnm epl epg s ClearLangs) in
  snd (sstep fnm epl epg s1 o) = RErr /\
  snd (sstep fnm epl epg (fst (sstep fnm epl epg s1 o)) (LangDescription n))
    = match lookup (lower n) (load_langs epl) with Some d => RLang d | None => RErr end.
Proof.
  intros fnm epl epg s o n B Ho s1.
  set (armed b := {| slangs := load_langs epl; slfail := b; sgens := sgens s; sgfail := sgfail s; scache := []; sserial := sserial s |}).
  assert (E1 : s1 = armed true).
  { unfold s1, sstep. cbn [sneeds_l needs_g andb]. cbn [sstep_ok fst]. rewrite B. reflexivity. }
  assert (E2 : sstep fnm epl epg (armed true) o = (armed false, RErr)).
  { unfold sstep. cbn [armed scache slfail]. rewrite Ho. reflexivity. }
  rewrite E1, E2. split; reflexivity.
Qed.
Print Assumptions C26_entry_point_duplicate_reported_once.

Theorem C26_languages_for_file_exact : forall fnm epl epg s f d, slfail s = false ->
  (In d (match snd (sstep fnm epl epg s (LangsForFile f)) with RLangs l => l | _ => [] end) <->
   In d (map snd (slangs s)) /\ matches fnm f d = true).
Proof. intros fnm epl epg s f d F. rewrite (sstep_lang _ _ _ s (LangsForFile f) eq_refl F). apply langs_for_file_exact_ok. Qed.
Print Assumptions C26_languages_for_file_exact.

Theorem C26_language_for_file_exactly_one : forall fnm epl epg s f, slfail s = false ->
  (forall d, snd (sstep fnm epl epg s (LangForFile f)) = RLang d <-> langs_for_file fnm f (slangs s) = [d]) /\
  (length (langs_for_file fnm f (slangs s)) <> 1 -> snd (sstep fnm epl epg s (LangForFile f)) = RErr).
Proof. intros fnm epl epg s f F. rewrite (sstep_lang _ _ _ s (LangForFile f) eq_refl F). apply lang_for_file_exactly_one_ok. Qed.
Print Assumptions C26_language_for_file_exactly_one.

Theorem C26_cached_without_arguments : forall fnm epl epg s n m,
  lookup (lower n) (scache s) = Some m -> sstep fnm epl epg s (MMForLang n false) = (s, RMM m).
Proof.
  intros fnm epl epg s n m H. unfold sstep. cbn [sneeds_l needs_g andb]. rewrite H. cbn [andb].
  apply mm_cached_returned_ok. exact H.
Qed.
Print Assumptions C26_cached_without_arguments.

Theorem C26_result_is_cached : forall fnm epl epg s n kw m n', slfail s = false ->
  snd (sstep fnm epl epg s (MMForLang n kw)) = RMM m -> lower n' = lower n ->
  snd (sstep fnm epl epg (fst (sstep fnm epl epg s (MMForLang n kw))) (MMForLang n' false)) = RMM m.
Proof.
  intros fnm epl epg s n kw m n' F H Hn. rewrite (sstep_lang _ _ _ s (MMForLang n kw) eq_refl F) in *.
  rewrite (sstep_lang _ _ _ _ (MMForLang n' false) eq_refl).
  - apply mm_then_cached_ok; assumption.
  - cbn. destruct (mm_for_lang n kw (slangs s) (scache s) (sserial s)) as [[[m'|] c'] k']; exact F.
Qed.
Print Assumptions C26_result_is_cached.

Theorem C26_factory_with_arguments_fresh : forall fnm epl epg s n d f, slfail s = false ->
  lookup (lower n) (slangs s) = Some d -> lsrc d = Factory f ->
  snd (sstep fnm epl epg s (MMForLang n true)) = RMM (MMFresh f (sserial s) true) /\
  sserial (fst (sstep fnm epl epg s (MMForLang n true))) = S (sserial s).
Proof. intros fnm epl epg s n d f F. rewrite (sstep_lang _ _ _ s (MMForLang n true) eq_refl F). apply mm_factory_kwargs_fresh_ok. Qed.
Print Assumptions C26_factory_with_arguments_fresh.

(* non-vacuity: a concrete run exercising registration, case variants, clearing and the cache *)
Example C26_nonvacuous :
  let d := {| lname := [65;98]%N; lpattern := Some [42]%N; lsrc := Factory 7; ltag := 1 |} in
  run (fun _ _ => true) [] [] init
      [RegLang d; RegLang {| lname := [97;66]%N; lpattern := None; lsrc := BadFactory; ltag := 2 |};
       MMForLang [97;98]%N false; MMForLang [65;66]%N false; MMForLang [65;66]%N true; ClearLangs;
       LangDescription [97;98]%N]
  = [RUnit; RErr; RMM (MMFresh 7 0 false); RMM (MMFresh 7 0 false); RMM (MMFresh 7 1 true); RUnit; RErr].
Proof. vm_compute. reflexivity. Qed.
Print Assumptions C26_nonvacuous.

(* non-vacuity with a duplicate among the entry points: Ep, EP (duplicate), Late *)
Example C26_nonvacuous_duplicate :
  let ep n t := {| lname := n; lpattern := None; lsrc := Instance t; ltag := t |} in
  run (fun _ _ => true) [ep [69;112]%N 1; ep [69;80]%N 2; ep [76]%N 3] [] init
      [LangDescription [101;112]%N; LangDescription [101;112]%N; LangDescription [108]%N; ClearLangs; LangDescs; LangDescs]
  = [RErr; RLang (ep [69;112]%N 1); RErr; RUnit; RErr; RLangs [ep [69;112]%N 1]].
Proof. vm_compute. reflexivity. Qed.
Print Assumptions C26_nonvacuous_duplicate.
