(* C07 — proofs about Model/Plain.v *)
From TxV Require Import Core.Base Model.PlainDefs Gen.SrcPlain Model.Plain.
Require Import Lia.

Lemma mem_nat_In x l : mem_nat x l = true <-> In x l.
Proof. apply existsb_nat_In. Qed.

Lemma mem_nat_false x l : mem_nat x l = false <-> ~ In x l.
Proof. apply existsb_nat_false. Qed.

Section ConfProofs.
  Variable classes : list cls.
  Variable dc : list nat.
  Notation inh := (inh classes).
  Notation local := (local classes dc).
  Notation n := (length classes).

  (* declarative conformance: some class reachable from the target over _tx_inh_by edges passes one of
     the three direct tests (its name is OBJECT / the object is an instance of it / same fqn) *)
  Inductive Reach : nat -> nat -> Prop :=
  | ReachRefl c : Reach c c
  | ReachStep c d e : In d (inh c) -> Reach d e -> Reach c e.

  Definition Conforms (t : nat) : Prop := exists c, Reach t c /\ local c = true.

  Lemma Conforms_local c : local c = true -> Conforms c.
  Proof. intro H. exists c. split; [constructor | exact H]. Qed.

  Lemma Conforms_step c d : In d (inh c) -> Conforms d -> Conforms c.
  Proof. intros Hd [e [Hr Hl]]. exists e. split; [econstructor; eassumption | exact Hl]. Qed.

  Definition dfs_go (f : nat) : list nat -> list nat -> option (bool * list nat) :=
    fix go (v : list nat) (l : list nat) : option (bool * list nat) :=
      match l with
      | [] => Some (false, v)
      | d :: r =>
        if mem_nat d v then go v r
        else match dfs classes dc f v d with
             | None => None
             | Some (true, v') => Some (true, v')
             | Some (false, v') => go v' r
             end
      end.

  Lemma dfs_S f v c :
    dfs classes dc (S f) v c = if local c then Some (true, v) else dfs_go f (c :: v) (inh c).
  Proof. reflexivity. Qed.

  (* what an unsuccessful stretch of the search does to `visited`: it grows, and every class it adds
     fails the direct tests and has all its _tx_inh_by entries in the result *)
  Definition grew (v v' : list nat) : Prop :=
    incl v v' /\ forall x, In x v' -> ~ In x v -> local x = false /\ incl (inh x) v'.

  Lemma grew_refl v : grew v v.
  Proof. split; [apply incl_refl | intros x Hx Hn; contradiction]. Qed.

  Lemma grew_trans v1 v2 v3 : grew v1 v2 -> grew v2 v3 -> grew v1 v3.
  Proof.
    intros [I1 C1] [I2 C2]. split; [eapply incl_tran; eassumption|]. intros x Hx Hn.
    destruct (in_dec Nat.eq_dec x v2) as [H2|H2]; [|apply C2; assumption].
    destruct (C1 x H2 Hn) as [Hl Hs]. split; [exact Hl | eapply incl_tran; eassumption].
  Qed.

  (* c was pushed on entry; once its entries are in, c itself is one of the added classes *)
  Lemma grew_enter c v v' :
    local c = false -> incl (inh c) v' -> grew (c :: v) v' -> grew v v' /\ In c v'.
  Proof.
    intros Hl Hs [I C]. split; [split|apply I; left; reflexivity].
    - intros x Hx. apply I. right. exact Hx.
    - intros x Hx Hn. destruct (Nat.eq_dec x c) as [->|Hne]; [split; assumption|].
      apply C; [exact Hx|]. intros [E|H]; [congruence | contradiction].
  Qed.

  Lemma dfs_inv : forall f v c b v', dfs classes dc f v c = Some (b, v') ->
    if b then Conforms c else grew v v' /\ In c v'.
  Proof.
    induction f as [|f IHf]; intros v c b v' H; [discriminate|].
    assert (Hgo : forall l v0 b0 v0', dfs_go f v0 l = Some (b0, v0') ->
              if b0 then Exists Conforms l else grew v0 v0' /\ incl l v0').
    { induction l as [|d r IHl]; intros v0 b0 v0' Hg; simpl in Hg.
      - inversion Hg; subst. split; [apply grew_refl | intros x []].
      - destruct (mem_nat d v0) eqn:Em.
        + apply IHl in Hg. destruct b0; [apply Exists_cons_tl; exact Hg|].
          destruct Hg as [G Hr]. split; [exact G|].
          intros x [<-|Hx]; [apply G, mem_nat_In, Em | apply Hr, Hx].
        + destruct (dfs classes dc f v0 d) as [[[|] v1]|] eqn:Ed; [| |discriminate]; apply IHf in Ed.
          * inversion Hg; subst. apply Exists_cons_hd. exact Ed.
          * destruct Ed as [G1 Hd1]. apply IHl in Hg. destruct b0; [apply Exists_cons_tl; exact Hg|].
            destruct Hg as [G2 Hr]. split; [eapply grew_trans; eassumption|].
            intros x [<-|Hx]; [apply G2, Hd1 | apply Hr, Hx]. }
    rewrite dfs_S in H. destruct (local c) eqn:El.
    - inversion H; subst. apply Conforms_local; exact El.
    - apply Hgo in H. destruct b.
      + apply Exists_exists in H as [d [Hd Hc]]. eapply Conforms_step; eassumption.
      + destruct H as [G Hr]. apply grew_enter; assumption.
  Qed.

  (* nothing in a set closed under _tx_inh_by whose members all fail the direct tests conforms *)
  Lemma closed_no_conf S :
    (forall x, In x S -> local x = false /\ incl (inh x) S) -> forall c, Conforms c -> ~ In c S.
  Proof.
    intros Hcl c [e [Hr Hl]]. induction Hr as [c|c d e Hd _ IH]; intro Hin; destruct (Hcl c Hin) as [E Hs].
    - congruence.
    - exact (IH Hl (Hs d Hd)).
  Qed.

  (* the search never runs out of fuel on a well-formed table *)
  Definition unv (v : list nat) : nat := length (filter (fun x => negb (mem_nat x v)) (seq 0 n)).

  Lemma unv_incl v v' : incl v v' -> unv v' <= unv v.
  Proof.
    intro Hi. apply filter_len_le. intros x _ Hx.
    apply negb_true_iff in Hx. apply negb_true_iff. apply mem_nat_false. apply mem_nat_false in Hx.
    intro H. apply Hx, Hi, H.
  Qed.

  Lemma unv_cons c v : c < n -> ~ In c v -> unv (c :: v) < unv v.
  Proof.
    intros Hc Hn. apply filter_len_lt with (x0 := c).
    - intros x _ Hx. apply negb_true_iff in Hx. apply negb_true_iff. apply mem_nat_false.
      apply mem_nat_false in Hx. intro H. apply Hx. right; exact H.
    - apply in_seq. lia.
    - apply negb_true_iff. apply mem_nat_false. exact Hn.
    - apply negb_false_iff. apply mem_nat_In. left; reflexivity.
  Qed.

  Hypothesis Hwf : wf_classes classes = true.

  Lemma inh_bound c d : In d (inh c) -> d < n.
  Proof.
    unfold Plain.inh. destruct (nth_error classes c) as [k|] eqn:E; [|intros []].
    intro Hd. apply nth_error_In in E. unfold wf_classes in Hwf.
    rewrite forallb_forall in Hwf. specialize (Hwf k E). rewrite forallb_forall in Hwf.
    apply Nat.ltb_lt. apply Hwf. exact Hd.
  Qed.

  Lemma dfs_total : forall f v c, c < n -> ~ In c v -> unv v <= f -> dfs classes dc f v c <> None.
  Proof.
    induction f as [|f IHf]; intros v c Hc Hn Hu.
    - pose proof (unv_cons c v Hc Hn). lia.
    - assert (Hgo : forall l v0, (forall d, In d l -> d < n) -> unv v0 <= f -> dfs_go f v0 l <> None).
      { induction l as [|d r IHl]; intros v0 Hl Hu0; simpl; [discriminate|].
        destruct (mem_nat d v0) eqn:Em.
        - apply IHl; [intros x Hx; apply Hl; right; exact Hx | exact Hu0].
        - apply mem_nat_false in Em.
          destruct (dfs classes dc f v0 d) as [[[|] v1]|] eqn:Ed.
          + discriminate.
          + destruct (dfs_inv _ _ _ _ _ Ed) as [[Hi _] _].
            apply IHl; [intros x Hx; apply Hl; right; exact Hx|].
            pose proof (unv_incl _ _ Hi). lia.
          + exfalso. apply (IHf v0 d); [apply Hl; left; reflexivity | exact Em | exact Hu0 | exact Ed]. }
      rewrite dfs_S. destruct (local c); [discriminate|].
      apply Hgo; [intros d Hd; eapply inh_bound; exact Hd|].
      pose proof (unv_cons c v Hc Hn). lia.
  Qed.

  Lemma unv_nil : unv [] = n.
  Proof. unfold unv. rewrite filter_all; [apply seq_length | reflexivity]. Qed.

  Lemma conforms_opt_total t : conforms_opt classes dc t <> None.
  Proof.
    unfold conforms_opt. destruct (lt_dec t n) as [Hlt|Hge].
    - destruct (dfs classes dc (S n) [] t) as [[b v]|] eqn:E; [discriminate|].
      exfalso. apply (dfs_total (S n) [] t Hlt); [intros [] | rewrite unv_nil; lia | exact E].
    - rewrite dfs_S. destruct (local t); [discriminate|].
      unfold Plain.inh. rewrite (proj2 (nth_error_None classes t)); [simpl; discriminate | lia].
  Qed.

  Lemma conforms_spec t : conforms classes dc t = true <-> Conforms t.
  Proof.
    unfold conforms. pose proof (conforms_opt_total t) as Ht. unfold conforms_opt in *.
    destruct (dfs classes dc (S n) [] t) as [[[|] v]|] eqn:E; [| |contradiction]; apply dfs_inv in E.
    - split; [intros _; exact E | reflexivity].
    - split; [discriminate|]. intro Hc. exfalso. destruct E as [[_ Hcl] Hin].
      apply (closed_no_conf v) with (c := t); [|exact Hc|exact Hin].
      intros x Hx. apply Hcl; [exact Hx | intros []].
  Qed.
End ConfProofs.

(* the translated dispatch table is the documented one: one match -> it, several -> error, none -> None *)
Lemma dispatch_spec : forall cands,
  dispatch plain_dispatch cands =
  match cands with [] => PNone | [pn] => POne (fst pn) | _ :: _ :: _ => PNotUnique end.
Proof. intros [|a [|b r]]; reflexivity. Qed.

(* d is the object reached from n by following the child indices p *)
Inductive at_path : node -> list nat -> node -> Prop :=
| AtHere n : at_path n [] n
| AtKid c nm ks i k p d : nth_error ks i = Some k -> at_path k p d -> at_path (Node c nm ks) (i :: p) d.

Section NodeInd.
  Variable P : node -> Prop.
  Hypothesis H : forall c nm ks, Forall P ks -> P (Node c nm ks).
  Fixpoint node_ind2 (n : node) : P n :=
    match n with
    | Node c nm ks =>
      H c nm ks ((fix go (l : list node) : Forall P l :=
                    match l with
                    | [] => Forall_nil P
                    | k :: r => Forall_cons k (node_ind2 k) (go r)
                    end) ks)
    end.
End NodeInd.

Lemma at_path_fun n p d1 : at_path n p d1 -> forall d2, at_path n p d2 -> d1 = d2.
Proof.
  induction 1 as [n|c nm ks i k p d Hk _ IH]; intros d2 H2; inversion H2; subst; [reflexivity|].
  apply IH. congruence.
Qed.

Section Collect.
  Variable sel : node -> bool.

  Definition collect_kids : nat -> list node -> list (list nat * node) :=
    fix go (i : nat) (l : list node) : list (list nat * node) :=
      match l with
      | [] => []
      | k :: r => map (fun pn => (i :: fst pn, snd pn)) (collect sel k) ++ go (S i) r
      end.

  Lemma collect_unfold c nm ks :
    collect sel (Node c nm ks) =
    (if sel (Node c nm ks) then [([], Node c nm ks)] else []) ++ collect_kids 0 ks.
  Proof. reflexivity. Qed.

  Lemma collect_kids_In : forall ks i p d,
    In (p, d) (collect_kids i ks) <->
    exists j k p', p = (i + j) :: p' /\ nth_error ks j = Some k /\ In (p', d) (collect sel k).
  Proof.
    induction ks as [|k0 r IH]; intros i p d; simpl.
    - split; [intros [] | intros [j [k [p' [_ [Hn _]]]]]; destruct j; discriminate].
    - rewrite in_app_iff. split.
      + intros [Hin|Hin].
        * apply in_map_iff in Hin. destruct Hin as [[p0 d0] [E Hin]]. simpl in E. inversion E; subst.
          exists 0, k0, p0. rewrite Nat.add_0_r. repeat split. exact Hin.
        * apply IH in Hin. destruct Hin as [j [k [p' [E [Hn Hin]]]]].
          exists (S j), k, p'. rewrite <- Nat.add_succ_comm. repeat split; assumption.
      + intros [j [k [p' [E [Hn Hin]]]]]. destruct j as [|j].
        * simpl in Hn. inversion Hn; subst. left. apply in_map_iff. exists (p', d).
          rewrite Nat.add_0_r. split; [reflexivity | exact Hin].
        * right. apply IH. exists j, k, p'. rewrite Nat.add_succ_comm. repeat split; assumption.
  Qed.

  Lemma collect_spec : forall n p d, In (p, d) (collect sel n) <-> at_path n p d /\ sel d = true.
  Proof.
    intro n. induction n as [c nm ks HF] using node_ind2. intros p d. rewrite Forall_forall in HF.
    rewrite collect_unfold. split.
    - intro Hin. apply in_app_or in Hin as [Hin|Hin].
      + destruct (sel (Node c nm ks)) eqn:Es; [|destruct Hin]. destruct Hin as [Hin|[]].
        inversion Hin; subst. split; [constructor | exact Es].
      + apply collect_kids_In in Hin as [j [k [p' [-> [Hn Hin]]]]].
        apply (HF k (nth_error_In _ _ Hn)) in Hin as [Ha Hs]. split; [econstructor; eassumption | exact Hs].
    - intros [Ha Hs]. apply in_or_app. inversion Ha; subst.
      + left. rewrite Hs. left; reflexivity.
      + right. apply collect_kids_In. exists i, k, p0. repeat split; [assumption|].
        apply (HF k); [eapply nth_error_In; eassumption|]. split; assumption.
  Qed.

  Lemma NoDup_map_cons (i : nat) (l : list (list nat)) : NoDup l -> NoDup (map (cons i) l).
  Proof.
    induction 1 as [|a l Hn _ IH]; simpl; constructor; [|exact IH].
    intro Hin. apply in_map_iff in Hin. destruct Hin as [x [E Hx]]. inversion E; subst. contradiction.
  Qed.

  Lemma collect_kids_paths ks i p :
    In p (map fst (collect_kids i ks)) -> exists j p', p = j :: p' /\ i <= j.
  Proof.
    intro Hin. apply in_map_iff in Hin. destruct Hin as [[p0 d] [E Hin]]. simpl in E. subst p0.
    apply collect_kids_In in Hin. destruct Hin as [j [k [p' [E _]]]]. exists (i + j), p'. split; [exact E | lia].
  Qed.

  Lemma collect_kids_NoDup : forall ks i,
    Forall (fun k => NoDup (map fst (collect sel k))) ks -> NoDup (map fst (collect_kids i ks)).
  Proof.
    induction ks as [|k0 r IH]; intros i HF; simpl; [constructor|].
    inversion HF; subst. rewrite map_app, map_map. simpl.
    rewrite <- (map_map fst (cons i)). apply NoDup_app_iff. split; [|split].
    - apply NoDup_map_cons. assumption.
    - apply IH. assumption.
    - intros x Hx Hx2. apply in_map_iff in Hx. destruct Hx as [q [E _]]. subst x.
      apply collect_kids_paths in Hx2. destruct Hx2 as [j [p' [E Hle]]]. inversion E; subst. lia.
  Qed.

  Lemma collect_NoDup : forall n, NoDup (map fst (collect sel n)).
  Proof.
    intro n. induction n as [c nm ks HF] using node_ind2.
    rewrite collect_unfold, map_app. apply NoDup_app_iff. split; [|split].
    - destruct (sel (Node c nm ks)); simpl; [constructor; [intros [] | constructor] | constructor].
    - apply collect_kids_NoDup. exact HF.
    - intros x Hx Hx2. apply collect_kids_paths in Hx2. destruct Hx2 as [j [p' [E _]]]. subst x.
      destruct (sel (Node c nm ks)); simpl in Hx; [destruct Hx as [Hx|[]]; discriminate | contradiction].
  Qed.
End Collect.

Section Resolve.
  Variable classes : list cls.
  Hypothesis Hwf : wf_classes classes = true.
  Variable root : node.

  (* the candidate set of the property: an object contained in the model (the root included) whose
     name is the reference text and whose class conforms to the target *)
  Definition Cand (n : list N) (t : nat) (p : list nat) (d : node) : Prop :=
    at_path root p d /\ nname_of d = NameStr n /\ Conforms classes (direct_of classes (ncls_of d)) t.

  Definition NoCand n t : Prop := forall p d, ~ Cand n t p d.
  Definition UniqueCand n t p : Prop := exists d, Cand n t p d /\ forall p' d', Cand n t p' d' -> p' = p.
  Definition ManyCand n t : Prop := exists p1 d1 p2 d2, p1 <> p2 /\ Cand n t p1 d1 /\ Cand n t p2 d2.

  Lemma selector_spec n t d :
    selector classes n t d = true <-> nname_of d = NameStr n /\ Conforms classes (direct_of classes (ncls_of d)) t.
  Proof.
    unfold selector, selector_conj, has_name, name_eq. cbn [forallb]. rewrite andb_true_r.
    destruct (nname_of d) as [|s|]; cbn [andb]; try (split; [discriminate | intros [E _]; discriminate]).
    destruct (str_eqb s n) eqn:Es; cbn [andb].
    - apply str_eqb_eq in Es as ->. rewrite (conforms_spec classes _ Hwf).
      split; [intro H; split; [reflexivity | exact H] | intros [_ H]; exact H].
    - apply str_eqb_neq in Es. split; [discriminate | intros [E _]; congruence].
  Qed.

  Lemma candidates_spec n t p d : In (p, d) (candidates classes root n t) <-> Cand n t p d.
  Proof.
    unfold candidates, Cand. rewrite collect_spec, selector_spec. reflexivity.
  Qed.

  (* the three situations exclude each other *)
  Lemma unique_not_none n t p : UniqueCand n t p -> NoCand n t -> False.
  Proof. intros [d [Hc _]] Hn. exact (Hn p d Hc). Qed.
  Lemma unique_not_many n t p : UniqueCand n t p -> ManyCand n t -> False.
  Proof.
    intros [d [_ Hu]] [p1 [d1 [p2 [d2 [Hne [H1 H2]]]]]]. apply Hne.
    rewrite (Hu _ _ H1), (Hu _ _ H2). reflexivity.
  Qed.
  Lemma unique_same n t p q : UniqueCand n t p -> UniqueCand n t q -> p = q.
  Proof. intros [d [Hc _]] [_ [_ Hu]]. exact (Hu _ _ Hc). Qed.
  Lemma many_not_none n t : ManyCand n t -> NoCand n t -> False.
  Proof. intros [p1 [d1 [_ [_ [_ [H1 _]]]]]] Hn. exact (Hn p1 d1 H1). Qed.

  (* the candidate list has no path twice, so its length tells the three situations apart *)
  Lemma plain_name_cases n t :
    match plain_name classes root n t with
    | PNone => NoCand n t
    | POne p => UniqueCand n t p
    | PNotUnique => ManyCand n t
    | PIndexError => False
    end.
  Proof.
    unfold plain_name. rewrite dispatch_spec. pose proof (candidates_spec n t) as Hs.
    pose proof (collect_NoDup (selector classes n t) root) as Hnd. fold (candidates classes root n t) in Hnd.
    destruct (candidates classes root n t) as [|[p1 d1] [|[p2 d2] r]].
    - intros p d Hc. apply Hs in Hc. destruct Hc.
    - exists d1. split; [apply Hs; left; reflexivity|]. intros p' d' Hc. apply Hs in Hc.
      destruct Hc as [Hc|[]]. inversion Hc; reflexivity.
    - exists p1, d1, p2, d2. split; [|split; apply Hs; [left; reflexivity | right; left; reflexivity]].
      simpl in Hnd. inversion Hnd as [|x l Hn _]; subst. intro E. apply Hn. left. symmetry; exact E.
  Qed.

  Variable b : builtins.

  (* metamodel.builtins has an entry under the reference text and its type conforms *)
  Definition BuiltinOk (n : list N) (t : nat) : Prop :=
    exists o, blookup n b = Some o /\ Conforms classes o t.

  (* what each outcome says about the reference *)
  Definition outcome_spec (r : ref) (o : outcome) : Prop :=
    match o with
    | Resolved p => UniqueCand (rname r) (rcls r) p
    | ErrNotUnique n => n = rname r /\ ManyCand (rname r) (rcls r)
    | Builtin k => k = rname r /\ NoCand (rname r) (rcls r) /\ BuiltinOk (rname r) (rcls r)
    | ErrUnknown n t => n = rname r /\ t = rcls r /\ NoCand (rname r) (rcls r) /\ ~ BuiltinOk (rname r) (rcls r)
    | ErrIndex => False
    end.

  Lemma resolve_ref_cases r : outcome_spec r (resolve_ref classes root b r).
  Proof.
    unfold resolve_ref. pose proof (plain_name_cases (rname r) (rcls r)) as Hp.
    destruct (plain_name classes root (rname r) (rcls r)) as [|p| |]; cbn; auto.
    destruct (blookup (rname r) b) as [o|] eqn:Eb.
    - destruct (conforms classes o (rcls r)) eqn:Ec; cbn; repeat (split; [reflexivity || exact Hp|]).
      + exists o. split; [exact Eb|]. apply (conforms_spec classes o Hwf). exact Ec.
      + intros [o' [E Hc]]. rewrite Eb in E. inversion E; subst.
        apply (conforms_spec classes o' Hwf) in Hc. congruence.
    - cbn. repeat (split; [reflexivity || exact Hp|]). intros [o' [E _]]. rewrite Eb in E. discriminate.
  Qed.

  (* the situations exclude each other, so the outcome is the only one whose description holds *)
  Lemma outcome_spec_fun r o1 o2 : outcome_spec r o1 -> outcome_spec r o2 -> o1 = o2.
  Proof.
    destruct o1 as [p1|k1|n1|n1 t1|], o2 as [p2|k2|n2|n2 t2|]; cbn; intros H1 H2; try contradiction;
      try (exfalso; repeat match goal with H : _ /\ _ |- _ => destruct H end;
           first [ eapply unique_not_none; eassumption | eapply unique_not_many; eassumption
                 | eapply many_not_none; eassumption | contradiction ]).
    - apply f_equal. eapply unique_same; eassumption.
    - destruct H1 as [-> _], H2 as [-> _]. reflexivity.
    - destruct H1 as [-> _], H2 as [-> _]. reflexivity.
    - destruct H1 as [-> [-> _]], H2 as [-> [-> _]]. reflexivity.
  Qed.

  Theorem resolve_ref_iff r o : resolve_ref classes root b r = o <-> outcome_spec r o.
  Proof.
    split; [intros <-; apply resolve_ref_cases | apply outcome_spec_fun, resolve_ref_cases].
  Qed.

  Theorem never_index_error r : resolve_ref classes root b r <> ErrIndex.
  Proof. pose proof (resolve_ref_cases r) as H. intro E. rewrite E in H. exact H. Qed.

  (* loading: textual order, first failure wins *)
  Notation res := (resolve_ref classes root b).
  Notation oks := (Forall (fun r => is_error (res r) = false)).

  (* references that resolve are passed over *)
  Lemma load_from_app pre : forall rs i acc, oks pre ->
    load_from classes root b i (pre ++ rs) acc
    = load_from classes root b (i + length pre) rs (rev (map res pre) ++ acc).
  Proof.
    induction pre as [|r pre IH]; intros rs i acc HF; simpl.
    - rewrite Nat.add_0_r. reflexivity.
    - inversion HF as [|r0 l0 Hr Hpre]; subst. rewrite Hr, IH by assumption.
      rewrite Nat.add_succ_comm, <- app_assoc. reflexivity.
  Qed.

  Lemma load_from_spec : forall rs i acc,
    match load_from classes root b i rs acc with
    | LoadOk ts => oks rs /\ ts = rev acc ++ map res rs
    | LoadErr j e =>
        exists pre r post, rs = pre ++ r :: post /\ j = i + length pre /\
          oks pre /\ res r = e /\ is_error e = true
    end.
  Proof.
    induction rs as [|r rs IH]; intros i acc; simpl.
    - rewrite app_nil_r. split; [constructor | reflexivity].
    - destruct (is_error (res r)) eqn:Ee.
      + exists [], r, rs. rewrite Nat.add_0_r. repeat split; [constructor | exact Ee].
      + specialize (IH (S i) (res r :: acc)).
        destruct (load_from classes root b (S i) rs (res r :: acc)) as [ts|j e].
        * destruct IH as [HF ->]. split; [constructor; assumption|].
          simpl. rewrite <- app_assoc. reflexivity.
        * destruct IH as [pre [r0 [post [-> [-> [HF He]]]]]]. exists (r :: pre), r0, post.
          simpl. rewrite Nat.add_succ_r. repeat split; [constructor; assumption | apply He | apply He].
  Qed.

End Resolve.

(* the quotation mark of the rendered error texts *)
Definition q34 : list N := [34]%N.
