(* C11 — RREL reference resolution follows the documented expression semantics.

   Model: Model/Rrel.v (evaluation = rrel.py get_next_matches / find_object_with_path / find,
   with the visited set, prevent_doubles, Postponed and explicit fuel; specification =
   r_elem / r_path / r_seq "one expansion of the expression" and [justified]).
   All statements are for every model (object graph given by arbitrary functions), every
   expression tree, every start object, name list, target type, fuel, and for both forms of
   the visited key (kf = true: the repaired key with first_element; kf = false: the old key). *)
From TxV Require Import Core.Base Gen.SrcRrel Model.RrelSyntax Model.Rrel Proofs.RrelProofs Proofs.RrelComplete.

(* tie to the source:
   Gen/SrcRrel.v is regenerated from textx/scoping/rrel.py on every run (tools/translate/rrel_tr.py,
   fail closed; it also fingerprints every transcribed method).  The facts it reads - visited key
   with first_element, `lst[0]`, start_locally before start_at_root, proxy path completed by the
   target, start_locally/start_at_root of the leaf nodes, consume/fixed flags of `a`, `~a`, `'s'~a`
   - equal what the model's own functions do. *)
Theorem C11_source_facts : src_facts = model_facts.
Proof. exact src_facts_ok. Qed.
Print Assumptions C11_source_facts.

(* the witness of the repaired defect, for the key form the source has now *)
Example C11_source_key_finds :
  find 20 sample (key_has_first src_facts) e_star 1 [[112]%N] (Some s_Mem) false = FObj 2.
Proof. vm_compute. reflexivity. Qed.
Print Assumptions C11_source_key_finds.

(* soundness:
   Unconditional: whatever find returns as the resolved object is reachable by one
   expansion of the expression, has consumed every name part (each consuming step moved to
   an element named by the next part, each fixed-name step to an element with the fixed
   name), and conforms to the requested type. *)
Theorem C11_sound : forall F m kf sq o names T t,
  find F m kf sq o names T false = FObj t -> exists tr, justified m sq o names T t tr.
Proof. exact find_obj_sound. Qed.
Print Assumptions C11_sound.

(* '+p:' : the proxy path is the list of named objects traversed by the justifying
   expansion (tr), completed by the target if tr does not already end in it; in all cases
   it ends in the target, which is the object find returns without the flag. *)
Theorem C11_proxy_path : forall F m kf sq o names T p,
  find F m kf sq o names T true = FProxy p ->
  exists t tr, justified m sq o names T t tr /\
               (p = tr \/ p = tr ++ [t]) /\ last p 0 = t /\
               find F m kf sq o names T false = FObj t.
Proof.
  intros F m kf sq o names T p. unfold find.
  destruct (fowp F m kf sq o names T) as [r s] eqn:E. simpl.
  destruct r as [|t tr| |]; try discriminate. intro H. inversion H; subst.
  exists t, tr. split; [exact (fowp_sound _ _ _ _ _ _ _ _ _ _ E)|].
  rewrite proxy_path_last. split; [|split; reflexivity].
  destruct (proxy_path_spec t tr) as [[-> _]|[-> _]]; auto.
Qed.
Print Assumptions C11_proxy_path.

(* every name part is matched: the name parts occur, in order, as names of the objects of
   the traversed path (objects selected by fixed-name steps may lie in between) ... *)
Theorem C11_names_matched : forall m sq o names T t tr,
  justified m sq o names T t tr -> embeds m names tr.
Proof.
  intros m sq o names T t tr [H _].
  exact (extends_whole _ _ _ _ _ (proj2 (proj2 (r_extends m)) _ _ _ _ H)).
Qed.
Print Assumptions C11_names_matched.

(* ... and without fixed-name steps the path is exactly one object per name part *)
Theorem C11_names_exact : forall m sq o names T t tr,
  nofix_seq sq = true -> justified m sq o names T t tr ->
  Forall2 (fun nm x => m_name m x = Some nm) names tr.
Proof.
  intros m sq o names T t tr Hn [H _]. apply (extends_whole _ o names t tr).
  exact (proj2 (proj2 (r_extends_by m (Forall2 (fun nm x => m_name m x = Some nm)) (Forall2_nil _)
                         (fun a b x y => Forall2_app (l1 := a) (l1' := x) (l2 := b) (l2' := y))
                         (fun nm x E => Forall2_cons nm x E (Forall2_nil _))
                         false (fun E => False_ind _ (Bool.diff_false_true E)))) _ _ _ _ H Hn).
Qed.
Print Assumptions C11_names_exact.

(* ',' precedence:
   If the first alternative alone gives an answer (object, proxy or Postponed), the whole
   sequence gives that answer; if it gives none, an answer of the sequence is justified by
   the remaining alternatives. *)
Theorem C11_precedence : forall F m kf p sq o names T px,
  find F m kf (S1 p) o names T px <> FNone ->
  find F m kf (SCons p sq) o names T px = find F m kf (S1 p) o names T px.
Proof.
  intros F m kf p sq o names T px. unfold find, fowp. simpl.
  destruct (ev_path F m kf [] 0 0 p true (mk o names []) (final m T) st0) as [r s]. simpl.
  intro H. destruct r; try reflexivity. exfalso. apply H. reflexivity.
Qed.
Print Assumptions C11_precedence.

Theorem C11_later_alternative : forall F m kf p sq o names T t,
  find F m kf (S1 p) o names T false = FNone ->
  find F m kf (SCons p sq) o names T false = FObj t ->
  exists tr, r_seq m sq true (mk o names []) (mk t [] tr) /\ conf_opt m T t = true.
Proof.
  intros F m kf p sq o names T t. unfold find, fowp. simpl.
  destruct (ev_path F m kf [] 0 0 p true (mk o names []) (final m T) st0) as [r s]. simpl.
  destruct r; try discriminate. intros _.
  destruct (ev_alts F m kf [] 1 sq true (mk o names []) (final m T) s) as [r s'] eqn:E. simpl.
  destruct r as [|t' tr| |]; try discriminate. intro H. inversion H; subst.
  exists tr. exact (alts_sound _ _ _ _ _ _ _ _ _ _ _ _ E).
Qed.
Print Assumptions C11_later_alternative.

(* completeness:
   Under unique sibling names, for every model, expression (any nesting of `*`, ',' under `*`, ...),
   start object, name list, target type and fuel: if find answers "not found" then no expansion of
   the expression reaches a conforming object with all name parts consumed - equivalently, a
   reference resolves (or is Postponed, or the model's fuel ran out: different answers) whenever
   such an object exists.  The visited set keyed (object, node, remaining length, first_element)
   and prevent_doubles lose nothing.  Proof (Proofs/RrelComplete.v): every failed search leaves a
   set of visited keys that passes the closure check [closure_ok] (C11_search_leaves_closed_set:
   induction over the CPS evaluator with a contract on continuations "returns not-found => the
   static successor key is visited", distinct node positions, an invariant for prevent_doubles
   entries modulo the pending ones), and a closed set admits no justified result
   (C11_closed_set_complete).  C11_complete_uncut is the direct result for searches that were
   never cut (it also holds for the pre-repair key form). *)
Theorem C11_complete : forall F m sq o names T px,
  siblings_unique m -> find F m true sq o names T px = FNone ->
  forall t tr, ~ justified m sq o names T t tr.
Proof. exact find_complete. Qed.
Print Assumptions C11_complete.

Theorem C11_complete_resolves : forall F m sq o names T px,
  siblings_unique m -> (exists t tr, justified m sq o names T t tr) ->
  find F m true sq o names T px <> FNone.
Proof. exact find_complete_exists. Qed.
Print Assumptions C11_complete_resolves.

(* for the key form the translator reads from rrel.py (re-proved against the source on every run) *)
Theorem C11_complete_source : forall F m sq o names T px,
  siblings_unique m -> find F m (key_has_first src_facts) sq o names T px = FNone ->
  forall t tr, ~ justified m sq o names T t tr.
Proof. exact find_complete_src. Qed.
Print Assumptions C11_complete_source.

Theorem C11_search_leaves_closed_set : forall F m sq o names T s,
  fowp F m true sq o names T = (RNone, s) -> closure_ok F m names (vis s) sq o T = true.
Proof. exact fowp_closed. Qed.
Print Assumptions C11_search_leaves_closed_set.

Theorem C11_complete_certified : forall F m kf sq o names T,
  siblings_unique m -> find_certified F m kf sq o names T = true ->
  forall t tr, ~ justified m sq o names T t tr.
Proof. intros F m kf sq o names T Hu. apply closure_complete. exact Hu. Qed.
Print Assumptions C11_complete_certified.

Theorem C11_closed_set_complete : forall F m sq o names T V,
  siblings_unique m -> closure_ok F m names V sq o T = true ->
  forall t tr, ~ justified m sq o names T t tr.
Proof. exact closure_complete. Qed.
Print Assumptions C11_closed_set_complete.

(* non-vacuity: the failed search of C11_sample_none is certified; the failed search with the old
   visited key (which misses a justified result, C11_old_key_incomplete) is not *)
Example C11_sample_certified :
  find_certified 20 sample true e_star 1 [[122]%N] None = true /\
  find_certified 20 sample false e_star 1 [[112]%N] (Some s_Mem) = false.
Proof. vm_compute. split; reflexivity. Qed.
Print Assumptions C11_sample_certified.

Theorem C11_complete_uncut : forall F m kf sq o names T px,
  siblings_unique m ->
  find F m kf sq o names T px = FNone -> find_hit F m kf sq o names T = false ->
  forall t tr, ~ justified m sq o names T t tr.
Proof.
  intros F m kf sq o names T px Hu Hf Hh. apply find_none_fowp in Hf. unfold find_hit in Hh.
  destruct (fowp F m kf sq o names T) as [r s] eqn:E. simpl in *. subst r.
  exact (fowp_complete_nohit m Hu F kf sq o names T s E Hh).
Qed.
Print Assumptions C11_complete_uncut.

(* the decidable form of the hypothesis used by the check's classifier *)
Theorem C11_siblings_unique_decidable : forall t,
  siblings_unique_tbl t = true -> siblings_unique (of_table t).
Proof. exact siblings_unique_tbl_ok. Qed.
Print Assumptions C11_siblings_unique_decidable.

(* name splitting drops empty parts *)
Theorem C11_split_nonempty : forall sep s, Forall (fun p => p <> []) (split_name sep s).
Proof.
  intros sep s. unfold split_name. apply Forall_forall. intros p Hp.
  apply filter_In in Hp as [_ Hp]. destruct p; discriminate.
Qed.
Print Assumptions C11_split_nonempty.

(* samples / non-vacuity:
   model:  0 Model{kids=[1;3]}  1 Cls a {members=[2]}  2 Mem p  3 Cls b {members=[4]}  4 Mem q *)
Example C11_sample_unique : siblings_unique sample.
Proof. exact sample_unique. Qed.
Print Assumptions C11_sample_unique.

(* from object 1 (= model.kids[0]) the member p of object 1 itself is found ... *)
Example C11_sample_found : find 20 sample true e_star 1 [[112]%N] (Some s_Mem) false = FObj 2.
Proof. exact sample_found. Qed.
Print Assumptions C11_sample_found.

(* ... which the old visited key (without first_element) missed although it is justified:
   the defect repaired in rrel.py (kept as a theorem about the kf = false model) *)
Theorem C11_old_key_incomplete :
  exists F m sq o names T t tr,
    siblings_unique m /\ find F m false sq o names T false = FNone /\ justified m sq o names T t tr.
Proof.
  destruct (find_obj_sound _ _ _ _ _ _ _ _ sample_found) as [tr Hj].
  exists 20, sample, e_star, 1, [[112]%N], (Some s_Mem), 2, tr.
  split; [exact sample_unique|]. split; [vm_compute; reflexivity | exact Hj].
Qed.
Print Assumptions C11_old_key_incomplete.

(* proxy path completed by the target after a non-consuming last step: a.p then parent(Cls) *)
Example C11_sample_proxy :
  find 20 sample true e_tail 4 [[97]%N; [112]%N] (Some s_Cls) true = FProxy [1; 2; 1].
Proof. vm_compute. reflexivity. Qed.
Print Assumptions C11_sample_proxy.

Example C11_sample_precedence :
  find 20 sample true e_alt 1 [[113]%N] None false = FObj 4 /\
  find 20 sample true (S1 (P1 (ENav [122]%N true None))) 1 [[113]%N] None false = FNone.
Proof. vm_compute. split; reflexivity. Qed.
Print Assumptions C11_sample_precedence.

(* a failed search without pruning: no member named z anywhere *)
Example C11_sample_none :
  find 20 sample true e_star 1 [[122]%N] None false = FNone /\
  find_hit 20 sample true e_star 1 [[122]%N] None = false.
Proof. vm_compute. split; reflexivity. Qed.
Print Assumptions C11_sample_none.

(* Without unique sibling names completeness fails (the known finding: `lst[0]`):
   0 Model{kids=[1]} 1 Pkg a{kids=[2;3]} 2 Cls b{members=[]} 3 Cls b{members=[4]} 4 Mem c;
   kids.kids.members on a.b.c is not resolved although object 4 is justified. *)
Theorem C11_duplicate_siblings_refuted :
  exists F m sq o names T t tr,
    find F m true sq o names T false = FNone /\ find_hit F m true sq o names T = false /\
    justified m sq o names T t tr.
Proof. exact dup_witness. Qed.
Print Assumptions C11_duplicate_siblings_refuted.
