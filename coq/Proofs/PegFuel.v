(* Fuel monotonicity of the Peg interpreter (Model/Peg.v), for EVERY grammar, oracle, configuration and
   memoization setting: an outcome other than "out of fuel" (Abort 0 / Aborted 0) does not change when
   more fuel is given. *)
From TxV Require Import Core.Base Model.PegSyntax Model.Peg Proofs.PegProofs Proofs.PegRel.

Section Fuel.
Variable g : grammar.
Variable input : list N.
Variable orc : nat -> nat -> option nat.
Variable memo : bool.

Notation parser := (nat -> bool -> st -> out) (only parsing).

Definition le_out (o o' : out) : Prop := o = Abort 0 \/ o' = o.
Definition rec_le (rec rec' : parser) : Prop := forall c psq s, le_out (rec c psq s) (rec' c psq s).

Lemma le_out_refl o : le_out o o.
Proof. now right. Qed.
Lemma le_out_trans a b c : le_out a b -> le_out b c -> le_out a c.
Proof. intros [->| ->] Hbc; [now left | exact Hbc]. Qed.
Lemma le_out_rel o o' : le_out o o' <-> rel_out eq eq (fun w => w = 0) no_abort eq o o'.
Proof. unfold le_out. destruct o, o'; cbn; unfold no_abort; intuition congruence. Qed.

Section Helpers.
Variables rec rec' : parser.
Hypothesis Hrec : rec_le rec rec'.

Lemma cmt_loop_mono cm k : forall k' s, k <= k' ->
  le_out (cmt_loop input rec cm k s) (cmt_loop input rec' cm k' s).
Proof.
  induction k as [|k IH]; intros k' s L; cbn [cmt_loop]; [now left|].
  destruct k' as [|k']; [lia|]. cbn [cmt_loop].
  destruct (Hrec cm false s) as [A|E]; [rewrite A; now left|]. rewrite E.
  destruct (rec cm false s) as [r s1|s1|w]; try apply le_out_refl. apply IH. lia.
Qed.

Lemma match_pre_mono k k' s : k <= k' ->
  le_out (match_pre g input rec k s) (match_pre g input rec' k' s).
Proof.
  intro L. unfold match_pre, parse_comments.
  destruct (if skipws (maybe_skip_ws input s) then _ else None); [apply le_out_refl|].
  destruct (in_cmt (maybe_skip_ws input s)); [apply le_out_refl|].
  destruct (g_comments g) as [cm|]; [|apply le_out_refl].
  destruct (cmt_loop_mono cm k k' (set_in_cmt true (maybe_skip_ws input s)) L) as [A|E].
  - rewrite A. now left.
  - rewrite E. apply le_out_refl.
Qed.

(* the same parser with more fuel for the loop of a repetition *)
Lemma rep_loop_fuel (rc : parser) e sep plus k : forall k' first acc s, k <= k' ->
  le_out (rep_loop rc e sep plus k first acc s) (rep_loop rc e sep plus k' first acc s).
Proof.
  induction k as [|k IH]; intros k' first acc s L; [now left|].
  destruct k' as [|k']; [lia|]. rewrite !rep_loop_S.
  assert (Helem : forall acc1 s1,
    le_out (rep_elem rc e sep plus k first (pos s) acc1 s1) (rep_elem rc e sep plus k' first (pos s) acc1 s1)).
  { intros acc1 s1. unfold rep_elem. destruct (rc e false s1) as [r s2|s2|w]; try apply le_out_refl.
    destruct (truthy r); [apply IH; lia | apply le_out_refl]. }
  destruct sep as [sp|]; [|apply Helem]. destruct first; [apply Helem|].
  destruct (rc sp false s); try apply le_out_refl. apply Helem.
Qed.

(* [body] over the two parsers with the same loop fuel is the lifting of PegRel at equality, Abort 0
   tolerated on the left; then the loop fuel is raised *)
Lemma body_mono k k' nd s : k <= k' -> le_out (body rec k nd s) (body rec' k' nd s).
Proof.
  intro L. apply le_out_trans with (body rec' k nd s).
  - apply le_out_rel.
    apply (body_rel eq eq eq eq (fun _ => True) (fun w => w = 0) no_abort); try (intros; subst; reflexivity); trivial.
    + intros l l' F. induction F; congruence.
    + intros n psq s0 s0' <-. apply le_out_rel, Hrec.
  - unfold body. destruct (n_kind nd); try apply le_out_refl;
      (destruct (n_kids nd) as [|e l]; [apply le_out_refl|]);
      [destruct (rep_loop_fuel rec' e (n_sep nd) false k k' true [] (enter_eol nd s) L) as [A|E]
      |destruct (rep_loop_fuel rec' e (n_sep nd) true k k' true [] (enter_eol nd s) L) as [A|E]];
      (rewrite A; now left) || (rewrite E; apply le_out_refl).
Qed.

End Helpers.

Lemma parse_fuel_le f : forall f', f <= f' -> rec_le (parse g input orc memo f) (parse g input orc memo f').
Proof.
  induction f as [|f IH]; intros f' L nid psq s; [now left|].
  destruct f' as [|f']; [lia|]. cbn [parse].
  assert (L' : f <= f') by lia. specialize (IH f' L').
  destruct (get_node g nid) as [nd|]; [|apply le_out_refl].
  destruct (is_match_kind (n_kind nd)).
  - destruct (match_pre_mono _ _ IH f f' s L') as [A|E]; [rewrite A; now left|]. rewrite E. apply le_out_refl.
  - cbn zeta. destruct (if memo then clookup nid (pos s) (cache s) else None) as [[cr np]|]; [apply le_out_refl|].
    destruct (body_mono _ _ IH f f' nd s L') as [A|E]; [rewrite A; now left|]. rewrite E. apply le_out_refl.
Qed.

Theorem parse_fuel_mono f f' nid psq s :
  f <= f' -> parse g input orc memo f nid psq s <> Abort 0 ->
  parse g input orc memo f' nid psq s = parse g input orc memo f nid psq s.
Proof. intros L NA. destruct (parse_fuel_le f f' L nid psq s) as [A|E]; [contradiction | exact E]. Qed.

End Fuel.

Theorem run_fuel_mono g c orc memo f f' input :
  f <= f' -> run g c orc memo f input <> Aborted 0 ->
  run g c orc memo f' input = run g c orc memo f input.
Proof.
  intros L NA. unfold run in *.
  destruct (parse_fuel_le g input orc memo f f' L (g_top g) false (init_st c)) as [A|E].
  - rewrite A in NA. contradiction.
  - now rewrite E.
Qed.

Corollary run_fuel_indep g c orc memo f f' input :
  run g c orc memo f input <> Aborted 0 -> run g c orc memo f' input <> Aborted 0 ->
  run g c orc memo f input = run g c orc memo f' input.
Proof.
  intros N N'. destruct (Nat.le_ge_cases f f') as [L|L].
  - symmetry. now apply run_fuel_mono.
  - now apply run_fuel_mono.
Qed.
