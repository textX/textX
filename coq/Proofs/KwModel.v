(* C20 / C21 at the level of the constructed model: what the hypotheses of the parse-level theorems give
   for the single terminals of a parse result, as the simulation of model construction (Proofs/KwBuild.v
   over Model/Build.v) asks for it.  The theorems are in Proofs/KwModel2.v. *)
From TxV Require Import Core.Base Model.PegSyntax Model.Peg Model.Build Model.KwDefs Gen.SrcKw Model.Kw
     Proofs.PegCongr Proofs.PegInv Proofs.KwProofs Proofs.KwBuild.

Lemma slice_same input p len : Build.slice input p len = KwProofs.slice input p len.
Proof. reflexivity. Qed.

(* the cased letters that were changed do not lie inside a match converted by a base type *)
Definition base_matches_unchanged (g : grammar) (s s' : list N) (r : res) : Prop :=
  forall nid p len, In (nid, p, len) (res_terminals r) -> is_base5 (rule_of g nid) = true ->
                    KwProofs.slice s' p len = KwProofs.slice s p len.

(* a slice of the variant, as the text of a terminal of rule [r] *)
Lemma slice_trel lo r s s' p len :
  case_variant lo s s' ->
  (is_base5 r = true -> KwProofs.slice s' p len = KwProofs.slice s p len) ->
  trel lo r (KwProofs.slice s p len) (KwProofs.slice s' p len).
Proof.
  intros Hcv Hb. destruct (is_base5 r) eqn:Eb; [left; exact (Hb eq_refl) | right].
  split; [exact Eb | exact (slice_case_variant lo s s' p len Hcv)].
Qed.

(* the StrMatches that autokwd replaces are case sensitive ones (no ignore_case) *)
Definition replaced_are_exact (g g' : grammar) : Prop :=
  forall nid nd nd' t oid o', get_node g nid = Some nd -> get_node g' nid = Some nd' ->
    n_kind nd = KStr t oid -> n_kind nd' = KRegex o' -> oid = None.

(* rule names and separators are the same in both tables *)
Definition meta_same (g g' : grammar) : Prop :=
  forall nid, rule_of g' nid = rule_of g nid /\
              option_map n_sep (get_node g' nid) = option_map n_sep (get_node g nid).

Lemma meta_same_sep supf g g' : meta_same g g' ->
  forall asg t, is_sep_of g' asg (ft supf t) = is_sep_of g asg t.
Proof.
  intros Hmeta asg t. unfold is_sep_of. rewrite tree_nid_ft.
  pose proof (proj2 (Hmeta asg)) as Hs.
  destruct (get_node g' asg) as [nd'|], (get_node g asg) as [nd|]; cbn [option_map] in Hs; try discriminate;
    [injection Hs as ->; reflexivity | reflexivity].
Qed.

Lemma is_prefix_firstn t s : is_prefix t s = true -> firstn (length t) s = t.
Proof.
  revert s; induction t as [|x t IH]; intros [|y s] H; try discriminate; [reflexivity | reflexivity|].
  cbn [is_prefix] in H. apply andb_true_iff in H as [H1 H2]. apply N.eqb_eq in H1. subst y.
  cbn [length firstn]. rewrite (IH s H2). reflexivity.
Qed.

Lemma lit_prefix_map lo t : forall s, lit_prefix lo true t s = true -> map lo (firstn (length t) s) = map lo t.
Proof.
  induction t as [|x t IH]; intros [|y s] H; try discriminate; [reflexivity | reflexivity|].
  cbn [lit_prefix ceq] in H. apply andb_true_iff in H as [H1 H2]. apply N.eqb_eq in H1.
  cbn [length firstn map]. rewrite (IH s H2), H1. reflexivity.
Qed.

(* a terminal of a StrMatch that autokwd replaces spells the literal: exactly if the StrMatch is case
   sensitive, up to case with ignore_case *)
Definition spelt_pt (lo : N -> N) (g g' : grammar) (input : list N) (nid p len : nat) : bool :=
  match get_node g nid, get_node g' nid with
  | Some nd, Some nd' =>
    match n_kind nd, n_kind nd' with
    | KStr t None, KRegex _ => str_eqb (KwProofs.slice input p len) t
    | KStr t (Some _), KRegex _ => str_eqb (map lo (KwProofs.slice input p len)) (map lo t)
    | _, _ => true
    end
  | _, _ => true
  end.

Lemma spelt_term_ok wordc digitc lo g g' input orc orc' :
  kw_tables_spec wordc digitc lo g g' input orc orc' ->
  forall nid nd psq s r s',
    get_node g nid = Some nd -> term_parse input orc nid (n_kind nd) psq s = Ok r s' ->
    res_okb (spelt_pt lo g g' input) r = true.
Proof.
  intros [Hn _] nid nd psq s r s' En H.
  destruct (term_parse_ok _ _ _ _ _ _ _ _ H) as [->|[len [sup [-> Hm]]]]; [reflexivity|].
  cbn [res_okb tree_okb]. unfold spelt_pt. rewrite En.
  destruct (get_node g' nid) as [nd'|] eqn:En'; [|reflexivity].
  destruct (n_kind nd) as [| | | | | | | | | |t oid|o] eqn:Ek; try reflexivity.
  destruct (n_kind nd') as [| | | | | | | | | |t' oid'|o'] eqn:Ek'; try (destruct oid; reflexivity).
  specialize (Hn nid). rewrite En, En', Ek, Ek' in Hn.
  unfold KwProofs.slice. destruct oid as [o|]; destruct Hm as [-> Hm], Hn as [_ [_ [_ Ho]]].
  - rewrite Ho in Hm. unfold str_match in Hm.
    destruct (lit_prefix lo true t (skipn (pos s) input)) eqn:Ep; [|destruct (Hm eq_refl)].
    rewrite (lit_prefix_map lo t _ Ep). apply str_eqb_refl.
  - rewrite (is_prefix_firstn _ _ Hm). apply str_eqb_refl.
Qed.

Lemma replaced_spelling wordc digitc lo g g' cfg orc orc' memo fuel input r nid p len nd nd' t oid o' :
  kw_tables_spec wordc digitc lo g g' input orc orc' ->
  run g cfg orc memo fuel input = Parsed r -> In (nid, p, len) (res_terminals r) ->
  get_node g nid = Some nd -> get_node g' nid = Some nd' -> n_kind nd = KStr t oid -> n_kind nd' = KRegex o' ->
  cv lo t (KwProofs.slice input p len) /\ (oid = None -> KwProofs.slice input p len = t).
Proof.
  intros Hspec Hrun Hin En En' Ek Ek'.
  pose proof (res_okb_In _ r (run_ok _ g input orc memo (spelt_term_ok wordc digitc lo g g' input orc orc' Hspec)
                                     cfg fuel r Hrun) nid p len Hin) as Hpt.
  unfold spelt_pt in Hpt. rewrite En, En', Ek, Ek' in Hpt.
  destruct oid; apply str_eqb_eq in Hpt;
    [split; [exact Hpt | discriminate] | split; [rewrite Hpt; reflexivity | intros _; exact Hpt]].
Qed.
