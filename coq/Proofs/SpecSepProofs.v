(* The trailing-separator variant of the reference semantics (Spec with tsep = true, what the
   interpreter refines) versus the documented semantics (tsep = false): same acceptance and same end
   position for EVERY grammar table; same trees when no repetition has a separator. *)
From TxV Require Import Core.Base Model.PegSyntax Model.Peg Model.Spec Model.Build Proofs.SpecProofs.
Require Import Lia.

Definition teq (P : bool) (a b : list stree) : Prop := P = true -> a = b.
Definition rel (P : bool) (a b : sres) : Prop :=
  match a, b with
  | SOk ts p, SOk ts' p' => p = p' /\ teq P ts ts'
  | SFail, SFail => True
  | SOut, SOut => True
  | _, _ => False
  end.

Lemma teq_refl P a : teq P a a.
Proof. intro; reflexivity. Qed.
Lemma teq_app P a a' b b' : teq P a a' -> teq P b b' -> teq P (a ++ b) (a' ++ b').
Proof. intros H1 H2 HP. rewrite (H1 HP), (H2 HP). reflexivity. Qed.

Section Sep.
Variable g : grammar.
Variable input : list N.
Variable orc : nat -> nat -> option nat.
Variable P : bool.

Notation sparser := (nat -> bool -> sctx -> nat -> sres) (only parsing).
Definition rrel (rec rec' : sparser) : Prop := forall nid psq x p, rel P (rec nid psq x p) (rec' nid psq x p).

Lemma skip_cmts_rel rec rec' cm x : rrel rec rec' -> forall k p, skip_cmts input rec cm x k p = skip_cmts input rec' cm x k p.
Proof.
  intros Hr. induction k as [|k IH]; intro p; [reflexivity|]. cbn [skip_cmts].
  pose proof (Hr cm false (ctx_cmt x) p) as H.
  destruct (rec cm false (ctx_cmt x) p), (rec' cm false (ctx_cmt x) p); cbn [rel] in H; try contradiction; try reflexivity.
  destruct H as [<- _]. apply IH.
Qed.

Lemma skip_rel rec rec' k x p : rrel rec rec' -> skip g input rec k x p = skip g input rec' k x p.
Proof.
  intro Hr. unfold skip. destruct (x_skip x); [|reflexivity]. destruct (x_incmt x); [reflexivity|].
  destruct (g_comments g); [|reflexivity]. apply skip_cmts_rel. exact Hr.
Qed.

Lemma sseq_rel rec rec' psq x kids : rrel rec rec' ->
  forall acc acc' p, teq P acc acc' -> rel P (sseq rec psq x kids acc p) (sseq rec' psq x kids acc' p).
Proof.
  intro Hr. induction kids as [|c kids IH]; intros acc acc' p Ha; cbn [sseq].
  - cbn. split; [reflexivity | exact Ha].
  - pose proof (Hr c psq x p) as H.
    destruct (rec c psq x p), (rec' c psq x p); cbn [rel] in H; try contradiction; try exact I.
    destruct H as [<- Ht]. apply IH. apply teq_app; assumption.
Qed.

Lemma schoice_rel rec rec' x kids p : rrel rec rec' -> rel P (schoice rec x kids p) (schoice rec' x kids p).
Proof.
  intro Hr. induction kids as [|c kids IH]; cbn [schoice]; [exact I|].
  pose proof (Hr c false x p) as H.
  destruct (rec c false x p), (rec' c false x p); cbn [rel] in H; try contradiction; try exact I.
  - exact H.
  - exact IH.
Qed.

(* the only place where the two variants differ *)
Lemma srep_rel rec rec' e sep plus x : rrel rec rec' -> (P = true -> sep = None) ->
  forall k first acc acc' p, teq P acc acc' ->
  rel P (srep true rec e sep plus x k first acc p) (srep false rec' e sep plus x k first acc' p).
Proof.
  intros Hr Hsep. induction k as [|k IH]; intros first acc acc' p Ha; [exact I|].
  cbn [srep].
  assert (Hstop : rel P (if (plus && first)%bool then SFail else SOk acc p) (if (plus && first)%bool then SFail else SOk acc' p)).
  { destruct (plus && first)%bool; [exact I|]. split; [reflexivity | exact Ha]. }
  assert (Helem : forall sts sts' p1, teq P sts sts' -> (P = true -> sts = []) ->
            rel P (match rec e false x p1 with
                   | SOk ts p2 => if Nat.ltb p p2 then srep true rec e sep plus x k false (acc ++ sts ++ ts) p2
                                  else if (plus && first)%bool then SOk (acc ++ sts ++ ts) p2
                                  else if (plus && first)%bool then SFail else SOk acc p
                   | SFail => if (plus && first)%bool then SFail else SOk (acc ++ sts) p
                   | SOut => SOut end)
                  (match rec' e false x p1 with
                   | SOk ts p2 => if Nat.ltb p p2 then srep false rec' e sep plus x k false (acc' ++ sts' ++ ts) p2
                                  else if (plus && first)%bool then SOk (acc' ++ sts' ++ ts) p2
                                  else if (plus && first)%bool then SFail else SOk acc' p
                   | SFail => if (plus && first)%bool then SFail else SOk acc' p
                   | SOut => SOut end)).
  { intros sts sts' p1 Hs Hnil. pose proof (Hr e false x p1) as H.
    destruct (rec e false x p1), (rec' e false x p1); cbn [rel] in H; try contradiction; try exact I.
    - destruct H as [<- Ht]. destruct (Nat.ltb p p0).
      + apply IH. apply teq_app; [exact Ha|]. apply teq_app; assumption.
      + destruct (plus && first)%bool.
        * split; [reflexivity|]. apply teq_app; [exact Ha|]. apply teq_app; assumption.
        * split; [reflexivity | exact Ha].
    - destruct (plus && first)%bool; [exact I|]. split; [reflexivity|].
      intro HP. rewrite (Hnil HP), app_nil_r. exact (Ha HP). }
  destruct sep as [sp|].
  - destruct first.
    + apply (Helem [] [] p (teq_refl P []) (fun _ => eq_refl)).
    + pose proof (Hr sp false x p) as H.
      destruct (rec sp false x p), (rec' sp false x p); cbn [rel] in H; try contradiction; try exact I.
      * destruct H as [<- Ht]. apply Helem; [exact Ht|]. intro HP. specialize (Hsep HP). discriminate.
      * exact Hstop.
  - apply (Helem [] [] p (teq_refl P []) (fun _ => eq_refl)).
Qed.

Lemma sug_pick_rel rec rec' x todo p : rrel rec rec' ->
  match sug_pick rec x todo p, sug_pick rec' x todo p with
  | None, None => True
  | Some None, Some None => True
  | Some (Some (e, ts, p1)), Some (Some (e', ts', p1')) => e = e' /\ p1 = p1' /\ teq P ts ts'
  | _, _ => False
  end.
Proof.
  intro Hr. induction todo as [|e rest IH]; cbn [sug_pick]; [exact I|].
  pose proof (Hr e false x p) as H.
  destruct (rec e false x p), (rec' e false x p); cbn [rel] in H; try contradiction; try exact I.
  - destruct H as [<- Ht]. destruct (Nat.ltb p p0); [|exact IH]. split; [reflexivity|]. split; [reflexivity | exact Ht].
  - exact IH.
Qed.

Lemma sug_rest_rel rec rec' x todo p : rrel rec rec' ->
  rel P (sug_rest rec x todo p) (sug_rest rec' x todo p).
Proof.
  intro Hr. induction todo as [|e rest IH]; cbn [sug_rest]; [split; [reflexivity | apply teq_refl]|].
  pose proof (Hr e false x p) as H.
  destruct (rec e false x p), (rec' e false x p); cbn [rel] in H; try contradiction; try exact I.
  exact IH.
Qed.

Lemma sug_rel rec rec' sep x : rrel rec rec' ->
  forall n todo first acc acc' p, teq P acc acc' ->
  rel P (sug rec sep x n todo first acc p) (sug rec' sep x n todo first acc' p).
Proof.
  intro Hr. induction n as [|n IH]; intros todo first acc acc' p Ha; [exact I|].
  cbn [sug].
  destruct todo as [|t0 todo']; [split; [reflexivity | exact Ha]|].
  set (todo := t0 :: todo').
  assert (Hfin : rel P (match sug_rest rec x todo p with SOk _ _ => SOk acc p | r => r end)
                       (match sug_rest rec' x todo p with SOk _ _ => SOk acc' p | r => r end)).
  { pose proof (sug_rest_rel rec rec' x todo p Hr) as H.
    destruct (sug_rest rec x todo p), (sug_rest rec' x todo p); cbn [rel] in H; try contradiction; try exact I.
    split; [reflexivity | exact Ha]. }
  assert (Hgo : forall sts sts' p1, teq P sts sts' ->
            rel P (match sug_pick rec x todo p1 with
                   | None => SOut
                   | Some None => match sug_rest rec x todo p with SOk _ _ => SOk acc p | r => r end
                   | Some (Some (e, ts, p2)) => sug rec sep x n (remove_first e todo) false (acc ++ sts ++ ts) p2
                   end)
                  (match sug_pick rec' x todo p1 with
                   | None => SOut
                   | Some None => match sug_rest rec' x todo p with SOk _ _ => SOk acc' p | r => r end
                   | Some (Some (e, ts, p2)) => sug rec' sep x n (remove_first e todo) false (acc' ++ sts' ++ ts) p2
                   end)).
  { intros sts sts' p1 Hs. pose proof (sug_pick_rel rec rec' x todo p1 Hr) as H.
    destruct (sug_pick rec x todo p1) as [[[[e ts] p2]|]|], (sug_pick rec' x todo p1) as [[[[e' ts'] p2']|]|]; try contradiction; try exact I.
    - destruct H as [<- [<- Ht]]. apply IH. apply teq_app; [exact Ha|]. apply teq_app; assumption.
    - exact Hfin. }
  destruct sep as [sp|].
  - destruct first.
    + apply (Hgo [] [] p (teq_refl P [])).
    + pose proof (Hr sp false x p) as H.
      destruct (rec sp false x p), (rec' sp false x p); cbn [rel] in H; try contradiction; try exact I.
      * destruct H as [<- Ht]. apply Hgo. exact Ht.
      * exact Hfin.
  - apply (Hgo [] [] p (teq_refl P [])).
Qed.

Lemma sbody_rel rec rec' k nd x p : rrel rec rec' -> (P = true -> n_sep nd = None) ->
  rel P (sbody true rec k nd x p) (sbody false rec' k nd x p).
Proof.
  intros Hr Hsep. unfold sbody. destruct (n_kind nd).
  - apply sseq_rel; [exact Hr | apply teq_refl].
  - apply schoice_rel; exact Hr.
  - destruct (n_kids nd) as [|e rest]; [exact I|].
    pose proof (Hr e false x p) as H.
    destruct (rec e false x p), (rec' e false x p); cbn [rel] in H; try contradiction; try exact I.
    + exact H.
    + split; [reflexivity | apply teq_refl].
  - destruct (n_kids nd) as [|e rest]; [exact I|]. apply srep_rel; [exact Hr | exact Hsep | apply teq_refl].
  - destruct (n_kids nd) as [|e rest]; [exact I|]. apply srep_rel; [exact Hr | exact Hsep | apply teq_refl].
  - destruct (n_kids nd) as [|e rest]; [exact I|]. apply sug_rel; [exact Hr | apply teq_refl].
  - pose proof (sseq_rel rec rec' false x (n_kids nd) Hr [] [] p (teq_refl P [])) as H.
    destruct (sseq rec false x (n_kids nd) [] p), (sseq rec' false x (n_kids nd) [] p); cbn [rel] in H; try contradiction; try exact I.
    split; [reflexivity | apply teq_refl].
  - pose proof (sseq_rel rec rec' false x (n_kids nd) Hr [] [] p (teq_refl P [])) as H.
    destruct (sseq rec false x (n_kids nd) [] p), (sseq rec' false x (n_kids nd) [] p); cbn [rel] in H; try contradiction; try exact I.
    split; [reflexivity | apply teq_refl].
  - split; [reflexivity | apply teq_refl].
  - exact I.
  - exact I.
  - exact I.
Qed.

Hypothesis Hnosep : P = true -> forall nid nd, get_node g nid = Some nd -> n_sep nd = None.

Lemma seval_rel : forall f, rrel (seval g input orc true f) (seval g input orc false f).
Proof.
  induction f as [|f IH]; intros nid psq x p; [exact I|].
  cbn [seval]. destruct (get_node g nid) as [nd|] eqn:En; [|exact I].
  destruct (is_match_kind (n_kind nd)).
  - rewrite (skip_rel _ _ f x p IH). destruct (skip g input (seval g input orc false f) f x p); [|exact I].
    destruct (term_match input orc nid (n_kind nd) psq n); try exact I. split; [reflexivity | apply teq_refl].
  - pose proof (sbody_rel _ _ f nd x p IH (fun HP => Hnosep HP nid nd En)) as H.
    destruct (sbody true (seval g input orc true f) f nd x p), (sbody false (seval g input orc false f) f nd x p);
      cbn [rel] in H; try contradiction; try exact I.
    destruct H as [<- Ht]. split; [reflexivity|]. intro HP. rewrite (Ht HP). reflexivity.
Qed.
End Sep.

(* acceptance and end position: for every grammar table *)
Theorem spec_q_acceptance g c orc fuel input :
  match spec_run_q g c orc fuel input, spec_run g c orc fuel input with
  | SOk _ p, SOk _ p' => p = p'
  | SFail, SFail => True
  | SOut, SOut => True
  | _, _ => False
  end.
Proof.
  pose proof (seval_rel g input orc false (fun X => False_ind _ (Bool.diff_false_true X)) fuel (g_top g) false (init_ctx c) 0) as H.
  unfold spec_run_q, spec_run.
  destruct (seval g input orc true fuel (g_top g) false (init_ctx c) 0), (seval g input orc false fuel (g_top g) false (init_ctx c) 0);
    cbn [rel] in H; try contradiction; try exact I. destruct H as [H _]. exact H.
Qed.

Definition nosep (g : grammar) : bool := forallb (fun nd => opt_none (n_sep nd)) (g_nodes g).

Lemma nosep_nodes g : nosep g = true -> forall nid nd, get_node g nid = Some nd -> n_sep nd = None.
Proof. intros Hn nid nd En. apply opt_is_none. exact (nodes_forallb _ g Hn nid nd En). Qed.

(* without separators the two variants are the same function *)
Theorem spec_q_nosep g c orc fuel input :
  nosep g = true -> spec_run_q g c orc fuel input = spec_run g c orc fuel input.
Proof.
  intro Hn.
  pose proof (seval_rel g input orc true (fun _ => nosep_nodes g Hn) fuel (g_top g) false (init_ctx c) 0) as H.
  unfold spec_run_q, spec_run.
  destruct (seval g input orc true fuel (g_top g) false (init_ctx c) 0), (seval g input orc false fuel (g_top g) false (init_ctx c) 0);
    cbn [rel] in H; try contradiction; try reflexivity. destruct H as [<- Ht]. rewrite (Ht eq_refl). reflexivity.
Qed.

(* the statement of the refinement theorems: the documented semantics [rd] give the verdict and the end position,
   the trailing-separator variant [rq] the tree; without separators the documented tree is the same *)
Definition refines (g : grammar) (o : outcome) (rd rq : sres) : Prop :=
  match o with
  | Parsed r =>
    exists ts p, rd = SOk ts p /\
                 (nosep g = true -> erase_all ts = flatten r) /\
                 exists tsq, rq = SOk tsq p /\ erase_all tsq = flatten r
  | SyntaxErr _ => rd = SFail
  | Aborted _ => True
  end.

Lemma refines_of_q g c orc fuel input o :
  refines_q o (spec_run_q g c orc fuel input) ->
  refines g o (spec_run g c orc fuel input) (spec_run_q g c orc fuel input).
Proof.
  intro HQ. pose proof (spec_q_acceptance g c orc fuel input) as HA.
  destruct o as [r|e|w]; [| |exact I]; cbn [refines refines_q] in *.
  - destruct HQ as [tsq [p [Eq Ee]]]. rewrite Eq in HA |- *.
    destruct (spec_run g c orc fuel input) as [ts p'| |] eqn:Es; try contradiction. subst p'.
    exists ts, p. split; [reflexivity|]. split.
    + intro Hn. pose proof (spec_q_nosep g c orc fuel input Hn) as E. rewrite Eq, Es in E. inversion E; subst. exact Ee.
    + exists tsq. split; [reflexivity | exact Ee].
  - rewrite HQ in HA. destruct (spec_run g c orc fuel input); try contradiction. reflexivity.
Qed.

(* the refinement theorem for the class with unordered groups (if the interpreter terminates) *)
Theorem refinement_u g pf c orc fuel input :
  wfgu g pf = true -> orc_pos orc ->
  refines g (run g c orc false fuel input) (spec_run g c orc fuel input) (spec_run_q g c orc fuel input).
Proof. intros Hwf Horc. apply refines_of_q. apply (refinement_q g pf); assumption. Qed.

Theorem refinement g pf c orc fuel input :
  wfg g pf = true -> orc_pos orc ->
  match run g c orc false fuel input with
  | Parsed r =>
    exists ts p, spec_run g c orc fuel input = SOk ts p /\
                 (nosep g = true -> erase_all ts = flatten r) /\
                 exists tsq, spec_run_q g c orc fuel input = SOk tsq p /\ erase_all tsq = flatten r
  | SyntaxErr _ => spec_run g c orc fuel input = SFail
  | Aborted _ => True
  end.
Proof. intros Hwf Horc. exact (refinement_u g pf c orc fuel input (wfg_wfgu g pf Hwf) Horc). Qed.

(* model equality (Props/C01.v C01_model_equality): an accepted run from a root top node returns one tree *)
Definition root_top (g : grammar) : bool :=
  match get_node g (g_top g) with
  | Some nd => n_root nd && negb (is_match_kind (n_kind nd))
  | None => false
  end.

Lemma post_shape nid nd r : n_root nd = true -> truthy (post nid nd r) = true -> exists t, post nid nd r = RTree t.
Proof.
  intros Hr. unfold post.
  set (r1 := if (n_suppress nd || head_is_none r)%bool then RNone else r).
  rewrite Hr. cbn [andb].
  destruct (truthy r1 && negb (is_ptnode r1))%bool eqn:C.
  - intros _. eexists. reflexivity.
  - intro Ht. rewrite Ht in C. cbn [andb] in C. apply negb_false_iff in C.
    destruct r1; try discriminate. eexists. reflexivity.
Qed.

Lemma run_shape g c orc fuel input r :
  root_top g = true -> run g c orc false fuel input = Parsed r -> truthy r = true -> exists t, r = RTree t.
Proof.
  unfold root_top, run. intros Hrt H.
  destruct fuel as [|f]; [discriminate|]. cbn [parse] in H.
  destruct (get_node g (g_top g)) as [nd|]; [|discriminate].
  apply andb_true_iff in Hrt as [Hroot Hm]. apply negb_true_iff in Hm. rewrite Hm in H. cbv iota in H.
  destruct (body (parse g input orc false f) f nd (init_st c)) as [r0 s1|s1|w]; try discriminate.
  inversion H; subst. apply post_shape. exact Hroot.
Qed.

Lemma build_flat_flatten g mm input grp auto ug r :
  (truthy r = true -> exists t, r = RTree t) ->
  build g mm input grp auto ug r = build_flat g mm input grp auto ug (flatten r).
Proof.
  intro Hs. destruct r as [|t|l].
  - reflexivity.
  - cbn [flatten]. destruct t as [n p len s|n kids]; [reflexivity|]. destruct kids; reflexivity.
  - destruct l as [|a l]; [reflexivity|]. destruct (Hs eq_refl) as [t E]. discriminate.
Qed.

(* a grammar with suppression, a separator, predicates and a rule modifier inside the class
   (Model: 'm'- items+=Item[','] !'z' &';' ';';  Item[noskipws]: name=ID ('=' v=INT)?;  on "ma=1,b ;") *)
Definition g_rich : grammar := (mkGrammar [mkNode KSeq [1;18] None false [77;111;100;101;108]%N true false None None;
  mkNode KSeq [2;3;13;15;17] None false [77;111;100;101;108]%N true false None None;
  mkNode (KStr [109]%N None) [] None false []%N false true None None;
  mkNode KPlus [4] (Some 12) false [95;95;97;115;103;110;95;111;110;101;111;114;109;111;114;101]%N true false None None;
  mkNode KSeq [5;7] None false [73;116;101;109]%N true false None (Some false);
  mkNode KSeq [6] None false [95;95;97;115;103;110;95;112;108;97;105;110]%N true false None None;
  mkNode (KRegex 0) [] None false [73;68]%N true false None None;
  mkNode KOpt [8] None false []%N false false None None;
  mkNode KSeq [9;10] None false []%N false false None None;
  mkNode (KStr [61]%N None) [] None false []%N false false None None;
  mkNode KSeq [11] None false [95;95;97;115;103;110;95;112;108;97;105;110]%N true false None None;
  mkNode (KRegex 1) [] None false [73;78;84]%N true false None None;
  mkNode (KStr [44]%N None) [] None false [115;101;112]%N false false None None;
  mkNode KNot [14] None false []%N false false None None;
  mkNode (KStr [122]%N None) [] None false []%N false false None None;
  mkNode KAnd [16] None false []%N false false None None;
  mkNode (KStr [59]%N None) [] None false []%N false false None None;
  mkNode (KStr [59]%N None) [] None false []%N false false None None;
  mkNode KEOF [] None false [69;79;70]%N false false None None] 0 None).
Definition in_rich : list N := [109;97;61;49;44;98;32;59]%N.
Definition t_rich := [((0,0),2);((0,1),1);((0,5),1);((1,3),1)].

