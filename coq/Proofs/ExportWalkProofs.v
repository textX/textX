(* The traversal of model_export (ExportWalk.export) writes exactly one node statement for every object
   reachable through attributes: projection onto object numbers, then the invariants of the depth-first visit
   with its processed set. *)
From TxV Require Import Core.Base Model.ExportDefs Gen.SrcExport Model.Export Model.ExportWalk.

Section Proj.
  Variable st : list obj.
  Definition proj (acc : wacc) : list nat * list nat := (snd acc, node_ids (fst acc)).

  Lemma node_ids_app a b : node_ids (a ++ b) = node_ids a ++ node_ids b.
  Proof. unfold node_ids. apply flat_map_app. Qed.

  Lemma proj_put_none acc t : proj (put acc (None, t)) = proj acc.
  Proof. unfold proj, put. cbn [fst snd]. rewrite node_ids_app. cbn. rewrite app_nil_r. reflexivity. Qed.

  Lemma proj_put_some acc k t : proj (put acc (Some k, t)) = (snd acc, node_ids (fst acc) ++ [k]).
  Proof. unfold proj, put. cbn [fst snd]. rewrite node_ids_app. reflexivity. Qed.

  Lemma all_prim_no_objs l : forallb is_prim_item l = true -> item_objs l = [].
  Proof.
    induction l as [|i l IH]; intro H; [reflexivity|].
    cbn [forallb] in H. apply andb_true_iff in H as [Hi Hl].
    destruct i; cbn in Hi; try discriminate. cbn. apply IH, Hl.
  Qed.

  Section Step.
    Variables (rec : nat -> wacc -> wacc) (vrec : nat -> list nat * list nat -> list nat * list nat).
    Hypothesis rec_proj : forall j acc, proj (rec j acc) = vrec j (proj acc).

    Lemma items_proj k a l : forall acc idx,
      proj (fst (fold_left (items_step rec k a) l (acc, idx))) = fold_left (fun sn j => vrec j sn) (item_objs l) (proj acc).
    Proof.
      induction l as [|i l IH]; intros acc idx; [reflexivity|].
      cbn [fold_left]. destruct i as [|p|j]; cbn [items_step item_objs flat_map app].
      - apply IH.
      - rewrite IH, proj_put_none. reflexivity.
      - rewrite IH. cbn [fold_left]. rewrite rec_proj, proj_put_none. reflexivity.
    Qed.

    Lemma attr_proj k a s :
      proj (fst (attr_step rec k s a)) = fold_left (fun sn j => vrec j sn) (attr_targets a) (proj (fst s)).
    Proof.
      destruct s as [acc [name attrs]]. unfold attr_step, attr_targets. cbn [fst].
      destruct (a_val a) as [|p|j|l].
      - reflexivity.
      - destruct (a_list a); [reflexivity|]. destruct (str_eqb (a_name a) name_attr); reflexivity.
      - destruct (a_list a); [reflexivity|]. cbn [fst fold_left]. rewrite rec_proj, proj_put_none. reflexivity.
      - destruct (a_list a); [|reflexivity].
        destruct (forallb is_prim_item l) eqn:E.
        + rewrite (all_prim_no_objs l E). reflexivity.
        + cbn [fst]. apply items_proj.
    Qed.

    Lemma attrs_proj k attrs : forall s,
      proj (fst (fold_left (attr_step rec k) attrs s)) =
      fold_left (fun sn j => vrec j sn) (flat_map attr_targets attrs) (proj (fst s)).
    Proof.
      induction attrs as [|a attrs IH]; intro s; [reflexivity|].
      cbn [fold_left flat_map]. rewrite fold_left_app, IH, attr_proj. reflexivity.
    Qed.
  End Step.

  Lemma export_visit fuel : forall k acc, proj (export st fuel k acc) = visit st fuel k (proj acc).
  Proof.
    induction fuel as [|f IH]; intros k acc; [reflexivity|].
    cbn [export visit]. change (fst (proj acc)) with (snd acc).
    destruct (existsb (Nat.eqb k) (snd acc)); [reflexivity|].
    destruct (nth_error st k) as [o|]; [|reflexivity].
    pose proof (attrs_proj (export st f) (visit st f) IH k (o_attrs o) ((fst acc, k :: snd acc), ([], []))) as H.
    destruct (fold_left (attr_step (export st f) k) (o_attrs o) ((fst acc, k :: snd acc), ([], []))) as [acc1 [name attrs]].
    cbn [fst] in H. rewrite proj_put_some.
    unfold targets. change (proj (fst acc, k :: snd acc)) with (k :: snd acc, node_ids (fst acc)) in H.
    change (snd (proj acc)) with (node_ids (fst acc)).
    rewrite <- H. reflexivity.
  Qed.

  Lemma node_ids_untagged (a b c : list N) (f : nat -> list N) (l : list nat) :
    node_ids ([(None, a); (None, b)] ++ map (fun j => (None, f j)) l ++ [(None, c)]) = [].
  Proof. cbn [app node_ids flat_map fst]. induction l as [|j l IH]; [reflexivity | exact IH]. Qed.

  Lemma node_ids_subgraph k fn : node_ids (subgraph_stmts st k fn) = [].
  Proof. apply node_ids_untagged. Qed.

  (* the subgraph blocks of the repository path contribute no node statement *)
  Lemma repo_visit (roots : list (nat * list N)) : forall acc,
    proj (fold_left (fun acc r => export st (S (length st)) (fst r) (fst acc ++ subgraph_stmts st (fst r) (snd r), snd acc)) roots acc)
    = fold_left (fun sn r => visit st (S (length st)) r sn) (map fst roots) (proj acc).
  Proof.
    induction roots as [|[k fn] roots IH]; intro acc; [reflexivity|].
    cbn [fold_left map fst snd]. rewrite IH, export_visit. f_equal. f_equal.
    unfold proj. cbn [fst snd]. rewrite node_ids_app, node_ids_subgraph, app_nil_r. reflexivity.
  Qed.
End Proj.

Definition reach_any (st : list obj) (roots : list nat) (k : nat) : Prop := exists r, In r roots /\ reach st r k.

Section Dfs.
  Variable st : list obj.
  Notation n := (length st).
  Notation snp := (list nat * list nat)%type.

  Definition closed (sn : snp) : Prop :=
    forall x o j, In x (snd sn) -> nth_error st x = Some o -> In j (targets o) -> j < n -> In j (fst sn).
  Definition Inv (sn : snp) : Prop :=
    NoDup (fst sn) /\ (forall x, In x (fst sn) -> x < n) /\ NoDup (snd sn) /\ incl (snd sn) (fst sn) /\ closed sn.
  Definition Post (a b : snp) : Prop :=
    Inv b /\ incl (fst a) (fst b)
    /\ (exists new, snd b = snd a ++ new /\ forall x, In x new -> ~ In x (fst a))
    /\ (forall x, In x (fst b) -> In x (fst a) \/ In x (snd b)).

  Lemma Post_refl (a : snp) : Inv a -> Post a a.
  Proof.
    intro Ha. split; [exact Ha|]. split; [apply incl_refl|]. split.
    - exists []. split; [symmetry; apply app_nil_r | intros x []].
    - intros x Hx. left. exact Hx.
  Qed.

  Lemma Post_trans (a b c : snp) : Post a b -> Post b c -> Post a c.
  Proof.
    intros [Hb [Iab [[n1 [E1 D1]] S1]]] [Hc [Ibc [[n2 [E2 D2]] S2]]].
    split; [exact Hc|]. split; [eapply incl_tran; eassumption|]. split.
    - exists (n1 ++ n2). split; [rewrite E2, E1, app_assoc; reflexivity|].
      intros x Hx Hin. apply in_app_or in Hx as [Hx|Hx]; [apply (D1 x Hx Hin) | apply (D2 x Hx), Iab, Hin].
    - intros x Hx. destruct (S2 x Hx) as [Hb'|Hc']; [|right; exact Hc'].
      destruct (S1 x Hb') as [Ha'|Hb'']; [left; exact Ha'|]. right. rewrite E2. apply in_or_app. left. exact Hb''.
  Qed.

  Lemma seen_bounded sn : Inv sn -> length (fst sn) <= n.
  Proof.
    intros [Hnd [Hb _]]. rewrite <- (seq_length n 0). apply NoDup_incl_length; [exact Hnd|].
    intros x Hx. apply in_seq. split; [apply Nat.le_0_l | cbn; apply Hb, Hx].
  Qed.

  Definition Spec (fuel : nat) : Prop :=
    forall k sn, Inv sn -> n + 1 <= fuel + length (fst sn) ->
      Post sn (visit st fuel k sn) /\ (k < n -> In k (fst (visit st fuel k sn))).

  Lemma fold_spec f : Spec f -> forall ts sn, Inv sn -> n + 1 <= f + length (fst sn) ->
    Post sn (fold_left (fun sn j => visit st f j sn) ts sn)
    /\ (forall j, In j ts -> j < n -> In j (fst (fold_left (fun sn j => visit st f j sn) ts sn))).
  Proof.
    intro Hf. induction ts as [|j ts IH]; intros sn Hi Hfuel.
    - split; [apply Post_refl, Hi | intros j []].
    - cbn [fold_left]. destruct (Hf j sn Hi Hfuel) as [P1 Hj].
      assert (Hi1 : Inv (visit st f j sn)) by apply P1.
      assert (Hinc : incl (fst sn) (fst (visit st f j sn))) by apply P1.
      assert (Hfuel1 : n + 1 <= f + length (fst (visit st f j sn))).
      { pose proof (NoDup_incl_length (proj1 Hi) Hinc). lia. }
      destruct (IH (visit st f j sn) Hi1 Hfuel1) as [P2 Hts].
      split; [eapply Post_trans; eassumption|].
      intros j' [E|Hin] Hlt; [subst j'|apply Hts; assumption].
      destruct P2 as [_ [I2 _]]. apply I2, Hj, Hlt.
  Qed.

  Lemma visit_spec fuel : Spec fuel.
  Proof.
    induction fuel as [|f IH]; intros k sn Hi Hfuel.
    - pose proof (seen_bounded sn Hi). lia.
    - cbn [visit]. destruct (existsb (Nat.eqb k) (fst sn)) eqn:Ek.
      + split; [apply Post_refl, Hi | intros _; apply existsb_nat_In, Ek].
      + assert (Hnew : ~ In k (fst sn)) by (intro Hin; apply existsb_nat_In in Hin; congruence).
        destruct (nth_error st k) as [o|] eqn:Eo.
        * assert (Hk : k < n) by (apply nth_error_Some; congruence).
          destruct Hi as [Hnd [Hb [Hndn [Hinc Hcl]]]].
          set (sn1 := (k :: fst sn, snd sn)).
          assert (Hi1 : Inv sn1).
          { unfold sn1. split; [constructor; assumption|]. split.
            - intros x [E|Hx]; [subst; exact Hk | apply Hb, Hx].
            - split; [exact Hndn|]. split; [intros x Hx; right; apply Hinc, Hx|].
              intros x o' j Hx Ho' Hj Hlt. right. apply (Hcl x o' j Hx Ho' Hj Hlt). }
          assert (Hfuel1 : n + 1 <= f + length (fst sn1)) by (unfold sn1; cbn [fst length]; lia).
          destruct (fold_spec f IH (targets o) sn1 Hi1 Hfuel1) as [P Ht].
          set (snf := fold_left (fun sn j => visit st f j sn) (targets o) sn1) in *.
          destruct P as [[Hnd' [Hb' [Hndn' [Hinc' Hcl']]]] [I1 [[new [En Dn]] S1]]].
          assert (Hkin : In k (fst snf)) by (apply I1; left; reflexivity).
          assert (Hknot : ~ In k (snd snf)).
          { rewrite En. intro Hin. apply in_app_or in Hin as [Hin|Hin].
            - apply Hnew, Hinc, Hin.
            - apply (Dn k Hin). left. reflexivity. }
          split; [|intros _; exact Hkin].
          split; [|split; [|split]].
          -- cbn [fst snd]. split; [exact Hnd'|]. split; [exact Hb'|]. split; [apply NoDup_snoc; assumption|]. split.
             ++ intros x Hx. apply in_app_or in Hx as [Hx|[E|[]]]; [apply Hinc', Hx | subst; exact Hkin].
             ++ intros x o' j Hx Ho' Hj Hlt. cbn [fst snd] in *. apply in_app_or in Hx as [Hx|[E|[]]].
                ** apply (Hcl' x o' j Hx Ho' Hj Hlt).
                ** subst x. rewrite Eo in Ho'. inversion Ho'; subst o'. apply Ht; assumption.
          -- cbn [fst]. intros x Hx. apply I1. right. exact Hx.
          -- cbn [snd]. exists (new ++ [k]). split; [rewrite En, app_assoc; reflexivity|].
             intros x Hx Hin. apply in_app_or in Hx as [Hx|[E|[]]].
             ++ apply (Dn x Hx). right. exact Hin.
             ++ subst x. apply Hnew, Hin.
          -- cbn [fst snd]. intros x Hx. destruct (S1 x Hx) as [[E|Hs]|Hn].
             ++ subst x. right. apply in_or_app. right. left. reflexivity.
             ++ left. exact Hs.
             ++ right. apply in_or_app. left. exact Hn.
        * split; [apply Post_refl, Hi|]. intro Hk. apply nth_error_None in Eo. lia.
  Qed.

  (* everything put into the processed set satisfies a property that holds of the roots and follows edges *)
  Section Sound.
    Variable P : nat -> Prop.
    Hypothesis Hedge : forall x j, P x -> edge st x j -> P j.
    Definition seen_P (sn : snp) : Prop := forall x, In x (fst sn) -> P x.

    Lemma fold_P (v : nat -> snp -> snp) :
      (forall k sn, seen_P sn -> (k < n -> P k) -> seen_P (v k sn)) ->
      forall ts sn, seen_P sn -> (forall j, In j ts -> j < n -> P j) -> seen_P (fold_left (fun sn j => v j sn) ts sn).
    Proof.
      intro Hv. induction ts as [|j ts IH]; intros sn Hs Ht; [exact Hs|].
      cbn [fold_left]. apply IH; [|intros j' Hj'; apply Ht; right; exact Hj'].
      apply Hv; [exact Hs | apply Ht; left; reflexivity].
    Qed.

    Lemma visit_P fuel : forall k sn, seen_P sn -> (k < n -> P k) -> seen_P (visit st fuel k sn).
    Proof.
      induction fuel as [|f IH]; intros k sn Hs Hk; [exact Hs|].
      cbn [visit]. destruct (existsb (Nat.eqb k) (fst sn)); [exact Hs|].
      destruct (nth_error st k) as [o|] eqn:Eo; [|exact Hs].
      assert (Hkn : k < n) by (apply nth_error_Some; congruence).
      unfold seen_P. cbn [fst]. apply (fold_P (visit st f) IH).
      - intros x [<-|Hx]; [apply Hk, Hkn | apply Hs, Hx].
      - intros j Hj Hlt. apply (Hedge k j (Hk Hkn)). exists o. auto.
    Qed.
  End Sound.

  (* one processed set for several roots, as in the repository path *)
  Theorem repo_exact (roots : list nat) : (forall r, In r roots -> r < n) ->
    let nodes := snd (fold_left (fun sn r => visit st (S n) r sn) roots ([], [])) in
    NoDup nodes /\ forall k, In k nodes <-> reach_any st roots k.
  Proof.
    intro Hr. cbn zeta.
    assert (Hi0 : Inv ([], [])).
    { split; [constructor|]. split; [intros x []|]. split; [constructor|]. split; [intros x []|]. intros x o j []. }
    destruct (fold_spec (S n) (visit_spec (S n)) roots ([], []) Hi0) as [[[Hnd [Hb [Hndn [Hinc Hcl]]]] [_ [_ S1]]] Hroots]; [cbn; lia|].
    set (sn := fold_left (fun sn r => visit st (S n) r sn) roots ([], [])) in *.
    assert (Hsn : forall x, In x (fst sn) -> In x (snd sn)) by (intros x Hx; destruct (S1 x Hx) as [[]|H]; exact H).
    split; [exact Hndn|]. intro k. split.
    - assert (Hedge : forall x j, reach_any st roots x -> edge st x j -> reach_any st roots j).
      { intros x j [r [Hin Hx]] He. exists r. split; [exact Hin | eapply reach_step; eassumption]. }
      intro Hk. apply (fold_P (reach_any st roots) (visit st (S n)) (visit_P _ Hedge (S n)) roots ([], [])).
      + intros x [].
      + intros j Hj _. exists j. split; [exact Hj | constructor].
      + apply Hinc, Hk.
    - intros [r [Hin Hre]]. induction Hre as [|j l Hj IHj He].
      + apply Hsn, Hroots; [exact Hin | apply Hr, Hin].
      + destruct He as [o [Ho [Hl Hlt]]]. apply Hsn. apply (Hcl j o l IHj Ho Hl Hlt).
  Qed.

  Corollary visit_exact root : root < n ->
    let nodes := snd (visit st (S n) root ([], [])) in
    NoDup nodes /\ forall k, In k nodes <-> reach st root k.
  Proof.
    intro Hr. destruct (repo_exact [root]) as [Hnd Hiff]; [intros r [<-|[]]; exact Hr|].
    split; [exact Hnd|]. intro k. rewrite (Hiff k). split.
    - intros [r [[<-|[]] H]]. exact H.
    - intro H. exists root. split; [left; reflexivity | exact H].
  Qed.
End Dfs.
