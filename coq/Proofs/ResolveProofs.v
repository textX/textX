From Coq Require Import Permutation.
From TxV Require Import Core.Base Gen.SrcResolve Model.Resolve Proofs.ResolveStepProofs Proofs.ResolveOrderProofs
  Proofs.ResolveRetryProofs Proofs.ResolveTermProofs Proofs.ResolveCountProofs.

(* the facts read from textx/model.py
   (Gen/SrcResolve.v).  Every theorem below is proved for the model instantiated with the
   generated constants, through the fact lemmas of the files imported above; when a constant
   changes, its lemma stops compiling and the theorems that need it are no longer established. *)
Lemma cond_eq u c : forallb (holds u c) loop_condition = (Nat.ltb 0 u && Nat.ltb 0 c)%bool.
Proof. rewrite tfact_loop. cbn [forallb holds fst snd]. rewrite andb_true_r. reflexivity. Qed.
Lemma err_eq u c : holds u c error_condition = Nat.ltb 0 u.
Proof. rewrite fact_error. reflexivity. Qed.

(* the resolver in canonical form:
   what Model/Resolve.v computes under the facts above (one queue, every resolution counts) *)
Fixpoint cstep (ans : provider) (pend : list xref) (st : state) : option (state * list xref * nat) :=
  match pend with
  | [] => Some (st, [], 0)
  | x :: r =>
      match ans x st with
      | NotFound => None
      | Postponed => match cstep ans r (bump x st) with
                     | Some (st', d, c) => Some (st', x :: d, c)
                     | None => None
                     end
      | Resolved t => match cstep ans r (store x t (bump x st)) with
                      | Some (st', d, c) => Some (st', d, S c)
                      | None => None
                      end
      end
  end.

Fixpoint cround (ans : provider) (models : list (list xref)) (st : state) : option (state * list (list xref) * nat) :=
  match models with
  | [] => Some (st, [], 0)
  | m :: ms =>
      match cstep ans m st with
      | None => None
      | Some (st1, d, c) =>
          match cround ans ms st1 with
          | None => None
          | Some (st2, ds, c') => Some (st2, d :: ds, c + c')
          end
      end
  end.

Fixpoint cloop (fuel : nat) (ans : provider) (models : list (list xref)) (st : state) : outcome :=
  match fuel with
  | O => OutOfFuel
  | S f =>
      match cround ans models st with
      | None => UnknownObject
      | Some (st', models', c) =>
          if (Nat.ltb 0 (total models') && Nat.ltb 0 c)%bool then cloop f ans models' st'
          else if Nat.ltb 0 (total models') then Unresolvable models' st'
          else Ok st'
      end
  end.

Definition cload (ans : provider) (models : list (list xref)) : outcome := cloop (S (total models)) ans models init.

(* the one queue stands for both the new pending list and the delayed list *)
Definition lift {A} (r : option (state * A * nat)) : option (state * A * A * nat) :=
  match r with Some (st', d, c) => Some (st', d, d, c) | None => None end.

Lemma step_eq ans : forall pend st, step ans pend st = lift (cstep ans pend st).
Proof.
  induction pend as [|x r IH]; intro st; cbn [step cstep]; [reflexivity|].
  destruct (ans x st) as [t| |]; [| |reflexivity].
  - rewrite IH. destruct (cstep ans r _) as [[[st1 d1] c1]|]; cbn [lift]; [|reflexivity].
    rewrite counted_is_one. reflexivity.
  - rewrite IH. destruct (cstep ans r _) as [[[st1 d1] c1]|]; cbn [lift]; [|reflexivity].
    rewrite carry_requeue, carry_report. reflexivity.
Qed.

Lemma round_eq ans : forall models st, round ans models st = lift (cround ans models st).
Proof.
  induction models as [|m ms IH]; intro st; cbn [round cround]; [reflexivity|].
  rewrite step_eq. destruct (cstep ans m st) as [[[st1 d] c1]|]; cbn [lift]; [|reflexivity].
  rewrite IH. destruct (cround ans ms st1) as [[[st2 ds] c2]|]; reflexivity.
Qed.

Lemma loop_eq ans : forall fuel models st, loop fuel ans models st = cloop fuel ans models st.
Proof.
  induction fuel as [|f IH]; intros models st; cbn [loop cloop]; [reflexivity|].
  rewrite round_eq. destruct (cround ans models st) as [[[st' models'] c]|]; cbn [lift]; [|reflexivity].
  rewrite cond_eq, err_eq, IH. reflexivity.
Qed.

Lemma load_eq ans models : load ans models = cload ans models.
Proof. apply loop_eq. Qed.

Lemma step_cstep ans pend st st' np d c :
  step ans pend st = Some (st', np, d, c) -> cstep ans pend st = Some (st', d, c).
Proof.
  rewrite step_eq. destruct (cstep ans pend st) as [[[st1 d1] c1]|]; cbn [lift]; [|discriminate].
  intro H. injection H as <- _ <- <-. reflexivity.
Qed.

(* a pass that counts nothing has left the targets alone and got Postponed for every reference *)
Lemma cstep_zero ans : forall pend st st' d,
  cstep ans pend st = Some (st', d, 0) ->
  (forall i, tgt st' i = tgt st i) /\
  (forall x, In x pend -> exists st1, (forall i, tgt st1 i = tgt st i) /\ ans x st1 = Postponed).
Proof.
  induction pend as [|x r IH]; intros st st' d H; cbn [cstep] in H.
  - injection H as <- _. split; [reflexivity | intros x []].
  - destruct (ans x st) as [t| |] eqn:Ea; [| |discriminate].
    + destruct (cstep ans r _) as [[[st1 d1] c1]|]; discriminate.
    + destruct (cstep ans r _) as [[[st1 d1] c1]|] eqn:E; [|discriminate]. injection H as <- _ ->.
      destruct (IH _ _ _ E) as [Ht Hs]. split; [exact Ht|].
      intros y [<-|Hy]; [exists st; split; [reflexivity | exact Ea] | exact (Hs y Hy)].
Qed.

(* C09: a provider that follows a monotone
   readiness predicate - reading it off the resolved set or off the snapshot of the settled
   references - drives the load to the least fixpoint *)
Section Lfp.
  Variable all : list xref.
  Hypothesis ids_unique : NoDup (map xid all).
  Variable ready : xref -> (nat -> bool) -> bool.
  Hypothesis ready_mono : forall x (S S' : nat -> bool),
    (forall i, S i = true -> S' i = true) -> ready x S = true -> ready x S' = true.

  (* i can be resolved by some order: it is ready given some set of references that can be *)
  Inductive mreach : nat -> Prop :=
  | mreach_intro x (S : nat -> bool) : In x all -> (forall i, S i = true -> mreach i) -> ready x S = true -> mreach (xid x).

  Definition Pend (st : state) (pend : list xref) : Prop :=
    (forall x, In x pend -> In x all /\ tgt st (xid x) = None) /\
    (forall x, In x all -> tgt st (xid x) = None -> In x pend).
  Definition Sound (st : state) : Prop :=
    forall i t, tgt st i = Some t -> mreach i /\ exists x, In x all /\ xid x = i /\ t = xtgt x.
  Definition stuck (st : state) (x : xref) : Prop := ready x (resolved_set st) = false.

  Lemma ready_ext x (s s' : nat -> bool) : (forall i, s i = s' i) -> ready x s = false -> ready x s' = false.
  Proof.
    intros E H. destruct (ready x s') eqn:R; [|reflexivity]. rewrite <- H. symmetry.
    apply (ready_mono x s'); [|exact R]. intros i Hi. rewrite E. exact Hi.
  Qed.

  Lemma stuck_ext st st' x : (forall i, tgt st' i = tgt st i) -> stuck st x -> stuck st' x.
  Proof. intro E. apply ready_ext. intro i. unfold resolved_set. rewrite E. reflexivity. Qed.

  (* once every pending reference is stuck, everything reachable has been resolved *)
  Lemma complete st pend : Pend st pend -> (forall x, In x pend -> stuck st x) ->
    forall i, mreach i -> tgt st i <> None.
  Proof.
    intros [I2 I3] Hst i Hr. induction Hr as [x S Hx HS IH Hready].
    intro Hn. specialize (Hst x (I3 x Hx Hn)). unfold stuck in Hst.
    rewrite (ready_mono x S (resolved_set st)) in Hst; [discriminate| |exact Hready].
    intros j Hj. unfold resolved_set. specialize (IH j Hj). destruct (tgt st j); [reflexivity | congruence].
  Qed.

  (* The providers meant.  [s] is the snapshot the provider is given: it lags behind the resolved
     set during a pass and agrees with it between passes.  Resolving on the strength of either set
     is sound; postponing is only required to be justified once the two agree, which is all a
     round without progress needs. *)
  Definition tracks (ans : sprovider) : Prop := forall s x st,
    match ans s x st with
    | Resolved t => t = xtgt x /\ (ready x s = true \/ ready x (resolved_set st) = true)
    | Postponed => agrees s st -> stuck st x
    | NotFound => False
    end.

  (* what is stored and what is settled can be resolved by some order *)
  Definition sound (s : nat -> bool) (st : state) : Prop := Sound st /\ forall i, s i = true -> mreach i.

  Lemma Sound_resolved st : Sound st -> forall i, resolved_set st i = true -> mreach i.
  Proof.
    intros HS i Hi. unfold resolved_set in Hi. destruct (tgt st i) as [t|] eqn:Et; [|discriminate].
    exact (proj1 (HS i t Et)).
  Qed.

  Section Tracking.
    Variable ans : sprovider.
    Hypothesis ans_tracks : tracks ans.

    Lemma sound_store s x t st :
      In x all -> tgt st (xid x) = None -> ans s x st = Resolved t -> sound s st -> sound s (store x t (bump x st)).
    Proof.
      intros Hx _ Ea [HS Hs]. pose proof (ans_tracks s x st) as T. rewrite Ea in T. destruct T as [-> Hr].
      assert (Hm : mreach (xid x)).
      { destruct Hr as [Hr|Hr]; [exact (mreach_intro x s Hx Hs Hr)|].
        exact (mreach_intro x (resolved_set st) Hx (Sound_resolved st HS) Hr). }
      split; [|exact Hs]. intros i t Hi. cbn [tgt store bump] in Hi.
      destruct (Nat.eqb_spec i (xid x)) as [->|]; [|exact (HS i t Hi)].
      injection Hi as <-. split; [exact Hm | exists x; repeat split; assumption].
    Qed.

    Lemma sound_commit s m st : sound s st -> sound (commit m st s) st.
    Proof.
      intros [HS Hs]. split; [exact HS|]. intros i Hi. unfold commit in Hi.
      destruct (existsb _ m); [exact (Sound_resolved st HS i Hi) | exact (Hs i Hi)].
    Qed.

    Lemma tracks_found s x st : ans s x st <> NotFound.
    Proof. intro Ea. pose proof (ans_tracks s x st) as T. rewrite Ea in T. exact T. Qed.

    (* a round without progress started with a snapshot that agrees with the resolved set:
       nothing changed, and every pending reference was found not ready *)
    Lemma qround_zero models st s st' pends dels c s' :
      qround ans models st s = Some (st', pends, dels, c, s') -> c = 0 -> agrees s st ->
      (forall i, tgt st' i = tgt st i) /\ (forall x, In x (concat models) -> stuck st x).
    Proof.
      intro H. apply qround_runs in H.
      induction H as [st s | m ms st s st1 np d c st2 nps ds c' s2 E1 _ IH]; intros Hc A.
      - split; [reflexivity | intros x []].
      - assert (c = 0 /\ c' = 0) as [-> Hc'] by lia.
        destruct (cstep_zero _ _ _ _ _ (step_cstep _ _ _ _ _ _ _ E1)) as [Ht Hs].
        destruct (IH Hc' (commit_agrees _ _ _ _ _ _ _ _ E1 A)) as [Ht2 Hs2]. split.
        + intro i. rewrite Ht2. apply Ht.
        + intros x Hx. cbn [concat] in Hx. apply in_app_iff in Hx as [Hx|Hx].
          * destruct (Hs x Hx) as [st0 [E0 Ep]]. apply (stuck_ext st0); [intro i; symmetry; apply E0|].
            pose proof (ans_tracks s x st0) as T. rewrite Ep in T. apply T.
            intro i. rewrite (A i). unfold resolved_set. rewrite E0. reflexivity.
          * apply (stuck_ext st1); [intro i; symmetry; apply Ht | exact (Hs2 x Hx)].
    Qed.

    Lemma qloop_lfp : forall fuel models st s,
      NoDup (concat models) -> Pend st (concat models) -> sound s st -> agrees s st ->
      match qloop fuel ans models st s with
      | Ok st' => Pend st' [] /\ Sound st'
      | Unresolvable lf st' => Pend st' (concat lf) /\ Sound st' /\ concat lf <> [] /\
                               (forall x, In x (concat lf) -> stuck st' x)
      | UnknownObject => False
      | OutOfFuel => True
      end.
    Proof.
      induction fuel as [|f IH]; intros models st s ND HP HS A; cbn [qloop]; [exact I|].
      destruct (qround ans models st s) as [[[[[st' pends] dels] c] s']|] eqn:E; [|exact (qround_some ans tracks_found _ _ _ E)].
      (* [sound] does not look at the call counters: a bump keeps it as it is *)
      destruct (qround_inv all ids_unique ans sound (fun _ _ _ H => H) sound_store sound_commit
                  _ _ _ _ _ _ _ _ E []) as [HP' [ND' [HS' P]]]; rewrite ?app_nil_r; try assumption.
      rewrite app_nil_r in HP', ND'.
      pose proof (qround_agrees _ _ _ _ _ _ _ _ _ E A) as A'. rewrite cond_eq, err_eq.
      destruct (Nat.ltb_spec 0 (total dels)) as [Hd|Hd]; cbn [andb].
      - destruct (Nat.ltb_spec 0 c) as [Hc|Hc]; [apply IH; assumption|].
        (* no progress: the references reported are the pending ones, and they were pending before *)
        destruct (qround_zero _ _ _ _ _ _ _ _ E (proj1 (Nat.le_0_r c) Hc) A) as [Ht Hs].
        pose proof (pending_perm all _ _ _ (Permutation_sym P) HP') as HPd.
        split; [exact HPd | split; [exact (proj1 HS') | split]].
        + intro Hnil. unfold total in Hd. rewrite Hnil in Hd. inversion Hd.
        + intros x Hx. destruct (proj1 HPd x Hx) as [Hxa Hxn]. rewrite Ht in Hxn.
          apply (stuck_ext st); [exact Ht | exact (Hs x (proj2 HP x Hxa Hxn))].
      - unfold total in Hd. destruct (concat dels); [|cbn [length] in Hd; lia].
        apply Permutation_nil in P. rewrite P in HP'. split; [exact HP' | exact (proj1 HS')].
    Qed.
  End Tracking.
End Lfp.

Definition monotone (ready : xref -> (nat -> bool) -> bool) : Prop :=
  forall x (S S' : nat -> bool), (forall i, S i = true -> S' i = true) -> ready x S = true -> ready x S' = true.

(* the two kinds of provider of Model/Resolve.v *)
Lemma mono_tracks ready : tracks ready (fun _ => mono_ans ready).
Proof.
  intros s x st. unfold mono_ans. destruct (ready x (resolved_set st)) eqn:R; [|intros _; exact R].
  split; [reflexivity | right; reflexivity].
Qed.

Lemma smono_tracks ready : monotone ready -> tracks ready (smono_ans ready).
Proof.
  intros Hm s x st. unfold smono_ans. destruct (ready x s) eqn:R; [split; [reflexivity | left; reflexivity]|].
  intro A. exact (ready_ext ready Hm x s _ A R).
Qed.

Section Reached.
  Variable ready : xref -> (nat -> bool) -> bool.
  Hypothesis ready_mono : monotone ready.
  Variable ans : sprovider.
  Hypothesis ans_tracks : tracks ready ans.

  Lemma lfp_load models (ND : NoDup (map xid (concat models))) :
    match qload ans models with
    | Ok st' => Pend (concat models) st' [] /\ Sound (concat models) ready st'
    | Unresolvable lf st' => Pend (concat models) st' (concat lf) /\ Sound (concat models) ready st' /\ concat lf <> [] /\
                             (forall x, In x (concat lf) -> stuck ready st' x)
    | UnknownObject => False
    | OutOfFuel => True
    end.
  Proof.
    apply (qloop_lfp (concat models) ND ready ready_mono ans ans_tracks (S (total models)) models init (fun _ => false)
             (NoDup_map_inv _ _ ND) (pending_init _ models eq_refl)).
    - split; [intros i t H | intros i H]; discriminate.
    - intro i. reflexivity.
  Qed.

  Theorem lfp_ok : forall models st, NoDup (map xid (concat models)) ->
    qload ans models = Ok st ->
    forall x, In x (concat models) -> mreach (concat models) ready (xid x) /\ tgt st (xid x) = Some (xtgt x).
  Proof.
    intros models st ND H x Hx. pose proof (lfp_load models ND) as L. rewrite H in L. destruct L as [[I2 I3] HS].
    destruct (tgt st (xid x)) as [t|] eqn:Et; [|destruct (I3 x Hx Et)].
    destruct (HS _ _ Et) as [Hr [y [Hy [Eid Etg]]]]. split; [exact Hr|].
    rewrite (same_id_same_ref _ ND y x Hy Hx Eid) in Etg. subst t. reflexivity.
  Qed.

  Theorem lfp_fail : forall models lf st, NoDup (map xid (concat models)) ->
    qload ans models = Unresolvable lf st ->
    concat lf <> [] /\
    forall x, In x (concat lf) <-> (In x (concat models) /\ ~ mreach (concat models) ready (xid x)).
  Proof.
    intros models lf st ND H. pose proof (lfp_load models ND) as L. rewrite H in L. destruct L as [HP [HS [Hne Hst]]].
    split; [exact Hne|]. intro x.
    pose proof (complete _ ready ready_mono st (concat lf) HP Hst) as Hc. destruct HP as [I2 I3]. split.
    - intro Hx. destruct (I2 x Hx) as [Ha Hn]. split; [exact Ha|]. intro Hr. exact (Hc _ Hr Hn).
    - intros [Ha Hnr]. apply I3; [exact Ha|]. destruct (tgt st (xid x)) as [t|] eqn:Et; [|reflexivity].
      destruct Hnr. exact (proj1 (HS _ _ Et)).
  Qed.

  Theorem lfp_never_unknown : forall models, NoDup (map xid (concat models)) -> qload ans models <> UnknownObject.
  Proof. intros models ND E. pose proof (lfp_load models ND) as L. rewrite E in L. exact L. Qed.

  Theorem lfp_success_iff : forall models, NoDup (map xid (concat models)) ->
    ((exists st, qload ans models = Ok st) <-> forall x, In x (concat models) -> mreach (concat models) ready (xid x)).
  Proof.
    intros models ND. split.
    - intros [st H] x Hx. exact (proj1 (lfp_ok models st ND H x Hx)).
    - intro Hall. destruct (qload ans models) as [st|lf st| |] eqn:E.
      + exists st. reflexivity.
      + destruct (lfp_fail models lf st ND E) as [Hne Hiff]. destruct (concat lf) as [|y l]; [destruct Hne; reflexivity|].
        destruct (proj1 (Hiff y) (or_introl eq_refl)) as [Hya Hnr]. destruct Hnr. exact (Hall y Hya).
      + destruct (lfp_never_unknown models ND E).
      + destruct (qload_terminates_direct _ _ E).
  Qed.
End Reached.

Lemma mreach_ext ready a1 a2 : (forall x, In x a1 <-> In x a2) -> forall i, mreach a1 ready i -> mreach a2 ready i.
Proof.
  intros E i H. induction H as [x S Hx HS IH Hr]. apply (mreach_intro a2 ready x S); [apply E; exact Hx | exact IH | exact Hr].
Qed.

(* The verdict and the stored targets depend on the readiness predicate and on the set of
   references only: not on how the references are spread over the models, nor on the order in
   which the resolver visits them, nor on which of the two sets the provider looks at. *)
Theorem lfp_independent ready : monotone ready -> forall a1 a2, tracks ready a1 -> tracks ready a2 -> forall m1 m2,
  NoDup (map xid (concat m1)) -> NoDup (map xid (concat m2)) ->
  (forall x, In x (concat m1) <-> In x (concat m2)) ->
  ((exists st, qload a1 m1 = Ok st) <-> (exists st, qload a2 m2 = Ok st)) /\
  (forall st1 st2, qload a1 m1 = Ok st1 -> qload a2 m2 = Ok st2 ->
     forall x, In x (concat m1) -> tgt st1 (xid x) = tgt st2 (xid x)).
Proof.
  intros Hm a1 a2 T1 T2 m1 m2 N1 N2 E. split.
  - rewrite (lfp_success_iff ready Hm a1 T1 m1 N1), (lfp_success_iff ready Hm a2 T2 m2 N2). split; intros H x Hx.
    + apply (mreach_ext ready (concat m1)); [exact E|]. apply H. apply E. exact Hx.
    + apply (mreach_ext ready (concat m2)); [intro y; symmetry; apply E|]. apply H. apply E. exact Hx.
  - intros st1 st2 H1 H2 x Hx.
    destruct (lfp_ok ready Hm a1 T1 m1 st1 N1 H1 x Hx) as [_ ->].
    destruct (lfp_ok ready Hm a2 T2 m2 st2 N2 H2 x (proj1 (E x) Hx)) as [_ ->]. reflexivity.
Qed.

(* dependency tables are an instance *)
Lemma dep_ready_mono : monotone dep_ready.
Proof.
  intros x S S' Hsub H. unfold dep_ready in *. apply andb_true_iff in H as [H1 H2]. rewrite H1. cbn [andb].
  rewrite forallb_forall in *. intros d Hd. apply Hsub. apply H2. exact Hd.
Qed.

Section Table.
  Variable all : list xref.
  (* i can be resolved by some order: it is not "never" and everything it waits for can be *)
  Inductive reach : nat -> Prop :=
  | reach_intro x : In x all -> xnever x = false -> (forall d, In d (xdeps x) -> reach d) -> reach (xid x).

  Lemma reach_mreach i : reach i <-> mreach all dep_ready i.
  Proof.
    split; intro H.
    - induction H as [x Hx Hn Hd IH].
      apply (mreach_intro all dep_ready x (fun i => existsb (Nat.eqb i) (xdeps x))); [exact Hx| |].
      + intros i Hi. apply existsb_exists in Hi as [d [Hd1 Hd2]]. apply Nat.eqb_eq in Hd2. subst i. apply IH. exact Hd1.
      + unfold dep_ready. rewrite Hn. cbn [negb andb]. apply forallb_forall. intros d Hd'.
        apply existsb_exists. exists d. split; [exact Hd' | apply Nat.eqb_refl].
    - induction H as [x S Hx HS IH Hr]. unfold dep_ready in Hr. apply andb_true_iff in Hr as [H1 H2].
      apply reach_intro; [exact Hx | destruct (xnever x); [discriminate | reflexivity] |].
      intros d Hd. apply IH. rewrite forallb_forall in H2. apply H2. exact Hd.
  Qed.
End Table.

Theorem load_terminates ans models : load ans models <> OutOfFuel.
Proof. exact (load_terminates_direct ans models). Qed.

(* a monotone readiness predicate that is not a dependency table: "waits for ANY ONE of" *)
Definition any_ready (x : xref) (S : nat -> bool) : bool :=
  match xdeps x with [] => true | ds => existsb S ds end.
