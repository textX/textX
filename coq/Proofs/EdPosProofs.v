(* Proofs about Model/EdPos.v: the cross-reference list (every reference once, sorted, exact
   spans, for every provider / postponement schedule) and the position map. *)
From Coq Require Import Sorting.Sorted Sorting.Permutation.
From TxV Require Import Core.Base Model.EdPosDefs Gen.SrcEdPos Model.EdPos.

Local Open Scope N_scope.

(* Both sorts of the model (the entries by ref_pos_start, the items of the map by (-start, end))
   are fold_right of an insertion along a boolean order; what the argument needs of the
   insertion are its two equations, which hold of the model's functions by computation. *)
Section InsertionSort.
Context {A : Type} (leb : A -> A -> bool) (le : A -> A -> Prop) (ins : A -> list A -> list A).
Hypothesis ins_nil : forall x, ins x [] = [x].
Hypothesis ins_cons : forall x y r, ins x (y :: r) = if leb x y then x :: y :: r else y :: ins x r.
Hypothesis le_of_leb : forall a b, leb a b = true -> le a b.
Hypothesis le_of_not : forall a b, leb a b = false -> le b a.
Hypothesis le_trans : forall a b c, le a b -> le b c -> le a c.

Lemma ins_perm x l : Permutation (x :: l) (ins x l).
Proof.
  induction l as [|y r IH]; [rewrite ins_nil; apply Permutation_refl|].
  rewrite ins_cons. destruct (leb x y); [apply Permutation_refl|].
  eapply perm_trans; [apply perm_swap|]. apply perm_skip. exact IH.
Qed.

Lemma sort_perm l : Permutation l (fold_right ins [] l).
Proof.
  induction l as [|x r IH]; cbn [fold_right]; [apply perm_nil|].
  eapply perm_trans; [apply perm_skip; exact IH|]. apply ins_perm.
Qed.

Lemma ins_sorted x l : StronglySorted le l -> StronglySorted le (ins x l).
Proof.
  induction l as [|y r IH]; intro Hs; [rewrite ins_nil; repeat constructor|].
  rewrite ins_cons. apply StronglySorted_inv in Hs as Hy. destruct Hy as [Hr Hall].
  destruct (leb x y) eqn:E.
  - constructor; [exact Hs|]. apply le_of_leb in E. constructor; [exact E|].
    eapply Forall_impl; [|exact Hall]. intros z Hz. eapply le_trans; eassumption.
  - constructor; [apply IH; exact Hr|].
    eapply Permutation_Forall; [apply ins_perm|]. constructor; [apply le_of_not; exact E | exact Hall].
Qed.

Lemma sort_sorted l : StronglySorted le (fold_right ins [] l).
Proof. induction l as [|x r IH]; cbn [fold_right]; [constructor | apply ins_sorted; exact IH]. Qed.
End InsertionSort.

Definition start_le (a b : entry) : Prop := e_start a <= e_start b.

(* the facts translated from the source, as the proofs use them (each holds by computation
   on Gen/SrcEdPos.v, i.e. only while the source has the repaired shape) *)
Lemma mk_entry_eq x t : mk_entry (x, t) =
  {| e_ref := cid x; e_name := cname x; e_start := cstart x; e_end := cend x;
     e_file := tfile t; e_dstart := tstart t; e_dend := tend t |}.
Proof. reflexivity. Qed.
Lemma setdefault_eq d x : setdefault d x = if has_key (ikey x) d then d else d ++ [x].
Proof. reflexivity. Qed.
Lemma key_le_eq a b : key_le a b = (N.ltb (fst b) (fst a) || (N.eqb (fst a) (fst b) && N.leb (snd a) (snd b)))%bool.
Proof. reflexivity. Qed.

(* [sort_entries] is the insertion sort by [e_start]: list sorted unconditionally, key ref_pos_start *)
Lemma sort_entries_perm l : Permutation l (sort_entries l).
Proof.
  exact (sort_perm (fun a b => N.leb (e_start a) (e_start b)) insert_entry
                   (fun _ => eq_refl) (fun _ _ _ => eq_refl) l).
Qed.

Lemma sort_entries_sorted l : StronglySorted start_le (sort_entries l).
Proof.
  apply (sort_sorted (fun a b => N.leb (e_start a) (e_start b)) start_le insert_entry
                     (fun _ => eq_refl) (fun _ _ _ => eq_refl)); unfold start_le.
  - intros a b. apply N.leb_le.
  - intros a b H. apply N.lt_le_incl, N.leb_gt. exact H.
  - intros a b c. apply N.le_trans.
Qed.

(* t is an answer the provider gave for x at some point of some load *)
Definition resolved_of (ans : provider) (xt : cref * target) : Prop :=
  exists h, ans (fst xt) h = Resolved (snd xt).
(* the provider did not find b and the builtins fallback resolved it *)
Definition builtin_of (ans : provider) (bi : cref -> bool) (b : cref) : Prop :=
  bi b = true /\ exists h, ans b h = NotFound.

(* The interpreter's functions return options of tuples; their specifications are stated on the
   result itself (match ... with Some .. => .. | None => True end), so that the failing branches
   close by computation. *)
Lemma step_spec ans bi pend : forall h,
  match step ans bi pend h with
  | Some (h', es, d, c) =>
      exists xts bs, es = map mk_entry xts /\ Forall (resolved_of ans) xts /\ Forall (builtin_of ans bi) bs /\
                     Permutation pend (map fst xts ++ bs ++ d) /\ length pend = (c + length d)%nat
  | None => True
  end.
Proof.
  induction pend as [|x r IH]; intro h; cbn [step].
  - exists [], []. repeat split; constructor.
  - (* whatever the answer for x, the rest is stepped with x added to the history *)
    specialize (IH (cid x :: h)). revert IH.
    destruct (step ans bi r (cid x :: h)) as [[[[h1 es1] d1] c1]|];
      [|intros _; destruct (ans x h); [| |destruct (bi x)]; exact I].
    intros (xts & bs & -> & Hf & Hb & Hp & Hc).
    destruct (ans x h) as [t| |] eqn:Ea; [| |destruct (bi x) eqn:Eb; [|exact I]]; cbn [length]; rewrite Hc.
    + exists ((x, t) :: xts), bs. repeat split; try assumption.
      * constructor; [exists h; exact Ea | exact Hf].
      * apply perm_skip. exact Hp.
    + exists xts, bs. repeat split; try assumption; [|apply plus_n_Sm].
      eapply perm_trans; [apply perm_skip; exact Hp|].
      rewrite !app_assoc. apply Permutation_middle.
    + exists xts, (x :: bs). repeat split; try assumption.
      * constructor; [split; [exact Eb | exists h; exact Ea] | exact Hb].
      * eapply perm_trans; [apply perm_skip; exact Hp|]. apply Permutation_middle.
Qed.

Lemma perm_merge {A} (a b p a2 b2 d : list A) :
  Permutation p (a2 ++ b2 ++ d) -> Permutation (a ++ b ++ p) ((a ++ a2) ++ (b ++ b2) ++ d).
Proof.
  intro H. eapply perm_trans; [apply Permutation_app_head, Permutation_app_head; exact H|].
  rewrite <- !app_assoc. apply Permutation_app_head.
  rewrite (app_assoc b a2), (app_assoc a2 b). apply Permutation_app_tail, Permutation_app_comm.
Qed.

(* invariant of one model under construction, relative to the references rs it started with *)
Definition minv (ans : provider) (bi : cref -> bool) (rs : list cref) (m : list cref * list entry) : Prop :=
  exists xts bs, Permutation rs (map fst xts ++ bs ++ fst m) /\ Forall (resolved_of ans) xts /\
                 Forall (builtin_of ans bi) bs /\
                 Permutation (snd m) (map mk_entry xts) /\ StronglySorted start_le (snd m).

Lemma minv_init ans bi rs : minv ans bi rs (rs, []).
Proof. exists [], []. cbn. repeat split; try constructor. apply Permutation_refl. Qed.

(* a round keeps the invariant of every model, and resolves exactly the references it counts *)
Lemma round_spec ans bi ms : forall h,
  match round ans bi ms h with
  | Some (h', ms', c) =>
      unresolved ms = (c + unresolved ms')%nat /\
      forall rss, Forall2 (minv ans bi) rss ms -> Forall2 (minv ans bi) rss ms'
  | None => True
  end.
Proof.
  induction ms as [|[pend lst] r IH]; intro h; cbn [round].
  - split; [reflexivity | intros rss H; exact H].
  - pose proof (step_spec ans bi pend h) as Hs. revert Hs.
    destruct (step ans bi pend h) as [[[[h1 es] d] c1]|]; [|intros _; exact I].
    intros (xts2 & bs2 & -> & Hf2 & Hb2 & Hp2 & Hc).
    specialize (IH h1). revert IH.
    destruct (round ans bi r h1) as [[[h2 r'] c2]|]; [|intros _; exact I].
    intros [IHc IHi]. split.
    + unfold unresolved in *. cbn [map fst concat]. rewrite !app_length. lia.
    + intros rss Hinv. inversion Hinv as [|rs m rss' ms0 Hm Hrest]; subst.
      constructor; [|apply IHi; exact Hrest].
      destruct Hm as (xts & bs & Hp & Hf & Hb & Hl & _). cbn [fst snd] in *.
      exists (xts ++ xts2), (bs ++ bs2). cbn [fst snd]. repeat split.
      * rewrite map_app. eapply perm_trans; [exact Hp|]. apply perm_merge. exact Hp2.
      * apply Forall_app; split; assumption.
      * apply Forall_app; split; assumption.
      * eapply perm_trans; [apply Permutation_sym, sort_entries_perm|].
        rewrite map_app. apply Permutation_app_tail. exact Hl.
      * apply sort_entries_sorted.
Qed.

(* what the finished list of one model looks like: sorted; one entry for each reference the
   provider resolved to a model object (xts), none for the references resolved through the
   builtins (bs); together they are all the references of the model *)
Definition listed (ans : provider) (bi : cref -> bool) (rs : list cref) (es : list entry) : Prop :=
  StronglySorted start_le es /\
  exists xts bs, Permutation rs (map fst xts ++ bs) /\ Forall (resolved_of ans) xts /\
                 Forall (builtin_of ans bi) bs /\ Permutation es (map mk_entry xts).

Lemma minv_done ans bi rs m : fst m = [] -> minv ans bi rs m -> listed ans bi rs (snd m).
Proof.
  intros Hd (xts & bs & Hp & Hf & Hb & Hl & Hs). rewrite Hd, app_nil_r in Hp. split; [exact Hs|].
  exists xts, bs. repeat split; assumption.
Qed.

Lemma all_done ans bi rss ms :
  unresolved ms = 0%nat -> Forall2 (minv ans bi) rss ms -> Forall2 (listed ans bi) rss (map snd ms).
Proof.
  unfold unresolved. intros Hz Hinv.
  induction Hinv as [|rs m rss' ms0 Hm _ IH]; cbn [map]; [constructor|].
  cbn [map concat] in Hz. rewrite app_length in Hz.
  constructor; [apply minv_done; [destruct (fst m); [reflexivity | cbn in Hz; lia] | exact Hm] | apply IH; lia].
Qed.

(* a successful loop leaves every model listed; fuel runs out only below the number of
   unresolved references, since every further round resolves at least one *)
Lemma loop_spec ans bi fuel : forall ms h,
  match loop fuel ans bi ms h with
  | Ok outs => forall rss, Forall2 (minv ans bi) rss ms -> Forall2 (listed ans bi) rss outs
  | OutOfFuel => (fuel <= unresolved ms)%nat
  | _ => True
  end.
Proof.
  induction fuel as [|f IH]; intros ms h; cbn [loop]; [apply Nat.le_0_l|].
  pose proof (round_spec ans bi ms h) as Hr. revert Hr.
  destruct (round ans bi ms h) as [[[h' ms'] c]|]; [|intros _; exact I].
  intros [Hc Hi]. specialize (IH ms' h').
  destruct (Nat.ltb 0 (unresolved ms')) eqn:Eu; cbn [andb].
  - destruct (Nat.ltb 0 c) eqn:Ec; [|exact I]. apply Nat.ltb_lt in Ec.
    destruct (loop f ans bi ms' h'); try exact I.
    + intros rss H. apply IH, Hi, H.
    + lia.
  - intros rss H. apply Nat.ltb_ge in Eu. apply all_done; [lia | apply Hi, H].
Qed.

Theorem load_listed ans bi models outs :
  load ans bi models = Ok outs -> Forall2 (listed ans bi) models outs.
Proof.
  unfold load. intro Hl.
  pose proof (loop_spec ans bi (S (length (concat models))) (map (fun rs => (rs, [])) models) []) as H.
  rewrite Hl in H. apply H.
  clear. induction models as [|rs r IH]; cbn [map]; constructor; [apply minv_init | exact IH].
Qed.

Theorem load_terminates ans bi models : load ans bi models <> OutOfFuel.
Proof.
  unfold load. intro E.
  pose proof (loop_spec ans bi (S (length (concat models))) (map (fun rs => (rs, [])) models) []) as H.
  rewrite E in H. unfold unresolved in H. rewrite map_map, map_id in H. lia.
Qed.

(* without builtins every reference of the model has its entry *)
Definition listed_all (ans : provider) (rs : list cref) (es : list entry) : Prop :=
  StronglySorted start_le es /\
  exists xts, map fst xts = rs /\ Forall (resolved_of ans) xts /\ Permutation es (map mk_entry xts).

Lemma no_builtins ans bi bs : (forall x, bi x = false) -> Forall (builtin_of ans bi) bs -> bs = [].
Proof. intros Hbi [|b l [Hb _] _]; [reflexivity|]. rewrite Hbi in Hb. discriminate. Qed.

Lemma listed_no_builtins ans bi rs es :
  (forall x, bi x = false) -> listed ans bi rs es -> listed_all ans rs es.
Proof.
  intros Hbi [Hs (xts & bs & Hp & Hf & Hb & Hl)]. split; [exact Hs|].
  rewrite (no_builtins _ _ _ Hbi Hb), app_nil_r in Hp.
  destruct (Permutation_map_inv _ _ Hp) as (xts' & Hrs & Hpx).
  exists xts'. repeat split.
  - symmetry; exact Hrs.
  - eapply Permutation_Forall; eassumption.
  - eapply perm_trans; [exact Hl|]. apply Permutation_map. exact Hpx.
Qed.

Lemma lt_sorted_nodup (l : list N) : StronglySorted N.lt l -> NoDup l.
Proof.
  induction l as [|x r IH]; intro H; [constructor|].
  apply StronglySorted_inv in H as [Hr Hx]. constructor; [|apply IH; exact Hr].
  intro Hin. rewrite Forall_forall in Hx. specialize (Hx _ Hin). lia.
Qed.

Lemma le_nodup_lt (l : list N) : StronglySorted N.le l -> NoDup l -> StronglySorted N.lt l.
Proof.
  induction l as [|x r IH]; intros H Hn; [constructor|].
  apply StronglySorted_inv in H as [Hr Hx]. apply NoDup_cons_iff in Hn as [Hnx Hnr].
  constructor; [apply IH; assumption|]. rewrite Forall_forall in *. intros y Hy.
  specialize (Hx _ Hy). assert (x <> y) by (intro; subst; contradiction). lia.
Qed.

Lemma StronglySorted_map {A B} (f : A -> B) (R : B -> B -> Prop) l :
  StronglySorted (fun a b => R (f a) (f b)) l -> StronglySorted R (map f l).
Proof.
  induction 1 as [|a l _ IH Ha]; cbn [map]; constructor; [exact IH|].
  apply Forall_map. exact Ha.
Qed.

(* a strictly sorted list has no other strictly sorted arrangement *)
Lemma sorted_perm_eq {A} (f : A -> N) (l1 : list A) : forall l2,
  StronglySorted N.lt (map f l1) -> StronglySorted N.lt (map f l2) -> Permutation l1 l2 -> l1 = l2.
Proof.
  induction l1 as [|a r1 IH]; intros l2 H1 H2 Hp.
  - apply Permutation_nil in Hp. symmetry; exact Hp.
  - destruct l2 as [|b r2]; [apply Permutation_sym, Permutation_nil in Hp; discriminate|].
    cbn [map] in H1, H2.
    apply StronglySorted_inv in H1 as [H1r H1a]. apply StronglySorted_inv in H2 as [H2r H2b].
    assert (Hab : a = b).
    { assert (Hb : In b (a :: r1)) by (eapply Permutation_in; [apply Permutation_sym; exact Hp | left; reflexivity]).
      assert (Ha : In a (b :: r2)) by (eapply Permutation_in; [exact Hp | left; reflexivity]).
      destruct Hb as [Hb|Hb]; [exact Hb|]. destruct Ha as [Ha|Ha]; [symmetry; exact Ha|].
      rewrite Forall_forall in H1a, H2b.
      specialize (H1a _ (in_map f _ _ Hb)). specialize (H2b _ (in_map f _ _ Ha)). lia. }
    subst b. f_equal. apply IH; try assumption. eapply Permutation_cons_inv; exact Hp.
Qed.

(* the list is exactly the entries of the provider-resolved references, in text order *)
Definition listed_in_order (ans : provider) (bi : cref -> bool) (rs : list cref) (es : list entry) : Prop :=
  exists xts bs, es = map mk_entry xts /\ Permutation rs (map fst xts ++ bs) /\
                 Forall (resolved_of ans) xts /\ Forall (builtin_of ans bi) bs /\
                 StronglySorted N.lt (map cstart (map fst xts)).

(* the starts of the entries are those of their references: sorted with ties excluded by rs *)
Lemma listed_order ans bi rs es :
  StronglySorted N.lt (map cstart rs) -> listed ans bi rs es -> listed_in_order ans bi rs es.
Proof.
  intros Hrs [Hs (xts & bs & Hp & Hf & Hb & Hl)].
  destruct (Permutation_map_inv _ _ Hl) as (xts' & -> & Hpx).
  assert (Hp' : Permutation rs (map fst xts' ++ bs)).
  { eapply perm_trans; [exact Hp|]. apply Permutation_app_tail, Permutation_map. exact Hpx. }
  exists xts', bs. repeat split; try assumption.
  - eapply Permutation_Forall; eassumption.
  - apply le_nodup_lt.
    + apply (StronglySorted_map e_start) in Hs. rewrite map_map in *.
      erewrite map_ext; [exact Hs|]. intros [x t]. reflexivity.
    + apply lt_sorted_nodup in Hrs.
      eapply Permutation_NoDup in Hrs; [|apply Permutation_map; exact Hp'].
      rewrite map_app in Hrs. eapply NoDup_app_l; exact Hrs.
Qed.

Theorem load_listed_in_order ans bi models outs :
  Forall (fun rs => StronglySorted N.lt (map cstart rs)) models ->
  load ans bi models = Ok outs -> Forall2 (listed_in_order ans bi) models outs.
Proof.
  intros Hs Hl. eapply Forall2_impl_in; [apply load_listed; exact Hl|].
  intros rs es Hin. apply listed_order. rewrite Forall_forall in Hs. apply Hs. exact Hin.
Qed.

(* without builtins: entry by entry the references of the model, in their order *)
Definition listed_exactly (ans : provider) (rs : list cref) (es : list entry) : Prop :=
  exists xts, map fst xts = rs /\ Forall (resolved_of ans) xts /\ es = map mk_entry xts.

Theorem load_listed_exactly ans bi models outs :
  (forall x, bi x = false) ->
  Forall (fun rs => StronglySorted N.lt (map cstart rs)) models ->
  load ans bi models = Ok outs -> Forall2 (listed_exactly ans) models outs.
Proof.
  intros Hbi Hs Hl. eapply Forall2_impl_in; [apply load_listed_in_order; eassumption|].
  intros rs es Hin (xts & bs & He & Hp & Hf & Hb & Hx).
  rewrite (no_builtins _ _ _ Hbi Hb), app_nil_r in Hp.
  exists xts. repeat split; try assumption.
  symmetry. rewrite Forall_forall in Hs. apply (sorted_perm_eq cstart); [apply Hs; exact Hin | exact Hx | exact Hp].
Qed.

Definition repo_listed (ans : provider) (bi : cref -> bool) (g : gmodel) (es : list entry) : Prop :=
  match g with Fresh rs => listed ans bi rs es | Done es0 => es = es0 end.

Lemma merge_spec ans bi gms : forall outs,
  Forall2 (listed ans bi) (fresh_refs gms) outs -> Forall2 (repo_listed ans bi) gms (merge gms outs).
Proof.
  induction gms as [|[rs|es0] r IH]; intros outs H; cbn [merge].
  - constructor.
  - cbn [fresh_refs flat_map app] in H. inversion H as [|? o ? outs' Ho Hr]; subst.
    constructor; [exact Ho | apply IH; exact Hr].
  - constructor; [reflexivity | apply IH; exact H].
Qed.

Theorem load_repo_listed ans bi gms outs :
  load_repo ans bi gms = Ok outs -> Forall2 (repo_listed ans bi) gms outs.
Proof.
  unfold load_repo. destruct (load ans bi (fresh_refs gms)) as [o| | |] eqn:El; try discriminate.
  intro H. inversion H; subst. apply merge_spec. apply load_listed. exact El.
Qed.

Theorem load_repo_terminates ans bi gms : load_repo ans bi gms <> OutOfFuel.
Proof.
  unfold load_repo. pose proof (load_terminates ans bi (fresh_refs gms)) as H.
  destruct (load ans bi (fresh_refs gms)); try discriminate. contradiction.
Qed.

Lemma node_ind' (P : node -> Prop) :
  (forall i s e kids, Forall P kids -> P (NObj i s e kids)) ->
  (forall i s e nm, P (NRef i s e nm)) ->
  (forall s e, P (NTok s e)) ->
  forall n, P n.
Proof.
  intros HO HR HT. fix IH 1. intros [i s e kids|i s e nm|s e].
  - apply HO. induction kids as [|k r IHr]; constructor; [apply IH | exact IHr].
  - apply HR.
  - apply HT.
Qed.

(* the registrations of a subtree are a contiguous block of those of the tree *)
Lemma subnode_objs t : forall n, In n (subnodes t) -> exists pre post, objs_post t = pre ++ objs_post n ++ post.
Proof.
  induction t as [i s e kids IHk|i s e nm|s e] using node_ind'; intros n Hn.
  - cbn [subnodes] in Hn. destruct Hn as [<-|Hn].
    + exists [], []. rewrite app_nil_r. reflexivity.
    + apply in_flat_map in Hn as [k [Hk Hnk]].
      rewrite Forall_forall in IHk. destruct (IHk _ Hk _ Hnk) as [pre [post Hd]].
      apply in_split in Hk as [k1 [k2 ->]].
      cbn [objs_post]. rewrite flat_map_app. cbn [flat_map]. rewrite Hd.
      exists (flat_map objs_post k1 ++ pre), (post ++ flat_map objs_post k2 ++ [(s, e, i)]).
      repeat rewrite <- app_assoc. reflexivity.
  - cbn in Hn. destruct Hn as [<-|[]]. exists [], []. reflexivity.
  - cbn in Hn. destruct Hn as [<-|[]]. exists [], []. reflexivity.
Qed.

Lemma subnode_obj_in t i s e kids : In (NObj i s e kids) (subnodes t) -> In (s, e, i) (objs_post t).
Proof.
  intro H. apply subnode_objs in H as [pre [post ->]]. cbn [objs_post].
  apply in_or_app; right. apply in_or_app; left. apply in_or_app; right. left; reflexivity.
Qed.

Lemma obj_is_subnode t : forall s e i, In (s, e, i) (objs_post t) -> exists kids, In (NObj i s e kids) (subnodes t).
Proof.
  induction t as [i0 s0 e0 kids IHk|i0 s0 e0 nm|s0 e0] using node_ind'; intros s e i H; cbn [objs_post] in H;
    try destruct H.
  apply in_app_or in H as [H|[H|[]]].
  - apply in_flat_map in H as (k & Hk & H). rewrite Forall_forall in IHk.
    destruct (IHk _ Hk _ _ _ H) as [ks Hs]. exists ks. right. apply in_flat_map. exists k. split; assumption.
  - injection H as <- <- <-. exists kids. left; reflexivity.
Qed.

Lemma key_eqb_eq a b : key_eqb a b = true <-> a = b.
Proof.
  unfold key_eqb. destruct a as [a1 a2], b as [b1 b2]. cbn [fst snd].
  rewrite andb_true_iff, !N.eqb_eq. split; [intros [-> ->]; reflexivity | intro H; inversion H; split; reflexivity].
Qed.

Lemma has_key_app k a b : has_key k (a ++ b) = (has_key k a || has_key k b)%bool.
Proof. unfold has_key. apply existsb_app. Qed.

Lemma has_key_cons k y l : has_key k (y :: l) = (key_eqb k (ikey y) || has_key k l)%bool.
Proof. reflexivity. Qed.

Lemma has_key_true k d : has_key k d = true <-> In k (map ikey d).
Proof.
  unfold has_key. rewrite existsb_exists. split.
  - intros [y [Hy E]]. apply key_eqb_eq in E. subst. apply in_map. exact Hy.
  - intro H. apply in_map_iff in H as [y [<- Hy]]. exists y. split; [exact Hy | apply key_eqb_eq; reflexivity].
Qed.

Lemma has_key_false k d : has_key k d = false <-> ~ In k (map ikey d).
Proof.
  rewrite <- has_key_true. destruct (has_key k d); split; intro H.
  - discriminate.
  - exfalso; apply H; reflexivity.
  - intro; discriminate.
  - reflexivity.
Qed.

(* The map before sorting has exactly the keys of the registrations, and what it holds for a
   key is the first registration with that key (setdefault).  Registrations are appended, so
   the induction runs from the right. *)
Lemma raw_keys l : forall k, has_key k (fold_left setdefault l []) = has_key k l.
Proof.
  induction l as [|y l IH] using rev_ind; intro k; [reflexivity|].
  rewrite fold_left_app, has_key_app. cbn [fold_left]. rewrite setdefault_eq, IH.
  destruct (has_key (ikey y) l) eqn:Ey; [|rewrite has_key_app, IH; reflexivity].
  rewrite IH, has_key_cons. destruct (key_eqb k (ikey y)) eqn:E; [|rewrite !orb_false_r; reflexivity].
  apply key_eqb_eq in E. subst k. rewrite Ey. reflexivity.
Qed.

Lemma raw_first l x :
  In x (fold_left setdefault l []) -> exists l1 l2, l = l1 ++ x :: l2 /\ has_key (ikey x) l1 = false.
Proof.
  induction l as [|y l IH] using rev_ind; [intros []|].
  rewrite fold_left_app. cbn [fold_left]. rewrite setdefault_eq, raw_keys.
  assert (IH' : In x (fold_left setdefault l []) ->
                exists l1 l2, l ++ [y] = l1 ++ x :: l2 /\ has_key (ikey x) l1 = false).
  { intro H. destruct (IH H) as (l1 & l2 & -> & Hk). exists l1, (l2 ++ [y]).
    split; [rewrite <- app_assoc; reflexivity | exact Hk]. }
  destruct (has_key (ikey y) l) eqn:Ey; [exact IH'|].
  intro H. apply in_app_or in H as [H|[<-|[]]]; [exact (IH' H)|]. exists l, []. split; [reflexivity | exact Ey].
Qed.

Lemma raw_nodup l : NoDup (map ikey (fold_left setdefault l [])).
Proof.
  induction l as [|y l IH] using rev_ind; [constructor|].
  rewrite fold_left_app. cbn [fold_left]. rewrite setdefault_eq.
  destruct (has_key (ikey y) (fold_left setdefault l [])) eqn:Ey; [exact IH|].
  rewrite map_app. apply has_key_false in Ey.
  eapply Permutation_NoDup; [apply Permutation_cons_append|]. constructor; assumption.
Qed.

(* sorting of the items: (-start, end), i.e. later starts first, then shorter spans first *)
Definition key_leP (x y : N * N * nat) : Prop := key_le (ikey x) (ikey y) = true.

Lemma key_le_iff a b : key_le a b = true <-> fst b < fst a \/ (fst a = fst b /\ snd a <= snd b).
Proof. rewrite key_le_eq, orb_true_iff, andb_true_iff, N.ltb_lt, N.eqb_eq, N.leb_le. reflexivity. Qed.

Lemma key_le_total a b : key_le a b = false -> key_le b a = true.
Proof.
  intro H. apply key_le_iff.
  assert (K : ~ (fst b < fst a \/ (fst a = fst b /\ snd a <= snd b))) by (intro K; apply key_le_iff in K; congruence).
  lia.
Qed.

Lemma key_le_trans a b c : key_le a b = true -> key_le b c = true -> key_le a c = true.
Proof. intros H1 H2. apply key_le_iff in H1, H2. apply key_le_iff. lia. Qed.

Lemma sort_items_perm l : Permutation l (sort_items l).
Proof.
  exact (sort_perm (fun x y => key_le (ikey x) (ikey y)) insert_item (fun _ => eq_refl) (fun _ _ _ => eq_refl) l).
Qed.

Lemma sort_items_sorted l : StronglySorted key_leP (sort_items l).
Proof.
  apply (sort_sorted (fun x y => key_le (ikey x) (ikey y)) key_leP insert_item (fun _ => eq_refl) (fun _ _ _ => eq_refl));
    unfold key_leP.
  - intros x y H. exact H.
  - intros x y. apply key_le_total.
  - intros x y z. apply key_le_trans.
Qed.

Theorem dict_sound t x : In x (rule_dict t) -> In x (objs_post t).
Proof.
  intro H. unfold rule_dict in H. eapply Permutation_in in H; [|apply Permutation_sym, sort_items_perm].
  apply raw_first in H as (l1 & l2 & -> & _). apply in_elt.
Qed.

Theorem dict_complete t x : In x (objs_post t) -> exists v, In (ikey x, v) (rule_dict t).
Proof.
  intro H. apply (in_map ikey), has_key_true in H. rewrite <- raw_keys in H. apply has_key_true in H.
  apply in_map_iff in H as [[k v] [Hk Hy]]. cbn [ikey fst] in Hk. subst k.
  exists v. eapply Permutation_in; [apply sort_items_perm | exact Hy].
Qed.

Theorem dict_keys_nodup t : NoDup (map ikey (rule_dict t)).
Proof.
  eapply Permutation_NoDup; [apply Permutation_map, sort_items_perm|].
  apply raw_nodup.
Qed.

Lemma split_unique {A} (x : A) : forall a a' b b',
  ~ In x a -> ~ In x a' -> a ++ x :: b = a' ++ x :: b' -> a = a'.
Proof.
  induction a as [|y a IH]; intros [|y' a'] b b' Ha Ha' E; cbn [app] in E.
  - reflexivity.
  - injection E as <- _. exfalso. apply Ha'. left; reflexivity.
  - injection E as -> _. exfalso. apply Ha. left; reflexivity.
  - injection E as <- E. f_equal. eapply IH; [| |exact E]; intro Hin; [apply Ha | apply Ha']; right; exact Hin.
Qed.

(* the object kept for a span has no object with the same span nested inside it *)
Theorem dict_innermost t i s e kids :
  NoDup (map snd (objs_post t)) ->
  In (NObj i s e kids) (subnodes t) -> In (s, e, i) (rule_dict t) ->
  forall j kids', ~ In (NObj j s e kids') (flat_map subnodes kids).
Proof.
  intros Hnd Hsub Hd j kids' Hj.
  apply NoDup_map_inv in Hnd.
  unfold rule_dict in Hd. eapply Permutation_in in Hd; [|apply Permutation_sym, sort_items_perm].
  apply raw_first in Hd as (l1 & l2 & Hl & Hk).
  apply subnode_objs in Hsub as [pre [post Hp]]. cbn [objs_post] in Hp.
  assert (Hin : In (s, e, j) (flat_map objs_post kids)).
  { apply in_flat_map in Hj as [k [Hk1 Hk2]]. apply in_flat_map. exists k. split; [exact Hk1|].
    eapply subnode_obj_in; exact Hk2. }
  assert (Hp' : objs_post t = (pre ++ flat_map objs_post kids) ++ (s, e, i) :: post).
  { rewrite Hp. repeat rewrite <- app_assoc. reflexivity. }
  assert (Hnot : forall a b, objs_post t = a ++ (s, e, i) :: b -> ~ In (s, e, i) a).
  { intros a b E Hi. rewrite E in Hnd. apply NoDup_remove_2 in Hnd. apply Hnd. apply in_or_app; left; exact Hi. }
  assert (El : l1 = pre ++ flat_map objs_post kids).
  { eapply split_unique; [eapply Hnot; exact Hl | eapply Hnot; exact Hp' | rewrite <- Hl; exact Hp']. }
  apply has_key_false in Hk. apply Hk. rewrite El. cbn [ikey fst].
  change (s, e) with (ikey (s, e, j)). apply in_map. apply in_or_app; right; exact Hin.
Qed.

Lemma key_le_not_contains x y : key_le x y = true -> x <> y -> ~ contains x y.
Proof.
  intros H Hne [H1 H2]. apply key_le_iff in H. apply Hne.
  destruct x, y. cbn [fst snd] in *. f_equal; lia.
Qed.

Lemma wfb_obj i s e kids : wfb (NObj i s e kids) = (N.leb s e && chainb s e kids)%bool.
Proof.
  cbn [wfb]. f_equal. generalize s as lo. induction kids as [|k r IH]; intro lo; cbn [chainb]; [reflexivity|].
  rewrite IH. reflexivity.
Qed.

(* the reference texts rs lie in [lo, hi], one after the other, none empty *)
Fixpoint tiled (lo hi : N) (rs : list cref) : Prop :=
  match rs with
  | [] => lo <= hi
  | x :: r => lo <= cstart x /\ cstart x < cend x /\ tiled (cend x) hi r
  end.

Lemma tiled_widen rs : forall lo lo' hi hi', lo' <= lo -> hi <= hi' -> tiled lo hi rs -> tiled lo' hi' rs.
Proof.
  induction rs as [|x r IH]; cbn [tiled]; intros lo lo' hi hi' H1 H2 H; [lia|].
  destruct H as (Ha & Hb & Hr). repeat split; [lia | exact Hb|]. apply (IH _ _ _ _ (N.le_refl _) H2 Hr).
Qed.

Lemma tiled_app a b : forall lo mid hi, tiled lo mid a -> tiled mid hi b -> tiled lo hi (a ++ b).
Proof.
  induction a as [|x r IH]; cbn [tiled app]; intros lo mid hi Ha Hb.
  - apply (tiled_widen _ mid _ hi); [exact Ha | apply N.le_refl | exact Hb].
  - destruct Ha as (H1 & H2 & Hr). repeat split; [exact H1 | exact H2|]. apply (IH _ mid); assumption.
Qed.

Lemma tiled_increasing rs : forall lo hi, tiled lo hi rs ->
  Forall (fun s => lo <= s) (map cstart rs) /\ StronglySorted N.lt (map cstart rs).
Proof.
  induction rs as [|x r IH]; cbn [tiled map]; intros lo hi H; [split; constructor|].
  destruct H as (H1 & H2 & Hr). destruct (IH _ _ Hr) as [Hlo Hs]. split; constructor; try assumption.
  - eapply Forall_impl; [|exact Hlo]. cbn. intros s Hx. lia.
  - eapply Forall_impl; [|exact Hlo]. cbn. intros s Hx. lia.
Qed.

Lemma chain_tiled ks : forall lo hi,
  Forall (fun k => wfb k = true -> tiled (nstart k) (nend k) (refs_pre k)) ks -> chainb lo hi ks = true ->
  tiled lo hi (flat_map refs_pre ks).
Proof.
  induction ks as [|k r IH]; intros lo hi HP Hc; cbn [chainb flat_map] in *.
  - apply N.leb_le. exact Hc.
  - apply andb_true_iff in Hc as [Hc Hr]. apply andb_true_iff in Hc as [Hk Hlo]. apply N.leb_le in Hlo.
    apply (tiled_app _ _ lo (nend k)); [|apply IH; [exact (Forall_inv_tail HP) | exact Hr]].
    apply (tiled_widen _ (nstart k) _ (nend k)); [exact Hlo | apply N.le_refl | exact (Forall_inv HP Hk)].
Qed.

Lemma wf_tiled n : wfb n = true -> tiled (nstart n) (nend n) (refs_pre n).
Proof.
  induction n as [i s e kids IHk|i s e nm|s e] using node_ind'; intro H.
  - rewrite wfb_obj in H. apply andb_true_iff in H as [_ Hc]. exact (chain_tiled _ _ _ IHk Hc).
  - cbn [wfb] in H. apply N.ltb_lt in H. cbn. repeat split; [apply N.le_refl | exact H | apply N.le_refl].
  - cbn [wfb] in H. apply N.leb_le in H. exact H.
Qed.

Theorem tree_refs_increasing t : wfb t = true -> StronglySorted N.lt (map cstart (refs_pre t)).
Proof. intro H. exact (proj2 (tiled_increasing _ _ _ (wf_tiled _ H))). Qed.

(* a collected reference is a reference node of the tree, with that node's span *)
Theorem ref_is_node t : forall x, In x (refs_pre t) -> In (NRef (cid x) (cstart x) (cend x) (cname x)) (subnodes t).
Proof.
  induction t as [i s e kids IHk|i s e nm|s e] using node_ind'; intros x Hx; cbn [refs_pre] in Hx.
  - cbn [subnodes]. right. apply in_flat_map in Hx as [k [Hk Hxk]]. apply in_flat_map. exists k.
    split; [exact Hk|]. rewrite Forall_forall in IHk. apply IHk; assumption.
  - destruct Hx as [<-|[]]. cbn. left. reflexivity.
  - destruct Hx.
Qed.

Lemma Forall2_map_l {A B C} (f : A -> B) (R : B -> C -> Prop) l : forall l',
  Forall2 R (map f l) l' -> Forall2 (fun a c => R (f a) c) l l'.
Proof.
  induction l as [|a r IH]; intros l' H; cbn [map] in H; inversion H; subst; constructor; [assumption | apply IH; assumption].
Qed.

Lemma trees_increasing trees :
  Forall (fun t => wfb t = true) trees ->
  Forall (fun rs => StronglySorted N.lt (map cstart rs)) (map refs_pre trees).
Proof. intro H. apply Forall_map. eapply Forall_impl; [|exact H]. exact tree_refs_increasing. Qed.
