From TxV Require Import Core.Base Gen.SrcCli Model.Cli.

(* the argument loops consume one or two arguments at a time *)
Lemma parse_loop_spec args : forall files d, parse_loop args files d = spec_loop args files d.
Proof.
  induction args as [|m rest IH1 IH2] using list_ind2; intros files d; [reflexivity|].
  cbn [parse_loop spec_loop]. unfold is_switch, arg_name, key_of.
  change switch_prefix with [45;45]%N. cbn [length].
  change bool_key_normalised with true. change value_key_normalised with true.
  change strip_chars with quotes. cbv iota.
  destruct (is_prefix [45;45]%N m); [|apply IH1].
  destruct rest as [|v rest']; [reflexivity|].
  destruct (is_prefix [45;45]%N v); [apply IH1 | apply IH2].
Qed.

Lemma normalize_no_dash s : ~ In dash (normalize s).
Proof.
  induction s as [|c s IH]; cbn [normalize map In]; [tauto|].
  intros [H|H]; [|exact (IH H)].
  destruct (N.eqb c dash) eqn:E; [discriminate H|].
  apply N.eqb_neq in E. congruence.
Qed.

Definition keys_ok (d : list (list N * aval)) := forall k v, In (k, v) d -> ~ In dash k.

Lemma dset_keys_ok k v d : ~ In dash k -> keys_ok d -> keys_ok (dset k v d).
Proof.
  intros Hk. induction d as [|[k' v'] d IH]; intros Hd k0 v0; cbn [dset].
  - intros [[= <- _]|[]]. exact Hk.
  - destruct (str_eqb k k').
    + intros [[= <- _]|H]; [exact Hk | apply (Hd k0 v0); right; exact H].
    + intros [H|H]; [apply (Hd k0 v0); left; exact H|].
      apply (IH (fun a b Hab => Hd a b (or_intror Hab)) k0 v0 H).
Qed.

Lemma spec_loop_keys_ok args : forall files d, keys_ok d -> keys_ok (snd (spec_loop args files d)).
Proof.
  induction args as [|m rest IH1 IH2] using list_ind2; intros files d Hd; [exact Hd|].
  cbn [spec_loop]. destruct (is_prefix [45;45]%N m); [|apply IH1, Hd].
  assert (Hset : forall v, keys_ok (dset (normalize (skipn 2 m)) v d)) by (intro v; apply dset_keys_ok; [apply normalize_no_dash | exact Hd]).
  destruct rest as [|v rest']; [apply Hset|].
  destruct (is_prefix [45;45]%N v); [apply IH1 | apply IH2]; apply Hset.
Qed.

(* files before a trailing switch do not disturb it *)
Lemma spec_loop_files : forall fs files d tail,
  forallb (fun m => negb (is_prefix [45;45]%N m)) fs = true ->
  spec_loop (fs ++ tail) files d = spec_loop tail (files ++ fs) d.
Proof.
  induction fs as [|m fs IH]; intros files d tail H; cbn [app].
  - rewrite app_nil_r. reflexivity.
  - cbn [forallb] in H. apply andb_true_iff in H as [Hm Hfs]. apply negb_true_iff in Hm.
    cbn [spec_loop]. rewrite Hm, IH by assumption. rewrite <- app_assoc. reflexivity.
Qed.

Definition dd : list N := [45;45]%N.

Definition validate_spec (decl : option (list gparam)) (given : list (list N)) : Prop :=
  match decl with
  | None => True
  | Some ps => (forall p, In p ps -> pmandatory p = true -> In (pname p) given) /\
               (ps = [] \/ forall g, In g given -> In g (map pname ps))
  end.

Lemma validate_accept_iff decl given : validate decl given = Accept <-> validate_spec decl given.
Proof.
  unfold validate, validate_spec. destruct decl as [ps|]; [|tauto].
  destruct (find _ ps) as [p|] eqn:F.
  - split; [discriminate|]. intros [Hm _]. apply find_some in F as [Hin Hp].
    apply andb_true_iff in Hp as [Hp1 Hp2]. apply negb_true_iff in Hp2.
    specialize (Hm p Hin Hp1). apply mem_str_In in Hm. congruence.
  - assert (Hm : forall p, In p ps -> pmandatory p = true -> In (pname p) given).
    { intros p Hin Hp. pose proof (find_none _ _ F p Hin) as Hn. cbv beta in Hn.
      rewrite Hp in Hn. simpl in Hn. apply negb_false_iff in Hn. apply mem_str_In. exact Hn. }
    destruct given as [|g0 gs].
    + split; [|reflexivity]. intros _. split; [exact Hm|]. right. intros g [].
    + destruct ps as [|p0 ps'].
      * split; [|reflexivity]. intros _. split; [exact Hm | left; reflexivity].
      * destruct (find _ (g0 :: gs)) as [g|] eqn:G.
        -- split; [discriminate|]. intros [_ [Hc|Hc]]; [discriminate|].
           apply find_some in G as [Hin Hg]. apply negb_true_iff in Hg.
           specialize (Hc g Hin). apply mem_str_In in Hc. congruence.
        -- split; [|reflexivity]. intros _. split; [exact Hm|]. right. intros g Hin.
           pose proof (find_none _ _ G g Hin) as Hn. cbv beta in Hn.
           apply negb_false_iff in Hn. apply mem_str_In. exact Hn.
Qed.

Lemma check_exit_zero_iff l : check_exit l = 0 <-> forallb (fun b => b) l = true.
Proof.
  induction l as [|[|] l IH]; simpl; [tauto | exact IH | split; discriminate].
Qed.

Lemma check_exit_values l : check_exit l = 0 \/ check_exit l = 1.
Proof. induction l as [|[|] l IH]; simpl; auto. Qed.

Lemma gen_files_doc : forall files first info m reg given,
  gen_files files first info m reg given = doc_calls (map (doc_call info m reg given) files).
Proof.
  induction files as [|f r IH]; intros first info m reg given; [reflexivity|].
  cbn [gen_files map doc_calls]. unfold doc_call at 1.
  destruct (assoc f info) as [fi|]; [|reflexivity].
  assert (HL : lang_for m fi = doc_lang m fi) by (destruct m; reflexivity).
  rewrite HL. destruct (doc_lang m fi) as [l|]; [|reflexivity].
  destruct (f_valid fi l); [|reflexivity].
  change lookup_per_file with true. change any_permitted_iff_deduced with true. cbv iota.
  destruct (lookup reg l (is_per_file m)) as [[gl decl]|]; [|reflexivity].
  destruct (validate decl given); try reflexivity.
  rewrite IH. reflexivity.
Qed.

Lemma doc_calls_exit : forall cs, (fst (doc_calls cs) = 0 <-> Forall (fun c => c <> None) cs) /\ (fst (doc_calls cs) = 0 \/ fst (doc_calls cs) = 1).
Proof.
  induction cs as [|[c|] r [[IH1 IH1'] IH2]]; cbn [doc_calls].
  - split; [split; [constructor | reflexivity] | left; reflexivity].
  - destruct (doc_calls r) as [e cs']. cbn [fst] in *. split; [|exact IH2]. split.
    + intro H. constructor; [discriminate | exact (IH1 H)].
    + intro H. exact (IH1' (Forall_inv_tail H)).
  - cbn [fst]. split; [|right; reflexivity]. split; [discriminate|]. intro H. destruct (Forall_inv H). reflexivity.
Qed.

Lemma doc_calls_sound : forall cs c, In c (snd (doc_calls cs)) -> In (Some c) cs.
Proof.
  induction cs as [|[c0|] r IH]; intros c H; cbn [doc_calls] in H.
  - destruct H.
  - destruct (doc_calls r) as [e cs'] eqn:E. cbn [snd] in *. destruct H as [H|H]; [left; congruence | right; apply IH; exact H].
  - destruct H.
Qed.

Lemma doc_calls_complete : forall cs, fst (doc_calls cs) = 0 -> map Some (snd (doc_calls cs)) = cs.
Proof.
  induction cs as [|[c0|] r IH]; intro H; cbn [doc_calls] in *.
  - reflexivity.
  - destruct (doc_calls r) as [e cs'] eqn:E. cbn [fst snd map] in *. rewrite IH by assumption. reflexivity.
  - discriminate.
Qed.

(* every generator call is for a file of the command line, made by the generator registered for the
   language of that very file (or by the "any" generator when that language has none and was deduced) *)
Lemma generator_per_file : forall files info m reg given f gl l,
  In (f, gl, l) (snd (gen_files files None info m reg given)) ->
  In f files /\ exists fi decl, assoc f info = Some fi /\ doc_lang m fi = Some l /\ f_valid fi l = true /\
     lookup reg l (is_per_file m) = Some (gl, decl) /\ validate decl given = Accept.
Proof.
  intros files info m reg given f gl l H. rewrite gen_files_doc in H. apply doc_calls_sound in H.
  apply in_map_iff in H as [f' [Hc Hin]]. revert Hc. unfold doc_call.
  destruct (assoc f' info) as [fi|] eqn:A; [|discriminate].
  destruct (doc_lang m fi) as [l'|] eqn:L; [|discriminate].
  destruct (f_valid fi l') eqn:V; [|discriminate].
  destruct (lookup reg l' (is_per_file m)) as [[gl' decl]|] eqn:K; [|discriminate].
  destruct (validate decl given) eqn:W; try discriminate.
  intros [= -> -> ->]. split; [exact Hin|]. exists fi, decl. auto.
Qed.

Lemma lookup_own_language : forall reg l ap gl decl, lookup reg l ap = Some (gl, decl) ->
  (gl = l /\ reg l = Some decl) \/ (ap = true /\ reg l = None /\ gl = any_lang /\ reg any_lang = Some decl).
Proof.
  intros reg l ap gl decl. unfold lookup. destruct (reg l) as [g|].
  - intros [= <- <-]. left. split; reflexivity.
  - destruct ap; [|discriminate]. destruct (reg any_lang) as [g|]; [|discriminate]. intros [= <- <-].
    right. repeat split; reflexivity.
Qed.
