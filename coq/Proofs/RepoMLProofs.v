(* Proofs about loading across several registered languages (C17/C18): the loader with an external cache
   (load_file_x / load_main_x) and the machine ml_load of Model/Repo.v.  The load itself is followed in
   Proofs/RepoProofs.v, for an arbitrary cache; here are the statements for one load across languages in the form
   C17/C18 quote them, and the machine. *)
From TxV Require Import Core.Base Model.RepoDefs Gen.SrcRepo Model.Repo Proofs.RepoProofs.

Section CleanX.
  Variable n0 : nat.
  Variable x : nat -> option nat.

  (* the external cache hands out models that existed before the load, are complete, and are models of that file
     (ext_ok of Proofs/RepoProofs.v) *)
  Definition XOK (s : state) : Prop :=
    forall g m', x g = Some m' ->
      m' < n0 /\ ~ In m' (constr s) /\ exists mi, nth_error (heap s) m' = Some mi /\ mfile mi = g.
End CleanX.

(* C18 for a load across languages, on the un-collected function: whatever fails, the importer's all_models loses
   nothing it had, ends up holding only models that existed before the load (its own earlier entries plus, possibly,
   models taken from the other languages' repositories), earlier models' local_models are untouched, state well formed *)
Theorem load_main_x_failure_clean_raw x xvals fs c f s e s' :
  Stable s -> XOK (length (heap s)) x (begin_op c s) ->
  (forall g m', x g = Some m' -> In m' xvals) -> (forall v, In v xvals -> v < length (heap s)) ->
  load_main_x_raw x xvals fs c f s = (inl e, s') ->
  incl (allm (begin_op c s)) (allm s') /\
  (forall k v, In (k, v) (allm s') -> v < length (heap s)) /\
  (forall y, y < length (heap s) -> local_of y s' = local_of y s) /\ Stable s'.
Proof.
  intros HS HX Hxv Hxb H.
  destruct (load_main_x_failure_raw x xvals fs c f s e s' HS HX Hxv Hxb H) as [[l [Ea _]] [Hall [Hloc HS']]].
  split; [rewrite Ea; apply incl_appl, incl_refl|]. split; [|auto].
  intros k v Hin. apply Nat.ltb_lt. exact (Hall (k, v) Hin).
Qed.

Theorem load_main_x_stable_raw x xvals fs c f s :
  Stable s -> XOK (length (heap s)) x (begin_op c s) ->
  (forall g m', x g = Some m' -> In m' xvals) -> (forall v, In v xvals -> v < length (heap s)) ->
  Stable (snd (load_main_x_raw x xvals fs c f s)).
Proof.
  intros HS HX Hxv Hxb. destruct (load_main_x_raw x xvals fs c f s) as [[e|m] s'] eqn:E; cbn [snd].
  - apply (load_main_x_failure_raw x xvals fs c f s e s' HS HX Hxv Hxb E).
  - apply (load_main_x_ok_raw x xvals fs c f s m s' HS HX E).
Qed.

(* the observed load across languages (with garbage collection) *)
Theorem load_main_x_failure_clean x xvals fs c f s e s' :
  Stable s -> XOK (length (heap s)) x (begin_op c s) ->
  (forall g m', x g = Some m' -> In m' xvals) -> (forall v, In v xvals -> v < length (heap s)) ->
  load_main_x x xvals fs c f s = (inl e, s') ->
  incl (allm (begin_op c s)) (allm s') /\
  (forall k v, In (k, v) (allm s') -> v < length (heap s)) /\
  (forall y, y < length (heap s) -> local_of y s' = local_of y s) /\ Stable s' /\
  heap s' = heap s /\ (forall v, In v (constr s') -> In v (constr s)).
Proof.
  intros HS HX Hxv Hxb. unfold load_main_x, live_bound.
  pose proof (load_main_x_raw_frame x xvals fs c f s HS HX) as [Hf [Fc _]].
  destruct (load_main_x_raw x xvals fs c f s) as [r s1] eqn:E. cbn [fst snd] in *.
  intro H. inversion H; subst r s'. clear H.
  destruct (load_main_x_failure_clean_raw x xvals fs c f s e s1 HS HX Hxv Hxb E) as [Hi [Ho [Hl HS1]]].
  assert (Hn : length (heap s) <= length (heap s1)).
  { apply (f_equal (@length _)) in Hf. rewrite firstn_length in Hf. lia. }
  split; [exact Hi|]. split; [exact Ho|]. split; [intros y Hy; rewrite local_of_tidy_lt by exact Hy; apply Hl; exact Hy|].
  split; [|split; [exact Hf|]].
  - destruct HS as [_ [_ [_ [_ E5]]]].
    apply Stable_tidy; [exact HS1 | exact Hn | exact Ho |].
    intros y g t Hy Hin. rewrite (Hl y Hy) in Hin. apply (E5 y g t Hin).
  - intros v Hin. cbn [constr tidy] in Hin. rewrite Fc in Hin. apply filter_In in Hin. tauto.
Qed.

Theorem load_main_x_frame x xvals fs c f s :
  Stable s -> XOK (length (heap s)) x (begin_op c s) ->
  (forall g m', x g = Some m' -> In m' xvals) -> (forall v, In v xvals -> v < length (heap s)) ->
  Stable (snd (load_main_x x xvals fs c f s)) /\
  (forall v mi, nth_error (heap s) v = Some mi -> nth_error (heap (snd (load_main_x x xvals fs c f s))) v = Some mi) /\
  (forall v, v < length (heap s) -> In v (constr (snd (load_main_x x xvals fs c f s))) -> In v (constr s)).
Proof.
  intros HS HX Hxv Hxb.
  destruct (load_main_x x xvals fs c f s) as [[e|m] s'] eqn:E; cbn [snd].
  - destruct (load_main_x_failure_clean x xvals fs c f s e s' HS HX Hxv Hxb E) as [_ [_ [_ [HS' [Eh Hc]]]]].
    split; [exact HS'|]. split; [rewrite Eh; auto | intros v _ Hin; apply Hc; exact Hin].
  - revert E. unfold load_main_x, live_bound.
    pose proof (load_main_x_raw_frame x xvals fs c f s HS HX) as [Hf [Fc _]].
    destruct (load_main_x_raw x xvals fs c f s) as [r s1] eqn:E1. cbn [fst snd] in *. intro H. inversion H; subst r s'.
    destruct (load_main_x_ok_raw x xvals fs c f s m s1 HS HX E1) as [HS1 _].
    pose proof HS1 as HS1'. destruct HS1 as [A [B [C [D E5]]]].
    split; [|split].
    + apply Stable_tidy; [exact HS1' | apply le_n | |].
      * intros k v Hin. destruct (C k v Hin) as [mi [H1 _]]. eapply m_lt_heap. exact H1.
      * intros y g t _ Hin. apply (E5 y g t Hin).
    + intros v mi Hv. rewrite heap_tidy, firstn_all.
      rewrite <- (nth_error_firstn_lt (length (heap s)) (heap s1) v) by (eapply m_lt_heap; exact Hv). rewrite Hf. exact Hv.
    + intros v Hv Hin. cbn [constr tidy] in Hin. apply filter_In in Hin as [Hin _].
      assert (H1 : In v (filter (fun y => Nat.ltb y (length (heap s))) (constr s1)))
        by (apply filter_In; split; [exact Hin | apply Nat.ltb_lt; exact Hv]).
      rewrite Fc in H1. apply filter_In in H1. tauto.
Qed.

(* The machine over several languages. *)
Notation mstate := (state * list (nat * list (nat * nat)))%type (only parsing).

Definition MStable (ms : mstate) : Prop :=
  NoDup (map fst (snd ms)) /\ Stable (with_allm (fst ms) []) /\
  (forall L a, In (L, a) (snd ms) -> Stable (with_allm (fst ms) a)).

Lemma Stable_allm_ext s s' : heap s' = heap s -> allm s' = allm s -> constr s' = constr s -> locals s' = locals s -> Stable s -> Stable s'.
Proof.
  intros Eh Ea Ec El [A [B [C [D E]]]]. unfold Stable, file_ok in *. rewrite Eh, Ea, Ec.
  split; [exact A|]. split; [exact B|]. split; [exact C|]. split; [exact D|].
  intros y g t. rewrite (local_of_ext s s' y El). apply E.
Qed.

Lemma MStable_repo ms L : MStable ms -> Stable (with_allm (fst ms) (repo_of (snd ms) L)).
Proof.
  intros [_ [H0 H]]. unfold repo_of. destruct (dget L (snd ms)) as [a|] eqn:E; [apply (H L a); apply dget_In; exact E | exact H0].
Qed.

Lemma other_repo_stable s s' a :
  Stable (with_allm s a) ->
  (forall v mi, nth_error (heap s) v = Some mi -> nth_error (heap s') v = Some mi) ->
  (forall v, v < length (heap s) -> In v (constr s') -> In v (constr s)) ->
  (forall y g t, In (g, t) (local_of y s') -> y < length (heap s') /\ t < length (heap s')) ->
  Stable (with_allm s' a).
Proof.
  intros [A [B [C [D _]]]] Hh Hc Hl. unfold Stable, file_ok in *. cbn [allm heap constr with_allm] in *.
  split; [exact A|]. split; [exact B|]. split; [|split].
  - intros k v Hin. destruct (C k v Hin) as [mi [H1 H2]]. exists mi. split; [apply Hh; exact H1 | exact H2].
  - intros v Hin Hc'. apply (D v Hin). apply Hc; [|exact Hc'].
    apply in_map_iff in Hin as [[k v'] [<- Hin]]. destruct (C k v' Hin) as [mi [H1 _]]. cbn. apply nth_error_Some. congruence.
  - intros y g t Hin. apply (Hl y g t). exact Hin.
Qed.

Lemma NoDup_keys_dset {A} k (v : A) l : NoDup (map fst l) -> NoDup (map fst (dset k v l)).
Proof.
  intro H. destruct (keys_dset_cases k v l) as [[_ ->]|[Hn ->]]; [exact H | apply NoDup_snoc; assumption].
Qed.
Lemma In_dset_nodup {A} k (v : A) l k' v' : NoDup (map fst l) ->
  In (k', v') (dset k v l) -> (k' = k /\ v' = v) \/ (k' <> k /\ In (k', v') l).
Proof.
  induction l as [|[a b] l IH]; cbn [dset map fst]; intro Hnd.
  - intros [H|[]]. inversion H. auto.
  - inversion Hnd as [|? ? Hni Hnd']; subst. destruct (Nat.eqb k a) eqn:E.
    + apply Nat.eqb_eq in E. subst a. intros [H|H]; [inversion H; auto|].
      right. split; [|right; exact H]. intro; subst k'. apply Hni. apply in_map_iff. exists (k, v'). auto.
    + apply Nat.eqb_neq in E. intros [H|H].
      * inversion H; subst. right. split; [congruence | left; reflexivity].
      * destruct (IH Hnd' H) as [H1|[H1 H2]]; [left; exact H1 | right; split; [exact H1 | right; exact H2]].
Qed.

Lemma repo_of_dset L a repos K : repo_of (dset L a repos) K = if Nat.eqb L K then a else repo_of repos K.
Proof.
  unfold repo_of. destruct (Nat.eqb L K) eqn:E.
  - apply Nat.eqb_eq in E. subst. rewrite dget_dset_same. reflexivity.
  - apply Nat.eqb_neq in E. rewrite dget_dset_other by exact E. reflexivity.
Qed.

Section Machine.
  Variable fs : list file.
  Variable mc : mlcfg.

  (* the hypotheses of the loader theorems hold for the external cache built from the other repositories *)
  Lemma ml_pre f s repos :
    MStable (s, repos) ->
    let L := lang mc f in
    let c := mkCfg (lglob mc L) false [] false in
    let s0 := with_allm s (if lglob mc L then repo_of repos L else []) in
    let xvals := flat_map (fun Lr => if Nat.eqb (fst Lr) L then [] else map snd (snd Lr)) repos in
    Stable s0 /\ XOK (length (heap s0)) (ext_of mc repos L) (begin_op c s0) /\
    (forall g m', ext_of mc repos L g = Some m' -> In m' xvals) /\ (forall v, In v xvals -> v < length (heap s0)).
  Proof.
    intros HM L c s0 xvals. pose proof HM as [Hnd [H0 Hall]]. cbn [fst snd] in *.
    assert (HS0 : Stable s0).
    { subst s0. destruct (lglob mc L); [apply (MStable_repo (s, repos) L HM) | exact H0]. }
    assert (Hext : forall g m', ext_of mc repos L g = Some m' ->
              exists a, In (lang mc g, a) repos /\ lang mc g <> L /\ In (g, m') a).
    { intros g m'. unfold ext_of. destruct (Nat.eqb (lang mc g) L) eqn:E; [discriminate|]. apply Nat.eqb_neq in E.
      destruct (lglob mc (lang mc g)); [|discriminate]. unfold repo_of. destruct (dget (lang mc g) repos) as [a|] eqn:Ea; [|discriminate].
      intro H. exists a. split; [apply dget_In; exact Ea|]. split; [exact E | apply dget_In; exact H]. }
    split; [exact HS0|]. split; [|split].
    - intros g m' Hx. destruct (Hext g m' Hx) as [a [Hin [_ Hgm]]].
      destruct (Hall _ a Hin) as [_ [_ [C [D _]]]]. cbn [allm heap constr with_allm] in *.
      destruct (C g m' Hgm) as [mi [H1 H2]]. cbn [heap with_allm] in H1.
      assert (Eh : heap (begin_op c s0) = heap s) by (subst s0; unfold begin_op; destruct (cglobal c); reflexivity).
      assert (Ec : constr (begin_op c s0) = constr s) by (subst s0; unfold begin_op; destruct (cglobal c); reflexivity).
      assert (Eh0 : heap s0 = heap s) by reflexivity.
      rewrite Eh, Ec, Eh0. split; [apply nth_error_Some; congruence|]. split.
      + apply D. apply in_map_iff. exists (g, m'). auto.
      + exists mi. auto.
    - intros g m' Hx. destruct (Hext g m' Hx) as [a [Hin [Hne Hgm]]]. subst xvals. apply in_flat_map. exists (lang mc g, a).
      split; [exact Hin|]. cbn [fst snd]. replace (Nat.eqb (lang mc g) L) with false by (symmetry; apply Nat.eqb_neq; exact Hne).
      apply in_map_iff. exists (g, m'). auto.
    - intros v Hv. subst xvals. apply in_flat_map in Hv as [[K a] [Hin Hv]]. cbn [fst snd] in Hv.
      destruct (Nat.eqb K L); [destruct Hv|]. apply in_map_iff in Hv as [[k v'] [<- Hkv]].
      destruct (Hall K a Hin) as [_ [_ [C _]]]. cbn [allm heap with_allm] in *. destruct (C k v' Hkv) as [mi [H1 _]]. cbn [heap with_allm] in H1.
      assert (Eh0 : heap s0 = heap s) by reflexivity. rewrite Eh0. cbn [snd]. apply nth_error_Some. congruence.
  Qed.

  Lemma ml_post f s repos s' :
    MStable (s, repos) ->
    Stable s' ->
    (forall v mi, nth_error (heap s) v = Some mi -> nth_error (heap s') v = Some mi) ->
    (forall v, v < length (heap s) -> In v (constr s') -> In v (constr s)) ->
    MStable (s', if lglob mc (lang mc f) then dset (lang mc f) (allm s') repos else repos).
  Proof.
    intros HM HS' Hh Hc. destruct HM as [Hnd [H0 Hall]]. cbn [fst snd] in *.
    assert (Hl : forall y g t, In (g, t) (local_of y s') -> y < length (heap s') /\ t < length (heap s'))
      by (destruct HS' as [_ [_ [_ [_ E]]]]; exact E).
    assert (Hother : forall a, Stable (with_allm s a) -> Stable (with_allm s' a))
      by (intros a Ha; apply (other_repo_stable s s' a Ha Hh Hc Hl)).
    unfold MStable. cbn [fst snd]. destruct (lglob mc (lang mc f)).
    - split; [apply NoDup_keys_dset; exact Hnd|]. split; [apply Hother; exact H0|].
      intros K a Hin. apply (In_dset_nodup (lang mc f) (allm s') repos K a Hnd) in Hin as [[_ ->]|[_ Hin]].
      + eapply Stable_allm_ext; [| | | |exact HS']; reflexivity.
      + apply Hother. apply (Hall K a Hin).
    - split; [exact Hnd|]. split; [apply Hother; exact H0|]. intros K a Hin. apply Hother. apply (Hall K a Hin).
  Qed.

  (* the well-formedness of the machine state is invariant *)
  Theorem ml_load_stable f ms : MStable ms -> MStable (snd (ml_load fs mc f ms)).
  Proof.
    destruct ms as [s repos]. intro HM. unfold ml_load.
    destruct (ml_pre f s repos HM) as [HS0 [HX [Hxv Hxb]]].
    set (L := lang mc f) in *. set (c := mkCfg (lglob mc L) false [] false) in *.
    set (s0 := with_allm s (if lglob mc L then repo_of repos L else [])) in *.
    set (xvals := flat_map _ repos) in *.
    destruct (load_main_x_frame (ext_of mc repos L) xvals fs c f s0 HS0 HX Hxv Hxb) as [HS' [Fh Fc]].
    cbn [snd]. apply (ml_post f s repos _ HM HS'); [exact Fh | exact Fc].
  Qed.

  (* C18 for several languages, in the form that is true: after a failed load NO repository has lost an entry it
     had, NO repository holds a model created by the failed load (every registered model existed before; the
     importer's repository may have gained models taken from the other languages' repositories), and the machine
     state is well formed again *)
  Theorem ml_load_failure_clean f s repos e s' repos' :
    MStable (s, repos) -> ml_load fs mc f (s, repos) = (inl e, (s', repos')) ->
    (forall K, incl (repo_of repos K) (repo_of repos' K)) /\
    (forall K k v, In (k, v) (repo_of repos' K) -> v < length (heap s)) /\
    heap s' = heap s /\ MStable (s', repos').
  Proof.
    intros HM. pose proof (ml_load_stable f (s, repos) HM) as HM'. revert HM'. unfold ml_load.
    destruct (ml_pre f s repos HM) as [HS0 [HX [Hxv Hxb]]].
    set (L := lang mc f) in *. set (c := mkCfg (lglob mc L) false [] false) in *.
    set (s0 := with_allm s (if lglob mc L then repo_of repos L else [])) in *.
    set (xvals := flat_map _ repos) in *.
    destruct (load_main_x (ext_of mc repos L) xvals fs c f s0) as [r s1] eqn:E. cbn [fst snd].
    intros HM' H. inversion H; subst r s' repos'. clear H.
    destruct (load_main_x_failure_clean (ext_of mc repos L) xvals fs c f s0 e s1 HS0 HX Hxv Hxb E) as [Hi [Ho [_ [_ [Eh _]]]]].
    assert (Hb : allm (begin_op c s0) = if lglob mc L then repo_of repos L else []).
    { subst s0 c. unfold begin_op. cbn [cglobal]. destruct (lglob mc L); reflexivity. }
    rewrite Hb in Hi.
    assert (Hold : forall K k v, In (k, v) (repo_of repos K) -> v < length (heap s)).
    { intros K k v Hin. destruct (MStable_repo (s, repos) K HM) as [_ [_ [C _]]]. cbn [fst snd allm heap with_allm] in C.
      destruct (C k v Hin) as [mi [H1 _]]. cbn [heap with_allm] in H1. apply nth_error_Some. congruence. }
    split; [|split; [|split; [exact Eh | exact HM']]].
    - intros K. destruct (lglob mc L) eqn:Eg; [|apply incl_refl]. rewrite repo_of_dset.
      destruct (Nat.eqb L K) eqn:EK; [apply Nat.eqb_eq in EK; subst K; exact Hi | apply incl_refl].
    - intros K k v Hin. destruct (lglob mc L) eqn:Eg; [|eapply Hold; exact Hin]. rewrite repo_of_dset in Hin.
      destruct (Nat.eqb L K); [apply (Ho k v Hin) | eapply Hold; exact Hin].
  Qed.
End Machine.

Lemma MStable_init : MStable (init_state [], []).
Proof.
  unfold MStable. cbn [fst snd map]. split; [constructor|]. split; [|intros L a []].
  eapply Stable_allm_ext; [| | | |apply (Stable_init [])]; reflexivity.
Qed.

Theorem ml_hist_stable mc ops : forall fs ms, MStable ms -> MStable (ml_hist mc fs ms ops).
Proof.
  induction ops as [|[f|f fc|fc] t IH]; intros fs ms HM; cbn [ml_hist]; [exact HM | | apply IH; exact HM | apply IH; exact HM].
  apply IH. apply ml_load_stable. exact HM.
Qed.

Theorem ml_failure_clean_in_history mc fs0 ops fs f e s' repos' :
  let ms := ml_hist mc fs0 (init_state [], []) ops in
  ml_load fs mc f ms = (inl e, (s', repos')) ->
  (forall K, incl (repo_of (snd ms) K) (repo_of repos' K)) /\
  (forall K k v, In (k, v) (repo_of repos' K) -> v < length (heap (fst ms))) /\
  heap s' = heap (fst ms) /\ MStable (s', repos').
Proof.
  intros ms H. pose proof (ml_hist_stable mc ops fs0 (init_state [], []) MStable_init) as HM. fold ms in HM.
  destruct ms as [s repos]. exact (ml_load_failure_clean fs mc f s repos e s' repos' HM H).
Qed.

(* After a successful load across languages, every local model of a model CREATED by the load is the model
   registered in the load's all_models for that file - whether it was parsed by the load, cached in the importer's
   repository, or taken from another language's repository. *)
Theorem load_main_x_created_registered x xvals fs c f s m s' :
  Stable s -> XOK (length (heap s)) x (begin_op c s) ->
  load_main_x x xvals fs c f s = (inr m, s') ->
  forall y g t, In (g, t) (local_of y s') -> length (heap s) <= y -> dget g (allm s') = Some t.
Proof.
  intros HS HX. unfold load_main_x, live_bound.
  destruct (load_main_x_raw x xvals fs c f s) as [r s1] eqn:E. cbn [fst snd]. intro H. inversion H; subst r s'.
  destruct (load_main_x_ok_raw x xvals fs c f s m s1 HS HX E) as [_ [_ [HL _]]].
  intros y g t Hin Hy. rewrite allm_tidy. apply In_local_of_tidy in Hin as [_ Hin]. exact (HL y g t Hin Hy).
Qed.

(* C17 identity for several languages: at every point of every history of the machine, after a successful load every
   name looked up from a model CREATED by the load resolves into the model itself or into THE model registered in the
   load's all_models (the importer's repository) for the target's file *)
Theorem ml_identity_created fs mc f s repos m s' repos' y n t i :
  MStable (s, repos) -> ml_load fs mc f (s, repos) = (inr m, (s', repos')) ->
  length (heap s) <= y -> resolve_name (mkCfg (lglob mc (lang mc f)) false [] false) s' y n = Some (t, i) ->
  t = y \/ dget (file_of t s') (allm s') = Some t.
Proof.
  intros HM. unfold ml_load.
  destruct (ml_pre mc f s repos HM) as [HS0 [HX [Hxv Hxb]]].
  set (L := lang mc f) in *. set (c := mkCfg (lglob mc L) false [] false) in *.
  set (s0 := with_allm s (if lglob mc L then repo_of repos L else [])) in *.
  set (xvals := flat_map _ repos) in *.
  destruct (load_main_x_frame (ext_of mc repos L) xvals fs c f s0 HS0 HX Hxv Hxb) as [HS' _].
  destruct (load_main_x (ext_of mc repos L) xvals fs c f s0) as [r s1] eqn:E. cbn [fst snd] in *.
  intro H. inversion H; subst r s' repos'. clear H. intros Hy Hr.
  destruct (resolve_name_in c s1 y n t i Hr) as [[H|[H|H]] _]; [left; exact H | | destruct H].
  right. apply in_map_iff in H as [[g t'] [Ht Hin]]. cbn in Ht. subst t'.
  assert (Hreg : dget g (allm s1) = Some t) by (apply (load_main_x_created_registered _ xvals fs c f s0 m s1 HS0 HX E y g t Hin); exact Hy).
  destruct HS' as [_ [_ [C _]]]. destruct (C g t (dget_In _ _ _ Hreg)) as [mi [H1 H2]].
  unfold file_of. rewrite H1, H2. exact Hreg.
Qed.

(* For a model that existed before (cached in the importer's repository or taken from another language's): its
   local models are what they were; under the hypothesis that each of them is registered in the importer's repository
   or held by the other repositories' cache - the negation is exactly the refuted case - every one of them is
   registered in the result or still held by that cache, with the same model *)
Theorem load_main_x_cached_locals x xvals fs c f s m s' y g t :
  Stable s -> XOK (length (heap s)) x (begin_op c s) ->
  load_main_x x xvals fs c f s = (inr m, s') ->
  y < length (heap s) -> In (g, t) (local_of y s') ->
  (dget g (allm (begin_op c s)) = Some t \/ x g = Some t) ->
  In (g, t) (local_of y s) /\ (dget g (allm s') = Some t \/ x g = Some t).
Proof.
  intros HS HX. unfold load_main_x, live_bound.
  destruct (load_main_x_raw x xvals fs c f s) as [r s1] eqn:E. cbn [fst snd]. intro H. inversion H; subst r s'.
  destruct (load_main_x_ok_raw x xvals fs c f s m s1 HS HX E) as [_ [Hp [_ [_ [Hloc _]]]]].
  intros Hy Hin Hyp. apply In_local_of_tidy in Hin as [_ Hin]. rewrite (Hloc y Hy) in Hin. split; [exact Hin|].
  rewrite allm_tidy. destruct Hyp as [Hyp|Hyp]; [left; apply Hp; exact Hyp | right; exact Hyp].
Qed.
