(* C22 - whitespace insertion: skip_ws_from on lists, and on the two inputs a ++ b and a ++ ins ++ b
   (the relations Rp / Rq on positions before / after skipping; [skip_absorb]). *)
From TxV Require Import Core.Base Model.PegSyntax Model.Peg Model.PegWsDefs.
Require Import Lia.

Lemma skip_le w l p : p <= skip_ws_from w l p.
Proof. revert p; induction l as [|c l IH]; intros p; simpl; [lia|]. destruct (existsb _ w); [specialize (IH (S p)); lia | lia]. Qed.

Lemma skip_bound w l p : skip_ws_from w l p <= p + length l.
Proof. revert p; induction l as [|c l IH]; intros p; simpl; [lia|]. destruct (existsb _ w); [specialize (IH (S p)); lia | lia]. Qed.

Lemma skip_offset w l p d : skip_ws_from w l (p + d) = skip_ws_from w l p + d.
Proof. revert p; induction l as [|c l IH]; intros p; simpl; [reflexivity|]. destruct (existsb _ w); [apply (IH (S p)) | reflexivity]. Qed.

(* every skipped character is in the active set *)
Lemma skip_only_active w l p :
  forallb (inw w) (firstn (skip_ws_from w l p - p) l) = true.
Proof.
  revert p; induction l as [|c l IH]; intros p; simpl.
  - rewrite Nat.sub_diag. reflexivity.
  - destruct (existsb (N.eqb c) w) eqn:E.
    + pose proof (skip_le w l (S p)) as Hle.
      replace (skip_ws_from w l (S p) - p) with (S (skip_ws_from w l (S p) - S p)) by lia.
      simpl. unfold inw at 1. rewrite E. apply IH.
    + rewrite Nat.sub_diag. reflexivity.
Qed.

(* skipping is maximal: it stops at the end of the text or at a character outside the set *)
Lemma skip_stops w l p :
  match nth_error l (skip_ws_from w l p - p) with
  | Some c => inw w c = false
  | None => skip_ws_from w l p = p + length l
  end.
Proof.
  revert p; induction l as [|c l IH]; intros p; simpl.
  - rewrite Nat.sub_diag. simpl. lia.
  - destruct (existsb (N.eqb c) w) eqn:E.
    + pose proof (skip_le w l (S p)) as Hle.
      replace (skip_ws_from w l (S p) - p) with (S (skip_ws_from w l (S p) - S p)) by lia.
      simpl. specialize (IH (S p)). destruct (nth_error l _); [assumption | lia].
    + rewrite Nat.sub_diag. simpl. exact E.
Qed.

Lemma skip_app w l1 l2 p :
  skip_ws_from w (l1 ++ l2) p =
  if forallb (inw w) l1 then skip_ws_from w l2 (p + length l1) else skip_ws_from w l1 p.
Proof.
  revert p; induction l1 as [|c l1 IH]; intros p; simpl.
  - rewrite Nat.add_0_r. reflexivity.
  - unfold inw at 1. destruct (existsb (N.eqb c) w); simpl; [|reflexivity].
    rewrite IH. replace (S p + length l1) with (p + S (length l1)) by lia. reflexivity.
Qed.

Lemma skip_partial_lt w l p : forallb (inw w) l = false -> skip_ws_from w l p < p + length l.
Proof.
  revert p; induction l as [|c l IH]; intros p; simpl; [discriminate|].
  unfold inw at 1. destruct (existsb (N.eqb c) w); simpl; intro H; [specialize (IH (S p) H); lia | lia].
Qed.

(* skipping in a ++ rest from a position inside a: either it stops inside a, or a is exhausted and it
   goes on in rest *)
Lemma skip_before w (a rest : list N) p : p <= length a ->
  skip_ws_from w (skipn p (a ++ rest)) p =
  if forallb (inw w) (skipn p a) then skip_ws_from w rest (length a) else skip_ws_from w (skipn p a) p.
Proof.
  intro H. rewrite (skipn_app_le a rest p H), skip_app, skipn_length.
  replace (p + (length a - p)) with (length a) by lia. reflexivity.
Qed.

Section Insertion.
Variables a ins b : list N.
Let k := length a.
Let n := length ins.
Let s := a ++ b.
Let s' := a ++ ins ++ b.

(* positions before whitespace skipping: left of the insertion point unchanged, right of it shifted,
   at the insertion point anywhere in the inserted text *)
Definition Rp (p p' : nat) : Prop :=
  p <= length s /\ ((p < k /\ p' = p) \/ (p = k /\ k <= p' <= k + n) \/ (k < p /\ p' = p + n)).
(* positions after skipping *)
Definition Rq (p p' : nat) : Prop := p <= length s /\ p' = phi k n p.

Lemma Rq_Rp p p' : Rq p p' -> Rp p p'.
Proof. unfold Rq, Rp, phi. intros [H ->]. split; [assumption|]. destruct (Nat.ltb_spec p k); lia. Qed.

Lemma len_s : length s = k + length b.
Proof. unfold s, k. apply app_length. Qed.

(* The two inputs compared, for any inserted text: right of the insertion point skipping is shifted;
   left of it, it either stops before the point in both inputs, or reaches the point, where the
   original goes on in b and the mutated input in ins ++ b. *)
Lemma skip_ins_right w p : k <= p ->
  skip_ws_from w (skipn (p + n) s') (p + n) = skip_ws_from w (skipn p s) p + n.
Proof.
  intro H. unfold s, s'. rewrite (skipn_app_ge a b p) by exact H.
  rewrite (skipn_app_ge a (ins ++ b)) by (fold k; lia). fold k.
  rewrite skipn_app_ge by (fold n; lia). fold n.
  replace (p + n - k - n) with (p - k) by lia. apply skip_offset.
Qed.

Lemma skip_ins_stop w p : p <= k -> forallb (inw w) (skipn p a) = false ->
  skip_ws_from w (skipn p s') p = skip_ws_from w (skipn p s) p /\ skip_ws_from w (skipn p s) p < k.
Proof.
  intros H E. unfold s, s'. rewrite !skip_before by exact H. rewrite E.
  split; [reflexivity|]. pose proof (skip_partial_lt w (skipn p a) p E) as L. rewrite skipn_length in L.
  unfold k in *. lia.
Qed.

Lemma skip_ins_run w p : p <= k -> forallb (inw w) (skipn p a) = true ->
  skip_ws_from w (skipn p s') p = skip_ws_from w (ins ++ b) k /\
  skip_ws_from w (skipn p s) p = skip_ws_from w b k.
Proof. intros H E. unfold s, s'. rewrite !skip_before by exact H. rewrite E. split; reflexivity. Qed.

(* skip absorption: skipping from related positions ends at corresponding positions *)
Lemma skip_absorb w p p' :
  subset_ws ins w = true -> Rp p p' ->
  Rq (skip_ws_from w (skipn p s) p) (skip_ws_from w (skipn p' s') p').
Proof.
  intros Hw [Hlen H]. unfold Rq.
  assert (Hb : skip_ws_from w (skipn p s) p <= length s).
  { pose proof (skip_bound w (skipn p s) p) as Hb. rewrite skipn_length in Hb. lia. }
  split; [exact Hb|]. clear Hb. pose proof len_s as Ls. pose proof (skip_le w b k) as Lb.
  destruct H as [[Hlt ->] | [[-> Hin] | [Hgt ->]]].
  - (* left of the insertion point *)
    destruct (forallb (inw w) (skipn p a)) eqn:Ea.
    + destruct (skip_ins_run w p (Nat.lt_le_incl _ _ Hlt) Ea) as [E1 E2]. rewrite E1, E2.
      rewrite skip_app. unfold subset_ws in Hw. rewrite Hw. fold n. rewrite skip_offset.
      unfold phi. destruct (Nat.ltb_spec (skip_ws_from w b k) k); lia.
    + destruct (skip_ins_stop w p (Nat.lt_le_incl _ _ Hlt) Ea) as [E1 L]. rewrite E1.
      unfold phi. apply Nat.ltb_lt in L. rewrite L. reflexivity.
  - (* at the insertion point *)
    assert (E1 : skipn k s = b).
    { unfold s. rewrite skipn_app_ge by (fold k; lia). fold k. rewrite Nat.sub_diag. reflexivity. }
    assert (E2 : skipn p' s' = skipn (p' - k) ins ++ b).
    { unfold s'. rewrite skipn_app_ge by (fold k; lia). fold k. apply skipn_app_le. fold n. lia. }
    rewrite E1, E2. rewrite skip_app.
    rewrite (forallb_skipn _ _ _ Hw). rewrite skipn_length. fold n.
    replace (p' + (n - (p' - k))) with (k + n) by lia. rewrite skip_offset.
    unfold phi. destruct (Nat.ltb_spec (skip_ws_from w b k) k); lia.
  - (* right of it *)
    rewrite (skip_ins_right w p (Nat.lt_le_incl _ _ Hgt)).
    pose proof (skip_le w (skipn p s) p). unfold phi.
    destruct (Nat.ltb_spec (skip_ws_from w (skipn p s) p) k); lia.
Qed.

End Insertion.
