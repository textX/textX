(* C02 — assignments never lose, duplicate or reorder matched values. *)
From TxV Require Import Core.Base Model.MultBase Gen.SrcMult Model.Mult Proofs.MultProofs Proofs.MultFlowProofs Proofs.MultSepProofs.
From TxV Require Model.Build Model.PegSyntax Model.Peg Model.MultPeg Proofs.MultPegProofs Proofs.MultPegWitness.
From TxV Require Model.MultBuild Proofs.MultBuildProofs Proofs.MultEndProofs Proofs.PegProofs Proofs.PegMemo.
From TxV Require Model.Spec Proofs.BuildPlaced Proofs.MultTableWitness.

(* An attribute is a list exactly when one object can collect more than one value for it:
   `infer` is the multiplicity inference of the current source (visit_assignment's operator table followed by
   _update_attr_multiplicities, with the constants and the ordered-choice handling translated from the source into
   Gen/SrcMult.v), `maxcount` the specification (sequence and unordered group add, ordered choice takes the maximum,
   optional keeps, a repetition or a `*=`/`+=` turns one or more into many).  For every rule body and attribute. *)
Theorem C02_list_iff_many : forall b a, is_list (infer b a) = true <-> 2 <= maxcount a b.
Proof. exact (fun b a => infer_list_iff a b). Qed.
Print Assumptions C02_list_iff_many.

(* `emits b t`: t is a sequence of assignment events (attribute, operator, matched values) that the structure of the
   rule body b allows for one object: any alternative, any number of iterations, unordered-group elements in any
   order.  The events such a body emits for a never weigh more than maxcount (`=`/`?=` weigh 1, `*=`/`+=` many). *)
Theorem C02_trace_within_maxcount : forall b a t, emits b t -> cap2 (weight a t) <= maxcount a b.
Proof. exact (fun b a t => emits_weight a b t). Qed.
Print Assumptions C02_trace_within_maxcount.

(* maxcount is not just a syntactic count: whenever it says "many", the rule body (every ordered choice of which has
   an alternative, as in any parsed grammar) allows a trace in which one object collects two values for a ... *)
Theorem C02_many_is_realisable : forall b a,
  alts_nonempty b = true -> 2 <= maxcount a b -> exists t, emits b t /\ 2 <= length (values_of a t).
Proof. exact (fun b a => many_realisable a b). Qed.
Print Assumptions C02_many_is_realisable.

(* ... so: an attribute is a list EXACTLY when one object can collect more than one value for it. *)
Theorem C02_list_exactly_when_collectable : forall b a,
  alts_nonempty b = true ->
  (is_list (infer b a) = true <-> exists t, emits b t /\ 2 <= length (values_of a t)).
Proof. exact list_exactly_when. Qed.
Print Assumptions C02_list_exactly_when_collectable.

(* Every value an assignment matches appears in the model exactly once and in input order: for every accepted rule
   body, every trace it allows, every attribute and every (falsy) default, the builder (model.py's assignment
   handler run on an attribute initialised by _init_obj_attrs according to the inferred multiplicity) ends with
   - the list of all values matched for the attribute, in trace (= input) order, when the attribute is a list;
   - otherwise the single matched value, or the default when nothing was matched; and then at most one value was
     matched at all, so there is no earlier value that a later one could overwrite. *)
Theorem C02_values_in_order : forall b a t d,
  grammar_ok b = true -> emits b t -> truthy d = false ->
  build a (init_val (infer b a) d) t
  = Ok (if is_list (infer b a) then AList (values_of a t)
        else AScalar (match values_of a t with [] => d | v :: _ => v end))
  /\ (is_list (infer b a) = false -> length (values_of a t) <= 1).
Proof. exact values_in_order. Qed.
Print Assumptions C02_values_in_order.

(* Input that the grammar accepts never fails with 'Multiple assignments' (nor crashes on `.append`). *)
Theorem C02_no_mult_assign_error : forall b a t d,
  grammar_ok b = true -> emits b t -> truthy d = false ->
  build a (init_val (infer b a) d) t <> MultipleAssignments /\ build a (init_val (infer b a) d) t <> Crash.
Proof.
  intros b a t d Hg He Hd. destruct (C02_values_in_order b a t d Hg He Hd) as [H _]. rewrite H. split; discriminate.
Qed.
Print Assumptions C02_no_mult_assign_error.

(* No earlier value is silently overwritten by a later one: whenever two values are matched for an attribute, the
   attribute is a list and holds both (all) of them, in order. *)
Theorem C02_no_silent_overwrite : forall b a t d,
  grammar_ok b = true -> emits b t -> truthy d = false -> 2 <= length (values_of a t) ->
  build a (init_val (infer b a) d) t = Ok (AList (values_of a t)).
Proof.
  intros b a t d Hg He Hd Hn. destruct (C02_values_in_order b a t d Hg He Hd) as [H1 H2].
  destruct (is_list (infer b a)); [exact H1|]. destruct (Nat.lt_irrefl 1 (Nat.le_trans _ _ _ Hn (H2 eq_refl))).
Qed.
Print Assumptions C02_no_silent_overwrite.

(* Separators.  The children of a `*=`/`+=` node are the nodes of the matched elements and of the matched separators; a
   separator that matched the empty string leaves no node, so elements and separators need not alternate.  With the
   way the current source tells them apart (src_sep_mode, translated from model.py's list handler), the handler stores
   exactly the element values, in order, whatever the arrangement of the children. *)
Theorem C02_separators_never_stored : forall hs cs,
  (hs = false -> forallb (fun c => negb (c_sep c)) cs = true) ->
  child_values src_sep_mode hs cs = elem_values cs.
Proof. exact separators_never_stored. Qed.
Print Assumptions C02_separators_never_stored.

(* Telling separators by position (every odd-indexed child) loses a value and stores separator text once a separator
   matched empty: children 1 2 "," 3 give [1; ","].  Telling them by the rule name "sep" drops every value matched by a
   grammar rule called `sep`. *)
Theorem C02_positional_separator_skip_refuted :
  elem_values sep_witness = [SInt 1; SInt 2; SInt 3]
  /\ child_values SepByPosition true sep_witness = [SInt 1; SStr [44%N]].
Proof. split; reflexivity. Qed.
Print Assumptions C02_positional_separator_skip_refuted.

Theorem C02_separator_by_name_refuted :
  elem_values [Child false true (SInt 1)] = [SInt 1] /\ child_values SepByName false [Child false true (SInt 1)] = [].
Proof. split; reflexivity. Qed.
Print Assumptions C02_separator_by_name_refuted.

(* Value flow stated on parse-tree nodes (attribute, operator, children tagged element/separator): what ends up in the
   attribute is exactly what the elements of the assignments matched - no separator text, nothing lost - in order. *)
Theorem C02_values_in_order_nodes : forall b a ns d,
  grammar_ok b = true -> forallb node_wf ns = true -> emits b (map (node_ev src_sep_mode) ns) -> truthy d = false ->
  build a (init_val (infer b a) d) (map (node_ev src_sep_mode) ns)
  = Ok (if is_list (infer b a) then AList (node_values a ns)
        else AScalar (match node_values a ns with [] => d | v :: _ => v end))
  /\ (is_list (infer b a) = false -> length (node_values a ns) <= 1).
Proof. exact values_in_order_nodes. Qed.
Print Assumptions C02_values_in_order_nodes.

Example C02_nonvacuous_nodes :
  grammar_ok witness_body2 = true /\ forallb node_wf witness_nodes = true
  /\ emits witness_body2 (map (node_ev src_sep_mode) witness_nodes)
  /\ build 0 (init_val (infer witness_body2 0) (SInt 0)) (map (node_ev src_sep_mode) witness_nodes)
     = Ok (AList [SInt 0; SInt 1; SInt 2; SInt 3]).
Proof.
  split; [vm_compute; reflexivity|]. split; [reflexivity|]. split; [|vm_compute; reflexivity].
  apply emits_BSeq. exists (map (fun n => [node_ev src_sep_mode n]) witness_nodes). split; [|reflexivity].
  constructor; [apply (emits_plain 0 (SInt 0)) | constructor; [|constructor]]. left. eexists. repeat split.
Qed.
Print Assumptions C02_nonvacuous_nodes.

(* The inference as it was before the repair (every branch of an ordered choice got a fresh, empty set of seen
   assignments that was dropped afterwards) violates the statement: witness_body = `(a=X | b=X) a=X`. *)
Theorem C02_prefix_inference_refuted :
  exists b a, 2 <= maxcount a b /\ is_list (infer_prefix b a) = false.
Proof. exists witness_body, 0. split; [vm_compute; apply le_n | vm_compute; reflexivity]. Qed.
Print Assumptions C02_prefix_inference_refuted.

(* ... and then both failures occur on the trace of `1 2` resp. `0 2` (witness_trace z = a=z, a=2):
   a truthy first value gives 'Multiple assignments', a falsy first value (0) is silently replaced. *)
Theorem C02_prefix_value_flow_refuted :
  grammar_ok witness_body = true /\ emits witness_body (witness_trace 1) /\ emits witness_body (witness_trace 0)
  /\ build 0 (init_val (infer_prefix witness_body 0) (SInt 0)) (witness_trace 1) = MultipleAssignments
  /\ build 0 (init_val (infer_prefix witness_body 0) (SInt 0)) (witness_trace 0) = Ok (AScalar (SInt 2)).
Proof.
  split; [vm_compute; reflexivity|]. split; [apply witness_emits|]. split; [apply witness_emits|].
  split; vm_compute; reflexivity.
Qed.
Print Assumptions C02_prefix_value_flow_refuted.

(* non-vacuity: the hypotheses of the value-flow theorems are satisfiable and the conclusion is the expected list *)
Example C02_nonvacuous_values :
  grammar_ok witness_body = true /\ emits witness_body (witness_trace 0) /\ truthy (SInt 0) = false
  /\ build 0 (init_val (infer witness_body 0) (SInt 0)) (witness_trace 0) = Ok (AList [SInt 0; SInt 2]).
Proof.
  split; [vm_compute; reflexivity|]. split; [apply witness_emits|]. split; vm_compute; reflexivity.
Qed.
Print Assumptions C02_nonvacuous_values.

Example C02_nonvacuous_realisable : alts_nonempty witness_body = true /\ 2 <= maxcount 0 witness_body.
Proof. split; [reflexivity | vm_compute; apply le_n]. Qed.
Print Assumptions C02_nonvacuous_realisable.

Example C02_nonvacuous_list :
  is_list (infer witness_body 0) = true
  /\ is_list (infer witness_body 1) = false
  /\ is_list (infer (BAlt [BAsg 0 OpPlain; BSeq [BTok; BAsg 0 OpPlain]]) 0) = false
  /\ is_list (infer (BUnord [BOpt (BAsg 0 OpPlain); BAsg 0 OpPlain]) 0) = true.
Proof. vm_compute. repeat split; reflexivity. Qed.
Print Assumptions C02_nonvacuous_list.

(* Link to the interpreter model (shared PEG core).
   `emits` is a hypothesis of the value-flow theorems above.  Here it is discharged against Model/Peg.v, the model of
   the Arpeggio interpreter that is validated against the real parser by C19/C01:  whenever the parsing-expression
   node nid of a parser model g (any node table; mm = what model.py reads off each node; any oracle for the terminals,
   any input, any parser state, any fuel) has the structure of the rule body b (`den ... true b nid`, a decidable check
   that the correspondence evaluates on the parser model textX really built), and the interpreter (memoization off)
   returns a result for that node, then the assignment nodes below the NonTerminal it built for the rule - not
   descending into the NonTerminals of other rules, whose assignments belong to other objects - are a trace that b
   emits.  Covers sequence, ordered choice (including Arpeggio's "a None alternative is not a match" quirk), optional,
   * and + with separators, unordered groups, the four assignment operators, predicates and rule references. *)
Theorem C02_parse_result_is_trace :
  forall g mm attr_id conv input orc b nid fuel psq s r s',
  MultPeg.den g mm attr_id true b nid = true ->
  Peg.parse g input orc false fuel nid psq s = Peg.Ok r s' ->
  emits b (map (node_ev src_sep_mode) (MultPeg.top_nodes g mm attr_id conv r)).
Proof. exact MultPegProofs.peg_result_is_trace. Qed.
Print Assumptions C02_parse_result_is_trace.

(* End to end on the interpreter model: for every accepted rule body and every parse result of its node, model.py's
   assignment handler leaves in each attribute exactly the values matched by the elements of its assignments, in
   input order (a list), or the single value / the default with at most one value matched. *)
Theorem C02_parsed_values_in_order :
  forall g mm attr_id conv input orc b nid fuel psq s r s' a d,
  MultPeg.den g mm attr_id true b nid = true -> grammar_ok b = true ->
  Peg.parse g input orc false fuel nid psq s = Peg.Ok r s' -> truthy d = false ->
  let ns := MultPeg.top_nodes g mm attr_id conv r in
  build a (init_val (infer b a) d) (map (node_ev src_sep_mode) ns)
  = Ok (if is_list (infer b a) then AList (node_values a ns)
        else AScalar (match node_values a ns with [] => d | v :: _ => v end))
  /\ (is_list (infer b a) = false -> length (node_values a ns) <= 1).
Proof. exact MultPegProofs.parsed_values_in_order. Qed.
Print Assumptions C02_parsed_values_in_order.

(* non-vacuity: the parser model dumped from `Model: (a=INT | b=INT) a+=INT[/,?/];` has the structure of its body, and
   the interpreter's result on `1 2 , 3` yields the events a=<1>, a+=<2,3> (values shown by their positions 0, 2, 6;
   the separator node "," at 4 is not among them) *)
Example C02_nonvacuous_link :
  MultPeg.den MultPegWitness.wit_g MultPegWitness.wit_mm MultPegWitness.wit_attr true MultPegWitness.wit_body MultPegWitness.wit_nid = true
  /\ grammar_ok MultPegWitness.wit_body = true
  /\ exists r s', Peg.parse MultPegWitness.wit_g MultPegWitness.wit_input (Peg.orc_of MultPegWitness.wit_tbl) false 50
                            MultPegWitness.wit_nid true (Peg.init_st MultPegWitness.wit_cfg) = Peg.Ok r s'
     /\ map (node_ev src_sep_mode) (MultPeg.top_nodes MultPegWitness.wit_g MultPegWitness.wit_mm MultPegWitness.wit_attr MultPegWitness.wit_conv r)
        = [Ev 0 OpPlain [SInt 0]; Ev 0 OpPlus [SInt 2; SInt 6]].
Proof.
  split; [vm_compute; reflexivity|]. split; [vm_compute; reflexivity|].
  eexists. eexists. split; vm_compute; reflexivity.
Qed.
Print Assumptions C02_nonvacuous_link.

(* End to end on the full object builder (Model/Build.v).
   Build.pnode is the model of parse_tree_to_objgraph validated against textX by C01/C06.  tvals ma kids = the values
   process_node computes (vof) for the children of the assignment nodes of attribute ma among the children `kids` of the
   rule's NonTerminal, in input order (`=`: the first child; `?=`: True; `*=`/`+=`: the non-separator children); for a
   link attribute (`a=[Rule]`, `a+=[Rule]`) each value is the pending reference VRef name position class at that place.
   expected_val ma vs = the list vs for a many-valued attribute, else the single value (or the initial value when vs = []).

   Rule level, memoization off: for any parser-model table, oracle, input, state, fuel and enclosing object: if the rule
   node has the structure of the body b, the interpreter returns the rule's NonTerminal, and the builder turns it into
   an object, then EVERY attribute of the object holds exactly the matched values in input order, each once; the
   attribute is many-valued iff maxcount >= 2; a single-valued attribute had at most one value matched.  (An object
   is built, so no 'Multiple assignments' was raised at this level.)
   Side conditions, all decidable and evaluated by the correspondence on the real tables/trees: asg_table_okb (every
   __asgn node has a fitting PEG class), mult_agreesb (the dumped multiplicities are the inferred ones), Build.asg_placed
   (assignment nodes occur only as direct children of common-rule nodes - the side condition C06 uses too - so the value
   of every other tree does not depend on the enclosing object). *)
Theorem C02_parsed_object_values :
  forall g mm input grp auto use_grp attr_id orc,
  MultBuild.asg_table_okb g mm = true ->
  forall b nid fuel psq s kids s' cls attrs top cls' p e vals top',
  MultPeg.den g mm attr_id true b nid = true -> grammar_ok b = true ->
  Peg.parse g input orc false fuel nid psq s = Peg.Ok (Peg.RTree (Peg.NT nid kids)) s' ->
  Build.info mm nid = Build.IRule Build.RCommon cls attrs ->
  MultBuild.mult_agreesb attr_id b attrs = true ->
  forallb (Build.asg_placed mm true) kids = true ->
  Build.pnode g mm input grp auto use_grp (Peg.NT nid kids) top = Build.BOk (Build.VObj cls' p e vals, top') ->
  forall ma, Build.find_attr (Build.a_name ma) attrs = Some ma ->
    Build.get_val (Build.a_name ma) vals
      = Some (MultBuild.expected_val auto ma (MultBuild.tvals g mm input grp auto use_grp ma kids))
    /\ (MultBuild.is_many (Build.a_mult ma) = true <-> 2 <= maxcount (attr_id (Build.a_name ma)) b)
    /\ (MultBuild.is_many (Build.a_mult ma) = false ->
        length (MultBuild.tvals g mm input grp auto use_grp ma kids) <= 1).
Proof. exact MultEndProofs.parsed_object_values. Qed.
Print Assumptions C02_parsed_object_values.

(* Input that the grammar accepts never fails with 'Multiple assignments': if building the rule's object ends in a
   semantic error, that error was raised while one of the children was converted (by a nested object, to which this
   theorem applies in turn) or by the object-name check - not by the multiple-assignment guard of this object. *)
Theorem C02_parsed_object_no_mult_assign :
  forall g mm input grp auto use_grp attr_id orc,
  MultBuild.asg_table_okb g mm = true ->
  forall b nid fuel psq s kids s' cls attrs top,
  MultPeg.den g mm attr_id true b nid = true -> grammar_ok b = true ->
  Peg.parse g input orc false fuel nid psq s = Peg.Ok (Peg.RTree (Peg.NT nid kids)) s' ->
  Build.info mm nid = Build.IRule Build.RCommon cls attrs ->
  MultBuild.mult_agreesb attr_id b attrs = true ->
  forallb (Build.asg_placed mm true) kids = true ->
  Build.pnode g mm input grp auto use_grp (Peg.NT nid kids) top = Build.BErr Build.ESem ->
  (exists k c', In k kids /\ Build.pnode g mm input grp auto use_grp k (Some c') = Build.BErr Build.ESem /\
     (MultBuildProofs.not_asg mm k = true \/
      exists n' ks a o k0 c'', k = Peg.NT n' ks /\ Build.info mm n' = Build.IAsgn a o /\ In k0 ks /\
                               Build.pnode g mm input grp auto use_grp k0 (Some c'') = Build.BErr Build.ESem))
  \/ (exists c1, Build.each_loop (Build.pnode g mm input grp auto use_grp) kids
                   (Some (Build.mkCur cls attrs (Build.tpos (Peg.NT nid kids)) (Build.tend (Peg.NT nid kids)) (Build.init_attrs auto attrs)))
                 = Build.BOk (Some c1) /\ Build.name_ok (Build.c_vals c1) = false).
Proof. exact MultEndProofs.parsed_object_no_mult_assign. Qed.
Print Assumptions C02_parsed_object_no_mult_assign.

(* Whole run, memoization off or on: Peg.run -> Build.build.  With memoization on, the parser model must be
   context-constant and the un-memoized run must terminate with this fuel (C19's memo_safe). *)
Theorem C02_run_object_values :
  forall g mm input grp auto use_grp attr_id orc,
  MultBuild.asg_table_okb g mm = true ->
  forall memo b nid cfg fuel r cls attrs cls' p e vals,
  (memo = true -> PegProofs.ctx_constant g = true /\ PegMemo.not_aborted (Peg.run g cfg orc false fuel input)) ->
  MultPeg.den g mm attr_id true b nid = true -> grammar_ok b = true -> MultEndProofs.top_okb g nid = true ->
  Build.info mm nid = Build.IRule Build.RCommon cls attrs -> MultBuild.mult_agreesb attr_id b attrs = true ->
  Peg.run g cfg orc memo fuel input = Peg.Parsed r ->
  (forall tp t rest, r = Peg.RTree (Peg.NT tp (t :: rest)) -> Build.asg_placed mm false t = true) ->
  Build.build g mm input grp auto use_grp r = Build.BOk (Build.VObj cls' p e vals) ->
  exists kids tp rest, r = Peg.RTree (Peg.NT tp (Peg.NT nid kids :: rest)) /\
  forall ma, Build.find_attr (Build.a_name ma) attrs = Some ma ->
    Build.get_val (Build.a_name ma) vals
      = Some (MultBuild.expected_val auto ma (MultBuild.tvals g mm input grp auto use_grp ma kids))
    /\ (MultBuild.is_many (Build.a_mult ma) = true <-> 2 <= maxcount (attr_id (Build.a_name ma)) b)
    /\ (MultBuild.is_many (Build.a_mult ma) = false ->
        length (MultBuild.tvals g mm input grp auto use_grp ma kids) <= 1).
Proof. exact MultEndProofs.run_object_values. Qed.
Print Assumptions C02_run_object_values.

(* non-vacuity: all hypotheses hold on the dumped witness (`Model: (a=INT | b=INT) a+=INT[/,?/];`, input `1 2 , 3`,
   memoization on) and the object holds a = [INT"1", INT"2", INT"3"], b = its default *)
Example C02_nonvacuous_end_to_end :
  PegProofs.ctx_constant MultPegWitness.wit_g = true
  /\ MultBuild.asg_table_okb MultPegWitness.wit_g MultPegWitness.wit_mm = true
  /\ MultEndProofs.top_okb MultPegWitness.wit_g MultPegWitness.wit_nid = true
  /\ MultBuild.mult_agreesb MultPegWitness.wit_attr MultPegWitness.wit_body MultPegWitness.wit_attrs = true
  /\ PegMemo.not_aborted (Peg.run MultPegWitness.wit_g MultPegWitness.wit_cfg (Peg.orc_of MultPegWitness.wit_tbl) false 50 MultPegWitness.wit_input)
  /\ exists r p e vals,
       Peg.run MultPegWitness.wit_g MultPegWitness.wit_cfg (Peg.orc_of MultPegWitness.wit_tbl) true 50 MultPegWitness.wit_input = Peg.Parsed r
       /\ Build.asg_placed MultPegWitness.wit_mm false (MultPegWitness.first_tree r) = true
       /\ Build.build MultPegWitness.wit_g MultPegWitness.wit_mm MultPegWitness.wit_input MultPegWitness.wit_grp true false r
          = Build.BOk (Build.VObj [77;111;100;101;108]%N p e vals)
       /\ Build.get_val [97]%N vals
          = Some (Build.VList [Build.VTerm [73;78;84]%N [49]%N; Build.VTerm [73;78;84]%N [50]%N; Build.VTerm [73;78;84]%N [51]%N])
       /\ Build.get_val [98]%N vals = Some (Build.VDefault [73;78;84]%N).
Proof.
  split; [vm_compute; reflexivity|]. split; [vm_compute; reflexivity|]. split; [vm_compute; reflexivity|].
  split; [vm_compute; reflexivity|]. split; [vm_compute; exact I|].
  eexists. eexists. eexists. eexists. split; [vm_compute; reflexivity|].
  split; [vm_compute; reflexivity|]. split; [vm_compute; reflexivity|]. split; vm_compute; reflexivity.
Qed.
Print Assumptions C02_nonvacuous_end_to_end.

(* The same with hypotheses on the TABLE and the ORACLE only - no hypothesis on the parse tree: for tables in the class
   of C01's refinement theorem (Spec.wfg), an oracle that never matches the empty string (Spec.orc_pos) and
   BuildPlaced.table_asg_ok (decidable), Build.asg_placed of the parsed tree is derived (Proofs/BuildPlaced.v:
   asg_placed_of_run_tree). *)
Theorem C02_run_object_values_table :
  forall g mm input grp auto use_grp attr_id orc,
  MultBuild.asg_table_okb g mm = true ->
  forall pf K memo b nid cfg fuel r cls attrs cls' p e vals,
  Spec.wfg g pf = true -> Spec.orc_pos orc -> BuildPlaced.table_asg_ok g mm K = true ->
  (memo = true -> PegProofs.ctx_constant g = true /\ PegMemo.not_aborted (Peg.run g cfg orc false fuel input)) ->
  MultPeg.den g mm attr_id true b nid = true -> grammar_ok b = true -> MultEndProofs.top_okb g nid = true ->
  Build.info mm nid = Build.IRule Build.RCommon cls attrs -> MultBuild.mult_agreesb attr_id b attrs = true ->
  Peg.run g cfg orc memo fuel input = Peg.Parsed r ->
  Build.build g mm input grp auto use_grp r = Build.BOk (Build.VObj cls' p e vals) ->
  exists kids tp rest, r = Peg.RTree (Peg.NT tp (Peg.NT nid kids :: rest)) /\
  forall ma, Build.find_attr (Build.a_name ma) attrs = Some ma ->
    Build.get_val (Build.a_name ma) vals
      = Some (MultBuild.expected_val auto ma (MultBuild.tvals g mm input grp auto use_grp ma kids))
    /\ (MultBuild.is_many (Build.a_mult ma) = true <-> 2 <= maxcount (attr_id (Build.a_name ma)) b)
    /\ (MultBuild.is_many (Build.a_mult ma) = false ->
        length (MultBuild.tvals g mm input grp auto use_grp ma kids) <= 1).
Proof. exact MultEndProofs.run_object_values_table. Qed.
Print Assumptions C02_run_object_values_table.

(* non-vacuity: every hypothesis holds on the dumped `Model: (a=INT | b=INT) a+=INT[','];`, input `1 2 , 3`, memoization on *)
Example C02_nonvacuous_table :
  Spec.wfg MultTableWitness.wit2_g 24 = true /\ Spec.orc_pos (Peg.orc_of MultTableWitness.wit2_tbl)
  /\ BuildPlaced.table_asg_ok MultTableWitness.wit2_g MultPegWitness.wit_mm 24 = true
  /\ PegProofs.ctx_constant MultTableWitness.wit2_g = true
  /\ MultBuild.asg_table_okb MultTableWitness.wit2_g MultPegWitness.wit_mm = true
  /\ MultPeg.den MultTableWitness.wit2_g MultPegWitness.wit_mm MultPegWitness.wit_attr true MultPegWitness.wit_body MultPegWitness.wit_nid = true
  /\ grammar_ok MultPegWitness.wit_body = true
  /\ MultEndProofs.top_okb MultTableWitness.wit2_g MultPegWitness.wit_nid = true
  /\ MultBuild.mult_agreesb MultPegWitness.wit_attr MultPegWitness.wit_body MultPegWitness.wit_attrs = true
  /\ PegMemo.not_aborted (Peg.run MultTableWitness.wit2_g MultPegWitness.wit_cfg (Peg.orc_of MultTableWitness.wit2_tbl) false 50 MultPegWitness.wit_input)
  /\ exists r p e vals,
       Peg.run MultTableWitness.wit2_g MultPegWitness.wit_cfg (Peg.orc_of MultTableWitness.wit2_tbl) true 50 MultPegWitness.wit_input = Peg.Parsed r
       /\ Build.build MultTableWitness.wit2_g MultPegWitness.wit_mm MultPegWitness.wit_input MultPegWitness.wit_grp true false r
          = Build.BOk (Build.VObj [77;111;100;101;108]%N p e vals)
       /\ Build.get_val [97]%N vals
          = Some (Build.VList [Build.VTerm [73;78;84]%N [49]%N; Build.VTerm [73;78;84]%N [50]%N; Build.VTerm [73;78;84]%N [51]%N]).
Proof.
  split; [vm_compute; reflexivity|]. split; [exact MultTableWitness.wit2_orc_pos|].
  do 7 (split; [vm_compute; reflexivity|]). split; [vm_compute; exact I|].
  eexists. eexists. eexists. eexists. split; [vm_compute; reflexivity|]. split; vm_compute; reflexivity.
Qed.
Print Assumptions C02_nonvacuous_table.
