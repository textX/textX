(* The weak mode of the equivalence checker Model/PegEquiv.v: soundness for ACCEPTANCE only.

   Proofs/PegEquivProofs.v proves one simulation for both modes; at w = true it relates the two runs through
   states equal UP TO nm ([eqn]), which gives equal acceptance (not equal error positions).  This file proves
   the two extra rules of that mode sound for that relation: an ordered choice of two regex matches o1, o2
   against one regex match o3 (either side), under the explicit oracle hypothesis [orc_alts] (o3 matches like
   o1 where o1 matches, else like o2) and non-emptiness of o1, o2.  The rule re-runs Match.parse's
   whitespace/comment skipping for the second alternative and relies on the comment-position cache, which is
   consulted only when skipws is on: the theorem assumes [c_skipws cfg = true]. *)
From TxV Require Import Core.Base Model.PegSyntax Model.Peg Proofs.PegProofs Model.PegEquiv
  Proofs.PegEquivProofs.

(* states up to nm: eqw true, eqxw true and
   ctxw true of Proofs/PegEquivProofs.v, written out *)
Definition eqn (s1 s2 : st) : Prop := set_nm None s1 = set_nm None s2.
Definition eqxn (s1 s2 : st) : Prop := set_nm None (set_pos 0 s1) = set_nm None (set_pos 0 s2).
(* the whitespace context of a state *)
Definition ctx3 (s1 s2 : st) : Prop := ws s1 = ws s2 /\ skipws s1 = skipws s2 /\ in_cmt s1 = in_cmt s2.

Lemma ctx3_set_cpos c s : ctx3 (set_cpos c s) s.
Proof. repeat split. Qed.

Lemma nm_raise_eq p s : nm_raise p s = Fail (reg_fail p s).
Proof. reflexivity. Qed.

Section SoundW.
Variables g1 g2 : grammar.
Variable ne : list nat.
Variable alts : list (nat * nat * nat).
Variable R : list (nat * nat * bool).
Variable input : list N.
Variable orc : nat -> nat -> option nat.
Hypothesis Hne : forall o p, In o ne -> orc o p <> Some 0.
(* the oracle hypothesis on regex triples: o3 matches like o1 where o1 matches, else like o2 *)
Hypothesis Halt : forall o1 o2 o3 p, In (o1, o2, o3) alts ->
  orc o3 p = match orc o1 p with Some l => Some l | None => orc o2 p end.

Notation P1 := (parse g1 input orc false).
Notation P2 := (parse g2 input orc false).
Notation eqs := (eqw true).
Notation eqxs := (eqxw true).
Notation ctxs := (ctxw true).
Notation orelT := (orelG g1 g2 ne true).

(* related outcomes of a pair (i, j) started in states s, s' equal up to nm: orelG at w = true, written out *)
Definition orelW (i j : nat) (c : bool) (s s' : st) (o1 o2 : out) : Prop :=
  o1 = Abort 0 \/ o2 = Abort 0 \/
  match o1, o2 with
  | Ok r1 s1, Ok r2 s2 =>
    eqn s1 s2 /\ ctx3 s1 s /\ vrel c r1 r2 /\ (forall d, efree g1 d i = true -> fnn r1)
    /\ (forall d, efree g2 d j = true -> fnn r2) /\ (forall d, atrue g1 ne d i = true -> truthy r1 = true)
  | Fail s1, Fail s2 =>
    eqxn s1 s2 /\ ctx3 s1 s /\ (nonterminal g1 i = true -> pos s1 = pos s) /\ (nonterminal g2 j = true -> pos s2 = pos s')
  | Abort _, Abort _ => True
  | _, _ => False
  end.

Definition sem_okW (p : nat * nat * bool) : Prop :=
  match p with
  | (i, j, c) => forall fa fb psq1 psq2 s s', eqn s s' -> skipws s = true ->
                 orelW i j c s s' (P1 fa i psq1 s) (P2 fb j psq2 s')
  end.

Hypothesis HF : frame_ok g1 g2 R = true.

Section StepW.
Variable n : nat.
Hypothesis IH : forall fa fb, fa + fb <= n -> simG g1 g2 ne R input orc true fa fb.

Notation match_pre_simT := (match_pre_sim g1 g2 ne R input orc true HF n IH).

Lemma eqs_back p a b sA p' : pos sA = p' -> eqs (set_pos p' (set_pos a (set_pos b (reg_fail p sA)))) sA.
Proof.
  intro H. destruct sA. simpl in H. subst. unfold eqs, reg_fail, set_pos, set_nm. simpl.
  destruct nm; simpl; [|reflexivity]. destruct in_cmt; [reflexivity|]. destruct (Nat.ltb n0 p); reflexivity.
Qed.

(* Match.parse's skipping, run again from the state a failed first alternative leaves behind, hits the
   comment-position cache (skipws on) and ends where the first run ended *)
Lemma match_pre_again g rec k z r sA p :
  skipws z = true -> ctxs sA z -> match_pre g input rec k z = Ok r sA ->
  exists sC, match_pre g input rec k (set_pos (pos z) (reg_fail p sA)) = Ok RNone sC /\ eqs sC sA.
Proof.
  intros Kz (CW & CK & CI) H.
  destruct (reg_fail_fields p sA) as (RW & RK & RI & RC & RP).
  remember (set_pos (pos z) (reg_fail p sA)) as zB eqn:EzB.
  assert (ZK : skipws zB = true) by (subst zB; cbn [skipws set_pos]; congruence).
  assert (ZW : ws zB = ws z) by (subst zB; cbn [ws set_pos]; congruence).
  assert (ZP : pos zB = pos z) by (subst zB; reflexivity).
  assert (ZC : cpos zB = cpos sA) by (subst zB; cbn [cpos set_pos]; congruence).
  assert (ZI : in_cmt zB = in_cmt z) by (subst zB; cbn [in_cmt set_pos]; congruence).
  set (q := skip_ws_from (ws z) (skipn (pos z) input) (pos z)).
  assert (M1 : maybe_skip_ws input z = set_pos q z).
  { unfold maybe_skip_ws, do_skip_ws. rewrite Kz. reflexivity. }
  assert (M2 : maybe_skip_ws input zB = set_pos q zB).
  { unfold maybe_skip_ws, do_skip_ws. rewrite ZK, ZW, ZP. reflexivity. }
  unfold match_pre in *. rewrite M1 in H. rewrite M2. clear M1 M2.
  cbn [skipws pos cpos in_cmt set_pos] in *. rewrite Kz in H. rewrite ZK, ZC, ZI.
  destruct (lookup q (cpos z)) as [p'|] eqn:LK.
  - inversion H; subst sA. cbn [cpos set_pos]. rewrite LK.
    eexists. split; [reflexivity|]. rewrite EzB. apply eqs_back. reflexivity.
  - destruct (in_cmt z) eqn:IC.
    + inversion H; subst sA. cbn [cpos set_pos]. rewrite LK.
      eexists. split; [reflexivity|]. rewrite EzB.
      apply (eqs_trans _ (set_pos q (set_pos q (set_pos (pos z) (reg_fail p (set_pos q z)))))); [reflexivity|].
      apply eqs_back. reflexivity.
    + destruct (parse_comments g input rec k (set_pos q z)) as [r2 s2|s2|w] eqn:PC; try discriminate.
      inversion H; subst sA. cbn [cpos set_cpos]. rewrite lookup_upd_same.
      eexists. split; [reflexivity|]. rewrite EzB. apply eqs_back. reflexivity.
Qed.

(* an ordered choice of two regex matches against one regex match (weak mode) *)
Lemma regex_oid_node g k o : regex_oid g k = Some o ->
  exists nd, get_node g k = Some nd /\ n_kind nd = KRegex o /\ n_suppress nd = false.
Proof.
  unfold regex_oid. destruct (get_node g k) as [nd|]; [|discriminate].
  destruct (n_kind nd) eqn:K; try discriminate.
  destruct (plain nd); simpl; [|discriminate]. destruct (n_suppress nd) eqn:Su; simpl; [discriminate|].
  intro H. inversion H; subst. exists nd. repeat split; assumption.
Qed.

Lemma in_alts_In o1 o2 o3 : in_alts alts o1 o2 o3 = true -> In (o1, o2, o3) alts.
Proof.
  unfold in_alts. rewrite existsb_exists. intros [[[a b] c] [I E]].
  apply andb_true_iff in E as [E E3]. apply andb_true_iff in E as [E1 E2].
  apply Nat.eqb_eq in E1. apply Nat.eqb_eq in E2. apply Nat.eqb_eq in E3. subst. exact I.
Qed.

Lemma term_regex nid o psq s :
  term_parse input orc nid (KRegex o) psq s =
  match orc o (pos s) with
  | Some len => if Nat.eqb len 0 then Ok RNone s else Ok (RTree (T nid (pos s) len false)) (set_pos (pos s + len) s)
  | None => Fail (reg_fail (pos s) s)
  end.
Proof. reflexivity. Qed.

(* the outcome of the pair once a regex matched with a non-zero length at related states *)
Lemma regex_hit i j c a b k len t1 t2 s s' psq :
  get_node g1 i = Some a -> get_node g2 j = Some b -> n_suppress a = n_suppress b -> n_kind a = KChoice ->
  eqs t1 t2 -> ctxs t1 s -> Nat.eqb len 0 = false ->
  orelT i j c s s'
    (Ok (post i a (RList [RTree (T k (pos t1) len false)])) (set_pos (pos t1 + len) t1))
    (Ok (if n_suppress b then RNone else RTree (T j (pos t1) len psq)) (set_pos (pos t1 + len) t2)).
Proof.
  intros G1 G2 Su Ka E CT NZ. right; right. split; [apply eqs_set_pos; exact E|].
  split; [eapply ctxs_trans; [apply ctxs_set_pos | exact CT]|].
  rewrite <- Su. destruct (n_suppress a) eqn:Sa.
  - rewrite (post_suppress i a _ Sa). split; [apply vrel_none|]. split; [intros; apply fnn_none|].
    split; [intros; apply fnn_none|]. intros d q. rewrite (atrue_unsup ne g1 d i a G1 q) in Sa. discriminate.
  - assert (T1 : tt (post i a (RList [RTree (T k (pos t1) len false)]))).
    { apply post_list_tt; [exact Sa | apply accok1; apply tt_T | discriminate]. }
    split; [apply vrel_tt; [exact T1 | apply tt_T]|]. split; [intros; apply fnn_of_tt; exact T1|].
    split; [intros; apply fnn_of_tt; apply tt_T|]. intros _ _. apply T1.
Qed.

Lemma step_choice_regex i j c a b o3 fa fb psq1 psq2 s s' :
  fa + fb <= n -> get_node g1 i = Some a -> get_node g2 j = Some b ->
  n_kind a = KChoice -> n_kind b = KRegex o3 -> plain a = true -> n_suppress a = n_suppress b ->
  choice_regex g1 ne alts a o3 = true -> eqs s s' -> skipws s = true ->
  orelT i j c s s' (P1 (S fa) i psq1 s) (P2 (S fb) j psq2 s').
Proof.
  intros L G1 G2 Ka Kb Pa Su CR Es Ks. unfold choice_regex in CR.
  destruct (n_kids a) as [|k1 [|k2 [|? ?]]] eqn:Kia; try discriminate.
  destruct (regex_oid g1 k1) as [o1|] eqn:R1; [|discriminate]. destruct (regex_oid g1 k2) as [o2|] eqn:R2; [|discriminate].
  apply andb_true_iff in CR as [CR NE2]. apply andb_true_iff in CR as [AL NE1].
  apply in_alts_In in AL. apply existsb_nat_In in NE1. apply existsb_nat_In in NE2.
  destruct (regex_oid_node g1 k1 o1 R1) as (n1 & Gk1 & Kk1 & Sk1).
  destruct (regex_oid_node g1 k2 o2 R2) as (n2 & Gk2 & Kk2 & Sk2).
  assert (Ma : is_match_kind (n_kind a) = false) by (rewrite Ka; reflexivity).
  assert (Mb : is_match_kind (n_kind b) = true) by (rewrite Kb; reflexivity).
  assert (M1 : is_match_kind (n_kind n1) = true) by (rewrite Kk1; reflexivity).
  assert (M2 : is_match_kind (n_kind n2) = true) by (rewrite Kk2; reflexivity).
  rewrite (parse_nonmatch g1 input orc fa i a psq1 s G1 Ma), (body_choice _ _ _ _ Ka Pa), Kia.
  rewrite (parse_match g2 input orc fb j b psq2 s' G2 Mb), Kb.
  cbn [choice_loop]. destruct fa as [|fa]; [left; reflexivity|].
  rewrite (parse_match g1 input orc fa k1 n1 false s Gk1 M1), Kk1, Sk1.
  assert (L' : fa + fb <= n) by lia.
  pose proof (match_pre_simT fa fb fa fb s s' L' Es Ks) as Z.
  destruct (match_pre g1 input (P1 fa) fa s) as [r1 sA|sA|w1] eqn:MP1.
  2:{ destruct Z as [Z|[Z|Z]]; [discriminate | rewrite Z; right; left; reflexivity |].
      destruct (match_pre g2 input (P2 fb) fb s'); contradiction. }
  2:{ destruct Z as [Z|[Z|Z]]; [inversion Z; subst; left; reflexivity | rewrite Z; right; left; reflexivity |].
      destruct (match_pre g2 input (P2 fb) fb s') as [? ?|?|?]; try contradiction. right; right. exact I. }
  destruct Z as [Z|[Z|Z]]; [discriminate | rewrite Z; right; left; reflexivity |].
  destruct (match_pre g2 input (P2 fb) fb s') as [r2 sA'|sA'|w2]; try contradiction.
  destruct Z as (EA & CTA). rewrite !term_regex. rewrite <- (eqs_pos _ _ EA).
  rewrite (Halt o1 o2 o3 (pos sA) AL).
  destruct (orc o1 (pos sA)) as [len|] eqn:O1.
  - destruct (Nat.eqb len 0) eqn:NZ.
    { apply Nat.eqb_eq in NZ. subst len. exfalso. apply (Hne o1 (pos sA) NE1 O1). }
    cbn [is_none]. apply (regex_hit i j c a b k1 len sA sA' s s' false G1 G2 Su Ka EA CTA NZ).
  - (* the first alternative fails; the second one re-runs Match.parse's skipping *)
    rewrite (parse_match g1 input orc fa k2 n2 false _ Gk2 M2), Kk2, Sk2.
    destruct (match_pre_again g1 (P1 fa) fa s r1 sA (pos sA) Ks CTA MP1) as (sC & MP2 & EC).
    rewrite MP2. rewrite term_regex. rewrite (eqs_pos _ _ EC).
    destruct (orc o2 (pos sA)) as [len|] eqn:O2.
    + destruct (Nat.eqb len 0) eqn:NZ.
      { apply Nat.eqb_eq in NZ. subst len. exfalso. apply (Hne o2 (pos sA) NE2 O2). }
      cbn [is_none]. rewrite <- (eqs_pos _ _ EC).
      apply (regex_hit i j c a b k2 len sC sA' s s' false G1 G2 Su Ka).
      * eapply eqs_trans; eassumption.
      * eapply ctxs_trans; [apply eqs_ctx; exact EC | exact CTA].
      * exact NZ.
    + cbn [choice_loop is_none]. right; right.
      split.
      * apply eqxs_set_pos_l. apply eqxs_reg_fail_l. apply eqxs_set_pos_l. apply eqxs_reg_fail_l.
        apply eqs_eqxs. apply eqs_sym. apply eqs_sym. eapply eqs_trans; [exact EC|].
        eapply eqs_trans; [exact EA|]. apply eqs_sym. apply reg_fail_eqs.
      * split.
        -- eapply ctxs_trans; [apply ctxs_set_pos|]. eapply ctxs_trans; [apply ctxs_reg_fail|].
           eapply ctxs_trans; [apply ctxs_set_pos|]. eapply ctxs_trans; [apply ctxs_reg_fail|].
           eapply ctxs_trans; [apply eqs_ctx; exact EC | exact CTA].
        -- split; [intros _; apply pos_set_pos|]. unfold nonterminal. rewrite G2, Mb. discriminate.
Qed.

(* one regex match against an ordered choice of two regex matches of the SECOND grammar,
   each possibly under a unit wrapper sequence (weak mode) *)
Lemma match_pre_again2 g rec k z r sA rec' k' zB :
  skipws z = true -> ctxs sA z -> match_pre g input rec k z = Ok r sA ->
  eqxs zB sA -> pos zB = pos z ->
  exists sC, match_pre g input rec' k' zB = Ok RNone sC /\ eqs sC sA.
Proof.
  intros Kz (CW & CK & CI) H EX ZP.
  assert (ZF : ws zB = ws sA /\ skipws zB = skipws sA /\ in_cmt zB = in_cmt sA /\ cpos zB = cpos sA).
  { clear - EX. destruct zB, sA. unfold eqxs, set_nm, set_pos in EX. simpl in *. inversion EX; subst. repeat split. }
  destruct ZF as (ZW0 & ZK0 & ZI0 & ZC).
  assert (ZK : skipws zB = true) by congruence.
  assert (ZW : ws zB = ws z) by congruence.
  assert (ZI : in_cmt zB = in_cmt z) by congruence.
  assert (BACK : forall q, eqs (set_pos (pos sA) (set_pos q zB)) sA).
  { clear - EX. intro q. destruct zB, sA. unfold eqxs, eqs, set_nm, set_pos in *. simpl in *. inversion EX; subst. reflexivity. }
  set (q := skip_ws_from (ws z) (skipn (pos z) input) (pos z)).
  assert (M1 : maybe_skip_ws input z = set_pos q z).
  { unfold maybe_skip_ws, do_skip_ws. rewrite Kz. reflexivity. }
  assert (M2 : maybe_skip_ws input zB = set_pos q zB).
  { unfold maybe_skip_ws, do_skip_ws. rewrite ZK, ZW, ZP. reflexivity. }
  unfold match_pre in *. rewrite M1 in H. rewrite M2. clear M1 M2.
  cbn [skipws pos cpos in_cmt set_pos] in *. rewrite Kz in H. rewrite ZK, ZC, ZI.
  destruct (lookup q (cpos z)) as [p'|] eqn:LK.
  - inversion H; subst sA. cbn [cpos set_pos]. rewrite LK.
    eexists. split; [reflexivity|]. apply (BACK q).
  - destruct (in_cmt z) eqn:IC.
    + inversion H; subst sA. cbn [cpos set_pos]. rewrite LK.
      eexists. split; [reflexivity|]. apply (BACK q).
    + destruct (parse_comments g input rec k (set_pos q z)) as [r2 s2|s2|w] eqn:PC; try discriminate.
      inversion H; subst sA. cbn [cpos set_cpos]. rewrite lookup_upd_same.
      eexists. split; [reflexivity|]. apply (BACK q).
Qed.

(* what one alternative (a regex match, possibly wrapped) returns, in terms of Match.parse's skipping *)
Definition alt_res (z : st) (o : nat) (mp res : out) : Prop :=
  match mp with
  | Ok _ sA =>
    match orc o (pos sA) with
    | Some len => Nat.eqb len 0 = false -> exists v, tt v /\ res = Ok v (set_pos (pos sA + len) sA)
    | None => exists sF, res = Fail sF /\ eqxs sF sA
    end
  | Fail sF => True
  | Abort w => res = Abort w
  end.

Lemma alt_shape k o : regex_alt g2 k = Some o ->
  forall fk z, P2 fk k false z = Abort 0 \/
  exists fm, fm < fk /\ alt_res z o (match_pre g2 input (P2 fm) fm z) (P2 fk k false z).
Proof.
  unfold regex_alt. intros RA fk z. destruct (regex_oid g2 k) as [o'|] eqn:RO.
  - inversion RA; subst o'. destruct (regex_oid_node g2 k o RO) as (nd & G & K & Su).
    destruct fk as [|f]; [left; reflexivity|]. right. exists f. split; [lia|].
    rewrite (parse_match g2 input orc f k nd false z G) by (rewrite K; reflexivity). rewrite K, Su.
    unfold alt_res. destruct (match_pre g2 input (P2 f) f z) as [r sA|sF|w]; [|exact I|reflexivity].
    rewrite term_regex. destruct (orc o (pos sA)) as [len|].
    + intro NZ. rewrite NZ. eexists. split; [apply tt_T | reflexivity].
    + eexists. split; [reflexivity|]. apply eqxs_reg_fail_l. apply eqxs_refl.
  - destruct (unit_kid g2 k) as [y|] eqn:U; [|discriminate].
    unfold unit_kid in U. destruct (seq_kids g2 k) as [[|y' [|? ?]]|] eqn:SK; try discriminate.
    inversion U; subst y'. destruct (seq_kids_node g2 k [y] SK) as (nd & G & K & Pl & Su & Ki).
    destruct (regex_oid_node g2 y o RA) as (ny & Gy & Ky & Suy).
    destruct fk as [|f]; [left; reflexivity|].
    pose proof (seq_node_cases g2 input orc f k nd false z G K Pl Su) as C. rewrite Ki in C. cbn [seq_loop] in C.
    destruct f as [|f]; [left; exact C|]. right. exists f. split; [lia|].
    rewrite (parse_match g2 input orc f y ny true z Gy) in C by (rewrite Ky; reflexivity). rewrite Ky, Suy in C.
    unfold alt_res. destruct (match_pre g2 input (P2 f) f z) as [r sA|sF|w]; [|exact I|exact C].
    rewrite term_regex in C. destruct (orc o (pos sA)) as [len|].
    + intro NZ. rewrite NZ in C. cbn [truthy app] in C. rewrite C.
      eexists. split; [|reflexivity]. apply post_list_tt; [exact Su | apply accok1; apply tt_T | discriminate].
    + eexists. split; [exact C|]. apply eqxs_set_pos_l. apply eqxs_set_pos_l. apply eqxs_reg_fail_l. apply eqxs_refl.
Qed.

Lemma regex_hit_r i j c a b v len t1 t2 s s' psq :
  get_node g1 i = Some a -> get_node g2 j = Some b -> n_suppress a = n_suppress b ->
  eqs t1 t2 -> ctxs t1 s -> tt v ->
  orelT i j c s s'
    (Ok (if n_suppress a then RNone else RTree (T i (pos t1) len psq)) (set_pos (pos t1 + len) t1))
    (Ok (post j b (RList [v])) (set_pos (pos t1 + len) t2)).
Proof.
  intros G1 G2 Su E CT TV. right; right. split; [apply eqs_set_pos; exact E|].
  split; [eapply ctxs_trans; [apply ctxs_set_pos | exact CT]|].
  destruct (n_suppress a) eqn:Sa.
  - rewrite (post_suppress j b _ (eq_sym Su)). split; [apply vrel_none|]. split; [intros; apply fnn_none|].
    split; [intros; apply fnn_none|]. intros d q. rewrite (atrue_unsup ne g1 d i a G1 q) in Sa. discriminate.
  - assert (T2 : tt (post j b (RList [v]))).
    { apply post_list_tt; [symmetry; exact Su | apply accok1; exact TV | discriminate]. }
    split; [apply vrel_tt; [apply tt_T | exact T2]|]. split; [intros; apply fnn_of_tt; apply tt_T|].
    split; [intros; apply fnn_of_tt; exact T2|]. intros _ _. reflexivity.
Qed.

Lemma step_regex_choice_r i j c a b o3 fa fb psq1 psq2 s s' :
  fa + fb <= n -> get_node g1 i = Some a -> get_node g2 j = Some b ->
  n_kind a = KRegex o3 -> n_kind b = KChoice -> plain b = true -> n_suppress a = n_suppress b ->
  regex_choice_r g2 ne alts o3 b = true -> eqs s s' -> skipws s = true ->
  orelT i j c s s' (P1 (S fa) i psq1 s) (P2 (S fb) j psq2 s').
Proof.
  intros L G1 G2 Ka Kb Pb Su CR Es Ks. unfold regex_choice_r in CR.
  destruct (n_kids b) as [|k1 [|k2 [|? ?]]] eqn:Kib; try discriminate.
  destruct (regex_alt g2 k1) as [o1|] eqn:R1; [|discriminate]. destruct (regex_alt g2 k2) as [o2|] eqn:R2; [|discriminate].
  apply andb_true_iff in CR as [CR NE2]. apply andb_true_iff in CR as [AL NE1].
  apply in_alts_In in AL. apply existsb_nat_In in NE1. apply existsb_nat_In in NE2.
  assert (Ma : is_match_kind (n_kind a) = true) by (rewrite Ka; reflexivity).
  assert (Mb : is_match_kind (n_kind b) = false) by (rewrite Kb; reflexivity).
  assert (Ks' : skipws s' = true) by (destruct (eqs_ctx _ _ Es) as (_ & K & _); congruence).
  rewrite (parse_match g1 input orc fa i a psq1 s G1 Ma), Ka.
  rewrite (parse_nonmatch g2 input orc fb j b psq2 s' G2 Mb), (body_choice _ _ _ _ Kb Pb), Kib.
  cbn [choice_loop].
  destruct (alt_shape k1 o1 R1 fb s') as [A1|(fm1 & Lm1 & A1)]; [rewrite A1; right; left; reflexivity|].
  assert (L1 : fa + fm1 <= n) by lia.
  pose proof (match_pre_simT fa fm1 fa fm1 s s' L1 Es Ks) as Z. unfold alt_res in A1.
  destruct (match_pre g2 input (P2 fm1) fm1 s') as [r2 sA'|sA'|w2] eqn:MP2.
  2:{ destruct Z as [Z|[Z|Z]]; [rewrite Z; left; reflexivity | discriminate |].
      destruct (match_pre g1 input (P1 fa) fa s); contradiction. }
  2:{ rewrite A1. destruct Z as [Z|[Z|Z]]; [rewrite Z; left; reflexivity | inversion Z; subst; right; left; reflexivity |].
      destruct (match_pre g1 input (P1 fa) fa s) as [? ?|?|?]; try contradiction. right; right. exact I. }
  destruct Z as [Z|[Z|Z]]; [rewrite Z; left; reflexivity | discriminate |].
  destruct (match_pre g1 input (P1 fa) fa s) as [r1 sA|sA|w1]; try contradiction.
  destruct Z as (EA & CTA). rewrite term_regex. rewrite (Halt o1 o2 o3 (pos sA) AL).
  rewrite <- (eqs_pos _ _ EA) in A1.
  assert (CTA' : ctxs sA' s') by (eapply ctxs_trans; [apply ctxs_sym; apply eqs_ctx; exact EA|];
                                  eapply ctxs_trans; [exact CTA | apply eqs_ctx; exact Es]).
  destruct (orc o1 (pos sA)) as [len|] eqn:O1.
  - destruct (Nat.eqb len 0) eqn:NZ.
    { apply Nat.eqb_eq in NZ. subst len. exfalso. apply (Hne o1 (pos sA) NE1 O1). }
    destruct (A1 eq_refl) as (v & TV & RES). rewrite RES. repeat (rewrite (tt_not_none v (proj1 TV)); cbv beta iota).
    apply (regex_hit_r i j c a b v len sA sA' s s' false G1 G2 Su EA CTA TV).
  - destruct A1 as (sF & RES & EXF). rewrite RES.
    destruct (alt_shape k2 o2 R2 fb (set_pos (pos s') sF)) as [A2|(fm2 & Lm2 & A2)]; [rewrite A2; right; left; reflexivity|].
    destruct (match_pre_again2 g2 (P2 fm1) fm1 s' r2 sA' (P2 fm2) fm2 (set_pos (pos s') sF) Ks' CTA' MP2
                               (eqxs_set_pos_l _ _ _ EXF) eq_refl) as (sC & MPC & EC).
    unfold alt_res in A2. rewrite MPC in A2. rewrite (eqs_pos _ _ EC), <- (eqs_pos _ _ EA) in A2.
    destruct (orc o2 (pos sA)) as [len|] eqn:O2.
    + destruct (Nat.eqb len 0) eqn:NZ.
      { apply Nat.eqb_eq in NZ. subst len. exfalso. apply (Hne o2 (pos sA) NE2 O2). }
      destruct (A2 eq_refl) as (v & TV & RES2). rewrite RES2. repeat (rewrite (tt_not_none v (proj1 TV)); cbv beta iota).
      apply (regex_hit_r i j c a b v len sA sC s s' false G1 G2 Su); try assumption.
      eapply eqs_trans; [exact EA | apply eqs_sym; exact EC].
    + destruct A2 as (sF2 & RES2 & EXF2). rewrite RES2. cbn [choice_loop is_none]. right; right.
      split.
      * apply eqxs_reg_fail_l. apply eqxs_set_pos_r. apply eqxs_reg_fail_r. apply eqxs_set_pos_r.
        apply (eqxs_trans _ sC); [apply eqs_eqxs; eapply eqs_trans; [exact EA | apply eqs_sym; exact EC]|].
        apply eqxs_sym. exact EXF2.
      * split; [eapply ctxs_trans; [apply ctxs_reg_fail | exact CTA]|].
        split; [unfold nonterminal; rewrite G1, Ma; discriminate | intros _; apply pos_set_pos].
Qed.

Lemma weak_rules_sound a b i j c fa fb psq1 psq2 s s' :
  fa + fb <= n -> get_node g1 i = Some a -> get_node g2 j = Some b ->
  plain a = true -> plain b = true -> n_suppress a = n_suppress b -> weak_rules g1 g2 ne alts a b = true ->
  eqs s s' -> skipws s = true ->
  orelT i j c s s' (P1 (S fa) i psq1 s) (P2 (S fb) j psq2 s').
Proof.
  intros L G1 G2 Pa Pb Su H Es Ks. unfold weak_rules in H.
  destruct (n_kind a) eqn:Ka; try discriminate; destruct (n_kind b) eqn:Kb; try discriminate.
  - apply (step_choice_regex i j c a b oid fa fb psq1 psq2 s s' L G1 G2 Ka Kb Pa Su H Es Ks).
  - apply (step_regex_choice_r i j c a b oid fa fb psq1 psq2 s s' L G1 G2 Ka Kb Pb Su H Es Ks).
Qed.

End StepW.

Hypothesis HR : forall p, In p R -> local_ok g1 g2 ne true alts R p = true \/ sem_okW p.

(* outcomes of whole runs: acceptance only *)
Definition outcome_acc (o1 o2 : outcome) : Prop :=
  o1 = Aborted 0 \/ o2 = Aborted 0 \/
  match o1, o2 with
  | Parsed _, Parsed _ => True
  | SyntaxErr _, SyntaxErr _ => True
  | Aborted _, Aborted _ => True
  | _, _ => False
  end.

Lemma run_relW cfg f1 f2 : c_skipws cfg = true ->
  outcome_acc (run g1 cfg orc false f1 input) (run g2 cfg orc false f2 input).
Proof.
  intro SK. unfold run. pose proof HF as F. unfold frame_ok in F. apply andb_true_iff in F as [F _].
  apply (pin_any_In R) in F as [c F].
  pose proof (sim_allG g1 g2 ne alts R input orc true Hne
                (fun _ n IH i j c a b => weak_rules_sound n IH a b i j c) HR HF
                (f1 + f2) f1 f2 (le_n _) _ _ _ F false false (init_st cfg) (init_st cfg) (eqs_refl _) SK) as O.
  destruct O as [O|[O|O]]; [rewrite O; left; reflexivity | rewrite O; right; left; reflexivity |].
  destruct (P1 f1 (g_top g1) false (init_st cfg)) as [r1 s1|s1|w1],
           (P2 f2 (g_top g2) false (init_st cfg)) as [r2 s2|s2|w2]; try contradiction;
    right; right; exact I.
Qed.

End SoundW.

Definition orc_alts (alts : list (nat * nat * nat)) (orc : nat -> nat -> option nat) : Prop :=
  forall o1 o2 o3 p, In (o1, o2, o3) alts ->
  orc o3 p = match orc o1 p with Some l => Some l | None => orc o2 p end.

Theorem rel_sound_acc g1 g2 ne alts R input orc :
  orc_nonempty ne orc -> orc_alts alts orc ->
  frame_ok g1 g2 R = true ->
  (forall p, In p R -> local_ok g1 g2 ne true alts R p = true \/ sem_okW g1 g2 ne input orc p) ->
  forall cfg f1 f2, c_skipws cfg = true ->
  outcome_acc (run g1 cfg orc false f1 input) (run g2 cfg orc false f2 input).
Proof. intros Hne Halt HF HR cfg f1 f2 SK. apply (run_relW g1 g2 ne alts R input orc Hne Halt HF HR cfg f1 f2 SK). Qed.

(* small grammars for the non-vacuity statements (Props/C24.v) *)
(* Model: /r0/ | /r1/   against   Model: /r2/   where r2 matches like r0, else like r1 *)
Definition g_c1 : grammar :=
  mkGrammar [mk KSeq [1; 4] true; mk KChoice [2; 3] true; mk (KRegex 0) [] false; mk (KRegex 1) [] false;
             mk KEOF [] false] 0 None.
Definition g_c2 : grammar := mkGrammar [mk KSeq [1; 2] true; mk (KRegex 2) [] true; mk KEOF [] false] 0 None.
Definition orc_ex (o p : nat) : option nat :=
  match o with 0 => None | _ => if Nat.eqb p 0 then Some 1 else None end.

(* `(x ',')* x` and `x+[',']` differ AS NODES (after "x," the first fails, the second succeeds on "x"), although
   the two grammars reject "x," alike: the checker rightly reports the pair; it can only be equal in context *)
Definition g_t1 : grammar :=
  mkGrammar [mk KSeq [1; 6] true; mk KSeq [2; 4] true; mk KStar [3] false; mk KSeq [4; 5] false;
             mk (KStr [120]%N None) [] false; mk (KStr [44]%N None) [] false; mk KEOF [] false] 0 None.
Definition g_t2 : grammar :=
  mkGrammar [mk KSeq [1; 4] true; mkNode KPlus [2] (Some 3) false [] true false None None; mk (KStr [120]%N None) [] false;
             mk (KStr [44]%N None) [] false; mk KEOF [] false] 0 None.

Definition is_fail (o : out) : bool := match o with Fail _ => true | _ => false end.
Definition ok_pos (o : out) : option nat := match o with Ok _ s => Some (pos s) | _ => None end.

(* Model: /r2/   against   Model: w=/r0/ | /r1/   (first alternative under a unit wrapper, choice on the second grammar) *)
Definition g_c3 : grammar :=
  mkGrammar [mk KSeq [1; 5] true; mk KChoice [2; 4] true; mk KSeq [3] true; mk (KRegex 0) [] false; mk (KRegex 1) [] false;
             mk KEOF [] false] 0 None.

