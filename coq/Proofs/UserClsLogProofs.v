(* Event order in the traces of the load machine (Model/UserCls.v). *)
From TxV Require Import Core.Base Model.UserCls Proofs.UserClsProofs.

Section LogProofs.
  Variable rep res : list (list N).
  Notation run := (run rep res).

  Definition is_init (k : ekind) : bool := match k with KInit _ _ => true | _ => false end.
  Definition is_proc (k : ekind) : bool := match k with KProc _ => true | _ => false end.
  Definition is_resolved (k : ekind) : bool := match k with KResolved _ => true | _ => false end.

  (* traces are newest first: when an __init__ event happens, the resolution event of the load
     has happened and no object processor of the load has run *)
  Fixpoint trace_ok (t : list ekind) : Prop :=
    match t with
    | [] => True
    | k :: t' => (is_init k = true -> existsb is_resolved t' = true /\ existsb is_proc t' = false) /\ trace_ok t'
    end.

  (* the phase of a load tells which of the two kinds of events its trace holds already *)
  Definition ctx_trace_inv (c : ctx) : Prop :=
    trace_ok (c_trace c) /\
    match c_phase c with
    | Loading => existsb is_resolved (c_trace c) = false /\ existsb is_proc (c_trace c) = false
    | Ending _ => existsb is_resolved (c_trace c) = true /\ existsb is_proc (c_trace c) = false
    | Processing => True
    end.

  Definition trace_inv (s : state) : Prop := Forall ctx_trace_inv (s_ctxs s).

  Lemma move_trace_inv a b : move rep res a b -> trace_inv a -> trace_inv b.
  Proof.
    unfold trace_inv. intros M H.
    destruct M;
      cbn [s_ctxs set_ctxs fail_ctx].
    1: { constructor; [|exact H]. split; cbn; auto. }
    all: rewrite E in H; inversion H as [|? ? [T Ph] Hr]; subst; try rewrite Eph in Ph.
    - exact Hr.
    - constructor; [split|]; assumption.
    - exact H.
    - constructor; [|exact Hr]. split; [split; [discriminate | exact T] | exact Ph].
    - constructor; [split|]; assumption.
    - constructor; [|exact Hr]. split; [split; [discriminate | exact T]|]. split; [reflexivity | apply Ph].
    - constructor; [split|]; assumption.
    - (* __init__: what the event needs of the older trace is what the phase Ending records *)
      constructor; [|exact Hr]. split; [split; [intros _; exact Ph | exact T] | exact Ph].
    - constructor; [|exact Hr]. split; [split; [discriminate | exact T] | exact I].
    - exact Hr.
  Qed.

  Theorem init_order d0 ops c :
    In c (s_ctxs (run (init d0) ops)) -> trace_ok (c_trace c).
  Proof.
    intro Hin. assert (H : trace_inv (run (init d0) ops)).
    { apply (run_moves rep res trace_inv move_trace_inv). constructor. }
    unfold trace_inv in H. rewrite Forall_forall in H. apply (H c Hin).
  Qed.

  (* the failing forms of the callbacks are the callback followed by an exception *)
  Lemma init_false_is_fail s c rest x cur :
    s_ctxs s = c :: rest -> c_phase c = Ending (x :: cur) ->
    step rep res s (Init false) = step rep res (step rep res s (Init true)) Fail.
  Proof. intros E P. unfold step. rewrite E, P. cbn [s_ctxs]. reflexivity. Qed.
End LogProofs.
