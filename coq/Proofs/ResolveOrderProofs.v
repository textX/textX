From Coq Require Import Sorting.Sorted Permutation.
From TxV Require Import Core.Base Gen.SrcResolve Model.Resolve Proofs.ResolveStepProofs.

(* C08: list attributes keep textual order.
   This file depends on exactly two facts of Gen/SrcResolve.v (read from textx/model.py):
     - list_store_by_position: a resolved list reference is inserted by its text position;
     - error_condition: the load fails whenever a reference is left unresolved (only for the
       "every reference is resolved" part of order_preserved).
   Everything is proved on qload of Model/Resolve.v for every sprovider, so also on load for every
   provider, for ANY value of the other facts (at which end Postponed references are re-queued or
   reported, what counts as progress, the loop condition). *)
Lemma fact_list_store : list_store_by_position = true. Proof. reflexivity. Qed.
Lemma fact_error : error_condition = (true, 0). Proof. reflexivity. Qed.

Lemma store_list_eq p t l : store_list p t l = insert_pos p t l.
Proof. unfold store_list. rewrite fact_list_store. reflexivity. Qed.

Lemma holds_unresolved u c : holds u c (true, 0) = Nat.ltb 0 u.
Proof. reflexivity. Qed.

(* the proofs below must not look at the other facts: keep their carriers folded *)
Opaque carry counted holds.

Section Order.
  Variable all : list xref.
  Hypothesis ids_unique : NoDup (map xid all).
  Definition inslot (s : nat) (x : xref) : bool := (Nat.eqb (xslot x) s && xmany x)%bool.
  Hypothesis slots_sorted : forall s, StronglySorted lt (map xpos (filter (inslot s) all)).

  Definition resolved (st : state) (x : xref) : bool := is_some (tgt st (xid x)).
  Definition val (st : state) (x : xref) : nat := match tgt st (xid x) with Some t => t | None => 0 end.
  Definition entry (st : state) (x : xref) : nat * nat := (xpos x, val st x).
  Definition expected (st : state) (s : nat) : list (nat * nat) :=
    map (entry st) (filter (fun x => (inslot s x && resolved st x)%bool) all).

  Definition listed (st : state) : Prop := forall s, lists st s = expected st s.

  Lemma insert_front p t l : (forall q v, In (q, v) l -> p < q) -> insert_pos p t l = (p, t) :: l.
  Proof.
    destruct l as [|[q v] l]; intro H; [reflexivity|]. cbn [insert_pos].
    assert (p < q) as Hpq by (apply (H q v); left; reflexivity).
    apply Nat.ltb_lt in Hpq. rewrite Hpq. reflexivity.
  Qed.

  (* [expected] sees the state only through the targets of the slot's own references *)
  Lemma same_tgt st st1 y :
    tgt st1 (xid y) = tgt st (xid y) -> resolved st1 y = resolved st y /\ entry st1 y = entry st y.
  Proof. unfold entry, val, resolved. intros ->. split; reflexivity. Qed.

  Lemma expected_ext st st1 s l :
    (forall z, In z l -> inslot s z = true -> tgt st1 (xid z) = tgt st (xid z)) ->
    map (entry st1) (filter (fun z => (inslot s z && resolved st1 z)%bool) l)
    = map (entry st) (filter (fun z => (inslot s z && resolved st z)%bool) l).
  Proof.
    clear. induction l as [|y l IH]; intro H; [reflexivity|]. cbn [filter].
    specialize (IH (fun z Hz => H z (or_intror Hz))).
    destruct (inslot s y) eqn:Ey; cbn [andb]; [|exact IH].
    destruct (same_tgt st st1 y (H y (or_introl eq_refl) Ey)) as [-> Ee].
    destruct (resolved st y); [|exact IH]. cbn [map]. rewrite Ee, IH. reflexivity.
  Qed.

  (* the heart of C08: inserting the newly resolved reference by position gives exactly the
     resolved references of the slot in textual order *)
  Lemma insert_expected st x t s :
    In x all -> tgt st (xid x) = None -> inslot s x = true ->
    insert_pos (xpos x) t (expected st s) = expected (store x t (bump x st)) s.
  Proof.
    intros Hx Hn Hs. unfold expected. set (st1 := store x t (bump x st)).
    assert (Hother : forall z, xid z <> xid x -> tgt st1 (xid z) = tgt st (xid z)).
    { intros z Hz. apply Nat.eqb_neq in Hz. cbn [st1 tgt store bump]. rewrite Hz. reflexivity. }
    assert (Hself : resolved st1 x = true /\ entry st1 x = (xpos x, t)).
    { unfold resolved, entry, val. cbn [st1 tgt store bump]. rewrite Nat.eqb_refl. split; reflexivity. }
    assert (Hwas : resolved st x = false) by (unfold resolved; rewrite Hn; reflexivity).
    clearbody st1.
    pose proof (slots_sorted s) as Hsort. pose proof ids_unique as ND.
    revert Hx Hsort ND. generalize all as l. induction l as [|y l IH]; intros Hx Hsort ND; [destruct Hx|].
    cbn [map] in ND. apply NoDup_cons_iff in ND as [Hny ND].
    assert (Hids : forall z, In z l -> xid z <> xid y).
    { intros z Hz E. apply Hny. rewrite <- E. apply in_map. exact Hz. }
    (* what the slot holds behind y lies to the right of y *)
    assert (Hafter : inslot s y = true -> forall z, In z l -> inslot s z = true -> xpos y < xpos z).
    { intros Ey z Hz Ez. cbn [filter] in Hsort. rewrite Ey in Hsort. cbn [map] in Hsort.
      apply StronglySorted_inv in Hsort as [_ Hall]. rewrite Forall_forall in Hall.
      apply Hall. apply in_map. apply filter_In. split; assumption. }
    assert (Hsort' : StronglySorted lt (map xpos (filter (inslot s) l))).
    { cbn [filter] in Hsort. destruct (inslot s y); [apply StronglySorted_inv in Hsort as [H _]; exact H | exact Hsort]. }
    cbn [filter]. destruct Hx as [->|Hx].
    - destruct Hself as [-> Ee]. rewrite Hs, Hwas. cbn [andb map]. rewrite Ee.
      rewrite (expected_ext st st1 s l) by (intros z Hz _; apply Hother, Hids, Hz).
      apply insert_front. intros q v Hq. apply in_map_iff in Hq as [z [Ez Hz]]. injection Ez as <- _.
      apply filter_In in Hz as [Hz Hp]. apply andb_true_iff in Hp as [Hp _]. exact (Hafter Hs z Hz Hp).
    - assert (Hyx : xid y <> xid x) by (intro E; exact (Hids x Hx (eq_sym E))).
      destruct (same_tgt st st1 y (Hother y Hyx)) as [-> Ee].
      destruct (inslot s y && resolved st y)%bool eqn:Hp; [|exact (IH Hx Hsort' ND)].
      apply andb_true_iff in Hp as [Ey _]. cbn [map]. rewrite Ee. unfold entry at 1. cbn [insert_pos].
      assert (Hnlt : Nat.ltb (xpos x) (xpos y) = false) by (apply Nat.ltb_ge, Nat.lt_le_incl, (Hafter Ey x Hx Hs)).
      rewrite Hnlt. f_equal. exact (IH Hx Hsort' ND).
  Qed.

  (* a reference of another slot (or a scalar) leaves the list untouched *)
  Lemma other_expected st x t s :
    In x all -> inslot s x = false -> expected st s = expected (store x t (bump x st)) s.
  Proof.
    intros Hx Hs. symmetry. apply expected_ext. intros z Hz Ez. cbn [tgt store bump].
    destruct (Nat.eqb_spec (xid z) (xid x)) as [E|]; [|reflexivity].
    rewrite (same_id_same_ref all ids_unique z x Hz Hx E), Hs in Ez. discriminate.
  Qed.

  Lemma listed_store st x t : In x all -> tgt st (xid x) = None -> listed st -> listed (store x t (bump x st)).
  Proof.
    intros Hx Hn L s. cbn [lists store bump]. rewrite L.
    destruct (Nat.eqb s (xslot x) && xmany x)%bool eqn:E.
    - rewrite store_list_eq. apply insert_expected; try assumption. unfold inslot. rewrite Nat.eqb_sym. exact E.
    - apply other_expected; [exact Hx|]. unfold inslot. rewrite Nat.eqb_sym. exact E.
  Qed.

  Lemma filter_init (l : list xref) s : filter (fun x => (inslot s x && resolved init x)%bool) l = [].
  Proof.
    clear. induction l as [|a l IHl]; [reflexivity|]. cbn [filter]. unfold resolved at 1. cbn [tgt init is_some].
    rewrite andb_false_r. exact IHl.
  Qed.

  Lemma listed_init : listed init.
  Proof. intro s. unfold expected. rewrite filter_init. reflexivity. Qed.

  (* whatever the provider answers, whatever it reads from the snapshot, and wherever Postponed
     references are put back: at each end of a load the lists are as expected, and after a
     successful one nothing is pending *)
  Lemma qloop_listed (ans : sprovider) : forall fuel models st s,
    NoDup (concat models) -> pending all st (concat models) -> listed st ->
    match qloop fuel ans models st s with
    | Ok st' => listed st' /\ (error_condition = (true, 0) -> pending all st' [])
    | Unresolvable lf st' => listed st'
    | _ => True
    end.
  Proof.
    induction fuel as [|f IH]; intros models st s ND HP HL; cbn [qloop]; [exact I|].
    destruct (qround ans models st s) as [[[[[st' pends] dels] c] s']|] eqn:E; [|exact I].
    (* [listed] looks neither at the call counters nor at the snapshot: bump and commit keep it as it is *)
    destruct (qround_inv all ids_unique ans (fun _ => listed) (fun _ _ _ H => H)
                (fun _ x t st0 Hx Hn _ => listed_store st0 x t Hx Hn) (fun _ _ _ H => H)
                _ _ _ _ _ _ _ _ E []) as [HP' [ND' [HL' P]]]; rewrite ?app_nil_r; try assumption.
    rewrite app_nil_r in HP', ND'.
    destruct (forallb (holds (total dels) c) loop_condition); [apply IH; assumption|].
    destruct (holds (total dels) c error_condition) eqn:Eh; [exact HL'|].
    split; [exact HL'|]. intro He. rewrite He, holds_unresolved in Eh. apply Nat.ltb_ge in Eh.
    unfold total in Eh. destruct (concat dels); [|cbn [length] in Eh; lia].
    apply Permutation_nil in P. rewrite <- P. exact HP'.
  Qed.
End Order.

(* the list attributes hold the targets of the references resolved so far, in textual order,
   whenever the load ends (successfully or with the Unresolvable error): needs only
   list_store_by_position *)
Theorem qorder_always : forall (ans : sprovider) models st,
  NoDup (map xid (concat models)) ->
  (forall s, StronglySorted lt (map xpos (filter (inslot s) (concat models)))) ->
  (qload ans models = Ok st \/ exists lf, qload ans models = Unresolvable lf st) ->
  forall s, lists st s = map (entry st) (filter (fun x => (inslot s x && resolved st x)%bool) (concat models)).
Proof.
  intros ans models st ND Hs H.
  pose proof (qloop_listed (concat models) ND Hs ans (S (total models)) models init (fun _ => false)
                (NoDup_map_inv _ _ ND) (pending_init _ models eq_refl) (listed_init _)) as L.
  unfold qload in H. destruct H as [H|[lf H]]; rewrite H in L; [exact (proj1 L) | exact L].
Qed.

Theorem order_always : forall ans models st,
  NoDup (map xid (concat models)) ->
  (forall s, StronglySorted lt (map xpos (filter (inslot s) (concat models)))) ->
  (load ans models = Ok st \/ exists lf, load ans models = Unresolvable lf st) ->
  forall s, lists st s = map (entry st) (filter (fun x => (inslot s x && resolved st x)%bool) (concat models)).
Proof. intros ans models st. rewrite load_qload. apply qorder_always. Qed.

(* For every provider (every postponement schedule) a successful load leaves in each list
   attribute exactly its references' targets, in the textual order of the references. *)
Theorem qorder_preserved : forall (ans : sprovider) models st,
  NoDup (map xid (concat models)) ->
  (forall s, StronglySorted lt (map xpos (filter (inslot s) (concat models)))) ->
  qload ans models = Ok st ->
  (forall x, In x (concat models) -> tgt st (xid x) <> None) /\
  (forall s, lists st s = map (entry st) (filter (inslot s) (concat models))).
Proof.
  intros ans models st ND Hs H.
  pose proof (qloop_listed (concat models) ND Hs ans (S (total models)) models init (fun _ => false)
                (NoDup_map_inv _ _ ND) (pending_init _ models eq_refl) (listed_init _)) as L.
  unfold qload in H. rewrite H in L. destruct L as [HL HP]. destruct (HP fact_error) as [_ Hnone].
  assert (Hall : forall x, In x (concat models) -> tgt st (xid x) <> None).
  { intros x Hx Hn. exact (Hnone x Hx Hn). }
  split; [exact Hall|].
  intro s. rewrite HL. unfold expected. f_equal. apply filter_ext_in. intros x Hx.
  unfold resolved. specialize (Hall x Hx). destruct (tgt st (xid x)); [apply andb_true_r | congruence].
Qed.

Theorem order_preserved : forall ans models st,
  NoDup (map xid (concat models)) ->
  (forall s, StronglySorted lt (map xpos (filter (inslot s) (concat models)))) ->
  load ans models = Ok st ->
  (forall x, In x (concat models) -> tgt st (xid x) <> None) /\
  (forall s, lists st s = map (entry st) (filter (inslot s) (concat models))).
Proof. intros ans models st. rewrite load_qload. apply qorder_preserved. Qed.

Transparent carry counted holds.
