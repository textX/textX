(* Proofs about the export model: the escape chain as a character-wise map, its safety inside quoted
   strings and record labels, truncation, and soundness of the abstract execution over templates. *)
From TxV Require Import Core.Base Model.ExportDefs Gen.SrcExport Model.Export.

Lemma run_app {S : Type} (step : S -> N -> option S) (st : S) (a b : list N) :
  run step st (a ++ b) = match run step st a with Some st' => run step st' b | None => None end.
Proof.
  revert st; induction a as [|c a IH]; intro st; cbn [run app]; [reflexivity|].
  destruct (step st c) as [st'|]; [apply IH | reflexivity].
Qed.

Lemma run_prefix {S : Type} (step : S -> N -> option S) (st : S) (a b : list N) (x : S) :
  run step st (a ++ b) = Some x -> exists y, run step st a = Some y.
Proof.
  rewrite run_app. destruct (run step st a) as [y|]; [intros _; exists y; reflexivity | discriminate].
Qed.

(* a state that every character of a class leaves alone is left alone by every text over that class *)
Lemma run_fixed {S : Type} (step : S -> N -> option S) (p : N -> bool) (st : S) (w : list N) :
  (forall c, p c = true -> step st c = Some st) -> forallb p w = true -> run step st w = Some st.
Proof.
  intros Hst. induction w as [|c w IH]; intro H; [reflexivity|].
  cbn [forallb] in H. apply andb_true_iff in H as [Hc Hw].
  cbn [run]. rewrite (Hst c Hc). apply IH, Hw.
Qed.

(* a machine whose states are mapped into another one that follows each of its steps *)
Lemma run_sim {S T : Type} (f : S -> T) (step : S -> N -> option S) (step' : T -> N -> option T) :
  (forall s c s', step s c = Some s' -> step' (f s) c = Some (f s')) ->
  forall u s s', run step s u = Some s' -> run step' (f s) u = Some (f s').
Proof.
  intros Hf. induction u as [|c u IH]; intros s s' H; cbn [run] in *.
  - injection H as <-. reflexivity.
  - destruct (step s c) as [s1|] eqn:E; [|discriminate]. rewrite (Hf s c s1 E). apply IH, H.
Qed.

Lemma qrun_run (e : bool) (s : list N) : qrun e s = run qstep e s.
Proof. revert e; induction s as [|c s IH]; intro e; cbn [qrun run]; [reflexivity|]. destruct (qstep e c); [apply IH | reflexivity]. Qed.

Lemma apply_chain_cons c r chain s :
  apply_chain ((c, r) :: chain) s = apply_chain chain (replace1 c r s).
Proof. reflexivity. Qed.

Lemma apply_chain_app chain a b :
  apply_chain chain (a ++ b) = apply_chain chain a ++ apply_chain chain b.
Proof.
  revert a b; induction chain as [|[c r] chain IH]; intros a b; [reflexivity|].
  rewrite !apply_chain_cons. unfold replace1. rewrite flat_map_app. apply IH.
Qed.

Lemma apply_chain_nil chain : apply_chain chain [] = [].
Proof. induction chain as [|[c r] chain IH]; [reflexivity|]. rewrite apply_chain_cons. exact IH. Qed.

Lemma apply_chain_flat chain s : apply_chain chain s = flat_map (esc1 chain) s.
Proof.
  induction s as [|x s IH]; [apply apply_chain_nil|].
  change (x :: s) with ([x] ++ s). rewrite apply_chain_app, IH. reflexivity.
Qed.

Lemma esc1_other chain x : ~ In x (map fst chain) -> esc1 chain x = [x].
Proof.
  unfold esc1. induction chain as [|[c r] chain IH]; intro Hn; [reflexivity|].
  rewrite apply_chain_cons. cbn [map fst In] in Hn.
  assert (Hc : N.eqb x c = false) by (apply N.eqb_neq; intro E; apply Hn; left; symmetry; exact E).
  unfold replace1. cbn [flat_map]. rewrite Hc. cbn [app].
  apply IH. intro Hin. apply Hn. right. exact Hin.
Qed.

(* The shape of the decidable checks on a chain: a property of the image of every character, evaluated on the
   characters the chain touches and on those for which the identity image would not have it. *)
Lemma esc1_all chain (p : list N -> bool) (special : list N) :
  forallb (fun x => p (esc1 chain x)) (special ++ map fst chain) = true ->
  (forall x, ~ In x special -> p [x] = true) -> forall x, p (esc1 chain x) = true.
Proof.
  intros Hs Ho x. rewrite forallb_forall in Hs.
  destruct (in_dec N.eq_dec x (special ++ map fst chain)) as [Hin|Hout]; [apply Hs, Hin|].
  rewrite esc1_other by (intro H; apply Hout, in_or_app; right; exact H).
  apply Ho. intro H. apply Hout, in_or_app. left. exact H.
Qed.

Lemma notin_eqb x c l : ~ In x l -> In c l -> N.eqb x c = false.
Proof. intros Hn Hc. apply N.eqb_neq. intros ->. exact (Hn Hc). Qed.

(* a machine that returns to st over the image of every character returns to st over the image of every text *)
Lemma run_apply_chain {S : Type} (step : S -> N -> option S) (st : S) chain :
  (forall x, run step st (esc1 chain x) = Some st) -> forall s, run step st (apply_chain chain s) = Some st.
Proof.
  intros Hx s. rewrite apply_chain_flat. induction s as [|x s IH]; [reflexivity|].
  cbn [flat_map]. rewrite run_app, Hx. exact IH.
Qed.

(* dot_repr over such a machine, when the opening quote and, from any state, the closing `...'` lead to st:
   the truncated text is a prefix of a text the machine gets through *)
Lemma run_dot_repr {S : Type} (step : S -> N -> option S) (st : S) :
  step st 39%N = Some st -> (forall y, run step y [46; 46; 46; 39]%N = Some st) ->
  (forall s, run step st (dot_escape s) = Some st) -> forall s, run step st (dot_repr_str s) = Some st.
Proof.
  intros Hq Hdots He s. unfold dot_repr_str.
  destruct (Nat.ltb repr_limit (length (dot_escape s))); cbn [app run]; rewrite Hq, run_app.
  - destruct (run_prefix step st (firstn repr_limit (dot_escape s)) (skipn repr_limit (dot_escape s)) st) as [y Hy].
    { rewrite firstn_skipn. apply He. }
    rewrite Hy. apply Hdots.
  - rewrite He. cbn [run]. rewrite Hq. reflexivity.
Qed.

Lemma opt_bool_eqb_eq a b : opt_bool_eqb a b = true -> a = b.
Proof.
  destruct a as [x|], b as [y|]; cbn; try discriminate; try reflexivity.
  intro H. apply Bool.eqb_prop in H. congruence.
Qed.

Lemma chain_safe_qrun chain :
  chain_safe chain = true -> forall s, qrun false (apply_chain chain s) = Some false.
Proof.
  intros Hs s. rewrite qrun_run. apply run_apply_chain. intro x. rewrite <- qrun_run. apply opt_bool_eqb_eq.
  apply (esc1_all chain (fun u => opt_bool_eqb (qrun false u) (Some false)) [c_quote; c_bslash] Hs).
  intros y Hy. cbn [qrun qstep]. rewrite (notin_eqb y c_quote _ Hy), (notin_eqb y c_bslash _ Hy) by (cbn; tauto). reflexivity.
Qed.

Lemma escape_chain_safe : chain_safe escape_chain = true.
Proof. vm_compute. reflexivity. Qed.

Lemma dot_escape_qrun s : qrun false (dot_escape s) = Some false.
Proof. apply chain_safe_qrun. exact escape_chain_safe. Qed.

Lemma qrun_tail_quote (y : bool) : y = false -> qrun y [39%N] = Some false.
Proof. intros ->. reflexivity. Qed.

Lemma dot_repr_qrun s : qrun false (dot_repr_str s) = Some false.
Proof.
  rewrite qrun_run. apply run_dot_repr; [reflexivity | intros []; reflexivity |].
  intro s0. rewrite <- qrun_run. apply dot_escape_qrun.
Qed.

Lemma qsplit_through (u : list N) : forall e e' t,
  qrun e u = Some e' ->
  qsplit e (u ++ t) = match qsplit e' t with Some (b, r) => Some (u ++ b, r) | None => None end.
Proof.
  induction u as [|c u IH]; intros e e' t H; cbn [qrun app qsplit] in *.
  - injection H as <-. destruct (qsplit e t) as [[b r]|]; reflexivity.
  - destruct (qstep e c) as [e1|]; [|discriminate].
    rewrite (IH e1 e' t H). destruct (qsplit e' t) as [[b r]|]; reflexivity.
Qed.

(* a text the in-string machine gets through without ending on a backslash, between quotes, is one string *)
Lemma quoted u rest : qrun false u = Some false ->
  lex_qstring ([c_quote] ++ u ++ [c_quote] ++ rest) = Some (u, rest).
Proof.
  intro H. cbn [app lex_qstring]. rewrite N.eqb_refl, (qsplit_through u false false _ H).
  cbn [qsplit qstep]. rewrite N.eqb_refl, app_nil_r. reflexivity.
Qed.

(* the in-string machine is the In/Esc part of the document machine *)
Definition dst (e : bool) : dstate := if e then DEsc else DIn.

Lemma qstep_dstep e c e' : qstep e c = Some e' -> dstep (dst e) c = Some (dst e').
Proof.
  destruct e; cbn [qstep dst dstep]; [intros [= <-]; reflexivity|].
  destruct (N.eqb c c_quote); [discriminate|]. intros [= <-]. destruct (N.eqb c c_bslash); reflexivity.
Qed.

Lemma in_string_drun u : qrun false u = Some false -> drun DIn u = Some DIn.
Proof. rewrite qrun_run. apply (run_sim dst qstep dstep qstep_dstep u false false). Qed.

Lemma digit_plain c : is_digit c = true -> plain_char c = true.
Proof. intro H. unfold plain_char, word_char. rewrite H. reflexivity. Qed.

Lemma word_plain c : word_char c = true -> plain_char c = true.
Proof. intro H. unfold plain_char. rewrite H. reflexivity. Qed.

Lemma forallb_impl {X : Type} (f g : X -> bool) (l : list X) :
  (forall x, f x = true -> g x = true) -> forallb f l = true -> forallb g l = true.
Proof.
  intros Hfg H. rewrite forallb_forall in *. intros x Hx. apply Hfg, H, Hx.
Qed.

Lemma plain_not (k : N) : plain_char k = false -> forall c, plain_char c = true -> N.eqb c k = false.
Proof.
  intros Hk c Hc. destruct (N.eqb_spec c k) as [->|]; [congruence | reflexivity].
Qed.

Lemma plain_of_kind k w :
  (k = HDigits \/ k = HIdent \/ k = HPlain) -> fills k w -> forallb plain_char w = true.
Proof.
  intros [E|[E|E]] H; subst k; cbn [fills] in H.
  - eapply forallb_impl; [apply digit_plain | exact H].
  - eapply forallb_impl; [apply word_plain | exact H].
  - exact H.
Qed.

(* What the hole functions of the four machines rest on: a state that plain characters leave alone is left alone
   by whatever fills a hole of a plain kind, and, if escaped texts lead back to it, a hole of an escaped kind. *)
Section Holes.
  Context {S : Type} (step : S -> N -> option S) (st : S).
  Hypothesis Hplain : forall c, plain_char c = true -> step st c = Some st.

  Lemma plain_hole k w : fills k w -> (k = HDigits \/ k = HIdent \/ k = HPlain) -> run step st w = Some st.
  Proof. intros Hf Hk. apply (run_fixed step plain_char st w Hplain (plain_of_kind k w Hk Hf)). Qed.

  Hypothesis Hesc : forall s, run step st (dot_escape s) = Some st.
  Hypothesis Hrepr : forall s, run step st (dot_repr_str s) = Some st.

  Lemma text_hole k w : fills k w -> (k = HEscaped \/ k = HPrim) -> run step st w = Some st.
  Proof.
    intros Hf Hk. revert Hf. destruct Hk as [->| ->]; cbn [fills]; [intros [s ->]; apply Hesc|].
    intros [[s ->]|Hp]; [apply Hrepr | apply (run_fixed step plain_char st w Hplain Hp)].
  Qed.
End Holes.

Section Sound.
  Context {S : Type} (eqb : S -> S -> bool) (step : S -> N -> option S) (hole : hkind -> S -> option S).
  Hypothesis eqb_eq : forall a b, eqb a b = true -> a = b.
  Hypothesis hole_sound : forall k a a' w, hole k a = Some a' -> fills k w -> run step a w = Some a'.

  Notation txr := (tx_run eqb step hole).

  Lemma txr_cat_cons t l a : txr (TCat (t :: l)) a = match txr t a with Some a1 => txr (TCat l) a1 | None => None end.
  Proof. reflexivity. Qed.

  Lemma txr_alt_more t t2 l a :
    txr (TAlt (t :: t2 :: l)) a =
    match txr t a, txr (TAlt (t2 :: l)) a with
    | Some x, Some y => if eqb x y then Some x else None
    | _, _ => None
    end.
  Proof. reflexivity. Qed.

  Lemma txr_star t a : txr (TStar t) a = match txr t a with Some a1 => if eqb a1 a then Some a else None | None => None end.
  Proof. reflexivity. Qed.

  Theorem tx_run_sound t w : gen t w -> forall a a', txr t a = Some a' -> run step a w = Some a'.
  Proof.
    induction 1 as [s | k w Hf | | t l w1 w2 H1 IH1 H2 IH2 | t l w H1 IH1 | t l w H1 IH1 | t | t w1 w2 H1 IH1 H2 IH2];
      intros a a' Hr.
    - exact Hr.
    - apply (hole_sound k a a' w Hr Hf).
    - exact Hr.
    - rewrite txr_cat_cons in Hr. destruct (txr t a) as [a1|] eqn:E; [|discriminate].
      rewrite run_app, (IH1 a a1 E). apply IH2, Hr.
    - destruct l as [|t2 l]; [apply IH1, Hr|].
      rewrite txr_alt_more in Hr. destruct (txr t a) as [x|] eqn:E; [|discriminate].
      destruct (txr (TAlt (t2 :: l)) a) as [y|]; [|discriminate].
      destruct (eqb x y); [|discriminate]. injection Hr as <-. apply IH1, E.
    - destruct l as [|t2 l]; [inversion H1|].
      rewrite txr_alt_more in Hr. destruct (txr t a) as [x|]; [|discriminate].
      destruct (txr (TAlt (t2 :: l)) a) as [y|] eqn:E; [|discriminate].
      destruct (eqb x y) eqn:Exy; [|discriminate]. injection Hr as <-.
      apply eqb_eq in Exy. subst y. apply IH1, E.
    - rewrite txr_star in Hr. destruct (txr t a) as [a1|]; [|discriminate].
      destruct (eqb a1 a); [|discriminate]. exact Hr.
    - (* one more turn of a loop that returns to its start state *)
      pose proof Hr as Hr0. rewrite txr_star in Hr. destruct (txr t a) as [a1|] eqn:E; [|discriminate].
      destruct (eqb a1 a) eqn:Ea; [|discriminate]. injection Hr as <-. apply eqb_eq in Ea. subst a1.
      rewrite run_app, (IH1 a a E). apply IH2, Hr0.
  Qed.
End Sound.

Lemma dstate_eqb_eq a b : dstate_eqb a b = true -> a = b.
Proof.
  destruct a, b; cbn; try discriminate; try reflexivity.
  intro H. apply Nat.eqb_eq in H. congruence.
Qed.

Lemma dstep_plain st c : st <> DEsc -> plain_char c = true -> dstep st c = Some st.
Proof.
  intros Hst Hc.
  assert (H34 := plain_not 34 eq_refl c Hc). assert (H60 := plain_not 60 eq_refl c Hc).
  assert (H47 := plain_not 47 eq_refl c Hc). assert (H35 := plain_not 35 eq_refl c Hc).
  assert (H92 := plain_not 92 eq_refl c Hc). assert (H62 := plain_not 62 eq_refl c Hc).
  destruct st; [| |contradiction|]; cbn [dstep]; unfold c_quote, c_bslash;
    rewrite ?H34, ?H60, ?H47, ?H35, ?H92, ?H62; reflexivity.
Qed.

Definition no_angle (c : N) : bool := negb (N.eqb c 60) && negb (N.eqb c 62).

Lemma dstep_html n c : no_angle c = true -> dstep (DHtml n) c = Some (DHtml n).
Proof.
  intro H. apply andb_true_iff in H as [H1 H2]. apply negb_true_iff in H1, H2.
  cbn [dstep]. rewrite H1, H2. reflexivity.
Qed.

Lemma dhole_sound k a a' w : dhole k a = Some a' -> fills k w -> run dstep a w = Some a'.
Proof.
  intros Hh Hf. destruct k; cbn [dhole] in Hh.
  1-3: destruct a; try discriminate; injection Hh as <-;
       (eapply plain_hole; [intro c; apply dstep_plain; discriminate | exact Hf | auto]).
  1-2: destruct a; try discriminate; injection Hh as <-;
       (eapply text_hole; [intro c; apply dstep_plain; discriminate | intro s; apply in_string_drun, dot_escape_qrun
                          | intro s; apply in_string_drun, dot_repr_qrun | exact Hf | auto]).
  - destruct a as [| | |n]; try discriminate. injection Hh as <-. apply (run_fixed dstep no_angle _ w (dstep_html n) Hf).
  - destruct a; discriminate.
Qed.

Theorem doc_quotes_sound t :
  doc_quotes_ok t = true -> forall w, gen t w -> drun DOut w = Some DOut.
Proof.
  unfold doc_quotes_ok. intros H w Hg.
  destruct (tx_run dstate_eqb dstep dhole t DOut) as [[]|] eqn:E; try discriminate.
  exact (tx_run_sound dstate_eqb dstep dhole dstate_eqb_eq dhole_sound t w Hg _ _ E).
Qed.

Lemma rstate_eqb_eq a b : rstate_eqb a b = true -> a = b.
Proof. destruct a, b; cbn; try discriminate; reflexivity. Qed.

Lemma opt_rstate_eqb_eq a b : opt_rstate_eqb a b = true -> a = b.
Proof.
  destruct a as [x|], b as [y|]; cbn; try discriminate; try reflexivity.
  intro H. apply rstate_eqb_eq in H. congruence.
Qed.

Lemma not_in_ctrl x : ~ In x ctrl_chars -> is_ctrl x = false.
Proof.
  intro H. unfold is_ctrl. rewrite !(notin_eqb x _ _ H) by (cbn; tauto). reflexivity.
Qed.

Lemma chain_rsafe_rrun chain :
  chain_rsafe chain = true -> forall s, rrun RNorm (apply_chain chain s) = Some RNorm.
Proof.
  intros Hs. apply run_apply_chain. intro x. apply opt_rstate_eqb_eq.
  apply (esc1_all chain (fun u => opt_rstate_eqb (rrun RNorm u) (Some RNorm)) (c_bslash :: ctrl_chars) Hs).
  intros y Hy. unfold rrun. cbn [run rstep].
  rewrite (not_in_ctrl y) by (intro H; apply Hy; right; exact H).
  rewrite (notin_eqb y c_bslash _ Hy) by (left; reflexivity). reflexivity.
Qed.

Lemma escape_chain_rsafe : chain_rsafe escape_chain = true.
Proof. vm_compute. reflexivity. Qed.

Lemma dot_escape_rrun s : rrun RNorm (dot_escape s) = Some RNorm.
Proof. apply chain_rsafe_rrun. exact escape_chain_rsafe. Qed.

Lemma dot_repr_rrun s : rrun RNorm (dot_repr_str s) = Some RNorm.
Proof. apply run_dot_repr; [reflexivity | intros []; reflexivity | exact dot_escape_rrun]. Qed.

(* the text machine of a record label is the inside of the label machine *)
Lemma rstep_lstep r c r' : rstep r c = Some r' -> lstep (LIn r) c = Some (LIn r').
Proof.
  destruct r; cbn [rstep lstep]; [|intros [= <-]; reflexivity].
  unfold is_ctrl. destruct (N.eqb c 123); [discriminate|]. destruct (N.eqb c 125); [discriminate|].
  destruct (N.eqb c 124); [discriminate|]. destruct (N.eqb c 60); [discriminate|]. destruct (N.eqb c 62); [discriminate|].
  cbn [orb]. destruct (N.eqb c c_bslash); intros [= <-]; reflexivity.
Qed.

Lemma in_label_lrun u : rrun RNorm u = Some RNorm -> lrun (LIn RNorm) u = Some (LIn RNorm).
Proof. apply (run_sim LIn rstep lstep rstep_lstep u RNorm RNorm). Qed.

Lemma lstep_plain c : plain_char c = true -> lstep (LIn RNorm) c = Some (LIn RNorm).
Proof.
  intro Hc.
  assert (H123 := plain_not 123 eq_refl c Hc). assert (H125 := plain_not 125 eq_refl c Hc).
  assert (H124 := plain_not 124 eq_refl c Hc). assert (H60 := plain_not 60 eq_refl c Hc).
  assert (H62 := plain_not 62 eq_refl c Hc). assert (H92 := plain_not 92 eq_refl c Hc).
  cbn [lstep]. unfold c_bslash. rewrite H123, H125, H124, H60, H62, H92. reflexivity.
Qed.

Lemma lstate_eqb_eq a b : lstate_eqb a b = true -> a = b.
Proof.
  destruct a as [|x|], b as [|y|]; cbn; try discriminate; try reflexivity.
  intro H. apply rstate_eqb_eq in H. congruence.
Qed.

Lemma lhole_sound k a a' w : lhole k a = Some a' -> fills k w -> run lstep a w = Some a'.
Proof.
  intros Hh Hf. destruct k, a as [|[|]|]; try discriminate; injection Hh as <-.
  1-3: eapply plain_hole; [exact lstep_plain | exact Hf | auto].
  all: eapply text_hole; [exact lstep_plain | intro s; apply in_label_lrun, dot_escape_rrun
                         | intro s; apply in_label_lrun, dot_repr_rrun | exact Hf | auto].
Qed.

Theorem label_sound t : label_ok t = true -> forall w, gen t w -> lrun LStart w = Some LDone.
Proof.
  unfold label_ok. intros H w Hg.
  destruct (tx_run lstate_eqb lstep lhole t LStart) as [[]|] eqn:E; try discriminate.
  exact (tx_run_sound lstate_eqb lstep lhole lstate_eqb_eq lhole_sound t w Hg _ _ E).
Qed.

Lemma labels_sound (ls : list tx) : forallb label_ok ls = true ->
  forall t w, In t ls -> gen t w -> lrun LStart w = Some LDone.
Proof.
  intros H t w Hin Hg. rewrite forallb_forall in H. apply (label_sound t (H t Hin) w Hg).
Qed.

Lemma bstep_plain d c : plain_char c = true -> bstep d c = Some d.
Proof.
  intro Hc. assert (H123 := plain_not 123 eq_refl c Hc). assert (H125 := plain_not 125 eq_refl c Hc).
  unfold bstep. rewrite H123, H125. reflexivity.
Qed.

Lemma bhole_sound k a a' w : bhole k a = Some a' -> fills k w -> run bstep a w = Some a'.
Proof.
  intros Hh Hf. destruct k; cbn [bhole] in Hh; try discriminate; injection Hh as <-;
    (eapply plain_hole; [exact (bstep_plain a) | exact Hf | auto]).
Qed.

Theorem braces_sound t : braces_ok t = true -> forall w, gen t w -> brun false w = Some false.
Proof.
  unfold braces_ok. intros H w Hg.
  destruct (tx_run Bool.eqb bstep bhole t false) as [[]|] eqn:E; try discriminate.
  exact (tx_run_sound Bool.eqb bstep bhole Bool.eqb_prop bhole_sound t w Hg _ _ E).
Qed.

Lemma gstate_eqb_eq a b : gstate_eqb a b = true -> a = b.
Proof.
  destruct a as [[l1 d1] [a1 c1]], b as [[l2 d2] [a2 c2]]. cbn [gstate_eqb].
  intro H. apply andb_true_iff in H as [H Hc]. apply andb_true_iff in H as [H Ha]. apply andb_true_iff in H as [Hl Hd].
  apply dstate_eqb_eq in Hl. apply Nat.eqb_eq in Hd. apply Bool.eqb_prop in Ha, Hc. congruence.
Qed.

(* inside a string or an HTML string the block machine is the document machine *)
Lemma gstep_inside lx d ac c lx' : lx <> DOut -> dstep lx c = Some lx' -> gstep (lx, d, ac) c = Some (lx', d, ac).
Proof.
  intros Hlx H. destruct ac as [a cl]. destruct lx; [contradiction| | |]; cbn [gstep]; rewrite H; destruct lx'; reflexivity.
Qed.

Lemma in_string_grun d ac u : qrun false u = Some false -> grun (DIn, d, ac) u = Some (DIn, d, ac).
Proof.
  rewrite qrun_run. apply (run_sim (fun e => (dst e, d, ac)) qstep gstep).
  intros e c e' H. apply gstep_inside; [destruct e; discriminate | apply qstep_dstep, H].
Qed.

Lemma gstep_plain_out d a c : plain_char c = true -> gstep (DOut, d, (a, false)) c = Some (DOut, d, (a, false)).
Proof.
  intro Hc.
  assert (H34 := plain_not 34 eq_refl c Hc). assert (H60 := plain_not 60 eq_refl c Hc).
  assert (H47 := plain_not 47 eq_refl c Hc). assert (H35 := plain_not 35 eq_refl c Hc).
  assert (H123 := plain_not 123 eq_refl c Hc). assert (H125 := plain_not 125 eq_refl c Hc).
  assert (H91 := plain_not 91 eq_refl c Hc). assert (H93 := plain_not 93 eq_refl c Hc).
  cbn [gstep]. unfold c_quote. rewrite H34, H60, H47, H35, H123, H125, H91, H93. reflexivity.
Qed.

Lemma gstep_plain_inside lx d ac c : lx = DIn \/ (exists n, lx = DHtml n) -> plain_char c = true -> gstep (lx, d, ac) c = Some (lx, d, ac).
Proof.
  intros Hlx Hc. apply gstep_inside; [|apply dstep_plain; [|exact Hc]]; destruct Hlx as [->|[n ->]]; discriminate.
Qed.

Lemma ghole_sound k a a' w : ghole k a = Some a' -> fills k w -> run gstep a w = Some a'.
Proof.
  intros Hh Hf. destruct a as [[lx d] [at_ cl]].
  destruct k; cbn [ghole] in Hh.
  1-3: destruct lx as [| | |n]; [destruct cl| | |]; try discriminate; injection Hh as <-;
       (eapply plain_hole; [intro c; first [apply gstep_plain_out | apply gstep_plain_inside; eauto] | exact Hf | auto]).
  1-2: destruct lx; try discriminate; injection Hh as <-;
       (eapply text_hole; [intro c; apply gstep_plain_inside; auto | intro s; apply in_string_grun, dot_escape_qrun
                          | intro s; apply in_string_grun, dot_repr_qrun | exact Hf | auto]).
  - destruct lx as [| | |n]; try discriminate. injection Hh as <-. apply (run_fixed gstep no_angle _ w); [|exact Hf].
    intros c Hc. apply gstep_inside; [discriminate | apply dstep_html, Hc].
  - destruct lx; discriminate.
Qed.

Theorem doc_blocks_sound t :
  doc_blocks_ok t = true -> forall w, gen t w -> grun g_start w = Some g_final.
Proof.
  unfold doc_blocks_ok. intros H w Hg.
  destruct (tx_run gstate_eqb gstep ghole t g_start) as [a'|] eqn:E; [|discriminate].
  apply gstate_eqb_eq in H. subst a'.
  exact (tx_run_sound gstate_eqb gstep ghole gstate_eqb_eq ghole_sound t w Hg _ _ E).
Qed.
