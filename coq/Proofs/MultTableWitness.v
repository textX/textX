(* C02 — witness for the table-level end-to-end theorem: `Model: (a=INT | b=INT) a+=INT[','];` on `1 2 , 3`
   (dumped by tools/pegdump.py + tools/mmdump.py; the oracle never matches the empty string). *)
From Coq Require Import Lia.
From TxV Require Import Core.Base Model.PegSyntax Model.Peg.
From TxV Require Model.Spec.

Definition wit2_g : grammar :=
  (mkGrammar [mkNode KSeq [1;8] None false [77;111;100;101;108]%N true false None None;
  mkNode KSeq [2;6] None false [77;111;100;101;108]%N true false None None;
  mkNode KChoice [3;5] None false []%N false false None None;
  mkNode KSeq [4] None false [95;95;97;115;103;110;95;112;108;97;105;110]%N true false None None;
  mkNode (KRegex 0) [] None false [73;78;84]%N true false None None;
  mkNode KSeq [4] None false [95;95;97;115;103;110;95;112;108;97;105;110]%N true false None None;
  mkNode KPlus [4] (Some 7) false [95;95;97;115;103;110;95;111;110;101;111;114;109;111;114;101]%N true false None None;
  mkNode (KStr [44]%N None) [] None false [115;101;112]%N false false None None;
  mkNode KEOF [] None false [69;79;70]%N false false None None] 0 None).
Definition wit2_tbl := [((0,0),1);((0,2),1);((0,6),1)].

Lemma wit2_orc_pos : Spec.orc_pos (orc_of wit2_tbl).
Proof.
  intros o p n E. unfold orc_of, wit2_tbl in E.
  repeat match type of E with (if ?b then _ else _) = _ => destruct b end; try discriminate; inversion E; lia.
Qed.

