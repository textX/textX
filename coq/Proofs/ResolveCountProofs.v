From TxV Require Import Core.Base Gen.SrcResolve Model.Resolve Proofs.ResolveStepProofs.

(* C09: every resolution is counted as progress.
   Depends on exactly the two counting facts of Gen/SrcResolve.v (resolved_crossref_count is
   incremented for a resolved list reference AND for a resolved scalar reference); holds wherever
   Postponed references are re-queued or reported. *)
Lemma tfact_count_list : counts_list_resolution = true. Proof. reflexivity. Qed.
Lemma tfact_count_scalar : counts_scalar_resolution = true. Proof. reflexivity. Qed.

Lemma counted_is_one x : counted x = 1.
Proof. unfold counted. rewrite tfact_count_list, tfact_count_scalar. destruct (xmany x); reflexivity. Qed.

Opaque carry counted.

(* the progress count of one pass is exactly the number of references that left the pending list;
   the delayed list (what the loop counts as unresolved and what the error names) is as long as
   the new pending list *)
Theorem progress_counted_exact ans : forall pend st st' np d c,
  step ans pend st = Some (st', np, d, c) -> length np + c = length pend /\ length d = length np.
Proof.
  intros pend st st' np d c H. apply step_runs in H.
  induction H as [st | x t r st st' np d c _ _ [L1 L2] | x r st st' np d c _ _ [L1 L2]]; cbn [length].
  - split; reflexivity.
  - rewrite counted_is_one. split; [lia | exact L2].
  - rewrite !carry_length. split; [lia | rewrite L2; reflexivity].
Qed.

Transparent carry counted.
