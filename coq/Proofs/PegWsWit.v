(* C22 - concrete witnesses (parser models dumped by tools/pegdump.py from the live textX). *)
From TxV Require Import Core.Base Model.PegSyntax Model.Peg.

Definition c_default : config := mkConfig true [9;10;13;32]%N.
Definition no_orc : nat -> nat -> option nat := fun _ _ => None.

(* Model: 'a' 'b'+;    "a b" -> "a  b" (non-vacuity of the invariance theorem) *)
Definition g_plain : grammar := (mkGrammar [mkNode KSeq [1;5] None false [77;111;100;101;108]%N true false None None;
  mkNode KSeq [2;3] None false [77;111;100;101;108]%N true false None None;
  mkNode (KStr [97]%N None) [] None false []%N false false None None;
  mkNode KPlus [4] None false []%N false false None None;
  mkNode (KStr [98]%N None) [] None false []%N false false None None;
  mkNode KEOF [] None false [69;79;70]%N false false None None] 0 None).

(* Model: !A 'a' 'b'; A[noskipws]: 'a' ' ' ' ';     "a b" accepted, "a  b" rejected:
   outside ins_wf (a rule switches skipping off) the invariance fails although the space is
   inserted into a gap that the accepting parse skipped. *)
Definition g_mixed : grammar := (mkGrammar [mkNode KSeq [1;9] None false [77;111;100;101;108]%N true false None None;
  mkNode KSeq [2;7;8] None false [77;111;100;101;108]%N true false None None;
  mkNode KNot [3] None false []%N false false None None;
  mkNode KSeq [4;5;6] None false [65]%N true false None (Some false);
  mkNode (KStr [97]%N None) [] None false []%N false false None None;
  mkNode (KStr [32]%N None) [] None false []%N false false None None;
  mkNode (KStr [32]%N None) [] None false []%N false false None None;
  mkNode (KStr [97]%N None) [] None false []%N false false None None;
  mkNode (KStr [98]%N None) [] None false []%N false false None None;
  mkNode KEOF [] None false [69;79;70]%N false false None None] 0 None).

(* Model: a=FLOAT b=ID | a=INT '.5' b=ID;    "1.5x" vs "1.5 x": both accepted, different trees.
   The grammar is in ins_wf; the shifted-oracle hypothesis fails (FLOAT matches at 0 only after
   the insertion): inserting into an EMPTY gap re-tokenises. *)
Definition g_adj : grammar := (mkGrammar [mkNode KSeq [1;12] None false [77;111;100;101;108]%N true false None None;
  mkNode KChoice [2;7] None false [77;111;100;101;108]%N true false None None;
  mkNode KSeq [3;5] None false []%N false false None None;
  mkNode KSeq [4] None false [95;95;97;115;103;110;95;112;108;97;105;110]%N true false None None;
  mkNode (KRegex 0) [] None false [70;76;79;65;84]%N true false None None;
  mkNode KSeq [6] None false [95;95;97;115;103;110;95;112;108;97;105;110]%N true false None None;
  mkNode (KRegex 1) [] None false [73;68]%N true false None None;
  mkNode KSeq [8;10;11] None false []%N false false None None;
  mkNode KSeq [9] None false [95;95;97;115;103;110;95;112;108;97;105;110]%N true false None None;
  mkNode (KRegex 2) [] None false [73;78;84]%N true false None None;
  mkNode (KStr [46;53]%N None) [] None false []%N false false None None;
  mkNode KSeq [6] None false [95;95;97;115;103;110;95;112;108;97;105;110]%N true false None None;
  mkNode KEOF [] None false [69;79;70]%N false false None None] 0 None).
Definition adj_orc := orc_of [((1,3),1);((2,0),1);((2,2),1)].
Definition adj_orc' := orc_of [((0,0),3);((0,1),2);((0,2),1);((1,4),1);((2,0),1);((2,2),1)].

(* Model: 'a' 'b'+; Comment: /\/\/.*?$/;     "a b" -> "a // i\n b"  (a="a", w1=" ", c="// i", w2="\n", b=" b") *)
Definition g_cmt1 : grammar := (mkGrammar [mkNode KSeq [1;5] None false [77;111;100;101;108]%N true false None None;
  mkNode KSeq [2;3] None false [77;111;100;101;108]%N true false None None;
  mkNode (KStr [97]%N None) [] None false []%N false false None None;
  mkNode KPlus [4] None false []%N false false None None;
  mkNode (KStr [98]%N None) [] None false []%N false false None None;
  mkNode KEOF [] None false [69;79;70]%N false false None None;
  mkNode (KRegex 0) [] None false [67;111;109;109;101;110;116]%N true false None None] 0 (Some 6)).
Definition cmt1_orc := orc_of (@nil ((nat * nat) * nat)).
Definition cmt1_orc' := orc_of [((0,2),4)].

(* Model: 'a' b=B c=ID; B[ws=' ']: 'x' 'y'+; Comment: /\/\*(.|\n)*?\*\//;
   "a x y\n foo" accepted, "a x y/* i */\n foo" rejected: the end of the comment is recorded in
   comment_positions under ws=' ' (newline not skipped) and reused under the default set.  The Comment
   rule is a single regex and the inserted text is an exact Comment match: only the mode-constancy
   condition of cmt_wf fails. *)
Definition g_cmt2 : grammar := (mkGrammar [mkNode KSeq [1;10] None false [77;111;100;101;108]%N true false None None;
  mkNode KSeq [2;3;8] None false [77;111;100;101;108]%N true false None None;
  mkNode (KStr [97]%N None) [] None false []%N false false None None;
  mkNode KSeq [4] None false [95;95;97;115;103;110;95;112;108;97;105;110]%N true false None None;
  mkNode KSeq [5;6] None false [66]%N true false (Some [32]%N) None;
  mkNode (KStr [120]%N None) [] None false []%N false false None None;
  mkNode KPlus [7] None false []%N false false None None;
  mkNode (KStr [121]%N None) [] None false []%N false false None None;
  mkNode KSeq [9] None false [95;95;97;115;103;110;95;112;108;97;105;110]%N true false None None;
  mkNode (KRegex 0) [] None false [73;68]%N true false None None;
  mkNode KEOF [] None false [69;79;70]%N false false None None;
  mkNode (KRegex 1) [] None false [67;111;109;109;101;110;116]%N true false None None] 0 (Some 11)).
Definition cmt2_orc := orc_of [((0,0),1);((0,2),1);((0,4),1);((0,7),3);((0,8),2);((0,9),1)].
Definition cmt2_orc' := orc_of [((0,0),1);((0,2),1);((0,4),1);((0,8),1);((0,14),3);((0,15),2);((0,16),1);((1,5),7)].

