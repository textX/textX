(* During a load the user class's own accessor methods are still what acts on every object that
   is not under construction; objects under construction use the per-object storage. *)
From TxV Require Import Core.Base Model.UserCls Proofs.UserClsProofs.

Section Access.
  Variable rep res : list (list N).
  Hypothesis rep_nodup : NoDup rep.
  Hypothesis rep_in_res : forall a, In a rep -> In a res.
  Variable d0 : list N -> slot.
  (* before loading the class has nothing of textX in its __dict__ *)
  Hypothesis d0_own : forall a, d0 a <> TxFn.

  Lemma reach_meth ops : meth_inv rep d0 (s_cls (run rep res (init d0) ops)).
  Proof. apply (reach_inv rep res rep_nodup rep_in_res d0 ops). Qed.

  (* one accessor name that the replacement covers *)
  Lemma slot_cases ops a :
    In a rep ->
    let k := s_cls (run rep res (init d0) ops) in
    (k_count k = 0 /\ k_dict k a = d0 a) \/
    (k_count k <> 0 /\ k_dict k a = TxFn /\ k_saved k a = Some (d0 a)).
  Proof.
    intros Ha k. destruct (reach_meth ops) as [M0 M1]. fold k in M0, M1.
    apply mem_str_In in Ha.
    destruct (Nat.eq_dec (k_count k) 0) as [E|E].
    - left. split; [exact E | apply (M0 E a)].
    - right. destruct (M1 E a) as [Hd Hs]. rewrite Ha in Hd, Hs. split; [exact E|]. split; assumption.
  Qed.

  Lemma of_slot_own a : match d0 a with TxFn => ToBase | s => of_slot s end = of_slot (d0 a).
  Proof. destruct (d0 a); reflexivity. Qed.

  (* what the replacement function of a covered accessor falls back to is what the class had *)
  Lemma own_slot ops a :
    In a rep ->
    let k := s_cls (run rep res (init d0) ops) in
    match k_dict k a with TxFn => of_saved (k_saved k a) | s => of_slot s end = of_slot (d0 a).
  Proof.
    intros Ha k. destruct (slot_cases ops a Ha) as [[_ E]|[_ [E1 E2]]]; fold k in E || fold k in E1, E2.
    - rewrite E. pose proof (d0_own a). destruct (d0 a); try reflexivity. congruence.
    - rewrite E1, E2. reflexivity.
  Qed.

  (* objects that are not under construction: initialised ones, objects of earlier or nested
     loads, anything else of the class *)
  Theorem own_accessors_act ops x hit :
    In n_setattr rep -> In n_getattribute rep -> In n_delattr rep ->
    let k := s_cls (run rep res (init d0) ops) in
    stored k x = false ->
    acting_set k x = of_slot (d0 n_setattr) /\
    acting_get k x hit = of_slot (d0 n_getattribute) /\
    acting_del k x hit = of_slot (d0 n_delattr).
  Proof.
    intros Hs Hg Hd k Hst. unfold acting_set, acting_get, acting_del. rewrite Hst.
    exact (conj (own_slot ops _ Hs) (conj (own_slot ops _ Hg) (own_slot ops _ Hd))).
  Qed.

  (* objects under construction while the class is instrumented: the storage *)
  Theorem storage_acts ops x :
    In n_setattr rep -> In n_getattribute rep -> In n_delattr rep ->
    let k := s_cls (run rep res (init d0) ops) in
    stored k x = true -> k_count k <> 0 ->
    acting_set k x = ToStorage /\ acting_get k x true = ToStorage /\ acting_del k x true = ToStorage /\
    acting_get k x false = ToBase.
  Proof.
    intros Hs Hg Hd k Hst Hc. unfold acting_set, acting_get, acting_del. rewrite Hst.
    assert (T : forall a, In a rep -> k_dict k a = TxFn).
    { intros a Ha. destruct (slot_cases ops a Ha) as [[E _]|[_ [E _]]]; [contradiction | exact E]. }
    rewrite (T _ Hs), (T _ Hg), (T _ Hd). repeat split; reflexivity.
  Qed.

  (* methods the replacement does not cover are never touched *)
  Theorem other_methods_untouched ops a :
    ~ In a rep -> k_dict (s_cls (run rep res (init d0) ops)) a = d0 a.
  Proof.
    intro Hn. destruct (reach_meth ops) as [M0 M1].
    destruct (Nat.eq_dec (k_count (s_cls (run rep res (init d0) ops))) 0) as [E|E].
    - apply (M0 E a).
    - destruct (M1 E a) as [Hd _]. rewrite (proj2 (mem_str_false _ _) Hn) in Hd. exact Hd.
  Qed.
End Access.
